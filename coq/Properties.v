(* Properties.v — ONLY the property theorems: the statement, closed by [exact] of the lemma
   proved in proofs/, nothing else.  tools/lib.py runs Print Assumptions on every theorem
   named Cxx_* and counts them as the proof obligations of property Cxx. *)
From Coq Require Import List Ascii String ZArith Bool Permutation.
From Model Require Import Bytes Glob StaticRoute Spec Run.
From Model.proofs Require C18.
Import ListNotations.

(* ------------------------------------------------------------------ C18 *)
(* the executable matcher decides "'*' = any sequence, every other character = itself" *)
Theorem C18_glob_correct : forall p s, glob p s = true <-> Glob p s.
Proof. exact C18.glob_correct. Qed.

(* fixed precedence: literal entry, else a matching wildcard entry, else default, else none —
   for every table and every host *)
Theorem C18_precedence : forall t host,
  match find_route t host with
  | Some it =>
      alookup host t = Some it
      \/ (alookup host t = None /\ exists d, In (d, it) t /\ Glob d host)
      \/ (alookup host t = None /\ (forall d it', In (d, it') t -> ~ Glob d host)
          /\ alookup (s2b "default") t = Some it)
  | None => alookup host t = None /\ (forall d it', In (d, it') t -> ~ Glob d host)
            /\ alookup (s2b "default") t = None
  end.
Proof. exact C18.find_route_spec. Qed.

(* the same, against the independent judge of Spec.v that reads the configuration itself
   (later entry for a dest replaces the earlier; invalid next hops are skipped) *)
Theorem C18_judged : forall cfg host,
  judge_C18 cfg host [option_map C18.ans_of (find_route (build_table cfg) host)] = true.
Proof. exact C18.find_route_judged. Qed.

(* stable answer: the result does not depend on the order in which the runtime enumerates
   the Go map [m]; and the list model used everywhere else is that Go-shaped function *)
Theorem C18_stable : forall cfg m host,
  Permutation (build_table cfg) m ->
  find_route_go m (map fst (build_table cfg)) host = find_route (build_table cfg) host.
Proof. exact C18.find_route_go_build_table. Qed.

(* the pre-fix map-order scan was not stable (computed witness) *)
Theorem C18_legacy_unstable_refuted :
  exists t o1 o2 host, Permutation o1 t /\ Permutation o2 t /\
     find_route_legacy o1 t host <> find_route_legacy o2 t host.
Proof. exact C18.find_route_legacy_unstable. Qed.

(* host:port yields that port; no port yields 5060, or 5061 for tls in any letter case *)
Theorem C18_port_default : forall proto dest h, ~ In ":"%char h ->
  new_pre_route_item proto dest h =
    Some {| ri_proto := proto; ri_dest := dest; ri_host := h;
            ri_port := if equal_fold (s2b "tls") proto then 5061 else 5060 |}.
Proof. exact C18.nexthop_no_port. Qed.
Theorem C18_port_explicit : forall proto dest h p, (0 <= p <= int_max)%Z ->
  new_pre_route_item proto dest (h ++ ":"%char :: itoa p) =
    Some {| ri_proto := proto; ri_dest := dest; ri_host := h; ri_port := p |}.
Proof. exact C18.nexthop_with_port. Qed.

(* ------------------------------------------------------------------ C05 *)
From Model Require Import RoundRobin SpecC05.
From Model.proofs Require C05.

(* every history in the domain (an address is never added while present): the outputs of the
   model satisfy the independent judge — member at that moment, None iff empty, every window of
   k dispatches between membership changes hits k different backends, removal flags, final set *)
Theorem C05_judged : forall ops, rr_domain ops = true ->
  let '(s, outs) := rr_run rr_init ops in judge_C05 ops outs (rr_backends s) = true.
Proof. exact C05.C05_judged. Qed.

Theorem C05_member : forall s, List.length (rr_backends s) <> 0%nat ->
  exists b, snd (rr_dispatch s) = Some b /\ In b (rr_backends s) /\
            rr_backends (fst (rr_dispatch s)) = rr_backends s /\
            rr_map (fst (rr_dispatch s)) = rr_map s.
Proof. exact C05.rr_member. Qed.

Theorem C05_empty_dropped : forall s, List.length (rr_backends s) = 0%nat -> rr_dispatch s = (s, None).
Proof. exact C05.rr_member_empty. Qed.

(* any k consecutive dispatches over k backends reach each exactly once — from ANY state,
   whatever the index is (it may exceed k after a removal) *)
Theorem C05_window : forall s, List.length (rr_backends s) <> 0%nat ->
  Permutation (snd (C05.rr_dispatches s (List.length (rr_backends s)))) (map Some (rr_backends s)) /\
  rr_backends (fst (C05.rr_dispatches s (List.length (rr_backends s)))) = rr_backends s.
Proof. exact C05.rr_window. Qed.

(* after N dispatches every backend has received floor(N/k) or floor(N/k)+1 *)
Theorem C05_counts : forall s N b, NoDup (rr_backends s) -> In b (rr_backends s) ->
  let c := count_occ C05.obytes_dec (snd (C05.rr_dispatches s N)) (Some b) in
  c = (N / List.length (rr_backends s))%nat \/ c = (N / List.length (rr_backends s) + 1)%nat.
Proof. exact C05.rr_counts. Qed.

Theorem C05_removed_silent : forall s a ops, C05.rr_inv s ->
  Forall (fun o => o <> RAdd a) ops ->
  ~ In (OSent (Some a)) (snd (rr_run (fst (rr_remove a s)) ops)).
Proof. exact C05.rr_removed_silent. Qed.

Theorem C05_added_joins : forall s a,
  let outs := snd (C05.rr_dispatches (rr_add a s) (List.length (rr_backends s) + 1)) in
  In (Some a) outs /\ forall b, In b (rr_backends s) -> In (Some b) outs.
Proof. exact C05.rr_added_joins. Qed.

(* schedules: every lock region one atomic step, ANY interleaving of dispatchers and
   membership changes: no division by zero / index out of range, and every delivery goes to a
   backend that is registered at the moment it is selected *)
Theorem C05_schedules_safe : forall ops,
  rr_srun {| ss_rr := rr_init; ss_threads := [] |} ops <> Panic /\
  exists st' outs,
    rr_srun {| ss_rr := rr_init; ss_threads := [] |} ops = Ok (st', outs) /\
    forall k tid b, nth_error outs k = Some (SDelivered tid b) ->
      exists stk, rr_srun {| ss_rr := rr_init; ss_threads := [] |} (firstn k ops)
                    = Ok (stk, firstn k outs) /\
                  In b (rr_backends (ss_rr stk)).
Proof. exact C05.C05_schedules_safe. Qed.

(* ------------------------------------------------------------------ C15 *)
From Model Require Import Pins SpecC15.
From Model.proofs Require C15.

Theorem C15_judged : forall timeout_s ops, pins_domain timeout_s ops = true ->
  judge_C15 timeout_s ops (snd (pins_run (0%Z, pins_new timeout_s 0%Z) ops)) = true.
Proof. exact C15.C15_judged. Qed.

(* honoured for max(timeout, Expires): at every instant strictly before the lifetime elapsed *)
Theorem C15_honoured : forall ts pre k b e mid,
  pins_domain ts (pre ++ PAdd k b e :: mid) = true ->
  existsb (C15.touches k) mid = false ->
  (C15.elapsed mid < c15_ns (Z.max ts e))%Z ->
  let st := C15.after ts (pre ++ PAdd k b e :: mid) in
  snd (pins_get (fst st) k (snd st)) = Some b.
Proof. exact C15.C15_honoured. Qed.

(* never at or after it *)
Theorem C15_never_after : forall ts pre k b e mid,
  pins_domain ts (pre ++ PAdd k b e :: mid) = true ->
  existsb (C15.touches k) mid = false ->
  (c15_ns (Z.max ts e) <= C15.elapsed mid)%Z ->
  let st := C15.after ts (pre ++ PAdd k b e :: mid) in
  snd (pins_get (fst st) k (snd st)) = None.
Proof. exact C15.C15_never_after. Qed.

(* dissolved on termination *)
Theorem C15_removed : forall ts pre k mid,
  existsb (C15.adds k) mid = false ->
  let st := C15.after ts (pre ++ PRemove k :: mid) in
  snd (pins_get (fst st) k (snd st)) = None.
Proof. exact C15.C15_removed. Qed.

(* right after any pin-creating event at time t nothing that expired more than one timeout
   before t is left, whatever Expires values were seen *)
Theorem C15_swept : forall ts pre k b e,
  pins_domain ts (pre ++ [PAdd k b e]) = true -> C15.swept (C15.after ts (pre ++ [PAdd k b e])).
Proof. exact C15.C15_swept. Qed.

Theorem C15_bounded : forall ts pre k b e,
  let ops := pre ++ [PAdd k b e] in
  pins_domain ts ops = true ->
  let t := fst (C15.after ts ops) in
  fst (c15_after ts ops) = t /\
  (List.length (p_tab (snd (C15.after ts ops))) <=
   List.length (filter (c15_recent ts t) (snd (c15_after ts ops))))%nat.
Proof. exact C15.C15_bounded. Qed.

(* the pre-fix code (nextCleanTime = expiry of the entry just added) violates it *)
Theorem C15_legacy_refuted :
  exists ts pre k b e,
    pins_domain ts (pre ++ [PAdd k b e]) = true /\
    ~ C15.swept (C15.legacy_after ts (pre ++ [PAdd k b e])) /\
    judge_C15 ts (pre ++ [PAdd k b e])
              (snd (C15.legacy_run (0%Z, pins_new ts 0%Z) (pre ++ [PAdd k b e]))) = false.
Proof. exact C15.C15_legacy_refuted. Qed.

(* ------------------------------------------------------------------ C19 *)
From Model Require Import Resolver SpecC19.
From Model.proofs Require C19.

Theorem C19_judged : forall port os,
  c19_domain os = true -> judge_C19 port os (C19.resolver_obs port (rentry_init, rr_init) os) = true.
Proof. exact C19.C19_judged. Qed.

(* what the extracted runner prints is exactly that observation *)
Theorem C19_runner_is_obs : forall port os st,
  resolver_run port st os = flat_map C19.e_c19_obs (C19.resolver_obs port st os).
Proof. exact C19.resolver_run_obs. Qed.

Theorem C19_tracks : forall port e s A e' s' outs,
  C19.Inv port (e, s) -> NoDup A ->
  resolver_step port (e, s) (ROk A) = ((e', s'), outs) ->
  C19.Inv port (e', s') /\
  re_addrs e' = A /\ re_failed e' = 0%nat /\
  NoDup (rr_backends s') /\
  Permutation (rr_backends s') (map (fun ip => create_host_port ip port) A) /\
  outs = repeat (ORemoved true) (List.length (str_array_sub (re_addrs e) A)) /\
  (forall ip, In ip (re_addrs e) -> ~ In ip A ->
     ~ In (create_host_port ip port) (rr_backends s') /\ ~ In (create_host_port ip port) (rr_map s')) /\
  (forall ip, In ip A ->
     In (create_host_port ip port) (rr_backends s') /\ In (create_host_port ip port) (rr_map s')).
Proof. exact C19.C19_tracks. Qed.

Theorem C19_tolerates : forall port e s,
  (re_failed e < 3)%nat \/ re_addrs e = [] ->
  resolver_step port (e, s) RFail =
  (({| re_addrs := re_addrs e; re_failed := S (re_failed e) |}, s), []).
Proof. exact C19.C19_tolerates. Qed.

Theorem C19_fourth_empties : forall port e s,
  C19.Inv port (e, s) -> (3 <= re_failed e)%nat -> re_addrs e <> [] ->
  exists s',
    resolver_step port (e, s) RFail =
      (({| re_addrs := []; re_failed := 0 |}, s'),
       repeat (ORemoved true) (List.length (re_addrs e))) /\
    rr_backends s' = [] /\ rr_map s' = [] /\
    C19.Inv port ({| re_addrs := []; re_failed := 0 |}, s').
Proof. exact C19.C19_fourth_empties. Qed.

Theorem C19_success_resets : forall port e s A,
  fst (fst (resolver_step port (e, s) (ROk A))) = {| re_addrs := A; re_failed := 0 |}.
Proof. exact C19.C19_success_resets. Qed.

Theorem C19_invariant_reachable : forall port os,
  c19_domain os = true -> C19.Inv port (C19.resolver_states port (rentry_init, rr_init) os).
Proof. exact C19.C19_inv_reachable. Qed.

(* ------------------------------------------------------------------ C14 *)
From Model Require Import Wire Uri Hdr Codec SpecC14.
From Model.proofs Require C14_uri C14_hdr C14_via.

(* for every well-formed abstract value (no size bound) the decoder extracts exactly what the
   reference text denotes (components and accessors), the encoder gives the text back byte for
   byte, and decoding the encoding and encoding again is stable: [codec_obs] is that whole
   observation, [expected_obs] what an exact lossless codec must produce *)
Theorem C14_sipuri : forall u, wf_sipuri u = true ->
  codec_obs parse_sip_uri sip_uri_print obs_sip_uri (rp_sipuri u) = expected_obs (rp_sipuri u) (x_sipuri u).
Proof. exact C14_uri.C14_sipuri. Qed.
Theorem C14_addrspec : forall a, wf_addr a = true ->
  codec_obs parse_addr_spec addr_spec_print obs_addr_spec (rp_addr a) = expected_obs (rp_addr a) (x_addr a).
Proof. exact C14_uri.C14_addrspec. Qed.
Theorem C14_nameaddr : forall n, wf_nameaddr n = true ->
  codec_obs parse_name_addr name_addr_print obs_name_addr (rp_nameaddr n) = expected_obs (rp_nameaddr n) (x_nameaddr n).
Proof. exact C14_uri.C14_nameaddr. Qed.
Theorem C14_route : forall l, l <> [] -> forallb wf_relem l = true ->
  codec_obs parse_route route_print (e_list obs_route_param) (rp_route l) = expected_obs (rp_route l) (e_list x_relem l).
Proof. exact C14_hdr.C14_route. Qed.
Theorem C14_recordroute : forall l, l <> [] -> forallb wf_relem l = true ->
  codec_obs parse_record_route route_print (e_list obs_route_param) (rp_route l) = expected_obs (rp_route l) (e_list x_relem l).
Proof. exact C14_hdr.C14_recordroute. Qed.
Theorem C14_fromto : forall f, wf_fromto f = true ->
  codec_obs parse_fromto fromto_print obs_fromto (rp_fromto f) = expected_obs (rp_fromto f) (x_fromto f).
Proof. exact C14_hdr.C14_fromto. Qed.
Theorem C14_via : forall l, l <> [] -> forallb wf_via l = true ->
  codec_obs parse_via via_print (e_list obs_via_param) (rp_via l) = expected_obs (rp_via l) (e_list x_via1 l).
Proof. exact C14_via.C14_via. Qed.
Theorem C14_cseq : forall c, wf_cseq c = true ->
  codec_obs parse_cseq cseq_print obs_cseq (rp_cseq c) = expected_obs (rp_cseq c) (x_cseq c).
Proof. exact C14_via.C14_cseq. Qed.
(* the judge the check applies to implementation observations accepts exactly that *)
Theorem C14_judge_exact : forall e o, o = e -> judge_C14 e o = true.
Proof. exact C14_uri.judge_C14_of_eq. Qed.

(* the pre-fix decoders/encoders violate it (computed witnesses) *)
Theorem C14_sipuri_legacy_refuted :
  exists u, wf_sipuri u = true /\ rp_sipuri u = s2b "sip:h;foo;lr;x=1" /\
    parse_sip_uri_legacy (rp_sipuri u) <> Ok (C14_uri.embed_sipuri u) /\
    codec_obs parse_sip_uri_legacy sip_uri_print obs_sip_uri (rp_sipuri u) <> expected_obs (rp_sipuri u) (x_sipuri u).
Proof. exact C14_uri.C14_sipuri_legacy_refuted. Qed.
Theorem C14_route_legacy_refuted :
  exists r, wf_relem r = true /\ rp_relem r = s2b "<sip:h;lr>;a=1;b" /\
    route_param_print_legacy (C14_hdr.embed_relem r) <> rp_relem r /\
    parse_route_param (route_param_print_legacy (C14_hdr.embed_relem r)) <> Ok (C14_hdr.embed_relem r).
Proof. exact C14_hdr.C14_route_legacy_refuted. Qed.
Theorem C14_fromto_legacy_refuted :
  exists f, wf_fromto f = true /\ rp_fromto f = s2b "tel:+1;tag=x" /\
    parse_fromto_legacy (rp_fromto f) <> Ok (C14_hdr.embed_fromto f) /\
    codec_obs parse_fromto_legacy fromto_print obs_fromto (rp_fromto f) <> expected_obs (rp_fromto f) (x_fromto f).
Proof. exact C14_hdr.C14_fromto_legacy_refuted. Qed.
(* the two tracked known findings, outside the well-formedness domain *)
Theorem C14_ipv6_refuted :
  exists text u, text = s2b "sip:[::1]:5060" /\ parse_sip_uri text = Ok u /\
    u_host u = s2b "[" /\ u_port u = 0%Z /\ sip_uri_print u = s2b "sip:[" /\ sip_uri_print u <> text.
Proof. exact C14_uri.C14_ipv6_refuted. Qed.
Theorem C14_user_semicolon_refuted :
  exists text u, text = s2b "sip:a;b@h:5070" /\ parse_sip_uri text = Ok u /\
    u_host u = s2b "a" /\ u_user u = [] /\ u_port u = 0%Z /\ sip_uri_get_port u = 5060%Z /\
    u_params u = [ {| k_key := s2b "b@h:5070"; k_val := [] |} ] /\ sip_uri_print u = text.
Proof. exact C14_uri.C14_user_semicolon_refuted. Qed.

(* ------------------------------------------------------------------ C16 *)
From Model Require Import Message SpecC16.
From Model.proofs Require C16.

(* direction independence, for ALL byte strings (equal URIs and equal tags included) *)
Theorem C16_symmetric : forall c t1 a1 t2 a2, dialog_string c t1 a1 t2 a2 = dialog_string c t2 a2 t1 a1.
Proof. exact C16.C16_symmetric. Qed.
Theorem C16_legacy_refuted : exists c t1 a t2,
  t1 <> t2 /\ dialog_string_legacy c t1 a t2 a <> dialog_string_legacy c t2 a t1 a.
Proof. exact C16.C16_legacy_refuted. Qed.
(* same Call-ID and the same two (tag, URI) halves, whichever is in From: same identifier *)
Theorem C16_same_id : forall a b, c16_same a b = true -> C16.c16_id a = C16.c16_id b.
Proof. exact C16.C16_same_id. Qed.
(* discrimination: the Call-ID unconditionally; one tag or one URI under the separator
   hypothesis sep_ok (a boolean, evaluated on every generated case) *)
Theorem C16_callid_discriminates : forall c c' t1 a1 t2 a2,
  c <> c' -> dialog_string c t1 a1 t2 a2 <> dialog_string c' t1 a1 t2 a2.
Proof. exact C16.C16_callid_discriminates. Qed.
Theorem C16_discriminates : forall a b,
  cm_has a = true -> cm_has b = true -> c16_one_change a b = true -> c16_same a b = false ->
  C16.sep_ok a b = true -> C16.c16_id a <> C16.c16_id b.
Proof. exact C16.C16_discriminates. Qed.
(* sep_ok holds whenever the two tags of each message differ and are '-'-free (any URIs) *)
Theorem C16_sep_ok_realistic : forall a b,
  c16_one_change a b = true -> C16.half_ok a = true -> C16.half_ok b = true -> C16.sep_ok a b = true.
Proof. exact C16.half_ok_sep_ok. Qed.
Theorem C16_half_ok_distinct_tags : forall m,
  ~ In "-"%char (cm_ta m) -> ~ In "-"%char (cm_tb m) -> cm_ta m <> cm_tb m -> C16.half_ok m = true.
Proof. exact C16.half_ok_distinct_tags. Qed.
(* outside it the identifier is not discriminating: the tracked finding K3 *)
Theorem C16_K3_refuted : exists a b,
  cm_has a = true /\ cm_has b = true /\
  cm_callid a = cm_callid b /\ cm_ta a = cm_ta b /\ cm_tb a = cm_tb b /\ cm_ub a = cm_ub b /\ cm_ua a <> cm_ua b /\
  c16_one_change a b = true /\ c16_same a b = false /\ C16.sep_ok a b = false /\ C16.c16_id a = C16.c16_id b.
Proof. exact C16.C16_K3_refuted. Qed.
(* the group judge accepts the model on every group in the domain *)
Theorem C16_judged : forall (ms : list c16_msg),
  (forall a b, In a ms -> In b ms -> cm_has a = true -> cm_has b = true ->
               c16_one_change a b = true -> c16_same a b = false -> C16.sep_ok a b = true) ->
  judge_C16 (map (fun m => (m, if cm_has m then Some (C16.c16_id m) else None)) ms) = None.
Proof. exact C16.C16_judged. Qed.
(* a message lacking either tag belongs to no dialog; one with both gets exactly the
   identifier of its Call-ID and halves, whatever else the headers carry *)
Theorem C16_no_tag_from : forall m m1 f, get_from m = Ok (m1, f) -> fromto_tag f = None -> get_dialog m = Err.
Proof. exact C16.C16_no_tag_from. Qed.
Theorem C16_no_tag_to : forall m m1 f m2 t,
  get_from m = Ok (m1, f) -> get_to m1 = Ok (m2, t) -> fromto_tag t = None -> get_dialog m = Err.
Proof. exact C16.C16_no_tag_to. Qed.
Theorem C16_get_dialog_inv : forall m m2 d, get_dialog m = Ok (m2, d) ->
  exists cid m1 f t ftag ttag,
    get_call_id m = Ok cid /\ get_from m = Ok (m1, f) /\ get_to m1 = Ok (m2, t) /\
    fromto_tag f = Some ftag /\ fromto_tag t = Some ttag /\
    d = dialog_string cid ftag (dialog_addr (fromto_addr_spec f)) ttag (dialog_addr (fromto_addr_spec t)).
Proof. exact C16.C16_get_dialog_inv. Qed.
Theorem C16_message_symmetric : forall m m' cid m1 f m2 t m1' f' m2' t',
  get_call_id m = Ok cid -> get_call_id m' = Ok cid ->
  get_from m = Ok (m1, f) -> get_to m1 = Ok (m2, t) ->
  get_from m' = Ok (m1', f') -> get_to m1' = Ok (m2', t') ->
  fromto_tag f' = fromto_tag t -> fromto_tag t' = fromto_tag f ->
  dialog_addr (fromto_addr_spec f') = dialog_addr (fromto_addr_spec t) ->
  dialog_addr (fromto_addr_spec t') = dialog_addr (fromto_addr_spec f) ->
  rmap snd (get_dialog m) = rmap snd (get_dialog m').
Proof. exact C16.C16_message_symmetric. Qed.
(* decorations do not matter: the half a From/To value contributes is (tag, URI core) of
   the abstract value, whatever display name, URI parameters/headers, header parameters and
   name-addr/addr-spec form it was rendered with (with C14_fromto) *)
Theorem C16_half_of_rendering : forall f, wf_fromto f = true ->
  parse_fromto (rp_fromto f) = Ok (C14_hdr.embed_fromto f) /\
  fromto_tag (C14_hdr.embed_fromto f) = a_get (s2b "tag") (af_params f) /\
  dialog_addr (fromto_addr_spec (C14_hdr.embed_fromto f)) = x_dialog_addr (C14_hdr.a_ft_addr f).
Proof.
  intros f H. split; [exact (C14_hdr.parse_fromto_rp f H)|].
  split; [exact (C14_hdr.fromto_tag_embed f) | exact (C14_hdr.fromto_dialog_addr_embed f H)].
Qed.

(* ------------------------------------------------------------------ C20 *)
From Model Require Import SendFault SpecC20.
From Model.proofs Require C20.

(* every send from every well-formed state, any fault script: the trace satisfies the judge *)
Theorem C20_judged_client : forall f w, C20.fo_wf f (w_next w) ->
  let '(_, _, tr, ok) := failover_send f w in judge_C20_send tr ok = true.
Proof. exact C20.C20_judged_client. Qed.
Theorem C20_judged_backend : forall conn w, C20.b_wf conn (w_next w) ->
  let '(_, _, tr, ok) := tcp_backend_send conn w in judge_C20_send tr ok = true.
Proof. exact C20.C20_judged_backend. Qed.
(* along any sequence of sends with any per-send dial results: what the extracted runner
   prints is judged by the count-based judge that is also applied to the real code *)
Theorem C20_obs_judged_client : forall plans f w,
  C20.fo_wf f (w_next w) -> forallb judge_C20_obs (C20.client_obs plans f w) = true.
Proof. exact C20.C20_obs_judged_client_strong. Qed.
Theorem C20_obs_judged_backend : forall plans conn w,
  C20.b_wf conn (w_next w) -> forallb judge_C20_obs (C20.backend_obs plans conn w) = true.
Proof. exact C20.C20_obs_judged_backend_strong. Qed.
Theorem C20_client_obs_printed : forall plans f w,
  sendfault_client plans f w = flat_map e_obs (C20.client_obs plans f w).
Proof. exact C20.C20_client_obs_printed. Qed.
Theorem C20_backend_obs_printed : forall plans c w,
  sendfault_backend plans c w = flat_map e_obs (C20.backend_obs plans c w).
Proof. exact C20.C20_backend_obs_printed. Qed.
Theorem C20_trace_judge_implies_obs : forall next tr ok,
  C20.okwrites_below next tr -> judge_C20_send tr ok = true -> judge_C20_obs (obs_of_trace next tr ok) = true.
Proof. exact C20.C20_trace_judge_implies_obs. Qed.
(* success = the whole message written exactly once, as the last write of the call *)
Theorem C20_success_means_written : forall f w f' w' tr, failover_send f w = (f', w', tr, true) ->
  exists pre c, tr = pre ++ [EWrite c true] /\ (forall c', ~ In (EWrite c' true) pre).
Proof. exact C20.C20_success_means_written. Qed.
Theorem C20_error_means_unwritten : forall f w f' w' tr,
  failover_send f w = (f', w', tr, false) -> forall c, ~ In (EWrite c true) tr.
Proof. exact C20.C20_error_means_unwritten. Qed.
Theorem C20_no_dup : forall f w f' w' tr ok,
  failover_send f w = (f', w', tr, ok) -> (List.length (filter ev_is_okwrite tr) <= 1)%nat.
Proof. exact C20.C20_no_dup. Qed.
Theorem C20_no_dup_backend : forall conn w conn' w' tr ok,
  tcp_backend_send conn w = (conn', w', tr, ok) -> (List.length (filter ev_is_okwrite tr) <= 1)%nat.
Proof. exact C20.C20_no_dup_backend. Qed.
(* cached connection fails on write, reconnectable path available: the same call writes the
   message once on a fresh connection; later sends go straight to it *)
Theorem C20_failover : forall f w p c s rest,
  C20.w_wf w -> C20.fo_wf f (w_next w) -> fo_primary f = Some p -> tc_conn p = Some c -> C20.next_write c w = false ->
  fo_secondary f = Some {| tc_conn := None; tc_reconnectable := true |} ->
  w_dials w = Some s :: rest -> hd true s = true ->
  failover_send f w =
    ({| fo_primary := None; fo_secondary := Some {| tc_conn := Some (w_next w); tc_reconnectable := true |} |},
     C20.after_write (w_next w) (C20.after_dial (C20.after_write c w)),
     [EWrite c false; EClose c; EDial (Some (w_next w)); EWrite (w_next w) true], true)
  /\ c <> w_next w.
Proof. exact C20.C20_failover. Qed.
Theorem C20_later_direct : forall f w p c s rest,
  C20.w_wf w -> C20.fo_wf f (w_next w) -> fo_primary f = Some p -> tc_conn p = Some c -> C20.next_write c w = false ->
  fo_secondary f = Some {| tc_conn := None; tc_reconnectable := true |} ->
  w_dials w = Some s :: rest -> hd true s = true ->
  forall f' w' tr ok, failover_send f w = (f', w', tr, ok) ->
  forall w2, (w_next w' <= w_next w2)%nat ->
  forall f2 w3 tr2 ok2, failover_send f' w2 = (f2, w3, tr2, ok2) ->
  (forall e, In e tr2 -> ~ In c (C20.ev_ids e)) /\
  (exists b rest2, tr2 = EWrite (w_next w) b :: rest2) /\
  (C20.next_write (w_next w) w2 = true -> tr2 = [EWrite (w_next w) true] /\ ok2 = true /\ f2 = f').
Proof. exact C20.C20_later_direct. Qed.
(* a refusing destination yields an error after at most one dial attempt, nothing written *)
Theorem C20_refused : forall f w f' w' tr ok,
  C20.fo_wf f (w_next w) -> C20.dial_refused w -> C20.primary_id f = None -> C20.secondary_id f = None ->
  failover_send f w = (f', w', tr, ok) ->
  ok = false /\ (tr = [] \/ tr = [EDial None]) /\
  (List.length (filter ev_is_dial tr) <= 2)%nat /\ filter ev_is_write tr = [] /\
  w_conns w' = w_conns w /\ w_next w' = w_next w /\ C20.primary_id f' = None /\ C20.secondary_id f' = None.
Proof. exact C20.C20_refused. Qed.
Theorem C20_refused_backend : forall w conn' w' tr ok,
  C20.dial_refused w -> C20.dial_refused (C20.after_dial w) -> tcp_backend_send None w = (conn', w', tr, ok) ->
  ok = false /\ tr = [EDial None; EDial None] /\ conn' = None /\ w_conns w' = w_conns w /\ w_next w' = w_next w.
Proof. exact C20.C20_refused_backend. Qed.

(* ------------------------------------------------------------------ C09 *)

From Model Require Lockset Policy.
From Model.gen Require Accesses.
From Model.proofs Require C09.
(* for ALL well-formed traces (= all schedules): a trace in which every location obeys one of
   Locked / Owned / InitOnly / Handoff has no two conflicting accesses unordered by
   happens-before (program order, Rel->Acq, Fork->child, k-th Send->k-th Recv) *)
Theorem C09_lockset_sound : forall (policy : Lockset.loc -> Lockset.discipline) (tr : Lockset.trace),
  Lockset.wf_trace tr -> Lockset.disciplined policy tr -> Lockset.race_free tr.
Proof. exact Lockset.lockset_sound. Qed.

(* the literal "written only before any Fork" is an instance of InitOnly *)
Theorem C09_init_before_any_fork : forall tr l, Lockset.wf_trace tr ->
  (forall i t, Lockset.access_at tr i = Some (t, l, true) ->
     forall k t0 t1, (k < i)%nat -> nth_error tr k <> Some (Lockset.Fork t0 t1)) ->
  Lockset.obeys tr l (Lockset.InitOnly Lockset.main_thread).
Proof. exact Lockset.init_before_any_fork. Qed.

(* the table regenerated from /repo by tools/locktab on this run: every recorded access site
   obeys the discipline the policy gives its field *)
Theorem C09_discipline : forallb Policy.site_ok Accesses.accesses = true.
Proof. exact C09.C09_discipline. Qed.

(* every struct field written outside a constructor is classified by the policy *)
Theorem C09_policy_complete : forallb Policy.classified Policy.written_fields = true.
Proof. exact C09.C09_policy_complete. Qed.

(* every field the policy names exists in the package *)
Theorem C09_policy_wellformed : Policy.policy_fields_exist = true.
Proof. exact C09.C09_policy_wellformed. Qed.

(* the acquires-while-holding graph (lexical + through the call graph) has no cycle *)
Theorem C09_lock_order_acyclic : Policy.lock_order_acyclic = true.
Proof. exact C09.C09_lock_order_acyclic. Qed.

(* the cached tables (roots reaching a function, must-hold locks, transitively acquired
   mutexes, lock order) are what their definitions compute, and are closed under the call graph *)
Theorem C09_tables :
  Policy.RR = Policy.prop_iter 64%nat Accesses.calls Policy.root_init /\ Policy.RR_closed = true /\
  Policy.MH = Policy.mh_step (Policy.mh_step (Policy.mh_step (Policy.mh_step nil))) /\ Policy.MH_sound = true /\
  Policy.ACQ = Policy.prop_iter 64%nat (map Policy.swap Policy.kept_calls) Policy.acq_init /\ Policy.ACQ_closed = true /\
  Policy.ORDER = Policy.dedup_edges Policy.order_edges.
Proof. exact C09.C09_tables. Qed.

(* bridge: a well-formed trace whose memory accesses are instances of the recorded sites
   (instantiation assumptions I0..I6 of proofs/C09.v, spelled out) is race free *)
Theorem C09_bridge :
  forall (tr : Lockset.trace) (site : nat -> Accesses.access) (obj : nat -> nat)
         (loc_of : nat -> String.string -> String.string -> Lockset.loc)
         (mtx : nat -> String.string -> Lockset.mutex) (guard : nat -> nat)
         (root_of : Lockset.tid -> String.string) (owner : nat -> Lockset.tid)
         (pol : Lockset.loc -> Lockset.discipline),
    (forall l, (exists i t w, Lockset.access_at tr i = Some (t, l, w)) \/ Lockset.obeys tr l (pol l)) ->
    (forall i t l w, Lockset.access_at tr i = Some (t, l, w) ->
       In (site i) Accesses.accesses /\ Accesses.a_ctor (site i) = false /\ Accesses.a_atomic (site i) = false /\
       l = loc_of (obj i) (Accesses.a_struct (site i)) (Accesses.a_field (site i)) /\ w = Accesses.a_write (site i)) ->
    (forall i t l w, Lockset.access_at tr i = Some (t, l, w) ->
       match Policy.policy_of (Accesses.a_struct (site i)) (Accesses.a_field (site i)) with
       | Some (Policy.LockedOwn m) => pol l = Lockset.Locked (mtx (obj i) m)
       | Some (Policy.LockedBy m) => pol l = Lockset.Locked (mtx (guard (obj i)) m)
       | Some (Policy.ConfinedTo _) => pol l = Lockset.Owned (owner (obj i))
       | Some Policy.Atomic => False
       | Some Policy.InitOnly | Some (Policy.HandedOff _) | None => Lockset.obeys tr l (pol l)
       end) ->
    (forall i t l w m, Lockset.access_at tr i = Some (t, l, w) ->
       existsb (fun h => (String.eqb (Accesses.h_mutex h) m && String.eqb (Accesses.h_owner h) (Accesses.a_base (site i)))%bool)
               (Policy.held_at (site i)) = true ->
       Lockset.holds tr i t (mtx (obj i) m)) ->
    (forall i t l w m, Lockset.access_at tr i = Some (t, l, w) ->
       existsb (fun h => String.eqb (Accesses.h_mutex h) m) (Policy.held_at (site i)) = true ->
       Lockset.holds tr i t (mtx (guard (obj i)) m)) ->
    (forall i t l w, Lockset.access_at tr i = Some (t, l, w) ->
       In (root_of t) (Policy.roots_reaching (Accesses.a_func (site i)))) ->
    (forall i t l w r, Lockset.access_at tr i = Some (t, l, w) ->
       Policy.policy_of (Accesses.a_struct (site i)) (Accesses.a_field (site i)) = Some (Policy.ConfinedTo r) ->
       root_of t <> "main"%string) ->
    (forall i t l w r, Lockset.access_at tr i = Some (t, l, w) ->
       Policy.policy_of (Accesses.a_struct (site i)) (Accesses.a_field (site i)) = Some (Policy.ConfinedTo r) ->
       root_of t = r -> t = owner (obj i)) ->
    Lockset.wf_trace tr -> Lockset.race_free tr.
Proof. exact C09.bridge_race_free. Qed.

(* ------------------------------------------------------------------ C11 / C10 / C08 (decode level) *)
From Model Require Import Bufio Pool.
From Model.proofs Require C11 C10 C08_parse.
(* ================= C11 ================= *)
(* key lemma: what ReadSlice returns depends on (remaining stream, window size) only *)
Theorem C11_read_slice_abs : forall st line status rest, C11.wf st ->
  C11.slice_spec (rd_size st) (alpha st) = (line, status, rest) ->
  exists st', read_slice st = Ok (line, status, st') /\
    alpha st' = rest /\ C11.wf st' /\ rd_size st' = rd_size st /\
    (status = RsFull -> rd_live st' = [] /\ rd_pre st' = line /\ rd_err st' = false).
Proof. exact C11.read_slice_abs. Qed.

(* readLine over the concrete reader = Message.read_line over the remaining bytes *)
Theorem C11_read_line_abs : forall st, C11.wf st ->
  match index_byte LF (alpha st) with
  | Some i => exists st', read_line_c st = Ok (Some (strip_cr (firstn i (alpha st))), st') /\
                          alpha st' = skipn (S i) (alpha st) /\ C11.wf st' /\ rd_size st' = rd_size st
  | None => (exists st', read_line_c st = Ok (None, st')) \/
            (alpha st <> [] /\ exists st', read_line_c st = Ok (Some (alpha st), st') /\
                                          alpha st' = [] /\ C11.wf st' /\ rd_size st' = rd_size st)
  end.
Proof. exact C11.read_line_c_abs. Qed.

Theorem C11_framing : forall size cs, Forall C11.nonempty cs ->
  (2 * Z.of_nat (List.length (List.concat cs)) <= make_limit)%Z ->
  parse_conn size cs = parse_stream (S (List.length (List.concat cs))) (List.concat cs).
Proof. exact C11.C11_framing. Qed.

Theorem C11_segmentation_independent : forall size1 size2 cs1 cs2,
  Forall C11.nonempty cs1 -> Forall C11.nonempty cs2 -> List.concat cs1 = List.concat cs2 ->
  (2 * Z.of_nat (List.length (List.concat cs1)) <= make_limit)%Z ->
  parse_conn size1 cs1 = parse_conn size2 cs2.
Proof. exact C11.C11_segmentation_independent. Qed.

Theorem C11_exact : forall ms tail,
  Forall C11.wf_msg ms -> Forall (fun c => is_space c = true) tail ->
  parse_stream (S (List.length (C11.encode_all ms ++ tail))) (C11.encode_all ms ++ tail) = map C11.expected ms.
Proof. exact C11.C11_exact. Qed.

Theorem C11_exact_segmented : forall size cs ms tail,
  Forall C11.wf_msg ms -> Forall (fun c => is_space c = true) tail ->
  Forall C11.nonempty cs -> List.concat cs = C11.encode_all ms ++ tail ->
  (2 * Z.of_nat (List.length (List.concat cs)) <= make_limit)%Z ->
  parse_conn size cs = map C11.expected ms.
Proof. exact C11.C11_exact_segmented. Qed.

Theorem C11_legacy_refuted :
  exists size cs1 cs2, List.concat cs1 = List.concat cs2 /\ Forall C11.nonempty cs1 /\ Forall C11.nonempty cs2 /\
    C11.line_of (read_line_legacy (new_reader size cs1)) <> C11.line_of (read_line_legacy (new_reader size cs2)) /\
    C11.line_of (read_line_legacy (new_reader size cs1)) <> Some (s2b "SIP/2.0 404 Not Found") /\
    C11.line_of (read_line_c (new_reader size cs1)) = Some (s2b "SIP/2.0 404 Not Found") /\
    C11.line_of (read_line_c (new_reader size cs2)) = Some (s2b "SIP/2.0 404 Not Found").
Proof. exact C11.C11_legacy_refuted. Qed.

Theorem C11_legacy_refuted_4096 :
  fst (fst (parse_conn_legacy_full 4096%nat [C11.long_stream])) <>
    parse_stream (S (List.length C11.long_stream)) C11.long_stream /\
  parse_conn 4096%nat [C11.long_stream] = parse_stream (S (List.length C11.long_stream)) C11.long_stream /\
  List.length (parse_stream (S (List.length C11.long_stream)) C11.long_stream) = 1%nat.
Proof. exact C11.C11_legacy_refuted_4096. Qed.

(* ================= C10 ================= *)
Theorem C10_isolated : forall stale d,
  (2 * Z.of_nat (List.length stale) <= make_limit)%Z ->
  udp_parse (fst (recv stale d)) (snd (recv stale d)) = parse_bytes (firstn (List.length stale) d).
Proof. exact C10.C10_isolated. Qed.

Theorem C10_isolated_fits : forall stale d, (List.length d <= List.length stale)%nat ->
  (2 * Z.of_nat (List.length stale) <= make_limit)%Z ->
  udp_parse (fst (recv stale d)) (snd (recv stale d)) = parse_bytes d.
Proof. exact C10.C10_isolated_fits. Qed.

Theorem C10_history : forall evs u, C10.udp_wf u ->
  (2 * Z.of_nat (p_asize (u_pool u)) <= make_limit)%Z ->
  snd (udp_run udp_parse u evs) = udp_spec (p_asize (u_pool u)) (queued_dgrams u) evs.
Proof. exact C10.C10_history. Qed.

Theorem C10_short_discarded : forall d,
  match parse_bytes d with
  | Ok m => exists hdr rest, d = hdr ++ m_body m ++ rest /\
              (exists h0, hdr = h0 ++ [LF; LF] \/ hdr = h0 ++ [LF; CR; LF]) /\
              get_header_int (s2b "Content-Length") m = Ok (Z.of_nat (List.length (m_body m)))
  | Err => True
  | Panic => False
  end.
Proof. exact C10.C10_short_discarded. Qed.

Theorem C10_pool_exclusive : forall maxcap asize evs s',
  prun (new_pool maxcap asize, []) evs = Some s' -> NoDup (pool_ids s').
Proof. exact C10.C10_pool_exclusive. Qed.

Theorem C10_pool_exclusive_udp : forall maxcap asize evs,
  NoDup (udp_ids (fst (udp_run udp_parse (new_udp maxcap asize) evs))).
Proof. exact C10.C10_pool_exclusive_udp. Qed.

Theorem C10_legacy_refuted :
  parse_bytes C10.d_second = Err /\
  udp_parse (fst (recv C10.stale_buf C10.d_second)) (snd (recv C10.stale_buf C10.d_second)) = Err /\
  (exists m, udp_parse_legacy (fst (recv C10.stale_buf C10.d_second)) (snd (recv C10.stale_buf C10.d_second)) = Ok m /\
             m_body m = s2b "ABCDET-BYTES-OF-THE-EARLIER-DATAGRAM-#1!") /\
  (exists m, udp_parse_wholebuf (fst (recv C10.stale_buf C10.d_second)) (snd (recv C10.stale_buf C10.d_second)) = Ok m /\
             m_body m = s2b "ABCDET-BYTES-OF-THE-EARLIER-DATAGRAM-#1!").
Proof. exact C10.C10_legacy_refuted. Qed.

(* ================= C08 (parse part) ================= *)
Theorem C08_parse_no_panic : forall size cs, Forall C11.nonempty cs ->
  (2 * Z.of_nat (List.length (List.concat cs)) <= make_limit)%Z ->
  snd (fst (parse_conn_full size cs)) = EndErr.
Proof. exact C08_parse.C08_parse_no_panic. Qed.

Theorem C08_parse_terminates : forall size cs, Forall C11.nonempty cs ->
  (2 * Z.of_nat (List.length (List.concat cs)) <= make_limit)%Z ->
  snd (fst (parse_conn_full size cs)) <> EndFuel /\ snd (fst (parse_conn_full size cs)) <> EndPanic.
Proof. exact C08_parse.C08_parse_terminates. Qed.

Theorem C08_alloc_bounded : forall size cs, Forall C11.nonempty cs ->
  (2 * Z.of_nat (List.length (List.concat cs)) <= make_limit)%Z ->
  (snd (parse_conn_full size cs) <= 4 * Z.of_nat (List.length (List.concat cs)) + 65536)%Z.
Proof. exact C08_parse.C08_alloc_bounded. Qed.

Theorem C08_parse_no_panic_udp : forall buf n,
  (2 * Z.of_nat (List.length (firstn n buf)) <= make_limit)%Z ->
  udp_parse buf n <> Panic /\
  (snd (udp_parse_a buf n) <= 4 * Z.of_nat (List.length (firstn n buf)) + 65536)%Z.
Proof. exact C08_parse.C08_parse_no_panic_udp. Qed.

Theorem C08_parse_legacy_refuted :
  snd (fst (parse_conn_legacy_full 4096%nat [C08_parse.absurd "4611686018427387904"])) = EndPanic /\
  udp_parse_legacy (C08_parse.absurd "4611686018427387904") 68%nat = Panic /\
  snd (parse_conn_legacy_full 4096%nat [C08_parse.absurd "1073741824"]) = 1073741824%Z /\
  parse_conn_full 4096%nat [C08_parse.absurd "4611686018427387904"] = ([], EndErr, 65536%Z) /\
  parse_conn_full 4096%nat [C08_parse.absurd "1073741824"] = ([], EndErr, 65536%Z).
Proof. exact C08_parse.C08_legacy_refuted. Qed.

(* ------------------------------------------------------------------ C01 *)
From Model Require Import Bytes Wire Uri Hdr Message Msg StaticRoute RoundRobin Pins Proxy RunProxy SpecC14 SpecProxy SpecProxy2.
From Model.proofs Require MsgLemmas C01.
Section P_C01.
Import MsgLemmas C01.
Theorem C01_relay_preserves :
  forall e peer peer_port from rs tcp m x x',
    stable m ->
    process_message e peer peer_port from rs tcp m x = Ok x' ->
    exists pre, x_outs x' = x_outs x ++ pre /\
      forall d b, In (d, b) pre ->
        match d with
        | DDial _ _ _ => b = []
        | _ => exists m', b = write_message m' /\ view m' = view m
        end.
Proof. exact C01.C01_relay_preserves. Qed.
Theorem C01_proxy_step_udp :
  forall fx c now branch st li src sport data m rest st' outs,
    parse_message data = Ok (m, rest) -> stable m ->
    proxy_step fx c now branch st (EvUdp li src sport data) = Ok (st', outs) ->
    forall d b, In (d, b) outs -> good m d b.
Proof. exact C01.C01_proxy_step_udp. Qed.
Theorem C01_proxy_step_tcp :
  forall fx c now branch st cid data st' outs,
    (forall m, In m (parse_stream (S (List.length data)) data) -> stable m) ->
    proxy_step fx c now branch st (EvTcpData cid data) = Ok (st', outs) ->
    forall d b, In (d, b) outs ->
      exists m, In m (parse_stream (S (List.length data)) data) /\ good m d b.
Proof. exact C01.C01_proxy_step_tcp. Qed.
Theorem C01_stable_on_c14_domain m : Forall c14_domain_h (m_headers m) -> stable m.
Proof. intros; eapply C01.stable_on_c14_domain; eassumption. Qed.
Theorem C01_stable_necessary :
  parse_cseq (s2b "0001 INVITE") = Ok {| cs_seq := 1; cs_method := s2b "INVITE" |} /\
  cseq_print {| cs_seq := 1; cs_method := s2b "INVITE" |} = s2b "1 INVITE" /\
  ~ stable ex_unstable /\
  view (fst (s_get_cseq ex_unstable)) <> view ex_unstable /\
  view_hs (m_headers (fst (s_get_cseq ex_unstable))) = [(s2b "CSeq", s2b "1 INVITE")].
Proof. exact C01.C01_stable_necessary. Qed.
Theorem C01_single_content_length m :
  write_message m =
    start_line_print (m_start m) ++ crlf ++ flat_map header_print (emitted_headers m) ++ crlf ++ m_body m
  /\ emitted_headers m = filter (fun h => negb (is_cl_h h)) (m_headers m) ++ [cl_header m]
  /\ Forall (fun h => is_cl_h h = false) (filter (fun h => negb (is_cl_h h)) (m_headers m))
  /\ is_cl_h (cl_header m) = true
  /\ header_print (cl_header m) =
       s2b "Content-Length: " ++ itoa (Z.of_nat (List.length (m_body m))) ++ crlf
  /\ List.length (filter is_cl_h (emitted_headers m)) = 1%nat.
Proof. intros; eapply C01.C01_single_content_length; eassumption. Qed.
Theorem C01_single_content_length_read m :
  line_safe m -> start_ok (start_line_print (m_start m)) ->
  (Z.of_nat (List.length (m_body m)) <= int_max)%Z ->
  j_read (write_message m) =
    Some {| jm_start := start_line_print (m_start m);
            jm_headers := map (fun h => jpair (hpair h)) (emitted_headers m);
            jm_body := m_body m; jm_rest := [];
            jm_has_cl := true; jm_cl_count := 1;
            jm_cl_value := Some (Z.of_nat (List.length (m_body m))) |}.
Proof. intros; eapply C01.C01_single_content_length_read; eassumption. Qed.
Theorem C01_judge_bridge_partial b jin m rest m' :
  j_read b = Some jin -> parse_message b = Ok (m, rest) ->
  start_line_print (m_start m) = jm_start jin ->
  view m' = view m -> line_safe m' ->
  exists jo, j_read (write_message m') = Some jo /\ judge_C01_pair jin jo = 0%nat.
Proof. intros; eapply C01.C01_judge_bridge_partial; eassumption. Qed.
Theorem C01_judge_bridge_request b jin m rest m' meth u ver a :
  j_read b = Some jin -> in_domain_C01 jin = true -> parse_message b = Ok (m, rest) ->
  j_is_response jin = false -> fields (jm_start jin) = [meth; u; ver] ->
  fields_go (jm_start jin) = fields (jm_start jin) ->
  wf_addr a = true -> u = rp_addr a ->
  view m' = view m -> line_safe m' ->
  exists jo, j_read (write_message m') = Some jo /\ judge_C01_pair jin jo = 0%nat.
Proof. intros; eapply C01.C01_judge_bridge_request; eassumption. Qed.
Theorem C01_judge_bridge_response b jin m rest m' ver c r1 rs code :
  j_read b = Some jin -> in_domain_C01 jin = true -> parse_message b = Ok (m, rest) ->
  j_is_response jin = true -> fields (jm_start jin) = ver :: c :: r1 :: rs ->
  fields_go (jm_start jin) = fields (jm_start jin) ->
  atoi c = Some code -> itoa code = c ->
  view m' = view m -> line_safe m' ->
  exists jo, j_read (write_message m') = Some jo /\ judge_C01_pair jin jo = 0%nat.
Proof. intros; eapply C01.C01_judge_bridge_response; eassumption. Qed.
Theorem C01_judge_relay b jin m rest e peer peer_port from rs tcp x x' :
  j_read b = Some jin -> parse_message b = Ok (m, rest) ->
  start_line_print (m_start m) = jm_start jin -> stable m ->
  process_message e peer peer_port from rs tcp m x = Ok x' ->
  exists pre, x_outs x' = x_outs x ++ pre /\
    forall d o, In (d, o) pre ->
      match d with
      | DDial _ _ _ => o = []
      | _ => exists m', o = write_message m' /\
                        (line_safe m' -> exists jo, j_read o = Some jo /\ judge_C01_pair jin jo = 0%nat)
      end.
Proof. intros; eapply C01.C01_judge_relay; eassumption. Qed.
Theorem C01_legacy_refuted :
  parse_message ex_legacy_input = Ok (parsed ex_legacy_input, []) /\
  option_map in_domain_C01 (j_read ex_legacy_input) = Some true /\
  stable (parsed ex_legacy_input) /\
  write_message_legacy (parsed ex_legacy_input) =
    s2b "INVITE sip:svc@example.com SIP/2.0" ++ crlf ++ s2b "l: 3" ++ crlf ++
    s2b "Content-Length: 3" ++ crlf ++ crlf ++ s2b "abc" /\
  option_map jm_cl_count (j_read (write_message_legacy (parsed ex_legacy_input))) = Some 2%nat /\
  judge_bytes ex_legacy_input (write_message_legacy (parsed ex_legacy_input)) = Some 5%nat /\
  option_map jm_cl_count (j_read (write_message (parsed ex_legacy_input))) = Some 1%nat /\
  judge_bytes ex_legacy_input (write_message (parsed ex_legacy_input)) = Some 0%nat.
Proof. exact C01.C01_legacy_refuted. Qed.
End P_C01.

(* ------------------------------------------------------------------ C08 *)
From Model Require Import Bytes Wire Uri Hdr Message Msg StaticRoute RoundRobin Pins Proxy RunProxy SpecC14 SpecProxy SpecProxy2.
From Model.proofs Require C08.
Section P_C08.
Import C08.
Local Close Scope Z_scope.
Theorem C08_process_message_ok : forall e peer pp from rs tcp m0 x,
  fx_bracket_host (e_fx e) = true ->
  exists x', process_message e peer pp from rs tcp m0 x = Ok x'.
Proof. exact C08.C08_process_message_ok. Qed.
Theorem C08_process_message_no_panic : forall e peer pp from rs tcp m0 x,
  fx_bracket_host (e_fx e) = true -> process_message e peer pp from rs tcp m0 x <> Panic.
Proof. exact C08.C08_process_message_no_panic. Qed.
Theorem C08_tcp_messages_ok : forall fuel e c s x,
  fx_bracket_host (e_fx e) = true -> exists x', tcp_messages fuel e c s x = Ok x'.
Proof. exact C08.C08_tcp_messages_ok. Qed.
Theorem C08_tcp_messages_no_panic : forall fuel e c s x,
  fx_bracket_host (e_fx e) = true -> tcp_messages fuel e c s x <> Panic.
Proof. exact C08.C08_tcp_messages_no_panic. Qed.
Theorem C08_never_err_gen : forall fx c now branch st ev, fx_bracket_host fx = true ->
  exists st' outs, proxy_step fx c now branch st ev = Ok (st', outs).
Proof. exact C08.C08_never_err_gen. Qed.
Theorem C08_never_err : forall c now branch st ev,
  exists st' outs, proxy_step all_fixed c now branch st ev = Ok (st', outs).
Proof. exact C08.C08_never_err. Qed.
Theorem C08_no_panic_gen : forall fx c now branch st ev, fx_bracket_host fx = true ->
  proxy_step fx c now branch st ev <> Panic.
Proof. exact C08.C08_no_panic_gen. Qed.
Theorem C08_no_panic : forall c now branch st ev, proxy_step all_fixed c now branch st ev <> Panic.
Proof. exact C08.C08_no_panic. Qed.
Theorem C08_legacy_refuted :
  step2 legacy_bracket = Panic /\
  (exists st', step2 all_fixed = Ok (st', []) /\ conn_open (st_conns st') 0 = true).
Proof. exact C08.C08_legacy_refuted. Qed.
Theorem C08_discard_udp : forall fx c now branch st li src sport data, undecodable data ->
  proxy_step fx c now branch st (EvUdp li src sport data) = Ok (st, []).
Proof. exact C08.C08_discard_udp. Qed.
Theorem C08_discard_tcp : forall fx c now branch st cid data, garbage data ->
  proxy_step fx c now branch st (EvTcpData cid data) =
  Ok (if tcp_live c st cid then close_state cid st else st, []).
Proof. exact C08.C08_discard_tcp. Qed.
Theorem C08_garbage_is_close : forall fx c now branch st cid data, garbage data -> tcp_live c st cid = true ->
  proxy_step fx c now branch st (EvTcpData cid data) = proxy_step fx c now branch st (EvTcpClose cid).
Proof. exact C08.C08_garbage_is_close. Qed.
Theorem C08_tcp_garbage_after : forall d d1 m rest rest1 e c x,
  parse_message d = Ok (m, rest) -> garbage rest ->
  parse_message d1 = Ok (m, rest1) -> trim_left rest1 = [] ->
  tcp_messages (S (List.length d)) e c d x =
  rmap (close_ctx (cn_id c)) (tcp_messages (S (List.length d1)) e c d1 x).
Proof. exact C08.C08_tcp_garbage_after. Qed.
Theorem C08_discard_tcp_after : forall fx c now branch st cid d d1 m rest rest1 st1 outs1,
  parse_message d = Ok (m, rest) -> garbage rest ->
  parse_message d1 = Ok (m, rest1) -> trim_left rest1 = [] ->
  tcp_live c st cid = true ->
  proxy_step fx c now branch st (EvTcpData cid d1) = Ok (st1, outs1) ->
  proxy_step fx c now branch st (EvTcpData cid d) = Ok (close_state cid st1, outs1).
Proof. exact C08.C08_discard_tcp_after. Qed.
Theorem C08_serves_after : forall fx c st evs1 evs2 now branch li src sport d, undecodable d ->
  run_steps fx c st (evs1 ++ (now, branch, EvUdp li src sport d) :: evs2) =
  rmap (fun '(st', os) => (st', insert_at (List.length evs1) [] os)) (run_steps fx c st (evs1 ++ evs2)).
Proof. exact C08.C08_serves_after. Qed.
Theorem C08_serves_after_tcp : forall fx c st evs1 evs2 now branch cid d st1 os1, garbage d ->
  run_steps fx c st evs1 = Ok (st1, os1) ->
  run_steps fx c st (evs1 ++ (now, branch, EvTcpData cid d) :: evs2) =
  run_steps fx c st (evs1 ++ (if tcp_live c st1 cid then [(now, branch, EvTcpClose cid)]
                              else [(now, branch, EvUdp 0 [] 0%Z [])]) ++ evs2).
Proof. exact C08.C08_serves_after_tcp. Qed.
Theorem C08_output_bounded : forall fx c now branch st ev st' outs,
  proxy_step fx c now branch st ev = Ok (st', outs) ->
  count_msg outs <= msgs_in ev /\ List.length outs <= 2 * msgs_in ev.
Proof. exact C08.C08_output_bounded. Qed.
End P_C08.

(* ------------------------------------------------------------------ C17 *)
From Model Require Import Bytes Wire Uri Hdr Message Msg StaticRoute RoundRobin Pins Proxy RunProxy SpecC14 SpecProxy SpecProxy2.
From Model.proofs Require C17.
Section P_C17.
Import C17.
Local Close Scope Z_scope.
Theorem C17_same_header_equiv : forall n1 n2, same_header n1 n2 = true <-> canon n1 = canon n2.
Proof. exact C17.C17_same_header_equiv. Qed.
Theorem C17_same_header_refl : forall n, same_header n n = true.
Proof. exact C17.C17_same_header_refl. Qed.
Theorem C17_same_header_sym : forall a b, same_header a b = same_header b a.
Proof. exact C17.C17_same_header_sym. Qed.
Theorem C17_same_header_trans : forall a b c, same_header a b = true -> same_header b c = true -> same_header a c = true.
Proof. exact C17.C17_same_header_trans. Qed.
Theorem C17_one_content_length : forall m,
  List.length (filter (fun h => same_header (h_name h) (s2b "Content-Length")) (out_headers m)) = 1.
Proof. exact C17.C17_one_content_length. Qed.
Theorem C17_written_respelled : forall w1 w2, respelled w1 w2 ->
  write_message w1 = start_line_print (m_start w1) ++ crlf ++ flat_map header_print (out_headers w1) ++ crlf ++ m_body w1 /\
  write_message w2 = start_line_print (m_start w1) ++ crlf ++ flat_map header_print (out_headers w2) ++ crlf ++ m_body w1 /\
  hs_rel (out_headers w1) (out_headers w2) /\
  List.length (filter (fun h => same_header (h_name h) (s2b "Content-Length")) (out_headers w1)) = 1 /\
  List.length (filter (fun h => same_header (h_name h) (s2b "Content-Length")) (out_headers w2)) = 1.
Proof. exact C17.C17_written_respelled. Qed.
Theorem C17_respell_invariance : forall e peer pp from rs tcp m1 m2 x1 x2,
  respelled m1 m2 -> ctx_rel respelled x1 x2 ->
  opt_rel respelled (pm_written e peer pp from rs tcp m1 x1) (pm_written e peer pp from rs tcp m2 x2) /\
  (fits_opt (pm_written e peer pp from rs tcp m1 x1) = fits_opt (pm_written e peer pp from rs tcp m2 x2) ->
   res_ctx_rel respelled (process_message e peer pp from rs tcp m1 x1) (process_message e peer pp from rs tcp m2 x2)).
Proof. exact C17.C17_respell_invariance. Qed.
Theorem C17_respell_invariance_fun : forall s e peer pp from rs tcp m x, spelling s ->
  opt_rel respelled (pm_written e peer pp from rs tcp (respell s m) x) (pm_written e peer pp from rs tcp m x) /\
  (fits_opt (pm_written e peer pp from rs tcp (respell s m) x) = fits_opt (pm_written e peer pp from rs tcp m x) ->
   res_ctx_rel respelled (process_message e peer pp from rs tcp (respell s m) x) (process_message e peer pp from rs tcp m x)).
Proof. exact C17.C17_respell_invariance_fun. Qed.
Theorem C17_relayout_invariance : forall e peer pp from rs tcp m1 m2 x1 x2,
  relaid m1 m2 -> ctx_rel relaid x1 x2 ->
  opt_rel relaid (pm_written e peer pp from rs tcp m1 x1) (pm_written e peer pp from rs tcp m2 x2) /\
  (fits_opt (pm_written e peer pp from rs tcp m1 x1) = fits_opt (pm_written e peer pp from rs tcp m2 x2) ->
   res_ctx_rel relaid (process_message e peer pp from rs tcp m1 x1) (process_message e peer pp from rs tcp m2 x2)).
Proof. exact C17.C17_relayout_invariance. Qed.
Theorem C17_written_relaid : forall w1 w2, relaid w1 w2 ->
  m_start w1 = m_start w2 /\ m_body w1 = m_body w2 /\
  flatten_vias w1 = flatten_vias w2 /\ flatten_routes w1 = flatten_routes w2 /\
  plain_headers w1 = plain_headers w2.
Proof. exact C17.C17_written_relaid. Qed.
Theorem C17_pop_via_flat : forall m1 m2, relaid m1 m2 ->
  flatten_vias (fst (s_pop_via m1)) = flatten_vias (fst (s_pop_via m2)) /\ snd (s_pop_via m1) = snd (s_pop_via m2) /\
  flatten_vias m1 = flatten_vias m2 /\ snd (s_all_via_params m1) = snd (s_all_via_params m2) /\
  snd (next_response_hop m1) = snd (next_response_hop m2).
Proof. exact C17.C17_pop_via_flat. Qed.
Theorem C17_route_layout : forall c from keep m1 m2, relaid m1 m2 ->
  (snd (try_remove_top_route c from m1) = snd (try_remove_top_route c from m2) /\
   flatten_routes (fst (try_remove_top_route c from m1)) = flatten_routes (fst (try_remove_top_route c from m2))) /\
  (snd (next_hop_by_route keep m1) = snd (next_hop_by_route keep m2) /\
   flatten_routes (fst (next_hop_by_route keep m1)) = flatten_routes (fst (next_hop_by_route keep m2))) /\
  (snd (s_pop_route m1) = snd (s_pop_route m2) /\
   flatten_routes (fst (s_pop_route m1)) = flatten_routes (fst (s_pop_route m2))).
Proof. exact C17.C17_route_layout. Qed.
Theorem C17_respell_udp : forall fx c now br st li src sport d1 d2 m1 m2 r1 r2 lc p,
  parse_message d1 = Ok (m1, r1) -> parse_message d2 = Ok (m2, r2) -> respelled m1 m2 ->
  nth_opt (c_listens c) li = Some lc -> nth_p (st_proxies st) li = Some p ->
  let e := mk_env fx c (item_rs_of (fx_wiring fx)) li lc now br in
  let x := {| x_learned := st_learned st; x_p := p; x_conns := st_conns st; x_world := st_world st; x_outs := [] |} in
  let from := {| t_kind := KUdp; t_addr := lc_addr lc; t_port := lc_udp lc |} in
  fits_opt (pm_written e src sport from (e_item_rs e) None m1 x) = fits_opt (pm_written e src sport from (e_item_rs e) None m2 x) ->
  match proxy_step fx c now br st (EvUdp li src sport d1), proxy_step fx c now br st (EvUdp li src sport d2) with
  | Ok (st1, o1), Ok (st2, o2) => st1 = st2 /\ outs_rel respelled o1 o2
  | Err, Err => True
  | Panic, Panic => True
  | _, _ => False
  end.
Proof. exact C17.C17_respell_udp. Qed.
Theorem C17_relayout_udp : forall fx c now br st li src sport d1 d2 m1 m2 r1 r2 lc p,
  parse_message d1 = Ok (m1, r1) -> parse_message d2 = Ok (m2, r2) -> relaid m1 m2 ->
  nth_opt (c_listens c) li = Some lc -> nth_p (st_proxies st) li = Some p ->
  let e := mk_env fx c (item_rs_of (fx_wiring fx)) li lc now br in
  let x := {| x_learned := st_learned st; x_p := p; x_conns := st_conns st; x_world := st_world st; x_outs := [] |} in
  let from := {| t_kind := KUdp; t_addr := lc_addr lc; t_port := lc_udp lc |} in
  fits_opt (pm_written e src sport from (e_item_rs e) None m1 x) = fits_opt (pm_written e src sport from (e_item_rs e) None m2 x) ->
  match proxy_step fx c now br st (EvUdp li src sport d1), proxy_step fx c now br st (EvUdp li src sport d2) with
  | Ok (st1, o1), Ok (st2, o2) => st1 = st2 /\ outs_rel relaid o1 o2
  | Err, Err => True
  | Panic, Panic => True
  | _, _ => False
  end.
Proof. exact C17.C17_relayout_udp. Qed.
End P_C17.

(* ------------------------------------------------------------------ C12 *)
From Model Require Import Bytes Wire Uri Hdr Message Msg StaticRoute RoundRobin Pins Proxy RunProxy SpecC14 SpecProxy SpecProxy2.
From Model.proofs Require C04 C12.
Section P_C12.
Import C04 C12.
Theorem C12_register : forall e peer pport from rs c m x x' v cs br h0 pt tr0 host,
  fx_resolved_key (e_fx e) = true ->
  is_request m = true -> not_forwarded e m ->
  top_via_of m = Ok v -> snd (s_get_cseq m) = Ok cs -> via_get_branch v = Some br ->
  hop_of_via (stamp_via rs peer pport v) = (h0, pt, tr0) -> reg_host (e_fx e) h0 = Ok host ->
  process_message e peer pport from rs (Some c) m x = Ok x' ->
  let K := full_addr tcp (resolve (e_cfg e) host) pt (cs_method cs ++ "-"%char :: br) in
  reg_at K c (now_s e + 3600) (x_p x') /\ x_conns x' = x_conns x /\
  (* every other entry is as it was *)
  (forall K' f, alookup K' (ps_table (x_p x)) = Some f -> keepable (now_s e) f ->
                K' <> K -> K' <> full_addr tcp (resolve (e_cfg e) host) pt [] ->
                alookup K' (ps_table (x_p x')) = Some f).
Proof. exact C12.C12_register. Qed.
Theorem C12_lookup : forall e peer pport from rs tcp0 m x v host pt tr cs br c ex,
  is_request m = false ->
  next_top m = Ok v -> hop_of_via v = (host, pt, tr) -> to_lower tr = tcp ->
  snd (s_get_cseq m) = Ok cs -> via_get_branch v = Some br ->
  let K := full_addr tcp (resolve (e_cfg e) host) pt (cs_method cs ++ "-"%char :: br) in
  reg_at K c ex (x_p x) -> live (now_s e) ex -> conn_open (x_conns x) c = true ->
  exists x' b, process_message e peer pport from rs tcp0 m x = Ok x' /\
    (* written to c and to nothing else *)
    x_outs x' = x_outs x ++ [(DConn c, b)] /\ x_conns x' = x_conns x /\
    (* a provisional response leaves the entry in place *)
    (is_final_response m = false -> reg_at K c ex (x_p x')) /\
    (* a final response consumes it, AFTER having been sent through it *)
    (is_final_response m = true -> fx_resolved_key (e_fx e) = true -> alookup K (ps_table (x_p x')) = None).
Proof. exact C12.C12_lookup. Qed.
Theorem C12_until_final : forall e peer pport from rs tcp0 m x v host pt tr cs br c ex,
  is_request m = false ->
  next_top m = Ok v -> hop_of_via v = (host, pt, tr) -> to_lower tr = tcp ->
  snd (s_get_cseq m) = Ok cs -> via_get_branch v = Some br ->
  reg_at (full_addr tcp (resolve (e_cfg e) host) pt (cs_method cs ++ "-"%char :: br)) c ex (x_p x) ->
  live (now_s e) ex -> conn_open (x_conns x) c = true ->
  exists x' b, process_message e peer pport from rs tcp0 m x = Ok x' /\ x_outs x' = x_outs x ++ [(DConn c, b)].
Proof. exact C12.C12_until_final. Qed.
Theorem C12_same_connection : forall cf li lc h1 tq bq c dataq h2 tr br peer pport datar st0 stf outss
    st1 o1 cn pq mq restq mr restr v cs brq h0 pt tr0 host v2 host2 trr cs2,
  nth_opt (c_listens cf) li = Some lc ->
  run all_fixed cf st0 (h1 ++ (tq, bq, EvTcpData c dataq) :: h2 ++ [(tr, br, EvUdp li peer pport datar)]) = Ok (stf, outss) ->
  run all_fixed cf st0 h1 = Ok (st1, o1) ->
  (* c is an open connection of listener li *)
  find (fun x => Nat.eqb (cn_id x) c) (st_conns st1) = Some cn -> cn_open cn = true -> cn_li cn = li ->
  nth_p (st_proxies st1) li = Some pq ->
  (* the request: one complete message, not relayed along a Route / static route *)
  parse_message dataq = Ok (mq, restq) -> trim_left restq = [] ->
  is_request mq = true -> not_forwarded (mk_env all_fixed cf (item_rs_of true) li lc tq bq) mq ->
  top_via_of mq = Ok v -> snd (s_get_cseq mq) = Ok cs -> via_get_branch v = Some brq ->
  hop_of_via (stamp_via (cn_received_support cn) (cn_peer cn) (cn_peer_port cn) v) = (h0, pt, tr0) ->
  reg_host all_fixed h0 = Ok host ->
  (* the entry is filed under the RESOLVED response host *)
  let K := full_addr tcp (resolve cf host) pt (cs_method cs ++ "-"%char :: brq) in
  let ex := tq / second + 3600 in
  (* in between: nothing that touches K except provisional responses of the transaction itself;
     c is not closed; less than 3600 s *)
  (forall st2 oq, proxy_step all_fixed cf tq bq st1 (EvTcpData c dataq) = Ok (st2, oq) ->
                  hist_away li K c ex all_fixed cf st2 h2) ->
  (* the response: the client's Via entry under the proxy's: a response host that resolves to the
     same address (in particular the same text), same port, same branch, same CSeq method *)
  parse_message datar = Ok (mr, restr) -> is_request mr = false ->
  next_top mr = Ok v2 -> hop_of_via v2 = (host2, pt, trr) -> to_lower trr = tcp ->
  snd (s_get_cseq mr) = Ok cs2 -> cs_method cs2 = cs_method cs -> via_get_branch v2 = Some brq ->
  resolve cf host2 = resolve cf host -> tr / second <= ex ->
  exists b, last outss [] = [(DConn c, b)].
Proof. exact C12.C12_same_connection. Qed.
Theorem C12_legacy_refuted :
  (* before the repair (fx_resolved_key = false) *)
  dests (run legacy_key_fixes b2_cfg (init_state b2_cfg 0 []) b2_hist) = [ []; [DUdp (s2b "10.0.0.11") 5070]; [] ] /\
  dests (run legacy_key_fixes b2_cfg (init_state b2_cfg 0 [(s2b "10.0.0.50", 5060)]) b2_hist) =
    [ []; [DUdp (s2b "10.0.0.11") 5070]; [DDial (s2b "10.0.0.50") 5060 1; DConn 1] ] /\
  keys_of (run legacy_key_fixes b2_cfg (init_state b2_cfg 0 []) (firstn 2 b2_hist)) =
    map s2b ["tcp://10.0.0.50:40001"; "tcp://client.example:5060"; "tcp://client.example:5060-INVITE-z9hG4bKa"]%string /\
  keys_of (run legacy_key_fixes b2_cfg (init_state b2_cfg 0 []) b2_hist) =
    map s2b ["tcp://10.0.0.50:40001"; "tcp://client.example:5060"; "tcp://10.0.0.50:5060";
             "tcp://10.0.0.50:5060-INVITE-z9hG4bKa"]%string /\
  (* after the repair: the same history delivers the 200 on connection 0, whether or not
     10.0.0.50:5060 accepts connections, and the per-transaction key is consumed *)
  dests (run all_fixed b2_cfg (init_state b2_cfg 0 []) b2_hist) = [ []; [DUdp (s2b "10.0.0.11") 5070]; [DConn 0] ] /\
  dests (run all_fixed b2_cfg (init_state b2_cfg 0 [(s2b "10.0.0.50", 5060)]) b2_hist) =
    [ []; [DUdp (s2b "10.0.0.11") 5070]; [DConn 0] ] /\
  keys_of (run all_fixed b2_cfg (init_state b2_cfg 0 []) (firstn 2 b2_hist)) =
    map s2b ["tcp://10.0.0.50:40001"; "tcp://10.0.0.50:5060"; "tcp://10.0.0.50:5060-INVITE-z9hG4bKa"]%string /\
  keys_of (run all_fixed b2_cfg (init_state b2_cfg 0 []) b2_hist) =
    map s2b ["tcp://10.0.0.50:40001"; "tcp://10.0.0.50:5060"]%string.
Proof. exact C12.C12_legacy_refuted. Qed.
Theorem C12_preserved : forall li K c ex fx cf now branch st ev st' outs,
  proxy_step fx cf now branch st ev = Ok (st', outs) ->
  ev_away li K c fx cf now branch st ev -> now / second <= ex ->
  held li K c ex st -> held li K c ex st'.
Proof. exact C12.C12_preserved. Qed.
Theorem C12_preserved_history : forall li K c ex fx cf h st st' outss,
  run fx cf st h = Ok (st', outss) -> hist_away li K c ex fx cf st h -> held li K c ex st -> held li K c ex st'.
Proof. exact C12.C12_preserved_history. Qed.
Theorem C12_full_addr_inj_tid : forall proto host port t t',
  full_addr proto host port t = full_addr proto host port t' -> beq proto tcp = true -> t = t'.
Proof. exact C12.full_addr_inj_tid. Qed.
Theorem C12_tid_inj : forall m b m' b', ~ In "-"%char m -> ~ In "-"%char m' ->
  m ++ "-"%char :: b = m' ++ "-"%char :: b' -> m = m' /\ b = b'.
Proof. exact C12.tid_inj. Qed.
Theorem C12_keys_differ : forall host port m b m' b', ~ In "-"%char m -> ~ In "-"%char m' -> (m, b) <> (m', b') ->
  full_addr tcp host port (m ++ "-"%char :: b) <> full_addr tcp host port (m' ++ "-"%char :: b').
Proof. exact C12.keys_differ. Qed.
Theorem C12_accept_key_differs host port t : t <> [] -> full_addr tcp host port t <> full_addr tcp host port [].
Proof. intros; eapply C12.accept_key_differs; eassumption. Qed.
End P_C12.

(* ------------------------------------------------------------------ C04 *)
From Model Require Import Bytes Wire Uri Hdr Message Msg StaticRoute RoundRobin Pins Proxy RunProxy SpecC14 SpecProxy SpecProxy2.
From Model.proofs Require C04.
Section P_C04.
Import C04.
Theorem C04_bind : forall e peer port from rs tcp m x g d,
  is_request m = false ->
  alookup (join_host_port peer port) (ps_backends (x_p x)) = Some g ->
  method_of m = Ok (s2b "INVITE") -> dialog_of m = Ok d ->
  let addr := join_host_port peer port in
  let life := pins_lifetime (ps_pins (x_p x)) (get_expires m 0) in
  0 <= life ->
  exists x', process_message e peer port from rs tcp m x = Ok x' /\
    pin_at d (pin_val_backend addr g) (e_now e + life) (ps_pins (x_p x')) /\
    (forall t, t < e_now e + life -> snd (pins_get t d (ps_pins (x_p x'))) = Some (pin_val_backend addr g)) /\
    static_eq (x_p x) (x_p x').
Proof. exact C04.C04_bind. Qed.
Theorem C04_bind_subscribe : forall e peer port from rs tcp m x host hport tr g d,
  is_request m = false ->
  relay_hop m = Ok (host, hport, tr) ->
  alookup (host ++ ":"%char :: itoa hport) (ps_backends (x_p x)) = Some g ->
  method_of m = Ok (s2b "SUBSCRIBE") -> dialog_of m = Ok d ->
  let addr := host ++ ":"%char :: itoa hport in
  let life := pins_lifetime (ps_pins (x_p x)) (get_expires m 0) in
  0 <= life ->
  exists x', process_message e peer port from rs tcp m x = Ok x' /\
    pin_at d (pin_val_backend addr g) (e_now e + life) (ps_pins (x_p x')) /\
    (forall t, t < e_now e + life -> snd (pins_get t d (ps_pins (x_p x'))) = Some (pin_val_backend addr g)) /\
    static_eq (x_p x) (x_p x').
Proof. exact C04.C04_bind_subscribe. Qed.
Theorem C04_sticky_step : forall e m x t0 d addr g ex dst,
  fx_indialog_invite (e_fx e) = true ->
  ps_has_rr (x_p x) = true -> first_transport (e_lc e) = Some t0 ->
  is_request m = true -> dialog_of m = Ok d ->
  pin_at d (pin_val_backend addr g) ex (ps_pins (x_p x)) -> e_now e < ex ->
  alookup addr (ps_backends (x_p x)) = Some g -> gen_ok g -> addr_dest addr = Some dst ->
  let b := fwd_bytes e t0 (x_p x) m in
  let x' := fst (send_to_backend e m x) in
  (* exactly one datagram, to the pinned backend (none at all if it exceeds a datagram) *)
  x_outs x' = x_outs x ++ (if fits_datagram b then [(dst, b)] else []) /\
  (* the rotation did not move, the members did not change *)
  ps_rr (x_p x') = ps_rr (x_p x) /\ ps_backends (x_p x') = ps_backends (x_p x) /\
  (* the pin stays, except after a terminating NOTIFY which removes it after having used it *)
  ((forall c, snd (s_get_cseq m) = Ok c -> trans_key e c <> d) ->
   if notify_terminated (req_method m) m
   then alookup d (p_tab (ps_pins (x_p x'))) = None
   else pin_at d (pin_val_backend addr g) ex (ps_pins (x_p x'))).
Proof. exact C04.C04_sticky_step. Qed.
Theorem C04_sticky_step_reverse : forall e m m' x t0 d addr g ex dst cid f t f' t',
  get_raw (s2b "Call-ID") m = Ok cid -> get_raw (s2b "Call-ID") m' = Ok cid ->
  snd (s_get_from m) = Ok f -> snd (s_get_to m) = Ok t ->
  snd (s_get_from m') = Ok f' -> snd (s_get_to m') = Ok t' ->
  fromto_tag f' = fromto_tag t -> fromto_tag t' = fromto_tag f ->
  dialog_addr (fromto_addr_spec f') = dialog_addr (fromto_addr_spec t) ->
  dialog_addr (fromto_addr_spec t') = dialog_addr (fromto_addr_spec f) ->
  dialog_of m = Ok d ->
  fx_indialog_invite (e_fx e) = true -> ps_has_rr (x_p x) = true -> first_transport (e_lc e) = Some t0 ->
  is_request m' = true ->
  pin_at d (pin_val_backend addr g) ex (ps_pins (x_p x)) -> e_now e < ex ->
  alookup addr (ps_backends (x_p x)) = Some g -> gen_ok g -> addr_dest addr = Some dst ->
  let b := fwd_bytes e t0 (x_p x) m' in
  let x' := fst (send_to_backend e m' x) in
  x_outs x' = x_outs x ++ (if fits_datagram b then [(dst, b)] else []) /\
  ps_rr (x_p x') = ps_rr (x_p x) /\ ps_backends (x_p x') = ps_backends (x_p x).
Proof. exact C04.C04_sticky_step_reverse. Qed.
Theorem C04_preserved_message : forall e peer port from rs tcp m x x' d v ex,
  process_message e peer port from rs tcp m x = Ok x' ->
  msg_ok d (e_branch e) m ->
  pin_at d v ex (ps_pins (x_p x)) -> e_now e < ex ->
  (* the pinned backend object is still registered (a pin whose object has left the set is forgotten
     by the next request of its dialog, C04_stale_pin_balanced) *)
  bref_alive (x_p x) (bref_of_val v) = true ->
  pin_at d v ex (ps_pins (x_p x')) /\ mem_eq (x_p x) (x_p x').
Proof. exact C04.C04_preserved_message. Qed.
Theorem C04_unpinned_step : forall e m x t0,
  ps_has_rr (x_p x) = true -> first_transport (e_lc e) = Some t0 -> is_request m = true ->
  (forall d, dialog_of m = Ok d -> snd (pins_get (e_now e) d (ps_pins (x_p x))) = None) ->
  let b := fwd_bytes e t0 (x_p x) m in
  let x' := fst (send_to_backend e m x) in
  x_outs x' = x_outs x ++
    match snd (rr_dispatch (ps_rr (x_p x))) with
    | Some a => if fits_datagram b then to_addr_outs a b else []
    | None => []
    end /\
  ps_rr (x_p x') = fst (rr_dispatch (ps_rr (x_p x))).
Proof. exact C04.C04_unpinned_step. Qed.
Theorem C04_stale_pin_balanced : forall e m x t0 d addr g ex,
  fx_stale_pin (e_fx e) = true ->
  ps_has_rr (x_p x) = true -> first_transport (e_lc e) = Some t0 ->
  is_request m = true -> dialog_of m = Ok d ->
  (* the dialog is bound, the binding has not expired ... *)
  pin_at d (pin_val_backend addr g) ex (ps_pins (x_p x)) -> e_now e < ex ->
  (* ... but the backend object it names is not registered any more *)
  alookup addr (ps_backends (x_p x)) <> Some g -> gen_ok g ->
  let b := fwd_bytes e t0 (x_p x) m in
  let x' := fst (send_to_backend e m x) in
  (* exactly what an unpinned request gets (C04_unpinned_step): the rotation's next backend *)
  x_outs x' = x_outs x ++
    match snd (rr_dispatch (ps_rr (x_p x))) with
    | Some a => if fits_datagram b then to_addr_outs a b else []
    | None => []
    end /\
  ps_rr (x_p x') = fst (rr_dispatch (ps_rr (x_p x))) /\
  (* and the stale binding is gone *)
  (fx_indialog_invite (e_fx e) = true ->
   (forall c, snd (s_get_cseq m) = Ok c -> trans_key e c <> d) ->
   alookup d (p_tab (ps_pins (x_p x'))) = None).
Proof. exact C04.C04_stale_pin_balanced. Qed.
Theorem C04_preserved_history : forall li d addr g ex fx c h st st' outss,
  run fx c st h = Ok (st', outss) ->
  Forall (fun '(now, br, ev) => now < ex /\ ev_ok li d addr br ev) h ->
  gen_ok g ->
  pinned li d addr g ex st -> pinned li d addr g ex st'.
Proof. exact C04.C04_preserved_history. Qed.
Theorem C04_sticky : forall c li lc t0 h1 tb bb peer port datab h2 tr br src sport datar st0 stf outss
                            st1 o1 p1 mb restb mr restr g d dst,
  nth_opt (c_listens c) li = Some lc -> first_transport lc = Some t0 ->
  run all_fixed c st0 (h1 ++ (tb, bb, EvUdp li peer port datab) :: h2 ++ [(tr, br, EvUdp li src sport datar)])
    = Ok (stf, outss) ->
  (* when the response arrives its sender is a registered backend (generation g) *)
  run all_fixed c st0 h1 = Ok (st1, o1) -> nth_p (st_proxies st1) li = Some p1 ->
  let addr := join_host_port peer port in
  alookup addr (ps_backends p1) = Some g -> gen_ok g -> ps_has_rr p1 = true -> addr_dest addr = Some dst ->
  (* the binding response: INVITE in CSeq, both tags *)
  parse_message datab = Ok (mb, restb) -> is_request mb = false ->
  method_of mb = Ok (s2b "INVITE") -> dialog_of mb = Ok d ->
  let life := pins_lifetime (ps_pins p1) (get_expires mb 0) in
  0 <= life ->
  (* in between: anything but a terminator for d, within the lifetime *)
  Forall (fun '(now, b, ev) => now < tb + life /\ ev_ok li d addr b ev) h2 ->
  (* the request: same dialog (either direction, any method), addressed to the service *)
  parse_message datar = Ok (mr, restr) -> dialog_of mr = Ok d -> tr < tb + life ->
  addressed_to_service (mk_env all_fixed c (item_rs_of true) li lc tr br) (udp_from lc) mr ->
  exists b, last outss [] = if fits_datagram b then [(dst, b)] else [].
Proof. exact C04.C04_sticky. Qed.
Theorem C04_unpinned_balanced : forall e peer port from rs tcp m x x' t0,
  addressed_to_service e from m -> process_message e peer port from rs tcp m x = Ok x' ->
  ps_has_rr (x_p x) = true -> first_transport (e_lc e) = Some t0 ->
  (forall d, dialog_of m = Ok d -> snd (pins_get (e_now e) d (ps_pins (x_p x))) = None) ->
  exists b,
    x_outs x' = x_outs x ++
      match snd (rr_dispatch (ps_rr (x_p x))) with
      | Some a => if fits_datagram b then to_addr_outs a b else []
      | None => []
      end /\
    ps_rr (x_p x') = fst (rr_dispatch (ps_rr (x_p x))).
Proof. exact C04.C04_unpinned_balanced. Qed.
Theorem C04_sticky_pinned : forall c li lc t0 h2 tr br src sport datar st2 stf outss mr restr addr g d ex dst,
  nth_opt (c_listens c) li = Some lc -> first_transport lc = Some t0 ->
  pinned li d addr g ex st2 -> gen_ok g -> addr_dest addr = Some dst ->
  run all_fixed c st2 (h2 ++ [(tr, br, EvUdp li src sport datar)]) = Ok (stf, outss) ->
  Forall (fun '(now, b, ev) => now < ex /\ ev_ok li d addr b ev) h2 ->
  parse_message datar = Ok (mr, restr) -> dialog_of mr = Ok d -> tr < ex ->
  addressed_to_service (mk_env all_fixed c (item_rs_of true) li lc tr br) (udp_from lc) mr ->
  exists b, last outss [] = if fits_datagram b then [(dst, b)] else [].
Proof. exact C04.C04_sticky_pinned. Qed.
Theorem C04_legacy_refuted :
  let h := firstn 4 ex_hist in
  let st3 := match run legacy_fixes ex_cfg ex_st0 (firstn 3 ex_hist) with Ok (s, _) => s | _ => ex_st0 end in
  (* the binding is there and live when the re-INVITE arrives (t = 4 s) *)
  match nth_p (st_proxies st3) 0 with
  | Some p => snd (pins_get (sec 4) ex_d (ps_pins p)) = Some (pin_val_backend (s2b "10.0.0.12:5070") 1)
  | None => False
  end /\
  dialog_of (msg_of ex_reinvite) = Ok ex_d /\
  last (dests (run legacy_fixes ex_cfg ex_st0 h)) [] = [DUdp (s2b "10.0.0.11") 5070] /\
  last (dests (run all_fixed ex_cfg ex_st0 h)) [] = [DUdp (s2b "10.0.0.12") 5070].
Proof. exact C04.C04_legacy_refuted. Qed.
Theorem C04_stale_pin_legacy_refuted :
  (* when the BYE arrives (t = 5 s) the binding to the object 10.0.0.12:5070#1 is there and live, that object is not
     registered any more, 10.0.0.11:5070 is *)
  match nth_p (st_proxies (dyn_st4 stale_legacy_fixes)) 0 with
  | Some p => snd (pins_get (sec 5) ex_d (ps_pins p)) = Some (pin_val_backend (s2b "10.0.0.12:5070") 1) /\
              alookup (s2b "10.0.0.12:5070") (ps_backends p) = None /\
              alookup (s2b "10.0.0.11:5070") (ps_backends p) = Some 0%nat
  | None => False
  end /\
  dialog_of (msg_of ex_bye) = Ok ex_d /\
  (* INVITE -> .12 (the dynamic backend), 200 -> caller, BYE -> nowhere *)
  dests (run stale_legacy_fixes dyn_cfg dyn_st0 dyn_hist) =
    [ []; [DUdp (s2b "10.0.0.12") 5070]; [DUdp (s2b "10.0.0.99") 5060]; []; [] ] /\
  (* the current tree: BYE -> .11, the registered backend *)
  dests (run all_fixed dyn_cfg dyn_st0 dyn_hist) =
    [ []; [DUdp (s2b "10.0.0.12") 5070]; [DUdp (s2b "10.0.0.99") 5060]; []; [DUdp (s2b "10.0.0.11") 5070] ].
Proof. exact C04.C04_stale_pin_legacy_refuted. Qed.
Theorem C04_preserved : forall li d addr g ex fx c now branch st ev st' outs,
  proxy_step fx c now branch st ev = Ok (st', outs) ->
  ev_ok li d addr branch ev -> now < ex -> gen_ok g -> pinned li d addr g ex st -> pinned li d addr g ex st'.
Proof. exact C04.C04_preserved. Qed.
Theorem C04_dialog_of_symmetric : forall m m' cid f t f' t',
  get_raw (s2b "Call-ID") m = Ok cid -> get_raw (s2b "Call-ID") m' = Ok cid ->
  snd (s_get_from m) = Ok f -> snd (s_get_to m) = Ok t ->
  snd (s_get_from m') = Ok f' -> snd (s_get_to m') = Ok t' ->
  fromto_tag f' = fromto_tag t -> fromto_tag t' = fromto_tag f ->
  dialog_addr (fromto_addr_spec f') = dialog_addr (fromto_addr_spec t) ->
  dialog_addr (fromto_addr_spec t') = dialog_addr (fromto_addr_spec f) ->
  dialog_of m' = dialog_of m.
Proof. exact C04.dialog_of_symmetric. Qed.
Theorem C04_bref_round_trip : forall b, match b with BObj _ g => gen_ok g | BRR => True end ->
  bref_of_val (bref_val b) = b.
Proof. exact C04.bref_round_trip. Qed.
Theorem C04_key_neq_dialog : forall meth branch d,
  ~ In "-"%char meth -> has_prefix cookie branch = true ->
  match index_byte "-"%char d with
  | Some i => has_prefix cookie (skipn (S i) d) = false
  | None => True
  end ->
  meth ++ "-"%char :: branch <> d.
Proof. exact C04.key_neq_dialog. Qed.
End P_C04.

(* ------------------------------------------------------------------ TB *)
From Model Require Import Bytes Wire Uri Hdr Message Msg StaticRoute RoundRobin Pins Proxy RunProxy SpecC14 SpecProxy SpecProxy2 ProxyTB.
From Model.proofs Require C04 C06 TB.
Section P_TB.
Import C04 C06 TB.
Theorem TB_conservative_entry : forall tb fx c now br st cache ev,
  match ev_li st ev with Some li => is_tb tb li = false | None => True end ->
  proxy_step_tb tb fx c now br st cache ev = lift_step (proxy_step fx c now br st ev) cache.
Proof. exact TB.TB_conservative_entry. Qed.
Theorem TB_conservative : forall tb fx c now br st cache ev,
  (forall li, is_tb tb li = false) ->
  proxy_step_tb tb fx c now br st cache ev = lift_step (proxy_step fx c now br st ev) cache.
Proof. exact TB.TB_conservative. Qed.
Theorem TB_conservative_history : forall tb fx c, (forall li, is_tb tb li = false) ->
  forall h st cache, run_tb tb fx c st cache h = lift_run (C04.run fx c st h) cache.
Proof. exact TB.TB_conservative_history. Qed.
Theorem TB_copy_faithful : forall e from m x cache,
  reaches_backend e from m = false ->
  handle_message_tb e from m x cache = lift_hm (handle_message e from m x) cache.
Proof. exact TB.TB_copy_faithful. Qed.
Theorem TB_copy_faithful_backend : forall e from m x cache,
  reaches_backend e from m = true ->
  let m1 := fst (next_request_hop (c_keep_next_hop (e_cfg e)) (route_table_of (e_cfg e)) m) in
  handle_message_tb e from m x cache = send_to_backend_tb e m1 x cache /\
  handle_message e from m x = send_to_backend e m1 x.
Proof. exact TB.TB_copy_faithful_backend. Qed.
Theorem TB_copy_faithful_response : forall e from m x cache,
  is_request m = false ->
  handle_message_tb e from m x cache = (let '(x', m') := handle_message e from m x in (x', m', cache)).
Proof. exact TB.TB_copy_faithful_response. Qed.
Theorem TB_copy_faithful_hop : forall e from m x cache v,
  snd (next_request_hop (c_keep_next_hop (e_cfg e)) (route_table_of (e_cfg e)) m) = Ok v ->
  handle_message_tb e from m x cache = (let '(x', m') := handle_message e from m x in (x', m', cache)).
Proof. exact TB.TB_copy_faithful_hop. Qed.
Theorem TB_copy_faithful_not_mine : forall e from m x cache,
  is_my_message (new_my_name (c_name (e_cfg e))) from
    (fst (next_request_hop (c_keep_next_hop (e_cfg e)) (route_table_of (e_cfg e)) m)) = false ->
  handle_message_tb e from m x cache = (let '(x', m') := handle_message e from m x in (x', m', cache)).
Proof. exact TB.TB_copy_faithful_not_mine. Qed.
Theorem TB_copy_faithful_process : forall e peer peer_port from rs tcp m0 x cache,
  match pm_reach e peer peer_port from rs tcp m0 x with
  | Ok (m5, _) => reaches_backend e from m5 = false
  | _ => True
  end ->
  process_message_tb e peer peer_port from rs tcp m0 x cache =
  match process_message e peer peer_port from rs tcp m0 x with
  | Ok x' => Ok (x', cache) | Err => Err | Panic => Panic end.
Proof. exact TB.TB_copy_faithful_process. Qed.
Theorem TB_copy_faithful_process_response : forall e peer peer_port from rs tcp m x cache,
  is_request m = false ->
  process_message_tb e peer peer_port from rs tcp m x cache =
  match process_message e peer peer_port from rs tcp m x with
  | Ok x' => Ok (x', cache) | Err => Err | Panic => Panic end.
Proof. exact TB.TB_copy_faithful_process_response. Qed.
Theorem TB_send_reuse : forall e a g b x cache pos c,
  last_index_byte ":"%char a = Some pos ->
  alookup (tb_key (e_li e) a g) cache = Some c -> conn_open (x_conns x) c = true ->
  tcp_backend_send e a g b x cache = (x, cache, [(DConn c, b)], true).
Proof. exact TB.TB_send_reuse. Qed.
Theorem TB_send_dial : forall e a g b x cache pos,
  last_index_byte ":"%char a = Some pos ->
  let ip := firstn pos a in
  let port := atoi_val (skipn (S pos) a) in
  let key := tb_key (e_li e) a g in
  let c := w_next_conn (x_world x) in
  (* no cached connection, or the cached one is closed *)
  (alookup key cache = None \/ exists c0, alookup key cache = Some c0 /\ conn_open (x_conns x) c0 = false) ->
  (* the backend accepts connections *)
  existsb (fun '(h, pt) => beq h ip && Z.eqb pt port) (w_tcp_listeners (x_world x)) = true ->
  exists x' cache',
    tcp_backend_send e a g b x cache = (x', cache', [(DDial ip port c, []); (DConn c, b)], true) /\
    x_conns x' = x_conns x ++ [{| cn_id := c; cn_li := e_li e; cn_open := true; cn_peer := ip; cn_peer_port := port;
                                  cn_from := tb_local; cn_received_support := e_item_rs e |}] /\
    conn_open (x_conns x') c = true /\
    alookup key cache' = Some c /\
    cache' = aset key c (tb_forget key cache) /\
    w_next_conn (x_world x') = S c /\ w_tcp_listeners (x_world x') = w_tcp_listeners (x_world x) /\
    x_p x' = x_p x /\ x_learned x' = x_learned x /\ x_outs x' = x_outs x.
Proof. exact TB.TB_send_dial. Qed.
Theorem TB_send_refused : forall e a g b x cache pos,
  last_index_byte ":"%char a = Some pos ->
  let ip := firstn pos a in
  let port := atoi_val (skipn (S pos) a) in
  let key := tb_key (e_li e) a g in
  (alookup key cache = None \/ exists c0, alookup key cache = Some c0 /\ conn_open (x_conns x) c0 = false) ->
  existsb (fun '(h, pt) => beq h ip && Z.eqb pt port) (w_tcp_listeners (x_world x)) = false ->
  exists cache',
    (* no output, no new connection, nothing else changed *)
    tcp_backend_send e a g b x cache = (x, cache', [], false) /\
    (* the stale entry, if any, is gone; every other entry is as before *)
    alookup key cache' = None /\ cache' = tb_forget key cache /\
    (forall k, k <> key -> alookup k cache' = alookup k cache).
Proof. exact TB.TB_send_refused. Qed.
Theorem TB_send_malformed : forall e a g b x cache,
  last_index_byte ":"%char a = None -> tcp_backend_send e a g b x cache = (x, cache, [], false).
Proof. exact TB.TB_send_malformed. Qed.
Theorem TB_send_one_message : forall e a g b x cache x' cache' outs ok,
  tcp_backend_send e a g b x cache = (x', cache', outs, ok) ->
  C06.one_msg b outs /\
  (ok = true -> C06.msg_count outs = 1%nat) /\ (ok = false -> outs = []) /\
  x_p x' = x_p x /\ x_learned x' = x_learned x /\ x_outs x' = x_outs x /\
  (exists extra, x_conns x' = x_conns x ++ extra) /\
  w_tcp_listeners (x_world x') = w_tcp_listeners (x_world x).
Proof. exact TB.TB_send_one_message. Qed.
Theorem TB_payload_agrees : forall e m x cache,
  let xu := fst (send_to_backend e m x) in
  let mu := snd (send_to_backend e m x) in
  let xt := fst (fst (send_to_backend_tb e m x cache)) in
  let mt := snd (fst (send_to_backend_tb e m x cache)) in
  exists extra_u extra_t,
    x_outs xu = x_outs x ++ extra_u /\ x_outs xt = x_outs x ++ extra_t /\
    (forall t0, first_transport (e_lc e) = Some t0 ->
       let m2 := px_add_record_route (pa_must_rr (wire_proxy (e_lc e))) t0
                   (px_add_via e t0 (fst (find_backend_by_dialog e (x_p x) m))) in
       C06.one_msg (write_message m2) extra_u /\ C06.one_msg (write_message m2) extra_t) /\
    (first_transport (e_lc e) = None -> extra_u = [] /\ extra_t = []) /\
    (stb_ok e m x = false -> extra_u = []) /\
    (stb_ok_tb e m x cache = true -> C06.msg_count extra_t = 1%nat) /\
    (stb_ok_tb e m x cache = false -> extra_t = []) /\
    (stb_ok e m x = stb_ok_tb e m x cache -> mt = mu /\ ps_pins (x_p xt) = ps_pins (x_p xu)) /\
    ps_rr (x_p xt) = ps_rr (x_p xu) /\ ps_backends (x_p xt) = ps_backends (x_p xu) /\
    ps_has_rr (x_p xt) = ps_has_rr (x_p xu) /\ x_learned xt = x_learned xu.
Proof. exact TB.TB_payload_agrees. Qed.
Theorem TB_rotation_agrees : forall e m x cache,
  ps_rr (x_p (fst (fst (send_to_backend_tb e m x cache)))) = ps_rr (x_p (fst (send_to_backend e m x))) /\
  ps_backends (x_p (fst (fst (send_to_backend_tb e m x cache)))) = ps_backends (x_p (fst (send_to_backend e m x))).
Proof. exact TB.TB_rotation_agrees. Qed.
Theorem TB_at_most_one_message : forall e peer peer_port from rs tcp m x cache x' cache',
  process_message_tb e peer peer_port from rs tcp m x cache = Ok (x', cache') ->
  exists extra, x_outs x' = x_outs x ++ extra /\ (C06.msg_count extra <= 1)%nat.
Proof. exact TB.TB_at_most_one_message. Qed.
Theorem TB_at_most_one : forall tb fx c now br st cache li src sport data st' cache' outs,
  proxy_step_tb tb fx c now br st cache (EvUdp li src sport data) = Ok (st', cache', outs) ->
  (C06.msg_count outs <= 1)%nat.
Proof. exact TB.TB_at_most_one. Qed.
Theorem TB_at_most_one_tcp : forall tb fx c now br st cache cid data st' cache' outs,
  proxy_step_tb tb fx c now br st cache (EvTcpData cid data) = Ok (st', cache', outs) ->
  exists chunks, outs = List.concat chunks /\
                 (List.length chunks <= List.length (parse_stream (S (List.length data)) data))%nat /\
                 Forall (fun ch => (C06.msg_count ch <= 1)%nat) chunks.
Proof. exact TB.TB_at_most_one_tcp. Qed.
Theorem TB_sticky_step : forall e m x cache t0 d addr g ex pos,
  fx_indialog_invite (e_fx e) = true ->
  ps_has_rr (x_p x) = true -> first_transport (e_lc e) = Some t0 ->
  is_request m = true -> C04.dialog_of m = Ok d ->
  C04.pin_at d (pin_val_backend addr g) ex (ps_pins (x_p x)) -> e_now e < ex ->
  alookup addr (ps_backends (x_p x)) = Some g -> C04.gen_ok g ->
  last_index_byte ":"%char addr = Some pos ->
  let ip := firstn pos addr in
  let port := atoi_val (skipn (S pos) addr) in
  let key := tb_key (e_li e) addr g in
  let n := w_next_conn (x_world x) in
  let b := C04.fwd_bytes e t0 (x_p x) m in
  let x' := fst (fst (send_to_backend_tb e m x cache)) in
  let cache' := snd (send_to_backend_tb e m x cache) in
  (* where the bytes go *)
  match tb_usable x key cache with
  | Some c => x_outs x' = x_outs x ++ [(DConn c, b)] /\ x_conns x' = x_conns x /\ x_world x' = x_world x /\ cache' = cache
  | None =>
      if tb_listens x ip port
      then x_outs x' = x_outs x ++ [(DDial ip port n, []); (DConn n, b)] /\
           x_conns x' = x_conns x ++ [{| cn_id := n; cn_li := e_li e; cn_open := true; cn_peer := ip; cn_peer_port := port;
                                         cn_from := tb_local; cn_received_support := e_item_rs e |}] /\
           w_next_conn (x_world x') = S n /\ alookup key cache' = Some n
      else x_outs x' = x_outs x /\ x_conns x' = x_conns x /\ x_world x' = x_world x /\ alookup key cache' = None
  end /\
  (* the rotation did not move, the members did not change *)
  ps_rr (x_p x') = ps_rr (x_p x) /\ ps_backends (x_p x') = ps_backends (x_p x) /\ x_learned x' = x_learned x /\
  (* the pin stays, except after a terminating NOTIFY which removes it after having used it *)
  ((forall c, snd (s_get_cseq m) = Ok c -> C04.trans_key e c <> d) ->
   if C04.notify_terminated (C04.req_method m) m
   then alookup d (p_tab (ps_pins (x_p x'))) = None
   else C04.pin_at d (pin_val_backend addr g) ex (ps_pins (x_p x'))).
Proof. exact TB.TB_sticky_step. Qed.
Theorem TB_sticky_same_message : forall e m x cache t0 d addr g ex pos,
  fx_indialog_invite (e_fx e) = true ->
  ps_has_rr (x_p x) = true -> first_transport (e_lc e) = Some t0 ->
  is_request m = true -> C04.dialog_of m = Ok d ->
  C04.pin_at d (pin_val_backend addr g) ex (ps_pins (x_p x)) -> e_now e < ex ->
  alookup addr (ps_backends (x_p x)) = Some g -> C04.gen_ok g ->
  last_index_byte ":"%char addr = Some pos ->
  fits_datagram (C04.fwd_bytes e t0 (x_p x) m) = true ->
  (tb_usable x (tb_key (e_li e) addr g) cache <> None \/
   tb_listens x (firstn pos addr) (atoi_val (skipn (S pos) addr)) = true) ->
  snd (fst (send_to_backend_tb e m x cache)) = snd (send_to_backend e m x) /\
  ps_pins (x_p (fst (fst (send_to_backend_tb e m x cache)))) = ps_pins (x_p (fst (send_to_backend e m x))).
Proof. exact TB.TB_sticky_same_message. Qed.
Theorem TB_unpinned_step : forall e m x cache t0,
  ps_has_rr (x_p x) = true -> first_transport (e_lc e) = Some t0 -> is_request m = true ->
  (forall d, C04.dialog_of m = Ok d -> snd (pins_get (e_now e) d (ps_pins (x_p x))) = None) ->
  let b := C04.fwd_bytes e t0 (x_p x) m in
  let x' := fst (fst (send_to_backend_tb e m x cache)) in
  let cache' := snd (send_to_backend_tb e m x cache) in
  ps_rr (x_p x') = fst (rr_dispatch (ps_rr (x_p x))) /\
  ps_rr (x_p x') = ps_rr (x_p (fst (send_to_backend e m x))) /\
  ps_backends (x_p x') = ps_backends (x_p x) /\
  match snd (rr_dispatch (ps_rr (x_p x))) with
  | Some a =>
      match alookup a (ps_backends (x_p x)) with
      | Some g =>
          let '(xs, cs, outs, ok) := tcp_backend_send e a g b x cache in
          x_outs x' = x_outs x ++ outs /\ x_conns x' = x_conns xs /\ x_world x' = x_world xs /\ cache' = cs
      | None => x_outs x' = x_outs x /\ x_conns x' = x_conns x /\ x_world x' = x_world x /\ cache' = cache
      end
  | None => x_outs x' = x_outs x /\ x_conns x' = x_conns x /\ x_world x' = x_world x /\ cache' = cache
  end.
Proof. exact TB.TB_unpinned_step. Qed.
Theorem TB_remove_closes : forall tb fx c now br st cache li addr p g cid,
  is_tb tb li = true -> nth_p (st_proxies st) li = Some p ->
  mem_bytes addr (rr_map (ps_rr p)) = true -> alookup addr (ps_backends p) = Some g ->
  alookup (tb_key li addr g) cache = Some cid ->
  exists st' stp p',
    proxy_step_tb tb fx c now br st cache (EvBackendRemove li addr) = Ok (st', cache, []) /\
    proxy_step fx c now br st (EvBackendRemove li addr) = Ok (stp, []) /\
    st_conns st' = close_conn cid (st_conns st) /\ st_conns stp = st_conns st /\
    (NoDup (map cn_id (st_conns st)) -> conn_open (st_conns st') cid = false) /\
    (forall c', c' <> cid -> conn_open (st_conns st') c' = conn_open (st_conns st) c') /\
    st_proxies st' = st_proxies stp /\ st_learned st' = st_learned stp /\ st_world st' = st_world stp /\
    nth_p (st_proxies st') li = Some p' /\
    ps_backends p' = adel addr (ps_backends p) /\ alookup addr (ps_backends p') = None /\
    ps_rr p' = fst (rr_remove addr (ps_rr p)) /\ mem_bytes addr (rr_map (ps_rr p')) = false.
Proof. exact TB.TB_remove_closes. Qed.
Theorem TB_remove_no_cached : forall tb fx c now br st cache li addr,
  (forall p g, nth_p (st_proxies st) li = Some p -> mem_bytes addr (rr_map (ps_rr p)) = true ->
               alookup addr (ps_backends p) = Some g -> alookup (tb_key li addr g) cache = None) ->
  proxy_step_tb tb fx c now br st cache (EvBackendRemove li addr) =
  lift_step (proxy_step fx c now br st (EvBackendRemove li addr)) cache.
Proof. exact TB.TB_remove_no_cached. Qed.
Theorem TB_cache_ok_step : forall tb fx c now br st cache ev st' cache' outs,
  cache_ok (st_conns st) cache ->
  proxy_step_tb tb fx c now br st cache ev = Ok (st', cache', outs) -> cache_ok (st_conns st') cache'.
Proof. exact TB.TB_cache_ok_step. Qed.
Theorem TB_cache_ok_history : forall tb fx c h st cache st' cache' outss,
  cache_ok (st_conns st) cache -> run_tb tb fx c st cache h = Ok (st', cache', outss) ->
  cache_ok (st_conns st') cache'.
Proof. exact TB.TB_cache_ok_history. Qed.
Theorem TB_cached_peer : forall tb fx c h st0 st cache outss,
  run_tb tb fx c st0 [] h = Ok (st, cache, outss) ->
  forall li a g cid pos,
    alookup (tb_key li a g) cache = Some cid -> last_index_byte ":"%char a = Some pos ->
    exists cn, In cn (st_conns st) /\ cn_id cn = cid /\ cn_li cn = li /\
               cn_peer cn = firstn pos a /\ cn_peer_port cn = atoi_val (skipn (S pos) a).
Proof. exact TB.TB_cached_peer. Qed.
Theorem TB_cached_has_port : forall tb fx c h st0 st cache outss li a g cid,
  run_tb tb fx c st0 [] h = Ok (st, cache, outss) -> alookup (tb_key li a g) cache = Some cid ->
  last_index_byte ":"%char a <> None.
Proof. exact TB.TB_cached_has_port. Qed.
End P_TB.

(* ------------------------------------------------------------------ C02 *)
From Model Require Import Bytes Wire Uri Hdr Message Msg StaticRoute RoundRobin Pins Proxy RunProxy SpecC14 SpecProxy SpecProxy2.
From Model.proofs Require C06 C13_bridge C07_bridge C07 C02 C02_bridge C02_bridge_tcp.
Section P_C02.
Import C06 C13_bridge C07_bridge C07 C02 C02_bridge C02_bridge_tcp.
Theorem C02_judge_bridge_tcp_core_msg :
  forall (pc : proxy_case) (stj : jstate) (e : env) (cid : nat) (peer : bytes) (pport : Z) (from : stransport)
         (rs : bool) (tcp : option nat) (data : bytes) (jin : jmsg) (m : message) (rest : bytes)
         (x x' : ctx) (pre : list output) (vis : output -> bool) (closed : list nat),
  j_read data = Some jin -> parse_message data = Ok (m, rest) ->
  via_domain m ->
  process_message e peer pport from rs tcp m x = Ok x' ->
  x_outs x' = x_outs x ++ pre ->
  (forall v1 v2 vrest m4 pins',
     is_response m = true ->
     flat_view (via_hdrs m) = v1 :: v2 :: vrest ->
     x_outs x ++ pre = x_outs (fst (send_message e (hop_host v2) (hop_port v2) (v_transport v2) m4
                                      (pins_ctx x pins'))) ->
     write_message (sent_msg m4) = write_message (relayed_response e peer pport from x m) ->
     dest_ok pc stj (j_dest (pc_cfg pc) (v_transport v2) (hop_host v2) (hop_port v2))
             (msgs_of (map B13.labelled (filter vis pre))) = true) ->
  judge_C02_event pc stj (EvTcpData cid data) (map B13.labelled (filter vis pre)) closed = O.
Proof. exact C02_bridge_tcp.C02_judge_bridge_tcp_core_msg. Qed.
Theorem C02_judge_bridge_tcp_core_step :
  forall (pc : proxy_case) (stj : jstate) (fx : fixes) (now : Z) (br : bytes) (st : state) (cid : nat)
         (lc : listen_cfg) (cn : conn) (p : pstate) (data : bytes) (jin : jmsg) (m : message) (rest : bytes)
         (st' : state) (outs : list output) (vis : output -> bool) (closed : list nat),
  find (fun y => Nat.eqb (cn_id y) cid) (st_conns st) = Some cn -> cn_open cn = true ->
  nth_opt (c_listens (pc_cfg pc)) (cn_li cn) = Some lc -> nth_p (st_proxies st) (cn_li cn) = Some p ->
  j_read data = Some jin -> parse_message data = Ok (m, rest) -> trim_left rest = [] ->
  via_domain m ->
  proxy_step fx (pc_cfg pc) now br st (EvTcpData cid data) = Ok (st', outs) ->
  (forall v1 v2 vrest m4 pins',
     is_response m = true ->
     flat_view (via_hdrs m) = v1 :: v2 :: vrest ->
     outs = x_outs (fst (send_message (step_env fx (pc_cfg pc) (cn_li cn) lc now br) (hop_host v2) (hop_port v2)
                           (v_transport v2) m4 (pin_ctx st p pins'))) ->
     write_message (sent_msg m4) = relayed_bytes_tcp fx (pc_cfg pc) now br st lc p cn m ->
     dest_ok pc stj (j_dest (pc_cfg pc) (v_transport v2) (hop_host v2) (hop_port v2))
             (msgs_of (map B13.labelled (filter vis outs))) = true) ->
  judge_C02_event pc stj (EvTcpData cid data) (map B13.labelled (filter vis outs)) closed = O.
Proof. exact C02_bridge_tcp.C02_judge_bridge_tcp_core_step. Qed.
Theorem C02_judge_bridge_tcp_step_udp :
  forall (pc : proxy_case) (stj : jstate) (fx : fixes) (now : Z) (br : bytes) (st : state) (cid : nat)
         (lc : listen_cfg) (cn : conn) (p : pstate) (data : bytes) (jin : jmsg) (m : message) (rest : bytes)
         (st' : state) (outs : list output) (closed : list nat)
         (v1 v2 : via_param) (vrest : list via_param) (ip : bytes),
  find (fun y => Nat.eqb (cn_id y) cid) (st_conns st) = Some cn -> cn_open cn = true ->
  nth_opt (c_listens (pc_cfg pc)) (cn_li cn) = Some lc -> nth_p (st_proxies st) (cn_li cn) = Some p ->
  j_read data = Some jin -> parse_message data = Ok (m, rest) -> trim_left rest = [] ->
  via_domain m ->
  flat_view (via_hdrs m) = v1 :: v2 :: vrest ->
  to_lower (v_transport v2) = s2b "udp" ->
  get_ip (pc_cfg pc) (hop_host v2) = Some ip -> resolvable ip (hop_port v2) = true ->
  udp_slot_ok ip (hop_port v2) p ->
  fits_datagram (relayed_bytes_tcp fx (pc_cfg pc) now br st lc p cn m) = true ->
  proxy_step fx (pc_cfg pc) now br st (EvTcpData cid data) = Ok (st', outs) ->
  judge_C02_event pc stj (EvTcpData cid data)
    (map B13.labelled (filter (visible (pc_udp_endpoints pc)) outs)) closed = O.
Proof. exact C02_bridge_tcp.C02_judge_bridge_tcp_step_udp. Qed.
Theorem C02_judge_bridge_tcp_step_drop :
  forall (pc : proxy_case) (stj : jstate) (fx : fixes) (now : Z) (br : bytes) (st : state) (cid : nat)
         (lc : listen_cfg) (cn : conn) (p : pstate) (data : bytes) (jin : jmsg) (m : message) (rest : bytes)
         (st' : state) (outs : list output) (vis : output -> bool) (closed : list nat),
  find (fun y => Nat.eqb (cn_id y) cid) (st_conns st) = Some cn -> cn_open cn = true ->
  nth_opt (c_listens (pc_cfg pc)) (cn_li cn) = Some lc -> nth_p (st_proxies st) (cn_li cn) = Some p ->
  j_read data = Some jin -> parse_message data = Ok (m, rest) -> trim_left rest = [] ->
  via_domain m ->
  (List.length (flat_view (via_hdrs m)) <= 1)%nat ->
  proxy_step fx (pc_cfg pc) now br st (EvTcpData cid data) = Ok (st', outs) ->
  judge_C02_event pc stj (EvTcpData cid data) (map B13.labelled (filter vis outs)) closed = O.
Proof. exact C02_bridge_tcp.C02_judge_bridge_tcp_step_drop. Qed.
Theorem C02_judge_bridge_tcp_step_tcp_sent :
  forall (pc : proxy_case) (stj : jstate) (fx : fixes) (now : Z) (br : bytes) (st : state) (cid : nat)
         (lc : listen_cfg) (cn : conn) (p : pstate) (data : bytes) (jin : jmsg) (m : message) (rest : bytes)
         (st' : state) (outs : list output) (closed : list nat)
         (v1 v2 : via_param) (vrest : list via_param) (ip : bytes),
  find (fun y => Nat.eqb (cn_id y) cid) (st_conns st) = Some cn -> cn_open cn = true ->
  nth_opt (c_listens (pc_cfg pc)) (cn_li cn) = Some lc -> nth_p (st_proxies st) (cn_li cn) = Some p ->
  j_read data = Some jin -> parse_message data = Ok (m, rest) -> trim_left rest = [] ->
  via_domain m ->
  flat_view (via_hdrs m) = v1 :: v2 :: vrest ->
  to_lower (v_transport v2) = s2b "tcp" ->
  get_ip (pc_cfg pc) (hop_host v2) = Some ip ->
  fx_udp_via_listener fx = true -> tcp_slot_ok p ->
  proxy_step fx (pc_cfg pc) now br st (EvTcpData cid data) = Ok (st', outs) ->
  filter C06.is_msg outs <> [] ->
  judge_C02_event pc stj (EvTcpData cid data)
    (map B13.labelled (filter (visible (pc_udp_endpoints pc)) outs)) closed = O.
Proof. exact C02_bridge_tcp.C02_judge_bridge_tcp_step_tcp_sent. Qed.
Theorem C02_judge_bridge_tcp_step_tcp_fresh :
  forall (pc : proxy_case) (stj : jstate) (fx : fixes) (now : Z) (br : bytes) (st : state) (cid : nat)
         (lc : listen_cfg) (cn : conn) (p : pstate) (data : bytes) (jin : jmsg) (m : message) (rest : bytes)
         (st' : state) (outs : list output) (closed : list nat)
         (v1 v2 : via_param) (vrest : list via_param) (ip : bytes),
  tcp_agree pc stj st ip (hop_port v2) ->
  find (fun y => Nat.eqb (cn_id y) cid) (st_conns st) = Some cn -> cn_open cn = true ->
  nth_opt (c_listens (pc_cfg pc)) (cn_li cn) = Some lc -> nth_p (st_proxies st) (cn_li cn) = Some p ->
  j_read data = Some jin -> parse_message data = Ok (m, rest) -> trim_left rest = [] ->
  via_domain m ->
  flat_view (via_hdrs m) = v1 :: v2 :: vrest ->
  to_lower (v_transport v2) = s2b "tcp" ->
  get_ip (pc_cfg pc) (hop_host v2) = Some ip ->
  fx_udp_via_listener fx = true -> tcp_fresh ip (hop_port v2) p ->
  proxy_step fx (pc_cfg pc) now br st (EvTcpData cid data) = Ok (st', outs) ->
  judge_C02_event pc stj (EvTcpData cid data)
    (map B13.labelled (filter (visible (pc_udp_endpoints pc)) outs)) closed = O.
Proof. exact C02_bridge_tcp.C02_judge_bridge_tcp_step_tcp_fresh. Qed.
Theorem C02_judge_bridge_core :
  forall (pc : proxy_case) (stj : jstate) (fx : fixes) (now : Z) (br : bytes) (st : state) (li : nat)
         (lc : listen_cfg) (src : bytes) (sport : Z) (data : bytes) (jin : jmsg) (m : message) (rest : bytes)
         (p : pstate) (st' : state) (outs : list output) (vis : output -> bool) (closed : list nat),
  nth_opt (c_listens (pc_cfg pc)) li = Some lc -> nth_p (st_proxies st) li = Some p ->
  j_read data = Some jin -> parse_message data = Ok (m, rest) ->
  via_domain m ->
  proxy_step fx (pc_cfg pc) now br st (EvUdp li src sport data) = Ok (st', outs) ->
  (forall v1 v2 vrest m4 pins',
     is_response m = true ->
     flat_view (via_hdrs m) = v1 :: v2 :: vrest ->
     outs = x_outs (fst (send_message (step_env fx (pc_cfg pc) li lc now br) (hop_host v2) (hop_port v2)
                           (v_transport v2) m4 (pin_ctx st p pins'))) ->
     write_message (sent_msg m4) = relayed_bytes fx (pc_cfg pc) now br st li lc p src sport m ->
     dest_ok pc stj (j_dest (pc_cfg pc) (v_transport v2) (hop_host v2) (hop_port v2))
             (msgs_of (map B13.labelled (filter vis outs))) = true) ->
  judge_C02_event pc stj (EvUdp li src sport data) (map B13.labelled (filter vis outs)) closed = O.
Proof. exact C02_bridge.C02_judge_bridge_core. Qed.
Theorem C02_judge_bridge_step_udp :
  forall (pc : proxy_case) (stj : jstate) (fx : fixes) (now : Z) (br : bytes) (st : state) (li : nat)
         (lc : listen_cfg) (src : bytes) (sport : Z) (data : bytes) (jin : jmsg) (m : message) (rest : bytes)
         (p : pstate) (st' : state) (outs : list output) (closed : list nat)
         (v1 v2 : via_param) (vrest : list via_param) (ip : bytes),
  nth_opt (c_listens (pc_cfg pc)) li = Some lc -> nth_p (st_proxies st) li = Some p ->
  j_read data = Some jin -> parse_message data = Ok (m, rest) ->
  via_domain m ->
  flat_view (via_hdrs m) = v1 :: v2 :: vrest ->
  to_lower (v_transport v2) = s2b "udp" ->
  get_ip (pc_cfg pc) (hop_host v2) = Some ip -> resolvable ip (hop_port v2) = true ->
  udp_slot_ok ip (hop_port v2) p ->
  fits_datagram (relayed_bytes fx (pc_cfg pc) now br st li lc p src sport m) = true ->
  proxy_step fx (pc_cfg pc) now br st (EvUdp li src sport data) = Ok (st', outs) ->
  judge_C02_event pc stj (EvUdp li src sport data)
    (map B13.labelled (filter (visible (pc_udp_endpoints pc)) outs)) closed = O.
Proof. exact C02_bridge.C02_judge_bridge_step_udp. Qed.
Theorem C02_judge_bridge_step_drop :
  forall (pc : proxy_case) (stj : jstate) (fx : fixes) (now : Z) (br : bytes) (st : state) (li : nat)
         (lc : listen_cfg) (src : bytes) (sport : Z) (data : bytes) (jin : jmsg) (m : message) (rest : bytes)
         (p : pstate) (st' : state) (outs : list output) (vis : output -> bool) (closed : list nat),
  nth_opt (c_listens (pc_cfg pc)) li = Some lc -> nth_p (st_proxies st) li = Some p ->
  j_read data = Some jin -> parse_message data = Ok (m, rest) ->
  via_domain m ->
  (List.length (flat_view (via_hdrs m)) <= 1)%nat ->
  proxy_step fx (pc_cfg pc) now br st (EvUdp li src sport data) = Ok (st', outs) ->
  judge_C02_event pc stj (EvUdp li src sport data) (map B13.labelled (filter vis outs)) closed = O.
Proof. exact C02_bridge.C02_judge_bridge_step_drop. Qed.
Theorem C02_judge_bridge_step_unsupported :
  forall (pc : proxy_case) (stj : jstate) (fx : fixes) (now : Z) (br : bytes) (st : state) (li : nat)
         (lc : listen_cfg) (src : bytes) (sport : Z) (data : bytes) (jin : jmsg) (m : message) (rest : bytes)
         (p : pstate) (st' : state) (outs : list output) (vis : output -> bool) (closed : list nat)
         (v1 v2 : via_param) (vrest : list via_param),
  nth_opt (c_listens (pc_cfg pc)) li = Some lc -> nth_p (st_proxies st) li = Some p ->
  j_read data = Some jin -> parse_message data = Ok (m, rest) ->
  via_domain m ->
  flat_view (via_hdrs m) = v1 :: v2 :: vrest ->
  supported_proto (to_lower (v_transport v2)) = false ->
  proxy_step fx (pc_cfg pc) now br st (EvUdp li src sport data) = Ok (st', outs) ->
  judge_C02_event pc stj (EvUdp li src sport data) (map B13.labelled (filter vis outs)) closed = O.
Proof. exact C02_bridge.C02_judge_bridge_step_unsupported. Qed.
Theorem C02_judge_bridge_step_unresolved :
  forall (pc : proxy_case) (stj : jstate) (fx : fixes) (now : Z) (br : bytes) (st : state) (li : nat)
         (lc : listen_cfg) (src : bytes) (sport : Z) (data : bytes) (jin : jmsg) (m : message) (rest : bytes)
         (p : pstate) (st' : state) (outs : list output) (vis : output -> bool) (closed : list nat)
         (v1 v2 : via_param) (vrest : list via_param),
  nth_opt (c_listens (pc_cfg pc)) li = Some lc -> nth_p (st_proxies st) li = Some p ->
  j_read data = Some jin -> parse_message data = Ok (m, rest) ->
  via_domain m ->
  flat_view (via_hdrs m) = v1 :: v2 :: vrest ->
  get_ip (pc_cfg pc) (hop_host v2) = None ->
  proxy_step fx (pc_cfg pc) now br st (EvUdp li src sport data) = Ok (st', outs) ->
  judge_C02_event pc stj (EvUdp li src sport data) (map B13.labelled (filter vis outs)) closed = O.
Proof. exact C02_bridge.C02_judge_bridge_step_unresolved. Qed.
Theorem C02_judge_bridge_step_tcp_partial :
  forall (pc : proxy_case) (stj : jstate) (fx : fixes) (now : Z) (br : bytes) (st : state) (li : nat)
         (lc : listen_cfg) (src : bytes) (sport : Z) (data : bytes) (jin : jmsg) (m : message) (rest : bytes)
         (p : pstate) (st' : state) (outs : list output) (closed : list nat)
         (v1 v2 : via_param) (vrest : list via_param) (ip : bytes),
  nth_opt (c_listens (pc_cfg pc)) li = Some lc -> nth_p (st_proxies st) li = Some p ->
  j_read data = Some jin -> parse_message data = Ok (m, rest) ->
  via_domain m ->
  flat_view (via_hdrs m) = v1 :: v2 :: vrest ->
  to_lower (v_transport v2) = s2b "tcp" ->
  get_ip (pc_cfg pc) (hop_host v2) = Some ip ->
  fx_udp_via_listener fx = true -> tcp_slot_ok p ->
  proxy_step fx (pc_cfg pc) now br st (EvUdp li src sport data) = Ok (st', outs) ->
  tcp_quiet_ok pc stj ip (hop_port v2) outs ->
  judge_C02_event pc stj (EvUdp li src sport data)
    (map B13.labelled (filter (visible (pc_udp_endpoints pc)) outs)) closed = O.
Proof. exact C02_bridge.C02_judge_bridge_step_tcp_partial. Qed.
Theorem C02_judge_bridge_step_tcp_sent :
  forall (pc : proxy_case) (stj : jstate) (fx : fixes) (now : Z) (br : bytes) (st : state) (li : nat)
         (lc : listen_cfg) (src : bytes) (sport : Z) (data : bytes) (jin : jmsg) (m : message) (rest : bytes)
         (p : pstate) (st' : state) (outs : list output) (closed : list nat)
         (v1 v2 : via_param) (vrest : list via_param) (ip : bytes),
  nth_opt (c_listens (pc_cfg pc)) li = Some lc -> nth_p (st_proxies st) li = Some p ->
  j_read data = Some jin -> parse_message data = Ok (m, rest) ->
  via_domain m ->
  flat_view (via_hdrs m) = v1 :: v2 :: vrest ->
  to_lower (v_transport v2) = s2b "tcp" ->
  get_ip (pc_cfg pc) (hop_host v2) = Some ip ->
  fx_udp_via_listener fx = true -> tcp_slot_ok p ->
  proxy_step fx (pc_cfg pc) now br st (EvUdp li src sport data) = Ok (st', outs) ->
  filter C06.is_msg outs <> [] ->
  judge_C02_event pc stj (EvUdp li src sport data)
    (map B13.labelled (filter (visible (pc_udp_endpoints pc)) outs)) closed = O.
Proof. exact C02_bridge.C02_judge_bridge_step_tcp_sent. Qed.
Theorem C02_judge_bridge_step_tcp_fresh :
  forall (pc : proxy_case) (stj : jstate) (fx : fixes) (now : Z) (br : bytes) (st : state) (li : nat)
         (lc : listen_cfg) (src : bytes) (sport : Z) (data : bytes) (jin : jmsg) (m : message) (rest : bytes)
         (p : pstate) (st' : state) (outs : list output) (closed : list nat)
         (v1 v2 : via_param) (vrest : list via_param) (ip : bytes),
  tcp_agree pc stj st ip (hop_port v2) ->
  nth_opt (c_listens (pc_cfg pc)) li = Some lc -> nth_p (st_proxies st) li = Some p ->
  j_read data = Some jin -> parse_message data = Ok (m, rest) ->
  via_domain m ->
  flat_view (via_hdrs m) = v1 :: v2 :: vrest ->
  to_lower (v_transport v2) = s2b "tcp" ->
  get_ip (pc_cfg pc) (hop_host v2) = Some ip ->
  fx_udp_via_listener fx = true -> tcp_fresh ip (hop_port v2) p ->
  proxy_step fx (pc_cfg pc) now br st (EvUdp li src sport data) = Ok (st', outs) ->
  judge_C02_event pc stj (EvUdp li src sport data)
    (map B13.labelled (filter (visible (pc_udp_endpoints pc)) outs)) closed = O.
Proof. exact C02_bridge.C02_judge_bridge_step_tcp_fresh. Qed.
Theorem C02_response_general : forall e from m x, is_request m = false ->
  match top_view (pop_view (via_hdrs m)) with
  | Some v2 =>
      exists m4 pins',
        handle_message e from m x =
          send_message e (hop_host v2) (hop_port v2) (v_transport v2) m4
            {| x_learned := x_learned x; x_p := with_pins (x_p x) pins'; x_conns := x_conns x;
               x_world := x_world x; x_outs := x_outs x |} /\
        m_start m4 = m_start m /\ m_body m4 = m_body m /\ via_hdrs m4 = pop_view (via_hdrs m)
  | None => fst (handle_message e from m x) = x
  end.
Proof. exact C02.C02_response_general. Qed.
Theorem C02_response_hop : forall e from m x v1 v2 rest1 t,
  is_response m = true ->
  (via_hdrs m = Some (v1 :: v2 :: rest1) :: t          (* comma list in the first Via header *)
   \/ via_hdrs m = Some [v1] :: Some (v2 :: rest1) :: t)  (* repeated header lines *) ->
  exists m4 pins',
    handle_message e from m x =
      send_message e (hop_host v2) (hop_port v2) (v_transport v2) m4
        {| x_learned := x_learned x; x_p := with_pins (x_p x) pins'; x_conns := x_conns x;
           x_world := x_world x; x_outs := x_outs x |} /\
    m_start m4 = m_start m /\ m_body m4 = m_body m /\
    via_hdrs m4 = Some (v2 :: rest1) :: t /\
    snd (decode_all_vias (m_headers m)) = v1 :: snd (decode_all_vias (m_headers m4)).
Proof. exact C02.C02_response_hop. Qed.
Theorem C02_single_via_dropped : forall e from m x,
  is_response m = true ->
  (via_hdrs m = [] \/ (exists l, via_hdrs m = [Some l] /\ (List.length l <= 1)%nat)) ->
  fst (handle_message e from m x) = x.
Proof. exact C02.C02_single_via_dropped. Qed.
Theorem C02_undecodable_dropped : forall e from m x t,
  is_response m = true ->
  (via_hdrs m = None :: t                                  (* first Via header does not decode *)
   \/ (exists l, via_hdrs m = Some l :: None :: t /\ (List.length l <= 1)%nat)  (* the next one does not *)
   \/ (exists l, via_hdrs m = Some l :: Some [] :: t /\ (List.length l <= 1)%nat)) ->
  fst (handle_message e from m x) = x.
Proof. exact C02.C02_undecodable_dropped. Qed.
Theorem C02_dest_unsupported : forall e host port tr m x,
  supported_proto (to_lower tr) = false ->
  x_outs (fst (send_message e host port tr m x)) = x_outs x.
Proof. exact C02.C02_dest_unsupported. Qed.
Theorem C02_dest_udp : forall e host port tr m x ip,
  to_lower tr = s2b "udp" -> get_ip (e_cfg e) host = Some ip -> resolvable ip port = true ->
  udp_slot_ok ip port (x_p x) -> fits_datagram (write_message (sent_msg m)) = true ->
  x_outs (fst (send_message e host port tr m x)) = x_outs x ++ [(DUdp ip port, write_message (sent_msg m))].
Proof. exact C02.C02_dest_udp. Qed.
Theorem C02_dest_tcp : forall e host port tr m x,
  fx_udp_via_listener (e_fx e) = true -> to_lower tr = s2b "tcp" -> tcp_slot_ok (x_p x) ->
  exists outs, x_outs (fst (send_message e host port tr m x)) = x_outs x ++ outs /\
               tcp_shape (write_message (sent_msg m)) outs.
Proof. exact C02.C02_dest_tcp. Qed.
Theorem C02_tcp_slot_reachable : forall fx c st,
  fx_udp_via_listener fx = true -> reachable fx c st -> Forall tcp_slot_ok (st_proxies st).
Proof. exact C02.C02_tcp_slot_reachable. Qed.
Theorem C02_independent_of_pins : forall e from m x pins' rr' gen' l',
  is_response m = true -> fx_udp_via_listener (e_fx e) = true -> udp_known (x_p x) ->
  let y := {| x_learned := l'; x_p := graft pins' rr' gen' (x_p x); x_conns := x_conns x;
              x_world := x_world x; x_outs := x_outs x |} in
  x_outs (fst (handle_message e from m y)) = x_outs (fst (handle_message e from m x)) /\
  x_conns (fst (handle_message e from m y)) = x_conns (fst (handle_message e from m x)) /\
  x_world (fst (handle_message e from m y)) = x_world (fst (handle_message e from m x)).
Proof. exact C02.C02_independent_of_pins. Qed.
Theorem C02_roundtrip_return : forall e from r x br t0 src sport v rest t,
  is_response r = true -> (int_min <= sport <= int_max)%Z ->
  via_hdrs r = Some [own_via br t0] :: Some (stamp src sport v :: rest) :: t ->
  exists m4 pins',
    handle_message e from r x =
      send_message e src (if kv_has (s2b "rport") (v_params v) then sport else via_get_port v) (v_transport v) m4
        {| x_learned := x_learned x; x_p := with_pins (x_p x) pins'; x_conns := x_conns x;
           x_world := x_world x; x_outs := x_outs x |} /\
    via_hdrs m4 = Some (stamp src sport v :: rest) :: t.
Proof. exact C02.C02_roundtrip_return. Qed.
Theorem C02_roundtrip : forall e src sport from tcp q x x' v rest t,
  is_request q = true -> via_hdrs q = Some (v :: rest) :: t -> (int_min <= sport <= int_max)%Z ->
  process_message e src sport from true tcp q x = Ok x' ->
  exists outs, x_outs x' = x_outs x ++ outs /\
    Forall (fun o =>
      match fst o with
      | DDial _ _ _ => snd o = []
      | _ => exists q', snd o = write_message q' /\
          (via_hdrs q' = Some (stamp src sport v :: rest) :: t
           \/ exists t0, via_hdrs q' = Some [own_via (e_branch e) t0] :: Some (stamp src sport v :: rest) :: t /\
                forall e2 from2 r y, is_response r = true -> via_hdrs r = via_hdrs q' ->
                  exists m4 pins',
                    handle_message e2 from2 r y =
                      send_message e2 src (if kv_has (s2b "rport") (v_params v) then sport else via_get_port v)
                        (v_transport v) m4
                        {| x_learned := x_learned y; x_p := with_pins (x_p y) pins'; x_conns := x_conns y;
                           x_world := x_world y; x_outs := x_outs y |} /\
                    via_hdrs m4 = Some (stamp src sport v :: rest) :: t)
      end) outs.
Proof. exact C02.C02_roundtrip. Qed.
Theorem C02_process_response : forall e peer port from rs tcp m0 x x',
  is_response m0 = true ->
  process_message e peer port from rs tcp m0 x = Ok x' ->
  match top_view (pop_view (via_hdrs m0)) with
  | Some v2 =>
      exists m4 pins',
        x' = fst (send_message e (hop_host v2) (hop_port v2) (v_transport v2) m4
                   {| x_learned := x_learned x; x_p := with_pins (x_p x) pins'; x_conns := x_conns x;
                      x_world := x_world x; x_outs := x_outs x |}) /\
        m_start m4 = m_start m0 /\ m_body m4 = m_body m0 /\ via_hdrs m4 = pop_view (via_hdrs m0)
  | None => x_outs x' = x_outs x /\ x_conns x' = x_conns x /\ x_world x' = x_world x /\ x_learned x' = x_learned x
  end.
Proof. exact C02.C02_process_response. Qed.
End P_C02.

(* ------------------------------------------------------------------ C03 *)
From Model Require Import Bytes Wire Uri Hdr Message Msg StaticRoute RoundRobin Pins Proxy RunProxy SpecC14 SpecProxy SpecProxy2.
From Model.proofs Require C02 C13_bridge C06 C13 C03 C03_bridge C03_bridge_tcp.
Section P_C03.
Import C02 C13_bridge C06 C13 C03 C03_bridge C03_bridge_tcp.
Theorem C03_choose_agree_gen : forall c lc tcp from data jin m rest q,
  t_addr from = lc_addr lc -> t_port from = listener_port lc tcp ->
  j_read data = Some jin -> parse_message data = Ok (m, rest) -> j_request jin = Some q ->
  route_domain_in (RS m) -> to_domain m -> ruri_domain jin -> routes_ok c ->
  is_request m = true /\ hop_rel c (j_choose c lc tcp q) (effective_hop c from m).
Proof. exact C03_bridge_tcp.choose_agree_gen. Qed.
Theorem C03_judge_bridge_tcp_msg :
  forall pc stj cid li lc cn data closed jin m rest e x x' l pre,
  nth_opt (c_listens (pc_cfg pc)) li = Some lc -> e_cfg e = pc_cfg pc -> e_lc e = lc ->
  find (fun y => Nat.eqb (fst y) cid) (js_conns stj) = Some (cid, (li, cn_peer cn, cn_peer_port cn)) ->
  (li < dial_mark)%nat ->
  cn_from cn = {| t_kind := KTcpListen; t_addr := lc_addr lc; t_port := lc_tcp lc |} ->
  j_read data = Some jin -> parse_message data = Ok (m, rest) ->
  route_domain_in (RS m) -> to_domain m -> ruri_domain jin ->
  hosts_ok (pc_cfg pc) -> routes_ok (pc_cfg pc) -> (0 < lc_udp lc \/ 0 < lc_tcp lc)%Z ->
  fx_udp_via_listener (e_fx e) = true -> fx_stale_pin (e_fx e) = true ->
  nth_opt (js_backends stj) li = Some l -> pool_agree l (x_p x) ->
  Forall (backend_ok (pc_udp_endpoints pc)) l ->
  (forall ip port, C02.udp_slot_ok ip port (x_p x)) -> C02.tcp_slot_ok (x_p x) ->
  fits_datagram (write_message (would_send_c e (Some (cn_id cn)) (cn_peer cn) (cn_peer_port cn) (cn_from cn)
                                  (cn_received_support cn) m x)) = true ->
  process_message e (cn_peer cn) (cn_peer_port cn) (cn_from cn) (cn_received_support cn) (Some (cn_id cn)) m x = Ok x' ->
  x_outs x' = x_outs x ++ pre ->
  (forall q ip port, j_request jin = Some q -> j_choose (pc_cfg pc) lc true q = HHop (JTcp ip port) ->
     msg_count pre = 0%nat -> dest_ok pc stj (JTcp ip port) [] = true) ->
  judge_C03_event pc stj (EvTcpData cid data)
    (map labelled (filter (visible (pc_udp_endpoints pc)) pre)) closed = 0%nat.
Proof. exact C03_bridge_tcp.C03_judge_bridge_tcp_msg. Qed.
Theorem C03_judge_bridge_tcp_step :
  forall pc stj fx now br st st' outs cid li lc cn p data closed jin m rest,
  nth_opt (c_listens (pc_cfg pc)) li = Some lc ->
  find (fun y => Nat.eqb (cn_id y) cid) (st_conns st) = Some cn ->
  find (fun y => Nat.eqb (fst y) cid) (js_conns stj) = Some (cid, (li, cn_peer cn, cn_peer_port cn)) ->
  (li < dial_mark)%nat ->
  cn_li cn = li -> cn_open cn = true ->
  cn_from cn = {| t_kind := KTcpListen; t_addr := lc_addr lc; t_port := lc_tcp lc |} ->
  j_read data = Some jin -> parse_message data = Ok (m, rest) -> trim_left rest = [] ->
  route_domain_in (RS m) -> to_domain m -> ruri_domain jin ->
  hosts_ok (pc_cfg pc) -> routes_ok (pc_cfg pc) -> (0 < lc_udp lc \/ 0 < lc_tcp lc)%Z ->
  fx_udp_via_listener fx = true -> fx_stale_pin fx = true ->
  pools_agree stj st -> nth_p (st_proxies st) li = Some p ->
  (forall l, nth_opt (js_backends stj) li = Some l -> Forall (backend_ok (pc_udp_endpoints pc)) l) ->
  (forall ip port, C02.udp_slot_ok ip port p) -> C02.tcp_slot_ok p ->
  fits_datagram (write_message (step_would_send_tcp fx (pc_cfg pc) now br st lc cn p m)) = true ->
  proxy_step fx (pc_cfg pc) now br st (EvTcpData cid data) = Ok (st', outs) ->
  (forall q ip port, j_request jin = Some q -> j_choose (pc_cfg pc) lc true q = HHop (JTcp ip port) ->
     msg_count outs = 0%nat -> dest_ok pc stj (JTcp ip port) [] = true) ->
  judge_C03_event pc stj (EvTcpData cid data)
    (map labelled (filter (visible (pc_udp_endpoints pc)) outs)) closed = 0%nat.
Proof. exact C03_bridge_tcp.C03_judge_bridge_tcp_step. Qed.
Theorem C03_judge_bridge_tcp_step_no_tcp :
  forall pc stj fx now br st st' outs cid li lc cn p data closed jin m rest,
  nth_opt (c_listens (pc_cfg pc)) li = Some lc ->
  find (fun y => Nat.eqb (cn_id y) cid) (st_conns st) = Some cn ->
  find (fun y => Nat.eqb (fst y) cid) (js_conns stj) = Some (cid, (li, cn_peer cn, cn_peer_port cn)) ->
  (li < dial_mark)%nat ->
  cn_li cn = li -> cn_open cn = true ->
  cn_from cn = {| t_kind := KTcpListen; t_addr := lc_addr lc; t_port := lc_tcp lc |} ->
  j_read data = Some jin -> parse_message data = Ok (m, rest) -> trim_left rest = [] ->
  route_domain_in (RS m) -> to_domain m -> ruri_domain jin ->
  hosts_ok (pc_cfg pc) -> routes_ok (pc_cfg pc) -> (0 < lc_udp lc \/ 0 < lc_tcp lc)%Z ->
  fx_udp_via_listener fx = true -> fx_stale_pin fx = true ->
  pools_agree stj st -> nth_p (st_proxies st) li = Some p ->
  (forall l, nth_opt (js_backends stj) li = Some l -> Forall (backend_ok (pc_udp_endpoints pc)) l) ->
  (forall ip port, C02.udp_slot_ok ip port p) -> C02.tcp_slot_ok p ->
  fits_datagram (write_message (step_would_send_tcp fx (pc_cfg pc) now br st lc cn p m)) = true ->
  proxy_step fx (pc_cfg pc) now br st (EvTcpData cid data) = Ok (st', outs) ->
  (forall q ip port, j_request jin = Some q -> j_choose (pc_cfg pc) lc true q <> HHop (JTcp ip port)) ->
  judge_C03_event pc stj (EvTcpData cid data)
    (map labelled (filter (visible (pc_udp_endpoints pc)) outs)) closed = 0%nat.
Proof. exact C03_bridge_tcp.C03_judge_bridge_tcp_step_no_tcp. Qed.
Theorem C03_choose_agree : forall c lc data jin m rest q,
  j_read data = Some jin -> parse_message data = Ok (m, rest) -> j_request jin = Some q ->
  route_domain_in (RS m) -> to_domain m -> ruri_domain jin -> routes_ok c ->
  is_request m = true /\ hop_rel c (j_choose c lc false q) (effective_hop c (udp_transport lc) m).
Proof. exact C03_bridge.choose_agree. Qed.
Theorem C03_judge_bridge_udp :
  forall pc stj li lc src sport data closed jin m rest e rs x x' l,
  nth_opt (c_listens (pc_cfg pc)) li = Some lc -> e_cfg e = pc_cfg pc -> e_lc e = lc ->
  j_read data = Some jin -> parse_message data = Ok (m, rest) ->
  route_domain_in (RS m) -> to_domain m -> ruri_domain jin ->
  hosts_ok (pc_cfg pc) -> routes_ok (pc_cfg pc) -> (0 < lc_udp lc)%Z ->
  fx_udp_via_listener (e_fx e) = true -> fx_stale_pin (e_fx e) = true ->
  nth_opt (js_backends stj) li = Some l -> pool_agree l (x_p x) ->
  Forall (backend_ok (pc_udp_endpoints pc)) l ->
  (forall ip port, C02.udp_slot_ok ip port (x_p x)) -> C02.tcp_slot_ok (x_p x) ->
  fits_datagram (write_message (would_send e src sport (udp_transport lc) rs m x)) = true ->
  process_message e src sport (udp_transport lc) rs None m x = Ok x' ->
  exists pre, x_outs x' = x_outs x ++ pre /\ (msg_count pre <= 1)%nat /\
    ((forall q ip port, j_request jin = Some q -> j_choose (pc_cfg pc) lc false q = HHop (JTcp ip port) ->
        msg_count pre = 0%nat -> dest_ok pc stj (JTcp ip port) [] = true) ->
     judge_C03_event pc stj (EvUdp li src sport data)
       (map labelled (filter (visible (pc_udp_endpoints pc)) pre)) closed = 0%nat).
Proof. exact C03_bridge.C03_judge_bridge_udp. Qed.
Theorem C03_judge_bridge_step :
  forall pc stj fx now br st st' outs li lc p src sport data closed jin m rest,
  nth_opt (c_listens (pc_cfg pc)) li = Some lc ->
  j_read data = Some jin -> parse_message data = Ok (m, rest) ->
  route_domain_in (RS m) -> to_domain m -> ruri_domain jin ->
  hosts_ok (pc_cfg pc) -> routes_ok (pc_cfg pc) -> (0 < lc_udp lc)%Z ->
  fx_udp_via_listener fx = true -> fx_stale_pin fx = true ->
  agree stj st -> nth_p (st_proxies st) li = Some p ->
  (forall l, nth_opt (js_backends stj) li = Some l -> Forall (backend_ok (pc_udp_endpoints pc)) l) ->
  (forall ip port, C02.udp_slot_ok ip port p) -> C02.tcp_slot_ok p ->
  fits_datagram (write_message (step_would_send fx (pc_cfg pc) now br st li lc p src sport m)) = true ->
  proxy_step fx (pc_cfg pc) now br st (EvUdp li src sport data) = Ok (st', outs) ->
  (forall q ip port, j_request jin = Some q -> j_choose (pc_cfg pc) lc false q = HHop (JTcp ip port) ->
     msg_count outs = 0%nat -> dest_ok pc stj (JTcp ip port) [] = true) ->
  judge_C03_event pc stj (EvUdp li src sport data)
    (map labelled (filter (visible (pc_udp_endpoints pc)) outs)) closed = 0%nat.
Proof. exact C03_bridge.C03_judge_bridge_step. Qed.
Theorem C03_judge_bridge_step_no_tcp :
  forall pc stj fx now br st st' outs li lc p src sport data closed jin m rest,
  nth_opt (c_listens (pc_cfg pc)) li = Some lc ->
  j_read data = Some jin -> parse_message data = Ok (m, rest) ->
  route_domain_in (RS m) -> to_domain m -> ruri_domain jin ->
  hosts_ok (pc_cfg pc) -> routes_ok (pc_cfg pc) -> (0 < lc_udp lc)%Z ->
  fx_udp_via_listener fx = true -> fx_stale_pin fx = true ->
  agree stj st -> nth_p (st_proxies st) li = Some p ->
  (forall l, nth_opt (js_backends stj) li = Some l -> Forall (backend_ok (pc_udp_endpoints pc)) l) ->
  (forall ip port, C02.udp_slot_ok ip port p) -> C02.tcp_slot_ok p ->
  fits_datagram (write_message (step_would_send fx (pc_cfg pc) now br st li lc p src sport m)) = true ->
  proxy_step fx (pc_cfg pc) now br st (EvUdp li src sport data) = Ok (st', outs) ->
  (forall q ip port, j_request jin = Some q -> j_choose (pc_cfg pc) lc false q <> HHop (JTcp ip port)) ->
  judge_C03_event pc stj (EvUdp li src sport data)
    (map labelled (filter (visible (pc_udp_endpoints pc)) outs)) closed = 0%nat.
Proof. exact C03_bridge.C03_judge_bridge_step_no_tcp. Qed.
Theorem C03_agree_step_udp : forall pc stj fx now br st st' outs li src sport data,
  agree stj st ->
  proxy_step fx (pc_cfg pc) now br st (EvUdp li src sport data) = Ok (st', outs) ->
  dials_readable outs ->
  agree (js_step_c stj (EvUdp li src sport data) (map labelled (filter (visible (pc_udp_endpoints pc)) outs)) []) st'.
Proof. exact C03_bridge.agree_step_udp. Qed.
Theorem C03_at_most_one : forall e peer peer_port from rs tcp m x x',
  process_message e peer peer_port from rs tcp m x = Ok x' ->
  exists extra, x_outs x' = x_outs x ++ extra /\ (msg_count extra <= 1)%nat.
Proof. exact C03.C03_at_most_one. Qed.
Theorem C03_at_most_one_udp : forall fx c now branch st li src sport data st' outs,
  proxy_step fx c now branch st (EvUdp li src sport data) = Ok (st', outs) -> (msg_count outs <= 1)%nat.
Proof. exact C03.C03_at_most_one_udp. Qed.
Theorem C03_at_most_one_tcp : forall fx c now branch st cid data st' outs,
  proxy_step fx c now branch st (EvTcpData cid data) = Ok (st', outs) ->
  exists chunks, outs = List.concat chunks /\
                 (List.length chunks <= List.length (parse_stream (S (List.length data)) data))%nat /\
                 Forall (fun ch => (msg_count ch <= 1)%nat) chunks.
Proof. exact C03.C03_at_most_one_tcp. Qed.
Theorem C03_choice : forall e peer peer_port from rs tcp m0 x x',
  is_request m0 = true ->
  process_message e peer peer_port from rs tcp m0 x = Ok x' ->
  exists m1 p1,
    let x1 := {| x_learned := learned_after peer from m0 x; x_p := p1; x_conns := x_conns x;
                 x_world := x_world x; x_outs := x_outs x |} in
    same_rr (x_p x) p1 /\
    (forall nm, disjoint_names nm (s2b "Via") -> disjoint_names nm (s2b "CSeq") ->
                disjoint_names nm (s2b "Route") -> disjoint_names nm (s2b "To") -> frame nm m0 m1) /\
    via_rel m0 m1 /\
    route_view m1 = skipn (route_consumed (e_cfg e) from (c_keep_next_hop (e_cfg e)) (route_view m0)) (route_view m0) /\
    match effective_hop (e_cfg e) from m0 with
    | HopAddr host port transport =>
        x' = fst (send_message e host port transport (decorate e (x_learned x1) host m1) x1)
    | HopBackend => x' = fst (send_to_backend e m1 x1)
    | HopNone => x' = x1
    | HopOut => False
    end.
Proof. exact C03.C03_choice. Qed.
Theorem C03_choice_outputs : forall e peer peer_port from rs tcp m0 x x',
  is_request m0 = true ->
  process_message e peer peer_port from rs tcp m0 x = Ok x' ->
  exists extra, x_outs x' = x_outs x ++ extra /\ (msg_count extra <= 1)%nat /\
    match effective_hop (e_cfg e) from m0 with
    | HopAddr host port transport =>
        (* only through the client transport for (transport, host, port); nothing for a
           transport other than udp / tcp *)
        supported_proto (to_lower transport) = false -> extra = []
    | HopBackend =>
        extra = [] \/ exists a d b, extra = [(d, b)] /\ backend_dest a = Some d /\
                                    (In a (rr_backends (ps_rr (x_p x))) \/ exists g, backend_alive a g (x_p x) = true)
    | HopNone => extra = []
    | HopOut => False
    end.
Proof. exact C03.C03_choice_outputs. Qed.
Theorem C03_non_sip_route : forall c from m rp rest s,
  remaining_routes c from m = EDec rp :: rest -> na_addr (r_addr rp) = AAbs s ->
  choose_hop c from m = HopOut /\ effective_hop c from m = lower_choice c from m /\
  forall keep, route_consumed c from keep (route_view m) =
               ((match route_view m with EDec e1 :: _ => if designates c from e1 then 1 else 0 | _ => 0 end) +
                (if keep then 0 else 1))%nat.
Proof. exact C03.C03_non_sip_route. Qed.
Theorem C03_backend_member : forall e m x,
  (forall a g, pinned_backend e (x_p x) m <> Some (BObj a g)) ->
  exists extra, x_outs (fst (send_to_backend e m x)) = x_outs x ++ extra /\
    (extra = [] \/ exists a d b, extra = [(d, b)] /\ In a (rr_backends (ps_rr (x_p x))) /\ backend_dest a = Some d) /\
    (rr_backends (ps_rr (x_p x)) = [] -> extra = []).
Proof. exact C03.C03_backend_member. Qed.
Theorem C03_backend_member_event : forall e peer peer_port from rs tcp m0 x x',
  is_request m0 = true ->
  process_message e peer peer_port from rs tcp m0 x = Ok x' ->
  effective_hop (e_cfg e) from m0 = HopBackend ->
  exists m1 p1, same_rr (x_p x) p1 /\
    ((forall a g, pinned_backend e p1 m1 <> Some (BObj a g)) ->
     exists extra, x_outs x' = x_outs x ++ extra /\
       (extra = [] \/ exists a d b, extra = [(d, b)] /\ In a (rr_backends (ps_rr (x_p x))) /\ backend_dest a = Some d) /\
       (rr_backends (ps_rr (x_p x)) = [] -> extra = [])).
Proof. exact C03.C03_backend_member_event. Qed.
Theorem C03_unsupported_transport_dropped : forall e host port transport m x,
  to_lower transport <> s2b "udp" -> to_lower transport <> s2b "tcp" ->
  x_outs (fst (send_message e host port transport m x)) = x_outs x.
Proof. exact C03.C03_unsupported_transport_dropped. Qed.
Theorem C03_unsupported_transport_event : forall e peer peer_port from rs tcp m0 x x' host port transport,
  is_request m0 = true ->
  process_message e peer peer_port from rs tcp m0 x = Ok x' ->
  effective_hop (e_cfg e) from m0 = HopAddr host port transport ->
  to_lower transport <> s2b "udp" -> to_lower transport <> s2b "tcp" ->
  x_outs x' = x_outs x.
Proof. exact C03.C03_unsupported_transport_event. Qed.
Theorem C03_b1_legacy_refuted :
  effective_hop cfgA ex_from (msg_of b1_req) = HopAddr (s2b "10.0.0.5") 5070 (s2b "tcp") /\
  dests (run1 b1_fixes cfgA [(s2b "10.0.0.5", 5070)] b1_req) = [DUdp (s2b "10.0.0.5") 5070] /\
  dests (run1 all_fixed cfgA [(s2b "10.0.0.5", 5070)] b1_req) = [DDial (s2b "10.0.0.5") 5070 0; DConn 0].
Proof. exact C03.C03_b1_legacy_refuted. Qed.
End P_C03.

(* ------------------------------------------------------------------ C06 *)
From Model Require Import Bytes Wire Uri Hdr Message Msg StaticRoute RoundRobin Pins Proxy RunProxy SpecC14 SpecProxy SpecProxy2.
From Model.proofs Require C07_bridge C13_bridge C06 C13 C03 C06_bridge C06_bridge_tcp.
Section P_C06.
Import C07_bridge C13_bridge C06 C13 C03 C06_bridge C06_bridge_tcp.
Theorem C06_judge_bridge_tcp_msg :
  forall pc stj cid li lc cn data closed jin m rest e x x' pre,
  nth_opt (c_listens (pc_cfg pc)) li = Some lc -> e_cfg e = pc_cfg pc -> e_lc e = lc ->
  e_branch e = branch_of (js_event stj) ->
  find (fun y => Nat.eqb (fst y) cid) (js_conns stj) = Some (cid, (li, cn_peer cn, cn_peer_port cn)) ->
  (li < dial_mark)%nat ->
  cn_from cn = {| t_kind := KTcpListen; t_addr := lc_addr lc; t_port := lc_tcp lc |} ->
  j_read data = Some jin -> parse_message data = Ok (m, rest) ->
  agree_learned (pc_cfg pc) (js_learned stj) (x_learned x) ->
  amem (cn_peer cn) (ps_backends (x_p x)) = false ->
  B7.via_domain m -> B13.route_domain_in (B13.RS m) -> to_domain m -> ruri_domain jin ->
  B7.src_ok (cn_peer cn) -> B7.branch_ok (e_branch e) ->
  safe1 (lc_addr lc) = true -> (0 <= lc_udp lc <= 65535)%Z -> (1 <= lc_tcp lc <= 65535)%Z ->
  lrn_ok (x_learned x) ->
  process_message e (cn_peer cn) (cn_peer_port cn) (cn_from cn) (cn_received_support cn) (Some (cn_id cn)) m x
    = Ok x' ->
  x_outs x' = x_outs x ++ pre ->
  forall vis, judge_C06_event pc stj (EvTcpData cid data) (map B13.labelled (filter vis pre)) closed = 0%nat.
Proof. exact C06_bridge_tcp.C06_judge_bridge_tcp_msg. Qed.
Theorem C06_judge_bridge_tcp_step :
  forall pc stj fx now br st st' outs cid li lc cn data closed jin m rest,
  nth_opt (c_listens (pc_cfg pc)) li = Some lc ->
  find (fun y => Nat.eqb (cn_id y) cid) (st_conns st) = Some cn ->
  find (fun y => Nat.eqb (fst y) cid) (js_conns stj) = Some (cid, (li, cn_peer cn, cn_peer_port cn)) ->
  (li < dial_mark)%nat ->
  cn_li cn = li ->
  cn_from cn = {| t_kind := KTcpListen; t_addr := lc_addr lc; t_port := lc_tcp lc |} ->
  j_read data = Some jin -> parse_message data = Ok (m, rest) -> trim_left rest = [] ->
  br = branch_of (js_event stj) ->
  agree_learned (pc_cfg pc) (js_learned stj) (st_learned st) ->
  (forall p, nth_p (st_proxies st) li = Some p -> amem (cn_peer cn) (ps_backends p) = false) ->
  B7.via_domain m -> B13.route_domain_in (B13.RS m) -> to_domain m -> ruri_domain jin ->
  B7.src_ok (cn_peer cn) -> B7.branch_ok br ->
  safe1 (lc_addr lc) = true -> (0 <= lc_udp lc <= 65535)%Z -> (1 <= lc_tcp lc <= 65535)%Z ->
  lrn_ok (st_learned st) ->
  proxy_step fx (pc_cfg pc) now br st (EvTcpData cid data) = Ok (st', outs) ->
  forall vis, judge_C06_event pc stj (EvTcpData cid data) (map B13.labelled (filter vis outs)) closed = 0%nat.
Proof. exact C06_bridge_tcp.C06_judge_bridge_tcp_step. Qed.
Theorem C06_agree_tcp_step :
  forall pc stj fx now br st st' outs cid li lc cn data jin m rest outs' closed,
  nth_opt (c_listens (pc_cfg pc)) li = Some lc ->
  find (fun y => Nat.eqb (cn_id y) cid) (st_conns st) = Some cn ->
  find (fun y => Nat.eqb (fst y) cid) (js_conns stj) = Some (cid, (li, cn_peer cn, cn_peer_port cn)) ->
  (li < dial_mark)%nat ->
  cn_li cn = li -> cn_open cn = true ->
  cn_from cn = {| t_kind := KTcpListen; t_addr := lc_addr lc; t_port := lc_tcp lc |} ->
  j_read data = Some jin -> parse_message data = Ok (m, rest) -> trim_left rest = [] ->
  agree_learned (pc_cfg pc) (js_learned stj) (st_learned st) ->
  (exists p, nth_p (st_proxies st) li = Some p /\ amem (cn_peer cn) (ps_backends p) = false) ->
  B7.via_domain m ->
  proxy_step fx (pc_cfg pc) now br st (EvTcpData cid data) = Ok (st', outs) ->
  agree_learned (pc_cfg pc) (js_learned (js_step_c stj (EvTcpData cid data) outs' closed)) (st_learned st').
Proof. exact C06_bridge_tcp.C06_agree_tcp_step. Qed.
Theorem C06_lrn_ok_tcp_step :
  forall fx c now br st st' outs cid lc cn data,
  find (fun y => Nat.eqb (cn_id y) cid) (st_conns st) = Some cn ->
  cn_from cn = {| t_kind := KTcpListen; t_addr := lc_addr lc; t_port := lc_tcp lc |} ->
  safe1 (lc_addr lc) = true -> (1 <= lc_tcp lc <= 65535)%Z ->
  lrn_ok (st_learned st) ->
  proxy_step fx c now br st (EvTcpData cid data) = Ok (st', outs) -> lrn_ok (st_learned st').
Proof. exact C06_bridge_tcp.C06_lrn_ok_tcp_step. Qed.
Theorem C06_judge_bridge_step :
  forall pc stj fx now br st st' outs li lc src sport data closed jin m rest,
  nth_opt (c_listens (pc_cfg pc)) li = Some lc ->
  j_read data = Some jin -> parse_message data = Ok (m, rest) ->
  br = branch_of (js_event stj) ->
  agree_learned (pc_cfg pc) (js_learned stj) (st_learned st) ->
  (forall p, nth_p (st_proxies st) li = Some p -> amem src (ps_backends p) = false) ->
  B7.via_domain m -> B13.route_domain_in (B13.RS m) -> to_domain m -> ruri_domain jin ->
  B7.src_ok src -> B7.branch_ok br ->
  safe1 (lc_addr lc) = true -> (1 <= lc_udp lc <= 65535)%Z -> (0 <= lc_tcp lc <= 65535)%Z ->
  lrn_ok (st_learned st) ->
  proxy_step fx (pc_cfg pc) now br st (EvUdp li src sport data) = Ok (st', outs) ->
  forall vis, judge_C06_event pc stj (EvUdp li src sport data) (map B13.labelled (filter vis outs)) closed = 0%nat.
Proof. exact C06_bridge.C06_judge_bridge_step. Qed.
Theorem C06_judge_bridge_udp :
  forall pc stj li lc src sport data closed jin m rest e rs x x' pre,
  nth_opt (c_listens (pc_cfg pc)) li = Some lc -> e_cfg e = pc_cfg pc -> e_lc e = lc ->
  e_branch e = branch_of (js_event stj) ->
  j_read data = Some jin -> parse_message data = Ok (m, rest) ->
  agree_learned (pc_cfg pc) (js_learned stj) (x_learned x) ->
  amem src (ps_backends (x_p x)) = false ->
  B7.via_domain m -> B13.route_domain_in (B13.RS m) -> to_domain m -> ruri_domain jin ->
  B7.src_ok src -> B7.branch_ok (e_branch e) ->
  safe1 (lc_addr lc) = true -> (1 <= lc_udp lc <= 65535)%Z -> (0 <= lc_tcp lc <= 65535)%Z ->
  lrn_ok (x_learned x) ->
  process_message e src sport (B13.udp_transport lc) rs None m x = Ok x' ->
  x_outs x' = x_outs x ++ pre ->
  forall vis, judge_C06_event pc stj (EvUdp li src sport data) (map B13.labelled (filter vis pre)) closed = 0%nat.
Proof. exact C06_bridge.C06_judge_bridge_udp. Qed.
Theorem C06_agree_step :
  forall pc stj fx now br st st' outs li lc src sport data jin m rest outs' closed,
  nth_opt (c_listens (pc_cfg pc)) li = Some lc ->
  j_read data = Some jin -> parse_message data = Ok (m, rest) ->
  agree_learned (pc_cfg pc) (js_learned stj) (st_learned st) ->
  (exists p, nth_p (st_proxies st) li = Some p /\ amem src (ps_backends p) = false) ->
  B7.via_domain m ->
  proxy_step fx (pc_cfg pc) now br st (EvUdp li src sport data) = Ok (st', outs) ->
  agree_learned (pc_cfg pc) (js_learned (js_step_c stj (EvUdp li src sport data) outs' closed)) (st_learned st').
Proof. exact C06_bridge.C06_agree_step. Qed.
Theorem C06_lrn_ok_step :
  forall fx c now br st st' outs li lc src sport data,
  nth_opt (c_listens c) li = Some lc -> safe1 (lc_addr lc) = true -> (1 <= lc_udp lc <= 65535)%Z ->
  lrn_ok (st_learned st) ->
  proxy_step fx c now br st (EvUdp li src sport data) = Ok (st', outs) -> lrn_ok (st_learned st').
Proof. exact C06_bridge.C06_lrn_ok_step. Qed.
Theorem C06_via_pushed : forall e t m,
  let k := via_pos m in
  m_headers (px_add_via e t m) = firstn k (m_headers m) ++ pushed_via_header e t :: skipn k (m_headers m) /\
  m_start (px_add_via e t m) = m_start m /\ m_body (px_add_via e t m) = m_body m /\
  sel (s2b "Via") (m_headers (px_add_via e t m)) = pushed_via_header e t :: sel (s2b "Via") (m_headers m) /\
  all_vias (m_headers (px_add_via e t m)) = pushed_via e t :: all_vias (m_headers m) /\
  (forall nm, same_header (s2b "Via") nm = false -> frame nm m (px_add_via e t m)).
Proof. exact C06.C06_via_pushed. Qed.
Theorem C06_via_position : forall e t m,
  let k := via_pos m in
  (k <= List.length (m_headers m))%nat /\
  nth_error (m_headers (px_add_via e t m)) k = Some (pushed_via_header e t) /\
  firstn k (m_headers (px_add_via e t m)) = firstn k (m_headers m) /\
  skipn (S k) (m_headers (px_add_via e t m)) = skipn k (m_headers m) /\
  sel (s2b "Via") (firstn k (m_headers m)) = [] /\
  (sel (s2b "Via") (m_headers m) = [] -> k = O) /\
  (sel (s2b "Via") (m_headers m) <> [] ->
     exists h r, skipn k (m_headers m) = h :: r /\ same_header (h_name h) (s2b "Via") = true).
Proof. exact C06.C06_via_position. Qed.
Theorem C06_branch : forall e t, via_get_branch (pushed_via e t) = Some (e_branch e).
Proof. exact C06.C06_branch. Qed.
Theorem C06_rr_policy : forall must t m,
  if (has_header (s2b "Record-Route") m || must)%bool then
    let k := find_record_route_pos (m_headers m) in
    m_headers (px_add_record_route must t m)
      = firstn k (m_headers m) ++ own_rr_header t :: skipn k (m_headers m) /\
    m_start (px_add_record_route must t m) = m_start m /\ m_body (px_add_record_route must t m) = m_body m /\
    sel (s2b "Record-Route") (m_headers (px_add_record_route must t m))
      = own_rr_header t :: sel (s2b "Record-Route") (m_headers m) /\
    all_rr (m_headers (px_add_record_route must t m)) = own_record_route t :: all_rr (m_headers m) /\
    (forall nm, same_header (s2b "Record-Route") nm = false -> frame nm m (px_add_record_route must t m))
  else px_add_record_route must t m = m.
Proof. exact C06.C06_rr_policy. Qed.
Theorem C06_rr_position : forall must t m,
  (has_header (s2b "Record-Route") m || must)%bool = true ->
  let k := find_record_route_pos (m_headers m) in
  (k <= List.length (m_headers m))%nat /\
  nth_error (m_headers (px_add_record_route must t m)) k = Some (own_rr_header t) /\
  firstn k (m_headers (px_add_record_route must t m)) = firstn k (m_headers m) /\
  skipn (S k) (m_headers (px_add_record_route must t m)) = skipn k (m_headers m) /\
  sel (s2b "Record-Route") (firstn k (m_headers m)) = [] /\
  (has_header (s2b "Record-Route") m = true ->
     exists h r, skipn k (m_headers m) = h :: r /\ same_header (h_name h) (s2b "Record-Route") = true).
Proof. exact C06.C06_rr_position. Qed.
Theorem C06_rr_flat : forall must t m,
  all_rr (m_headers (px_add_record_route must t m)) =
  if (has_header (s2b "Record-Route") m || must)%bool then own_record_route t :: all_rr (m_headers m)
  else all_rr (m_headers m).
Proof. exact C06.C06_rr_flat. Qed.
Theorem C06_own_record_route_text : forall t, t_port t <> 0 ->
  route_print [own_record_route t] = s2b "<sip:" ++ t_addr t ++ ":"%char :: itoa (t_port t) ++ s2b ";lr>".
Proof. exact C06.own_record_route_text. Qed.
Theorem C06_decorate_learned : forall e l host t m,
  alookup host l = Some t ->
  all_vias (m_headers (decorate e l host m)) = pushed_via e t :: all_vias (m_headers m) /\
  all_rr (m_headers (decorate e l host m)) =
    (if (has_header (s2b "Record-Route") m || pa_must_rr (wire_proxy (e_lc e)))%bool
     then own_record_route t :: all_rr (m_headers m) else all_rr (m_headers m)) /\
  m_start (decorate e l host m) = m_start m /\ m_body (decorate e l host m) = m_body m /\
  (forall nm, same_header (s2b "Via") nm = false -> same_header (s2b "Record-Route") nm = false ->
              frame nm m (decorate e l host m)).
Proof. exact C06.C06_decorate_learned. Qed.
Theorem C06_not_learned_untouched : forall e l host m, alookup host l = None -> decorate e l host m = m.
Proof. exact C06.C06_not_learned_untouched. Qed.
Theorem C06_backend_decorates : forall e t0 p m,
  all_vias (m_headers (backend_message e t0 p m)) = pushed_via e t0 :: all_vias (m_headers m) /\
  all_rr (m_headers (backend_message e t0 p m)) =
    (if (has_header (s2b "Record-Route") m || pa_must_rr (wire_proxy (e_lc e)))%bool
     then own_record_route t0 :: all_rr (m_headers m) else all_rr (m_headers m)).
Proof. exact C06.C06_backend_decorates. Qed.
Theorem C06_branch_of_inj : forall a b, branch_of a = branch_of b -> a = b.
Proof. exact C06.branch_of_inj. Qed.
Theorem C06_branch_of_cookie : forall n, has_prefix (s2b "z9hG4bK") (branch_of n) = true.
Proof. exact C06.branch_of_cookie. Qed.
Theorem C06_branches_distinct : forall e0 n, NoDup (map branch_of (seq e0 n)).
Proof. exact C06.C06_branches_distinct. Qed.
Theorem C06_learn_lookup : forall k ip t l,
  alookup k (learn ip t l) =
  if beq k ip
  then Some (match alookup ip l with
             | Some old => if same_transport old t then old else t
             | None => t
             end)
  else alookup k l.
Proof. exact C06.learn_lookup. Qed.
Theorem C06_learning : forall e peer peer_port from rs tcp m0 x x',
  process_message e peer peer_port from rs tcp m0 x = Ok x' ->
  x_learned x' =
  if (is_request m0 && negb (amem peer (ps_backends (x_p x))))%bool
  then fold_left (fun l h => learn h from l) (peer :: map v_host (all_vias (m_headers m0))) (x_learned x)
  else x_learned x.
Proof. exact C06.C06_learning. Qed.
Theorem C06_learning_response : forall e peer peer_port from rs tcp m0 x x',
  is_request m0 = false ->
  process_message e peer peer_port from rs tcp m0 x = Ok x' -> x_learned x' = x_learned x.
Proof. exact C06.C06_learning_response. Qed.
Theorem C06_relayed_request : forall e peer peer_port from rs tcp m0 x x',
  is_request m0 = true ->
  process_message e peer peer_port from rs tcp m0 x = Ok x' ->
  exists m1 extra, x_outs x' = x_outs x ++ extra /\ (msg_count extra <= 1)%nat /\ via_rel m0 m1 /\
    let rr_of t := if (has_header (s2b "Record-Route") m0 || pa_must_rr (wire_proxy (e_lc e)))%bool
                   then own_record_route t :: all_rr (m_headers m0) else all_rr (m_headers m0) in
    forall o, In o extra -> is_msg o = true ->
      exists mo, snd o = write_message mo /\
        match effective_hop (e_cfg e) from m0 with
        | HopAddr host _ _ =>
            match alookup host (learned_after peer from m0 x) with
            | Some t => all_vias (m_headers mo) = pushed_via e t :: all_vias (m_headers m1) /\
                        all_rr (m_headers mo) = rr_of t
            | None => all_vias (m_headers mo) = all_vias (m_headers m1) /\
                      all_rr (m_headers mo) = all_rr (m_headers m0)
            end
        | HopBackend =>
            exists t0, first_transport (e_lc e) = Some t0 /\
                       all_vias (m_headers mo) = pushed_via e t0 :: all_vias (m_headers m1) /\
                       all_rr (m_headers mo) = rr_of t0
        | _ => False
        end.
Proof. exact C03.C06_relayed_request. Qed.
End P_C06.

(* ------------------------------------------------------------------ C07 *)
From Model Require Import Bytes Wire Uri Hdr Message Msg StaticRoute RoundRobin Pins Proxy RunProxy SpecC14 SpecProxy SpecProxy2.
From Model.proofs Require C07 C07_bridge C07_bridge_tcp.
Section P_C07.
Import C07 C07_bridge C07_bridge_tcp.
Theorem C07_judge_bridge_tcp_msg :
  forall (pc : proxy_case) (stj : jstate) (fx : fixes) (now : Z) (br : bytes) (cid li : nat) (lc : listen_cfg)
         (cn : conn) (data : bytes) (jin : jmsg) (m : message) (rest : bytes)
         (x x' : ctx) (pre : list output) (keep : output -> bool) (closed : list nat),
  let c := pc_cfg pc in
  let e := mk_env fx c (item_rs_of (fx_wiring fx)) li lc now br in
  nth_opt (c_listens c) li = Some lc ->
  find (fun y => Nat.eqb (fst y) cid) (js_conns stj) = Some (cid, (li, cn_peer cn, cn_peer_port cn)) ->
  (li < dial_mark)%nat ->
  cn_from cn = {| t_kind := KTcpListen; t_addr := lc_addr lc; t_port := lc_tcp lc |} ->
  cn_received_support cn = received_on lc ->
  j_read data = Some jin -> parse_message data = Ok (m, rest) ->
  via_domain m ->
  src_ok (cn_peer cn) -> branch_ok br ->
  safe1 (lc_addr lc) = true -> 0 <= lc_udp lc <= 65535 -> 0 <= lc_tcp lc <= 65535 ->
  (forall h t, alookup h (x_learned x) = Some t -> safe1 (t_addr t) = true /\ 0 <= t_port t <= 65535) ->
  process_message e (cn_peer cn) (cn_peer_port cn) (cn_from cn) (cn_received_support cn) (Some (cn_id cn)) m x
    = Ok x' ->
  x_outs x' = x_outs x ++ pre ->
  judge_C07_event pc stj (EvTcpData cid data) (map lab (filter keep pre)) closed = O.
Proof. exact C07_bridge_tcp.C07_judge_bridge_tcp_msg. Qed.
Theorem C07_judge_bridge_tcp_step :
  forall (pc : proxy_case) (stj : jstate) (fx : fixes) (now : Z) (br : bytes) (st : state) (cid li : nat)
         (lc : listen_cfg) (cn : conn) (data : bytes) (jin : jmsg) (m : message) (rest : bytes)
         (st' : state) (outs : list output) (keep : output -> bool) (closed : list nat),
  nth_opt (c_listens (pc_cfg pc)) li = Some lc ->
  find (fun y => Nat.eqb (cn_id y) cid) (st_conns st) = Some cn ->
  find (fun y => Nat.eqb (fst y) cid) (js_conns stj) = Some (cid, (li, cn_peer cn, cn_peer_port cn)) ->
  (li < dial_mark)%nat ->
  cn_li cn = li ->
  cn_from cn = {| t_kind := KTcpListen; t_addr := lc_addr lc; t_port := lc_tcp lc |} ->
  cn_received_support cn = received_on lc ->
  j_read data = Some jin -> parse_message data = Ok (m, rest) -> trim_left rest = [] ->
  via_domain m -> src_ok (cn_peer cn) -> branch_ok br ->
  safe1 (lc_addr lc) = true -> 0 <= lc_udp lc <= 65535 -> 0 <= lc_tcp lc <= 65535 ->
  (forall h t, alookup h (st_learned st) = Some t -> safe1 (t_addr t) = true /\ 0 <= t_port t <= 65535) ->
  proxy_step fx (pc_cfg pc) now br st (EvTcpData cid data) = Ok (st', outs) ->
  judge_C07_event pc stj (EvTcpData cid data) (map lab (filter keep outs)) closed = O.
Proof. exact C07_bridge_tcp.C07_judge_bridge_tcp_step. Qed.
Theorem C07_stamp : forall peer port m pre h post v rest,
  m_headers m = pre ++ h :: post -> nomatch VIA pre -> same_header (h_name h) VIA = true ->
  hval_vias (h_val h) = Some (v :: rest) ->
  s_set_received peer port m =
    ({| m_start := m_start m;
        m_headers := pre ++ {| h_name := h_name h; h_val := HVia (stamp peer port v :: rest) |} :: post;
        m_body := m_body m |}, Ok tt).
Proof. exact C07.C07_stamp. Qed.
Theorem C07_stamp_params : forall peer port v,
  v_params (stamp peer port v) =
    (if kv_has (s2b "rport") (kv_set (s2b "received") peer (v_params v))
     then kv_set (s2b "rport") (itoa port) (kv_set (s2b "received") peer (v_params v))
     else kv_set (s2b "received") peer (v_params v)) /\
  v_name (stamp peer port v) = v_name v /\ v_version (stamp peer port v) = v_version v /\
  v_transport (stamp peer port v) = v_transport v /\ v_host (stamp peer port v) = v_host v /\
  v_port (stamp peer port v) = v_port v.
Proof. exact C07.C07_stamp_params. Qed.
Theorem C07_kv_set_char : forall k v l,
  kv_get k (kv_set k v l) = Some v /\
  (forall k', k' <> k -> kv_get k' (kv_set k v l) = kv_get k' l) /\
  filter (fun p => negb (beq (k_key p) k)) (kv_set k v l) = filter (fun p => negb (beq (k_key p) k)) l /\
  (kv_has k l = true -> exists a p b, l = a ++ p :: b /\ k_key p = k /\ kv_get k a = None /\
                                      kv_set k v l = a ++ {| k_key := k_key p; k_val := v |} :: b) /\
  (kv_has k l = false -> kv_set k v l = l ++ [{| k_key := k; k_val := v |}]).
Proof. exact C07.C07_kv_set_char. Qed.
Theorem C07_pipeline : forall e peer port from rs tcp m0 x x',
  is_request m0 = true ->
  process_message e peer port from rs tcp m0 x = Ok x' ->
  exists outs, x_outs x' = x_outs x ++ outs /\
               Forall (relayed_as (e_branch e) (stamp_hdrs rs peer port (via_hdrs m0))) outs.
Proof. exact C07.C07_pipeline. Qed.
Theorem C07_wiring : forall lc,
  item_rs_of true lc = negb (lc_no_received lc) /\
  pa_received_support (wire_proxy lc) = negb (lc_no_received lc).
Proof. exact C07.C07_wiring. Qed.
Theorem C07_wiring_legacy : forall lc, item_rs_of false lc = lc_def_route lc.
Proof. exact C07.C07_wiring_legacy. Qed.
Theorem C07_wired_reachable : forall fx c st, fx_wiring fx = true -> reachable fx c st -> wired c (st_conns st).
Proof. exact C07.C07_wired_reachable. Qed.
Theorem C07_step_udp : forall fx c now br st li src sport data lc m rest st' outs,
  nth_opt (c_listens c) li = Some lc -> parse_message data = Ok (m, rest) -> is_request m = true ->
  proxy_step fx c now br st (EvUdp li src sport data) = Ok (st', outs) ->
  Forall (relayed_as br (stamp_hdrs (item_rs_of (fx_wiring fx) lc) src sport (via_hdrs m))) outs.
Proof. exact C07.C07_step_udp. Qed.
Theorem C07_step_tcp : forall fx c now br st cid data cn lc st' outs,
  find (fun x => Nat.eqb (cn_id x) cid) (st_conns st) = Some cn ->
  nth_opt (c_listens c) (cn_li cn) = Some lc ->
  proxy_step fx c now br st (EvTcpData cid data) = Ok (st', outs) ->
  exists oss, outs = List.concat oss /\
    Forall2 (fun m os => is_request m = true ->
               Forall (relayed_as br (stamp_hdrs (cn_received_support cn) (cn_peer cn) (cn_peer_port cn) (via_hdrs m))) os)
            (firstn (List.length oss) (parse_stream (S (List.length data)) data)) oss.
Proof. exact C07.C07_step_tcp. Qed.
Theorem C07_judge_bridge_udp :
  forall (pc : proxy_case) (st : jstate) (fx : fixes) (now : Z) (br : bytes) (li : nat) (lc : listen_cfg)
         (src : bytes) (sport : Z) (data : bytes) (jin : jmsg) (m : message) (rest : bytes)
         (x x' : ctx) (pre : list output) (keep : output -> bool) (closed : list nat),
  let c := pc_cfg pc in
  let e := mk_env fx c (item_rs_of (fx_wiring fx)) li lc now br in
  fx_wiring fx = true ->
  nth_opt (c_listens c) li = Some lc ->
  j_read data = Some jin -> parse_message data = Ok (m, rest) ->
  via_domain m ->
  src_ok src -> branch_ok br ->
  safe1 (lc_addr lc) = true -> 0 <= lc_udp lc <= 65535 -> 0 <= lc_tcp lc <= 65535 ->
  (forall h t, alookup h (x_learned x) = Some t -> safe1 (t_addr t) = true /\ 0 <= t_port t <= 65535) ->
  process_message e src sport {| t_kind := KUdp; t_addr := lc_addr lc; t_port := lc_udp lc |}
                  (e_item_rs e) None m x = Ok x' ->
  x_outs x' = x_outs x ++ pre ->
  judge_C07_event pc st (EvUdp li src sport data) (map lab (filter keep pre)) closed = O.
Proof. exact C07_bridge.C07_judge_bridge_udp. Qed.
Theorem C07_judge_bridge_step :
  forall (pc : proxy_case) (stj : jstate) (fx : fixes) (now : Z) (br : bytes) (st : state) (li : nat)
         (lc : listen_cfg) (src : bytes) (sport : Z) (data : bytes) (jin : jmsg) (m : message) (rest : bytes)
         (st' : state) (outs : list output) (keep : output -> bool) (closed : list nat),
  fx_wiring fx = true -> nth_opt (c_listens (pc_cfg pc)) li = Some lc ->
  j_read data = Some jin -> parse_message data = Ok (m, rest) ->
  via_domain m -> src_ok src -> branch_ok br ->
  safe1 (lc_addr lc) = true -> 0 <= lc_udp lc <= 65535 -> 0 <= lc_tcp lc <= 65535 ->
  (forall h t, alookup h (st_learned st) = Some t -> safe1 (t_addr t) = true /\ 0 <= t_port t <= 65535) ->
  proxy_step fx (pc_cfg pc) now br st (EvUdp li src sport data) = Ok (st', outs) ->
  judge_C07_event pc stj (EvUdp li src sport data) (map lab (filter keep outs)) closed = O.
Proof. exact C07_bridge.C07_judge_bridge_step. Qed.
End P_C07.

(* ------------------------------------------------------------------ C13 *)
From Model Require Import Bytes Wire Uri Hdr Message Msg StaticRoute RoundRobin Pins Proxy RunProxy SpecC14 SpecProxy SpecProxy2.
From Model.proofs Require C06 C13 C13_bridge C13_bridge_tcp.
Section P_C13.
Import C06 C13 C13_bridge C13_bridge_tcp.
Theorem C13_judge_bridge_tcp_msg :
  forall pc stj cid li lc cn data closed jin m rest e x x',
  nth_opt (c_listens (pc_cfg pc)) li = Some lc -> e_cfg e = pc_cfg pc -> e_lc e = lc ->
  find (fun x => Nat.eqb (fst x) cid) (js_conns stj) = Some (cid, (li, cn_peer cn, cn_peer_port cn)) ->
  (li < dial_mark)%nat ->
  cn_li cn = li -> cn_id cn = cid ->
  cn_from cn = {| t_kind := KTcpListen; t_addr := lc_addr lc; t_port := lc_tcp lc |} ->
  j_read data = Some jin -> parse_message data = Ok (m, rest) -> trim_left rest = [] ->
  is_request m = true ->
  route_domain_in (RS m) ->
  B7.via_domain m -> B7.src_ok (cn_peer cn) -> B7.branch_ok (e_branch e) ->
  safe1 (lc_addr lc) = true -> (0 <= lc_udp lc <= 65535)%Z -> (0 <= lc_tcp lc <= 65535)%Z ->
  (forall h t, alookup h (x_learned x) = Some t -> safe1 (t_addr t) = true /\ (0 <= t_port t <= 65535)%Z) ->
  process_message e (cn_peer cn) (cn_peer_port cn) (cn_from cn) (cn_received_support cn) (Some (cn_id cn)) m x = Ok x' ->
  exists pre, x_outs x' = x_outs x ++ pre /\ (msg_count pre <= 1)%nat /\
    forall vis, judge_C13_event pc stj (EvTcpData cid data) (map labelled (filter vis pre)) closed = 0%nat.
Proof. exact C13_bridge_tcp.C13_judge_bridge_tcp_msg. Qed.
Theorem C13_judge_bridge_tcp_step :
  forall pc stj fx now br st st' outs cid li lc cn data closed jin m rest,
  nth_opt (c_listens (pc_cfg pc)) li = Some lc ->
  find (fun x => Nat.eqb (fst x) cid) (js_conns stj) = Some (cid, (li, cn_peer cn, cn_peer_port cn)) ->
  (li < dial_mark)%nat ->
  find (fun x => Nat.eqb (cn_id x) cid) (st_conns st) = Some cn ->
  cn_li cn = li ->
  cn_from cn = {| t_kind := KTcpListen; t_addr := lc_addr lc; t_port := lc_tcp lc |} ->
  j_read data = Some jin -> parse_message data = Ok (m, rest) -> trim_left rest = [] ->
  is_request m = true ->
  route_domain_in (RS m) ->
  B7.via_domain m -> B7.src_ok (cn_peer cn) -> B7.branch_ok br ->
  safe1 (lc_addr lc) = true -> (0 <= lc_udp lc <= 65535)%Z -> (0 <= lc_tcp lc <= 65535)%Z ->
  (forall h t, alookup h (st_learned st) = Some t -> safe1 (t_addr t) = true /\ (0 <= t_port t <= 65535)%Z) ->
  proxy_step fx (pc_cfg pc) now br st (EvTcpData cid data) = Ok (st', outs) ->
  forall vis, judge_C13_event pc stj (EvTcpData cid data) (map labelled (filter vis outs)) closed = 0%nat.
Proof. exact C13_bridge_tcp.C13_judge_bridge_tcp_step. Qed.
Theorem C13_route_headers : forall e peer peer_port from rs tcp m0 x x',
  is_request m0 = true ->
  process_message e peer peer_port from rs tcp m0 x = Ok x' ->
  exists extra, x_outs x' = x_outs x ++ extra /\ (msg_count extra <= 1)%nat /\
    forall o, In o extra -> is_msg o = true ->
      exists mo, snd o = write_message mo /\
                 routed (fun hs => step_next (c_keep_next_hop (e_cfg e)) (step_own (e_cfg e) from hs)) m0 mo.
Proof. exact C13_bridge.C13_route_headers. Qed.
Theorem C13_judge_bridge_udp :
  forall pc st li lc src sport data closed jin m rest e rs x x',
  nth_opt (c_listens (pc_cfg pc)) li = Some lc -> e_cfg e = pc_cfg pc -> e_lc e = lc ->
  j_read data = Some jin -> parse_message data = Ok (m, rest) ->
  is_request m = true ->
  route_domain_in (RS m) ->
  B7.via_domain m -> B7.src_ok src -> B7.branch_ok (e_branch e) ->
  safe1 (lc_addr lc) = true -> (0 <= lc_udp lc <= 65535)%Z -> (0 <= lc_tcp lc <= 65535)%Z ->
  (forall h t, alookup h (x_learned x) = Some t -> safe1 (t_addr t) = true /\ (0 <= t_port t <= 65535)%Z) ->
  process_message e src sport (udp_transport lc) rs None m x = Ok x' ->
  exists pre, x_outs x' = x_outs x ++ pre /\ (msg_count pre <= 1)%nat /\
    forall vis, judge_C13_event pc st (EvUdp li src sport data) (map labelled (filter vis pre)) closed = 0%nat.
Proof. exact C13_bridge.C13_judge_bridge_udp. Qed.
Theorem C13_judge_bridge_step :
  forall pc stj fx now br st st' outs li lc src sport data closed jin m rest,
  nth_opt (c_listens (pc_cfg pc)) li = Some lc ->
  j_read data = Some jin -> parse_message data = Ok (m, rest) ->
  is_request m = true ->
  route_domain_in (RS m) ->
  B7.via_domain m -> B7.src_ok src -> B7.branch_ok br ->
  safe1 (lc_addr lc) = true -> (0 <= lc_udp lc <= 65535)%Z -> (0 <= lc_tcp lc <= 65535)%Z ->
  (forall h t, alookup h (st_learned st) = Some t -> safe1 (t_addr t) = true /\ (0 <= t_port t <= 65535)%Z) ->
  proxy_step fx (pc_cfg pc) now br st (EvUdp li src sport data) = Ok (st', outs) ->
  forall vis, judge_C13_event pc stj (EvUdp li src sport data) (map labelled (filter vis outs)) closed = 0%nat.
Proof. exact C13_bridge.C13_judge_bridge_step. Qed.
Theorem C13_own_popped_iff : forall c from m,
  route_view (fst (mtry (try_remove_top_route c from) m)) =
  match route_view m with
  | EDec e1 :: rest => if designates c from e1 then rest else route_view m
  | _ => route_view m
  end.
Proof. exact C13.try_remove_top_route_pops_iff_own. Qed.
Theorem C13_next_hop_popped_iff_not_keep : forall keep m,
  match route_view m with
  | EDec rp :: rest =>
      route_view (fst (next_hop_by_route keep m)) = (if keep then EDec rp :: rest else rest) /\
      snd (next_hop_by_route keep m) =
        match na_addr (r_addr rp) with
        | ASip u => Ok (u_host u, sip_uri_get_port u, sip_uri_transport u)
        | AAbs _ => Err
        end
  | _ => route_view (fst (next_hop_by_route keep m)) = route_view m /\ is_ok (snd (next_hop_by_route keep m)) = false
  end.
Proof. exact C13.next_hop_by_route_pops_iff_not_keep. Qed.
Theorem C13_route : forall e peer peer_port from rs tcp m0 x x',
  is_request m0 = true ->
  process_message e peer peer_port from rs tcp m0 x = Ok x' ->
  exists extra, x_outs x' = x_outs x ++ extra /\ (msg_count extra <= 1)%nat /\
    forall o, In o extra -> is_msg o = true ->
      exists mo, snd o = write_message mo /\
                 route_view mo = skipn (route_consumed (e_cfg e) from (c_keep_next_hop (e_cfg e)) (route_view m0))
                                       (route_view m0).
Proof. exact C13.C13_route. Qed.
Theorem C13_route_decoded : forall e peer peer_port from rs tcp m0 x x' entries,
  is_request m0 = true ->
  route_view m0 = map EDec entries ->
  process_message e peer peer_port from rs tcp m0 x = Ok x' ->
  let own := own_of (e_cfg e) from entries in
  let remaining := if own then tl entries else entries in
  let k := ((if own then 1 else 0) +
            (match remaining with _ :: _ => if c_keep_next_hop (e_cfg e) then 0 else 1 | [] => 0 end))%nat in
  exists extra, x_outs x' = x_outs x ++ extra /\ (msg_count extra <= 1)%nat /\
    forall o, In o extra -> is_msg o = true ->
      exists mo, snd o = write_message mo /\ route_view mo = map EDec (skipn k entries).
Proof. exact C13.C13_route_decoded. Qed.
Theorem C13_route_view_grammar : forall l, l <> [] -> forallb wf_relem l = true ->
  hval_entries (HRaw (rp_route l)) = map EDec (map C14_hdr.embed_relem l).
Proof. exact C13.route_view_grammar. Qed.
Theorem C13_route_header_text : forall l, forallb wf_relem l = true ->
  hval_print (HRoute (map C14_hdr.embed_relem l)) = rp_route l.
Proof. exact C13.route_header_text. Qed.
Theorem C13_keep_setting_decides : forall setting env, setting <> [] ->
  to_keep_next_hop_route setting env = truthy setting.
Proof. exact C13.C13_keep_setting_decides. Qed.
Theorem C13_keep_env_default : forall env, to_keep_next_hop_route [] env = truthy env.
Proof. exact C13.C13_keep_env_default. Qed.
End P_C13.
