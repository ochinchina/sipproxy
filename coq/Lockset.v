(* Lockset.v -- abstract trace semantics of threads, mutexes, channels and memory accesses, and
   the soundness of the lock / ownership / init-only / hand-off disciplines (property C09).

   Self-contained (Coq standard library only).  Nothing here mentions the Go program: the tie
   to /repo is Policy.v (policy over the table generated by tools/locktab) and proofs/C09.v
   (bridge).

   WHAT IS COVERED.  A trace is a list of events; event k of thread t is one of
     Acq t m | Rel t m   (sync.Mutex Lock / Unlock of mutex m)
     Rd t l  | Wr t l    (plain read / write of memory location l)
     Fork t t'           (`go` statement executed by t, creating thread t')
     Send t c | Recv t c (channel operations; the k-th Recv on c is paired with the k-th Send)
   Well-formed traces: a mutex is acquired only when free and released only by its holder; a
   thread other than main acts only after the Fork that created it, and is created once; a
   Recv happens only if an unmatched Send precedes it.
   Happens-before is the transitive closure of: program order, Rel m -> any later Acq m,
   Fork t t' -> every action of t' (= first action of t' composed with program order),
   k-th Send on c -> k-th Recv on c.
   Theorem lockset_sound: if every location obeys one of
     Locked m     every access is made while the accessing thread holds m,
     Owned t      every access is made by thread t,
     InitOnly tc  every write is by tc, and every other thread that accesses the location
                  descends (through Fork events) from a thread forked by tc after the write
                  (special case, lemma init_before_any_fork: written only before any Fork of
                  the trace),
     Handoff s r  every access is by the sender before its Send at index s or by the receiver
                  after the matching Recv at index r (single ownership transfer over a channel),
   then any two conflicting accesses (same location, different threads, at least one write) of
   ANY well-formed trace are ordered by happens-before: no data race under any schedule.

   WHAT IS NOT.  sync/atomic operations and RWMutex read locks are not events of this model;
   multi-hop ownership transfer (a buffer going pool -> receiver -> parser -> pool) is not a
   discipline here (each hop is an instance of Locked or Handoff, the composition is not
   proved); channel capacity / blocking and deadlock are not modelled (lock ORDER is checked
   separately in Policy.v); the Go memory model is taken to be "data-race-free programs are
   sequentially consistent", with exactly the synchronisation edges listed above. *)
From Coq Require Import List Arith Lia Bool.
Import ListNotations.

Definition tid := nat.
Definition mutex := nat.
Definition loc := nat.
Definition chan := nat.
Definition main_thread : tid := 0.

Inductive event : Type :=
| Acq (t : tid) (m : mutex)
| Rel (t : tid) (m : mutex)
| Rd (t : tid) (l : loc)
| Wr (t : tid) (l : loc)
| Fork (t t' : tid)
| Send (t : tid) (c : chan)
| Recv (t : tid) (c : chan).

Definition trace := list event.

Definition thread_of (e : event) : tid :=
  match e with
  | Acq t _ | Rel t _ | Rd t _ | Wr t _ | Fork t _ | Send t _ | Recv t _ => t
  end.

Definition step_holder (m : mutex) (h : option tid) (e : event) : option tid :=
  match e with
  | Acq t m' => if Nat.eqb m' m then Some t else h
  | Rel _ m' => if Nat.eqb m' m then None else h
  | _ => h
  end.

Definition holder (m : mutex) (p : trace) : option tid := fold_left (step_holder m) p None.

Definition is_send (c : chan) (e : event) : bool :=
  match e with Send _ c' => Nat.eqb c' c | _ => false end.
Definition is_recv (c : chan) (e : event) : bool :=
  match e with Recv _ c' => Nat.eqb c' c | _ => false end.
Definition count_send (c : chan) (p : trace) : nat := length (filter (is_send c) p).
Definition count_recv (c : chan) (p : trace) : nat := length (filter (is_recv c) p).

Definition forked (p : trace) (t : tid) : Prop := exists t0, In (Fork t0 t) p.
Definition alive (p : trace) (t : tid) : Prop := t = main_thread \/ forked p t.

Definition ok_event (p : trace) (e : event) : Prop :=
  alive p (thread_of e) /\
  match e with
  | Acq _ m => holder m p = None
  | Rel t m => holder m p = Some t
  | Fork _ t' => t' <> main_thread /\ ~ forked p t'
  | Recv _ c => count_recv c p < count_send c p
  | _ => True
  end.

Definition wf_trace (tr : trace) : Prop :=
  forall k e, nth_error tr k = Some e -> ok_event (firstn k tr) e.

Inductive hb_edge (tr : trace) (i j : nat) : Prop :=
| E_po : forall ei ej, nth_error tr i = Some ei -> nth_error tr j = Some ej ->
    i < j -> thread_of ei = thread_of ej -> hb_edge tr i j
| E_lock : forall t t' m, nth_error tr i = Some (Rel t m) -> nth_error tr j = Some (Acq t' m) ->
    i < j -> hb_edge tr i j
| E_fork : forall t t' ej, nth_error tr i = Some (Fork t t') -> nth_error tr j = Some ej ->
    thread_of ej = t' -> i < j -> hb_edge tr i j
| E_chan : forall t t' c, nth_error tr i = Some (Send t c) -> nth_error tr j = Some (Recv t' c) ->
    count_send c (firstn i tr) = count_recv c (firstn j tr) -> i < j -> hb_edge tr i j.

Inductive hb (tr : trace) : nat -> nat -> Prop :=
| hb_step : forall i j, hb_edge tr i j -> hb tr i j
| hb_trans : forall i k j, hb tr i k -> hb tr k j -> hb tr i j.

(* (thread, location, is-write) of a memory access event *)
Definition access_of (e : event) : option (tid * loc * bool) :=
  match e with
  | Rd t l => Some (t, l, false)
  | Wr t l => Some (t, l, true)
  | _ => None
  end.

Definition access_at (tr : trace) (i : nat) : option (tid * loc * bool) :=
  match nth_error tr i with Some e => access_of e | None => None end.

Definition race_free (tr : trace) : Prop :=
  forall i j ti tj l wi wj,
    i < j ->
    access_at tr i = Some (ti, l, wi) ->
    access_at tr j = Some (tj, l, wj) ->
    ti <> tj -> wi || wj = true ->
    hb tr i j.

(* u is t or an ancestor of t in the fork tree of the trace *)
Inductive desc (tr : trace) (u : tid) : tid -> Prop :=
| desc_refl : desc tr u u
| desc_fork : forall v w, desc tr u v -> In (Fork v w) tr -> desc tr u w.

Inductive discipline : Type :=
| Locked (m : mutex)
| Owned (t : tid)
| InitOnly (tc : tid)
| Handoff (s r : nat).

Definition holds (tr : trace) (i : nat) (t : tid) (m : mutex) : Prop :=
  holder m (firstn i tr) = Some t.

Definition obeys (tr : trace) (l : loc) (d : discipline) : Prop :=
  match d with
  | Locked m => forall i t w, access_at tr i = Some (t, l, w) -> holds tr i t m
  | Owned t0 => forall i t w, access_at tr i = Some (t, l, w) -> t = t0
  | InitOnly tc =>
      (forall i t, access_at tr i = Some (t, l, true) -> t = tc) /\
      (forall i j t w, access_at tr i = Some (tc, l, true) -> access_at tr j = Some (t, l, w) ->
         t <> tc ->
         exists k u, i < k /\ nth_error tr k = Some (Fork tc u) /\ desc tr u t)
  | Handoff s r =>
      exists ts tr_ c,
        nth_error tr s = Some (Send ts c) /\ nth_error tr r = Some (Recv tr_ c) /\
        count_send c (firstn s tr) = count_recv c (firstn r tr) /\ s < r /\
        forall i t w, access_at tr i = Some (t, l, w) -> (t = ts /\ i < s) \/ (t = tr_ /\ r < i)
  end.

Definition disciplined (policy : loc -> discipline) (tr : trace) : Prop :=
  forall l, obeys tr l (policy l).

Lemma firstn_S_nth : forall (A : Type) (l : list A) k e,
  nth_error l k = Some e -> firstn (S k) l = firstn k l ++ [e].
Proof.
  intros A l; induction l as [|a l IH]; intros k e H.
  - destruct k; discriminate.
  - destruct k as [|k].
    + simpl in H. injection H as ->. reflexivity.
    + simpl in H. rewrite !firstn_cons. rewrite (IH _ _ H). reflexivity.
Qed.

Lemma In_firstn_idx : forall (A : Type) n (l : list A) x,
  In x (firstn n l) -> exists idx, idx < n /\ nth_error l idx = Some x.
Proof.
  intros A n; induction n as [|n IH]; intros l x H.
  - simpl in H. contradiction.
  - destruct l as [|a l]; [simpl in H; contradiction|].
    rewrite firstn_cons in H. destruct H as [->|H].
    + exists 0. split; [lia|reflexivity].
    + destruct (IH _ _ H) as (idx & Hlt & Hn). exists (S idx). split; [lia|exact Hn].
Qed.

Lemma idx_In_firstn : forall (A : Type) n (l : list A) idx x,
  nth_error l idx = Some x -> idx < n -> In x (firstn n l).
Proof.
  intros A n; induction n as [|n IH]; intros l idx x H Hlt; [lia|].
  destruct l as [|a l]; [destruct idx; discriminate|].
  rewrite firstn_cons. destruct idx as [|idx]; simpl in H.
  - injection H as ->. left; reflexivity.
  - right. apply (IH _ idx); [exact H|lia].
Qed.

Lemma holder_S : forall tr m k e, nth_error tr k = Some e ->
  holder m (firstn (S k) tr) = step_holder m (holder m (firstn k tr)) e.
Proof.
  intros tr m k e H. unfold holder. rewrite (firstn_S_nth _ _ _ _ H), fold_left_app. reflexivity.
Qed.

Lemma access_at_inv : forall tr i t l w, access_at tr i = Some (t, l, w) ->
  exists e, nth_error tr i = Some e /\ thread_of e = t /\
            ((e = Rd t l /\ w = false) \/ (e = Wr t l /\ w = true)).
Proof.
  intros tr i t l w H. unfold access_at in H.
  destruct (nth_error tr i) as [e|]; [|discriminate].
  exists e. split; [reflexivity|].
  destruct e; simpl in H; try discriminate; injection H as -> -> <-; simpl; auto.
Qed.

Lemma hb_edge_lt : forall tr i j, hb_edge tr i j -> i < j.
Proof. intros tr i j H; destruct H; assumption. Qed.

Lemma hb_lt : forall tr i j, hb tr i j -> i < j.
Proof.
  intros tr i j H; induction H as [i j He|i k j _ IH1 _ IH2]; [exact (hb_edge_lt _ _ _ He)|lia].
Qed.

Lemma hb_po : forall tr i j ei ej, nth_error tr i = Some ei -> nth_error tr j = Some ej ->
  i < j -> thread_of ei = thread_of ej -> hb tr i j.
Proof. intros tr i j ei ej Hi Hj Hlt Ht. apply hb_step. exact (E_po tr i j ei ej Hi Hj Hlt Ht). Qed.

(* what holds at i and no longer at j >= i is lost by one step in between *)
Lemma last_holds : forall (Q : nat -> Prop), (forall k, {Q k} + {~ Q k}) ->
  forall i j, i <= j -> Q i -> ~ Q j -> exists k, i <= k < j /\ Q k /\ ~ Q (S k).
Proof.
  intros Q dec i j; induction j as [|j IH]; intros Hij Hi Hj.
  - assert (i = 0) by lia; subst i. contradiction.
  - destruct (Nat.eq_dec i (S j)) as [->|Hne]; [contradiction|].
    destruct (dec j) as [Hq|Hq].
    + exists j. split; [lia|split; assumption].
    + destruct (IH ltac:(lia) Hi Hq) as (k & Hk & H). exists k. split; [lia|exact H].
Qed.

Lemma holder_eq_dec : forall a b : option tid, {a = b} + {a <> b}.
Proof. repeat decide equality. Qed.

(* a holder loses the mutex only by its own Rel (wf_trace), ... *)
Lemma holder_release : forall tr m t i, wf_trace tr ->
  holder m (firstn i tr) = Some t ->
  forall j, i <= j -> j <= length tr -> holder m (firstn j tr) <> Some t ->
  exists r, i <= r < j /\ nth_error tr r = Some (Rel t m).
Proof.
  intros tr m t i Hwf Hi j Hij Hlen Hj.
  destruct (last_holds (fun k => holder m (firstn k tr) = Some t) (fun k => holder_eq_dec _ _)
                       i j Hij Hi Hj) as (r & Hr & Hh & Hn).
  exists r. split; [exact Hr|].
  destruct (nth_error tr r) as [e|] eqn:He; [|apply nth_error_None in He; lia].
  rewrite (holder_S _ _ _ _ He), Hh in Hn. destruct (Hwf _ _ He) as [_ Hok].
  destruct e as [t0 m0|t0 m0| | | | |]; simpl in Hn, Hok; try congruence;
    (destruct (Nat.eqb_spec m0 m) as [E|E]; [subst m0|]; congruence).
Qed.

(* ... and a thread gets it only by its own Acq *)
Lemma holder_acquire : forall tr m t i,
  holder m (firstn i tr) <> Some t ->
  forall j, i <= j -> j <= length tr -> holder m (firstn j tr) = Some t ->
  exists a, i <= a < j /\ nth_error tr a = Some (Acq t m).
Proof.
  intros tr m t i Hi j Hij Hlen Hj.
  assert (dec : forall k, {holder m (firstn k tr) <> Some t} + {~ holder m (firstn k tr) <> Some t})
    by (intros k; destruct (holder_eq_dec (holder m (firstn k tr)) (Some t)); [right|left]; auto).
  destruct (last_holds _ dec i j Hij Hi ltac:(auto)) as (a & Ha & Hh & Hn).
  exists a. split; [exact Ha|].
  destruct (nth_error tr a) as [e|] eqn:He; [|apply nth_error_None in He; lia].
  rewrite (holder_S _ _ _ _ He) in Hn.
  destruct e as [t0 m0|t0 m0| | | | |]; simpl in Hn; try contradiction;
    (destruct (Nat.eqb_spec m0 m) as [E|E]; [subst m0|contradiction]).
  - destruct (Nat.eq_dec t0 t) as [->|]; [reflexivity|]. exfalso. apply Hn. congruence.
  - exfalso. apply Hn. discriminate.
Qed.

(* between two holders the mutex is released by the first and then acquired by the second *)
Lemma lock_handover : forall tr m t t' i j, wf_trace tr ->
  holds tr i t m -> holds tr j t' m -> t <> t' -> i <= j -> j <= length tr ->
  exists r a, i <= r /\ r < a /\ a < j /\
    nth_error tr r = Some (Rel t m) /\ nth_error tr a = Some (Acq t' m).
Proof.
  unfold holds. intros tr m t t' i j Hwf Hi Hj Hne Hij Hlen.
  destruct (holder_release tr m t i Hwf Hi j Hij Hlen) as (r & Hr & Hrel); [congruence|].
  assert (Hnone : holder m (firstn (S r) tr) <> Some t').
  { rewrite (holder_S _ _ _ _ Hrel). simpl. rewrite Nat.eqb_refl. discriminate. }
  destruct (holder_acquire tr m t' (S r) Hnone j ltac:(lia) Hlen Hj) as (a & Ha & Hacq).
  exists r, a. repeat split; try assumption; lia.
Qed.

Lemma fork_before : forall tr k t0 u j ej, wf_trace tr ->
  nth_error tr k = Some (Fork t0 u) -> nth_error tr j = Some ej -> thread_of ej = u -> k < j.
Proof.
  intros tr k t0 u j ej Hwf Hk Hj Ht.
  destruct (Hwf _ _ Hk) as [_ [Hmain Hnf]].
  destruct (Hwf _ _ Hj) as [Halive _]. rewrite Ht in Halive.
  destruct Halive as [Hm|[t1 Hin]]; [contradiction|].
  destruct (In_firstn_idx _ _ _ _ Hin) as (k' & Hk' & Hnk').
  destruct (Nat.lt_ge_cases k j) as [Hlt|Hge]; [exact Hlt|].
  exfalso. apply Hnf. exists t1. apply (idx_In_firstn _ _ _ k'); [exact Hnk'|lia].
Qed.

Lemma desc_hb : forall tr k t0 u t, wf_trace tr ->
  nth_error tr k = Some (Fork t0 u) -> desc tr u t ->
  forall j ej, nth_error tr j = Some ej -> thread_of ej = t -> hb tr k j.
Proof.
  intros tr k t0 u t Hwf Hk Hd; induction Hd as [|v w Hd IH Hin]; intros j ej Hj Ht.
  - apply hb_step. apply (E_fork tr k j t0 u ej Hk Hj Ht).
    exact (fork_before _ _ _ _ _ _ Hwf Hk Hj Ht).
  - destruct (In_nth_error _ _ Hin) as (k2 & Hk2).
    apply (hb_trans tr k k2 j).
    + apply (IH k2 _ Hk2). reflexivity.
    + apply hb_step. apply (E_fork tr k2 j v w ej Hk2 Hj Ht).
      exact (fork_before _ _ _ _ _ _ Hwf Hk2 Hj Ht).
Qed.

Theorem lockset_sound : forall (policy : loc -> discipline) (tr : trace),
  wf_trace tr -> disciplined policy tr -> race_free tr.
Proof.
  intros policy tr Hwf Hdisc i j ti tj l wi wj Hij Hai Haj Hne Hw.
  specialize (Hdisc l).
  destruct (access_at_inv _ _ _ _ _ Hai) as (ei & Hei & Hti & Hki).
  destruct (access_at_inv _ _ _ _ _ Haj) as (ej & Hej & Htj & Hkj).
  destruct (policy l) as [m|t0|tc|s r]; simpl in Hdisc.
  - (* Locked *)
    assert (Hjlen : j < length tr) by (apply nth_error_Some; congruence).
    destruct (lock_handover tr m ti tj i j Hwf (Hdisc _ _ _ Hai) (Hdisc _ _ _ Haj) Hne
                            ltac:(lia) ltac:(lia)) as (r & a & Hir & Hra & Haj' & Hrel & Hacq).
    assert (i <> r) by (intros ->; rewrite Hrel in Hei; destruct Hki as [[-> _]|[-> _]]; discriminate).
    apply (hb_trans tr i r j).
    + apply (hb_po tr i r ei _ Hei Hrel ltac:(lia)). simpl. exact Hti.
    + apply (hb_trans tr r a j).
      * apply hb_step. exact (E_lock tr r a ti tj m Hrel Hacq Hra).
      * apply (hb_po tr a j _ ej Hacq Hej Haj'). simpl. symmetry; exact Htj.
  - (* Owned *)
    pose proof (Hdisc _ _ _ Hai). pose proof (Hdisc _ _ _ Haj). congruence.
  - (* InitOnly *)
    destruct Hdisc as [Hwr Hrd].
    destruct wi.
    + assert (Htc : ti = tc) by (exact (Hwr _ _ Hai)); subst tc.
      destruct (Hrd i j tj wj Hai Haj ltac:(congruence)) as (k & u & Hik & Hk & Hd).
      apply (hb_trans tr i k j).
      * apply (hb_po tr i k ei _ Hei Hk Hik). simpl. exact Hti.
      * exact (desc_hb tr k ti u tj Hwf Hk Hd j ej Hej Htj).
    + simpl in Hw. subst wj.
      assert (Htc : tj = tc) by (exact (Hwr _ _ Haj)); subst tc.
      destruct (Hrd j i ti false Haj Hai Hne) as (k & u & Hjk & Hk & Hd).
      pose proof (hb_lt _ _ _ (desc_hb tr k tj u ti Hwf Hk Hd i ei Hei Hti)). lia.
  - (* Handoff *)
    destruct Hdisc as (ts & tr_ & c & Hs & Hr & Hcnt & Hsr & Hacc).
    destruct (Hacc _ _ _ Hai) as [[Hi1 Hi2]|[Hi1 Hi2]];
      destruct (Hacc _ _ _ Haj) as [[Hj1 Hj2]|[Hj1 Hj2]]; try congruence; try lia.
    apply (hb_trans tr i s j).
    + apply (hb_po tr i s ei _ Hei Hs Hi2). simpl. congruence.
    + apply (hb_trans tr s r j).
      * apply hb_step. exact (E_chan tr s r ts tr_ c Hs Hr Hcnt Hsr).
      * apply (hb_po tr r j _ ej Hr Hej Hj2). simpl. congruence.
Qed.

Print Assumptions lockset_sound.

(* every acting non-main thread descends from a thread forked by main *)
Lemma forked_from_main : forall tr, wf_trace tr ->
  forall j ej, nth_error tr j = Some ej -> thread_of ej <> main_thread ->
  exists k u, k < j /\ nth_error tr k = Some (Fork main_thread u) /\ desc tr u (thread_of ej).
Proof.
  intros tr Hwf j; induction j as [j IH] using lt_wf_ind; intros ej Hj Hnm.
  destruct (Hwf _ _ Hj) as [[Hm|[t0 Hin]] _]; [contradiction|].
  destruct (In_firstn_idx _ _ _ _ Hin) as (k' & Hk' & Hnk').
  destruct (Nat.eq_dec t0 main_thread) as [->|Hne].
  - exists k', (thread_of ej). split; [exact Hk'|]. split; [exact Hnk'|apply desc_refl].
  - destruct (IH k' Hk' _ Hnk' Hne) as (k & u & Hkk' & Hk & Hd). simpl in Hd.
    exists k, u. split; [lia|]. split; [exact Hk|].
    apply (desc_fork tr u t0 _ Hd). exact (nth_error_In _ _ Hnk').
Qed.

Lemma init_before_any_fork : forall tr l, wf_trace tr ->
  (forall i t, access_at tr i = Some (t, l, true) ->
     forall k t0 t1, k < i -> nth_error tr k <> Some (Fork t0 t1)) ->
  obeys tr l (InitOnly main_thread).
Proof.
  intros tr l Hwf Hnf. simpl. split.
  - intros i t Hai.
    destruct (access_at_inv _ _ _ _ _ Hai) as (ei & Hei & Hti & _).
    destruct (Hwf _ _ Hei) as [[Hm|[t0 Hin]] _]; [congruence|].
    destruct (In_firstn_idx _ _ _ _ Hin) as (k & Hk & Hnk).
    exfalso. exact (Hnf _ _ Hai k t0 _ Hk Hnk).
  - intros i j t w Hai Haj Hne.
    destruct (access_at_inv _ _ _ _ _ Hai) as (ei & Hei & _ & Hki).
    destruct (access_at_inv _ _ _ _ _ Haj) as (ej & Hej & Htj & _).
    destruct (forked_from_main tr Hwf j ej Hej ltac:(congruence)) as (k & u & _ & Hk & Hd).
    exists k, u. rewrite Htj in Hd. split; [|split; assumption].
    destruct (Nat.lt_trichotomy k i) as [Hlt|[->|Hgt]]; [| |exact Hgt]; exfalso.
    + exact (Hnf _ _ Hai k _ _ Hlt Hk).
    + rewrite Hk in Hei. destruct Hki as [[-> _]|[-> _]]; discriminate.
Qed.

Ltac solve_ok :=
  split;
  [ first [ left; reflexivity | right; exists 0; simpl; auto 20 ]
  | simpl; first [ exact I | reflexivity
                 | split; [discriminate | intros [? []]]
                 | unfold count_recv, count_send; simpl; lia ] ].

(* main forks thread 1; both use location 5 under mutex 7 *)
Definition tr_locked : trace :=
  [Fork 0 1; Acq 1 7; Wr 1 5; Rel 1 7; Acq 0 7; Wr 0 5; Rel 0 7; Acq 1 7; Rd 1 5; Rel 1 7].
Definition pol_locked (l : loc) : discipline := if Nat.eqb l 5 then Locked 7 else Owned 0.

Example ex_locked_wf : wf_trace tr_locked.
Proof.
  intros k e H.
  do 10 (destruct k as [|k]; [simpl in H; injection H as <-; solve_ok|]).
  destruct k; discriminate.
Qed.

Example ex_locked_disciplined : disciplined pol_locked tr_locked.
Proof.
  intros l. unfold pol_locked. destruct (Nat.eqb l 5) eqn:E.
  - apply Nat.eqb_eq in E; subst l. intros i t w H. unfold holds.
    do 10 (destruct i as [|i]; [try discriminate; inversion H; subst; reflexivity|]).
    destruct i; discriminate.
  - intros i t w H.
    do 10 (destruct i as [|i]; [try discriminate; inversion H; subst; discriminate|]).
    destruct i; discriminate.
Qed.

Example ex_locked : race_free tr_locked.
Proof. exact (lockset_sound pol_locked tr_locked ex_locked_wf ex_locked_disciplined). Qed.

(* the property is not trivially true: an unsynchronised write/write pair is a race *)
Definition tr_race : trace := [Fork 0 1; Wr 0 5; Wr 1 5].

Example ex_race_wf : wf_trace tr_race.
Proof.
  intros k e H.
  do 3 (destruct k as [|k]; [simpl in H; injection H as <-; solve_ok|]).
  destruct k; discriminate.
Qed.

Lemma hb_first_edge : forall tr i j, hb tr i j -> exists k, hb_edge tr i k /\ k <= j.
Proof.
  intros tr i j H; induction H as [i j He|i k j _ [k1 [He Hle]] H2 _].
  - exists j. split; [exact He|lia].
  - exists k1. split; [exact He|]. apply hb_lt in H2. lia.
Qed.

Example ex_race : ~ race_free tr_race.
Proof.
  intros H.
  assert (Hhb : hb tr_race 1 2)
    by (apply (H 1 2 0 1 5 true true); [lia|reflexivity|reflexivity|discriminate|reflexivity]).
  destruct (hb_first_edge _ _ _ Hhb) as (k & He & Hle).
  pose proof (hb_edge_lt _ _ _ He) as Hlt. assert (k = 2) by lia; subst k.
  destruct He as [ei ej Hi Hj _ Ht|t t' m Hi _ _|t t' ej Hi _ _ _|t t' c Hi _ _ _];
    simpl in Hi; try discriminate.
  simpl in Hj. injection Hi as <-. injection Hj as <-. discriminate.
Qed.

(* ownership transfer over channel 3: main writes 5, sends; thread 1 receives, reads 5 *)
Definition tr_handoff : trace := [Fork 0 1; Wr 0 5; Send 0 3; Recv 1 3; Rd 1 5].
Definition pol_handoff (l : loc) : discipline := if Nat.eqb l 5 then Handoff 2 3 else Owned 0.

Example ex_handoff_wf : wf_trace tr_handoff.
Proof.
  intros k e H.
  do 5 (destruct k as [|k]; [simpl in H; injection H as <-; solve_ok|]).
  destruct k; discriminate.
Qed.

Example ex_handoff : obeys tr_handoff 5 (Handoff 2 3).
Proof.
  simpl. exists 0, 1, 3. repeat split; try reflexivity; try lia.
  intros i t w H.
  do 5 (destruct i as [|i]; [try discriminate; inversion H; subst; (left + right); split; (reflexivity || lia)|]).
  destruct i; discriminate.
Qed.

Example ex_handoff_race_free : race_free tr_handoff.
Proof.
  apply (lockset_sound pol_handoff _ ex_handoff_wf). intros l. unfold pol_handoff.
  destruct (Nat.eqb l 5) eqn:E.
  - apply Nat.eqb_eq in E; subst l. exact ex_handoff.
  - intros i t w H.
    do 5 (destruct i as [|i]; [try discriminate; inversion H; subst; discriminate|]).
    destruct i; discriminate.
Qed.

Print Assumptions init_before_any_fork.
Print Assumptions ex_race.
