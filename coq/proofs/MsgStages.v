(* MsgStages.v — what the stages of Proxy.v do, for every relation and invariant at once.
   The stages that read the message stay inside every relation with the elementary edits of
   Msg.v ([edits_in]): the request stages, the way to HandleMessage ([reach_*]), the response as
   functions of the received message ([response_hop], [response_msg]).  What may happen to the
   proxy object on the way ([mpost], [pinsonly]), and a preorder on contexts carried through
   HandleMessage and handleRawMessage ([handle_message_rel], [process_message_rel]).  (The sends
   by cases are in Pipeline.v: [tcp_client_send_inv], [failover_send_eq], [send_message_io].) *)
From Coq Require Import List Ascii String ZArith Bool.
From Model Require Import Bytes Uri Hdr Message Msg Rx Glob StaticRoute RoundRobin Pins Proxy.
From Model.proofs Require Import MsgLemmas Pipeline.
Import ListNotations.
Open Scope Z_scope.

(* What HandleMessage hands to sendMessage for a response, as functions of the response: the hop
   read beneath the popped Via entry; the message after PopVia, getNextReponseHop, the method
   read and the SUBSCRIBE pin; the proxy object with the pin. *)
Definition response_tail (e : env) (p : pstate) (m1 : message) : message * pstate :=
  let '(m2, hop) := mtry next_response_hop m1 in
  let '(m3, ometh) := mtry s_get_method m2 in
  subscribe_pin e p hop ometh m3.
Definition response_msg (e : env) (p : pstate) (m : message) : message * pstate :=
  response_tail e p (fst (mtry s_pop_via m)).
Definition response_hop (m : message) : res (option (bytes * Z * bytes)) :=
  snd (mtry next_response_hop (fst (mtry s_pop_via m))).

Section Stages.
  Variable T : bytes -> Prop.
  Variable R : message -> message -> Prop.
  Hypothesis E : edits_in T R.
  Let R_refl := ed_refl E.
  Let R_trans := ed_trans E.

  Lemma mpres_next_response_hop : T (s2b "Via") -> mpres R next_response_hop.
  Proof.
    intros TV. apply (mpres_mbind R R_trans); [exact (mpres_s_top_via T R E TV)|]. intros v.
    destruct (via_get_received v); apply mpres_mret, R_refl.
  Qed.

  Lemma mpres_next_hop_by_route keep :
    T (s2b "Route") -> pop_edit R (s2b "Route") HRoute -> mpres R (next_hop_by_route keep).
  Proof.
    intros TR PR. apply (mpres_mbind R R_trans); [exact (mpres_s_get_route T R E TR)|]. intros [|rp l]; [apply mpres_merr, R_refl|].
    apply (mpres_mbind R R_trans).
    - destruct keep; [apply mpres_mret, R_refl|apply mpres_mtry, (mpres_s_pop_route T R E TR PR)].
    - intros _. destruct (na_addr (r_addr rp)); [apply mpres_mret, R_refl|apply mpres_merr, R_refl].
  Qed.

  Lemma mpres_next_hop_by_config rt : T (s2b "To") -> mpres R (next_hop_by_config rt).
  Proof.
    intros TT. apply (mpres_mbind R R_trans); [exact (mpres_s_get_to T R E TT)|]. intros t.
    destruct (fromto_host t) as [h|]; [|apply mpres_merr, R_refl].
    destruct (find_route rt h); [apply mpres_mret, R_refl|apply mpres_merr, R_refl].
  Qed.

  Lemma mpres_next_request_hop keep rt :
    T (s2b "Route") -> T (s2b "To") -> pop_edit R (s2b "Route") HRoute -> mpres R (next_request_hop keep rt).
  Proof.
    intros TR TT PR m. unfold next_request_hop. pose proof (mpres_next_hop_by_route keep TR PR m) as H.
    destruct (next_hop_by_route keep m) as [m1 r]. destruct r; try exact H.
    exact (R_trans _ _ _ H (mpres_next_hop_by_config rt TT m1)).
  Qed.

  Lemma mpres_try_remove_top_route c from :
    T (s2b "Route") -> pop_edit R (s2b "Route") HRoute -> mpres R (try_remove_top_route c from).
  Proof.
    intros TR PR. apply (mpres_mbind R R_trans); [exact (mpres_s_get_route T R E TR)|]. intros [|rp l]; [apply mpres_mret, R_refl|].
    destruct (na_addr (r_addr rp)); [|apply mpres_mret, R_refl].
    destruct (_ && _)%bool; [exact (mpres_s_pop_route T R E TR PR)|apply mpres_mret, R_refl].
  Qed.

  Lemma mpres_find_backend_by_dialog e p :
    T (s2b "From") -> T (s2b "To") -> T (s2b "CSeq") -> mpres R (find_backend_by_dialog e p).
  Proof.
    intros TF TT TC. apply (mpres_mbind R R_trans); [exact (mpres_s_get_method T R E TC)|]. intros meth.
    destruct (_ && _)%bool; [apply mpres_mret, R_refl|].
    apply (mpres_mbind R R_trans); [apply mpres_mtry, (mpres_s_get_dialog T R E TF TT)|]. intros [d|]; [|apply mpres_mret, R_refl].
    destruct (pins_get (e_now e) d (ps_pins p)) as [pins1 ob]. cbv zeta.
    destruct (_ && _)%bool; [apply mpres_mret, R_refl|].
    apply (mpres_mbind R R_trans); [apply mpres_mtry, (mpres_s_get_raw T R E)|]. intros ss. apply mpres_mret, R_refl.
  Qed.

  Lemma mpres_handle_dialog e peer port p :
    T (s2b "Via") -> T (s2b "From") -> T (s2b "To") -> T (s2b "CSeq") -> mpres R (handle_dialog e peer port p).
  Proof.
    intros TV TF TT TC. apply (mpres_mbind R R_trans).
    - destruct (alookup _ (ps_backends p)); [apply mpres_mret, R_refl|].
      apply (mpres_mbind R R_trans); [exact (mpres_s_client_transaction T R E TV TC)|intros tid].
      destruct (pins_get (e_now e) tid (ps_pins p)) as [pins1 ob].
      apply (mpres_mbind R R_trans); [apply (mpres_read R R_refl (fun m => Ok (is_final_response m)))|].
      intros fin. apply mpres_mret, R_refl.
    - intros [p1 ob]. destruct ob as [b|]; [|apply mpres_mret, R_refl].
      apply (mpres_mbind R R_trans); [apply mpres_mtry, (mpres_s_get_method T R E TC)|].
      intros [meth|]; [|apply mpres_mret, R_refl].
      destruct (beq meth (s2b "INVITE")).
      + apply (mpres_mbind R R_trans); [apply mpres_mtry, (mpres_s_get_dialog T R E TF TT)|intros od].
        apply (mpres_mbind R R_trans); [exact (mpres_s_get_expires T R E _)|intros ex]. destruct od; apply mpres_mret, R_refl.
      + destruct (beq meth (s2b "BYE")); [|apply mpres_mret, R_refl].
        apply (mpres_mbind R R_trans); [apply mpres_mtry, (mpres_s_get_dialog T R E TF TT)|intros od].
        destruct od; apply mpres_mret, R_refl.
  Qed.

  (* the way to HandleMessage touches all five names and may pop a Route entry *)
  Hypothesis TV : T (s2b "Via").
  Hypothesis TR : T (s2b "Route").
  Hypothesis TF : T (s2b "From").
  Hypothesis TT : T (s2b "To").
  Hypothesis TC : T (s2b "CSeq").
  Hypothesis PR : pop_edit R (s2b "Route") HRoute.

  (* the received message to the stamp stage, and the stamped one to HandleMessage: SetReceived
     itself only some relations contain *)
  Lemma reach_around_stamp e peer port from rs tcp m0 x m5 x1 :
    reach e peer port from rs tcp m0 x = Ok (m5, x1) ->
    exists m1, R m0 m1 /\ R (stage_stamp peer port rs m1) m5.
  Proof.
    unfold reach.
    pose proof (stage_learn_rel R R_refl peer from x (mpres_s_all_via_params T R E TV) m0) as A.
    destruct (stage_learn peer from m0 x) as [m1 l1].
    pose proof (stage_conn_rel R R_refl R_trans e tcp (x_p x) (mpres_mtry R _ (mpres_next_response_hop TV))
                  (mpres_mtry R _ (mpres_s_client_transaction T R E TV TC)) (stage_stamp peer port rs m1)) as C.
    destruct (stage_conn e tcp (stage_stamp peer port rs m1) (x_p x)) as [m3 rp].
    destruct rp as [p1| |]; try discriminate.
    pose proof (stage_dialog_rel R R_refl e peer port p1 (mpres_handle_dialog e peer port p1 TV TF TT TC)
                  (stage_route e from m3)) as D.
    destruct (stage_dialog e peer port p1 (stage_route e from m3)) as [m5' p2].
    intros H. injection H as <- _. exists m1. split; [exact A|].
    exact (R_trans _ _ _ C (R_trans _ _ _ (mpres_mtry R _ (mpres_try_remove_top_route _ _ TR PR) m3) D)).
  Qed.

  Lemma reach_edits e peer port from rs tcp m0 x m5 x1 :
    mpres R (s_set_received peer port) ->
    reach e peer port from rs tcp m0 x = Ok (m5, x1) -> R m0 m5.
  Proof.
    intros S H. destruct (reach_around_stamp _ _ _ _ _ _ _ _ _ _ H) as (m1 & A & B).
    exact (R_trans _ _ _ A (R_trans _ _ _ (stage_stamp_rel R R_refl peer port rs S m1) B)).
  Qed.

  (* a response after PopVia: three reads, and the SUBSCRIBE pin reads the dialog *)
  Lemma response_tail_edits e p m1 : R m1 (fst (response_tail e p m1)).
  Proof.
    unfold response_tail. pose proof (mpres_mtry R _ (mpres_next_response_hop TV) m1) as B.
    destruct (mtry next_response_hop m1) as [m2 hop].
    pose proof (mpres_mtry R _ (mpres_s_get_method T R E TC) m2) as C.
    destruct (mtry s_get_method m2) as [m3 ometh]. pose proof (R_trans _ _ _ B C) as D.
    destruct (subscribe_pin_cases e p hop ometh m3) as [H|[H|(h & pt & t & g & d & _ & _ & _ & _ & H)]];
      rewrite H; first [exact D|exact (R_trans _ _ _ D (mpres_mtry R _ (mpres_s_get_dialog T R E TF TT) m3))].
  Qed.
  (* the whole response branch, for a relation that contains PopVia *)
  Lemma response_msg_edits e p m : mpres R s_pop_via -> R m (fst (response_msg e p m)).
  Proof. intros PV. exact (R_trans _ _ _ (mpres_mtry R _ PV m) (response_tail_edits e p _)). Qed.

  (* a response on its way to HandleMessage: tryRemoveTopRoute and handleDialog *)
  Lemma response_reach_edits e peer port from p m : R m (fst (stage_dialog e peer port p (stage_route e from m))).
  Proof.
    exact (R_trans _ _ _ (mpres_mtry R _ (mpres_try_remove_top_route _ _ TR PR) m)
             (stage_dialog_rel R R_refl e peer port p (mpres_handle_dialog e peer port p TV TF TT TC) _)).
  Qed.
End Stages.

Lemma with_pins_same p : with_pins p (ps_pins p) = p.
Proof. destruct p; reflexivity. Qed.

(* what a computation returns when it succeeds *)
Definition mpost {A} (x : M A) (P : A -> Prop) : Prop := forall m a, snd (x m) = Ok a -> P a.
Lemma mpost_mret {A} (a : A) (P : A -> Prop) : P a -> mpost (mret a) P.
Proof. intros H m a' E. cbn in E. injection E as <-. exact H. Qed.
Lemma mpost_mbind {A B} (x : M A) (f : A -> M B) (P : A -> Prop) (Q : B -> Prop) :
  mpost x P -> (forall a, P a -> mpost (f a) Q) -> mpost (mbind x f) Q.
Proof.
  intros Hx Hf m b. unfold mbind. specialize (Hx m). destruct (x m) as [m1 r]. cbn [snd] in Hx.
  destruct r as [a| |]; cbn; try discriminate. apply (Hf a (Hx a eq_refl)).
Qed.
Lemma mpost_true {A} (x : M A) : mpost x (fun _ => True).
Proof. intros m a _. exact I. Qed.

Definition pinsonly (p p' : pstate) : Prop := exists pins', p' = with_pins p pins'.
Lemma pinsonly_refl p : pinsonly p p.
Proof. exists (ps_pins p). symmetry. apply with_pins_same. Qed.
Lemma pinsonly_with p p' a : pinsonly p p' -> pinsonly p (with_pins p' a).
Proof. intros (b & ->). exists a. reflexivity. Qed.

(* handleDialog only touches the pin table *)
Lemma handle_dialog_pins e peer port p : mpost (handle_dialog e peer port p) (pinsonly p).
Proof.
  unfold handle_dialog.
  apply mpost_mbind with (P := fun pb => pinsonly p (fst pb)).
  - destruct (alookup _ (ps_backends p)); [apply mpost_mret, pinsonly_refl|].
    apply mpost_mbind with (P := fun _ => True); [apply mpost_true|intros tid _].
    destruct (pins_get (e_now e) tid (ps_pins p)) as [pins1 ob].
    apply mpost_mbind with (P := fun _ => True); [apply mpost_true|intros fin _].
    apply mpost_mret. cbn. apply pinsonly_with, pinsonly_refl.
  - intros [p1 ob] Hp. cbn [fst] in Hp. destruct ob as [b|]; [|apply mpost_mret; exact Hp].
    apply mpost_mbind with (P := fun _ => True); [apply mpost_true|intros [meth|] _]; [|apply mpost_mret; exact Hp].
    destruct (beq meth (s2b "INVITE")).
    + apply mpost_mbind with (P := fun _ => True); [apply mpost_true|intros od _].
      apply mpost_mbind with (P := fun _ => True); [apply mpost_true|intros ex _].
      destruct od; apply mpost_mret; [apply pinsonly_with|]; exact Hp.
    + destruct (beq meth (s2b "BYE")); [|apply mpost_mret; exact Hp].
      apply mpost_mbind with (P := fun _ => True); [apply mpost_true|intros od _].
      destruct od; apply mpost_mret; [apply pinsonly_with|]; exact Hp.
Qed.

(* the context that reaches HandleMessage: another learned table, another pin table, and perhaps
   the connection the request came in on registered as a client transport *)
Lemma reach_ctx_cases e peer port from rs tcp m0 x m5 x1 :
  reach e peer port from rs tcp m0 x = Ok (m5, x1) ->
  exists l pins p1, x1 = ctx_with x l (with_pins p1 pins) /\
    (p1 = x_p x \/ exists c host pt t, tcp = Some c /\ p1 = register_conn e c host pt t (x_p x)).
Proof.
  unfold reach. destruct (stage_learn peer from m0 x) as [m1 l1].
  pose proof (stage_conn_cases e tcp (stage_stamp peer port rs m1) (x_p x)) as C. cbv zeta in C.
  destruct (stage_conn e tcp (stage_stamp peer port rs m1) (x_p x)) as [m3 rp].
  destruct rp as [p1| |]; try discriminate.
  assert (P1 : p1 = x_p x \/ exists c host pt t, tcp = Some c /\ p1 = register_conn e c host pt t (x_p x)).
  { destruct C as [C|(c & -> & _ & [C|[C|[C|[C|(h & pt & t & C)]]]])]; inversion C; subst; auto.
    right. exists c, h, pt, t. auto. }
  unfold stage_dialog. destruct (is_response (stage_route e from m3)).
  - pose proof (handle_dialog_pins e peer port p1 (stage_route e from m3)) as D.
    destruct (handle_dialog e peer port p1 (stage_route e from m3)) as [m' r]. cbn [snd] in D.
    intros H. injection H as _ <-. exists l1.
    destruct r as [p'| |]; [destruct (D p' eq_refl) as (pins & ->); exists pins, p1; auto| |];
      exists (ps_pins p1), p1; rewrite with_pins_same; auto.
  - intros H. injection H as _ <-. exists l1, (ps_pins p1), p1. rewrite with_pins_same. auto.
Qed.

Lemma subscribe_pin_pins e p hop ometh m3 : pinsonly p (snd (subscribe_pin e p hop ometh m3)).
Proof.
  destruct (subscribe_pin_cases e p hop ometh m3) as [H|[H|(h & pt & t & g & d & _ & _ & _ & _ & H)]];
    rewrite H; first [apply pinsonly_refl|eexists; reflexivity].
Qed.

(* A preorder on contexts that holds across one sendMessage, across one send to a backend, across
   a change of the learned table and the pin table, and across registering a connection, holds
   across HandleMessage and across the whole of handleRawMessage. *)
Section CtxRel.
  Variable Q : ctx -> ctx -> Prop.
  Hypothesis Q_refl : forall x, Q x x.
  Hypothesis Q_trans : forall a b c, Q a b -> Q b c -> Q a c.
  Variable e : env.
  Hypothesis Q_send : forall h p t m x, Q x (fst (send_message e h p t m x)).
  Hypothesis Q_backend : forall m x, Q x (fst (send_to_backend e m x)).
  Hypothesis Q_pins : forall x l pins, Q x (ctx_with x l (with_pins (x_p x) pins)).

  Lemma handle_message_rel from m x : Q x (fst (handle_message e from m x)).
  Proof.
    destruct (is_request m) eqn:Hq.
    - rewrite handle_message_request by exact Hq. destruct (next_request_hop _ _ m) as [m1 r].
      unfold dispatch. destruct r as [[[h p] t]| |]; [apply Q_send| |];
        (destruct (is_my_message _ from m1); [apply Q_backend|apply Q_refl]).
    - rewrite handle_message_response by exact Hq. destruct (mtry s_pop_via m) as [m1 r1].
      destruct (mtry next_response_hop m1) as [m2 hop]. destruct (mtry s_get_method m2) as [m3 ometh].
      pose proof (subscribe_pin_pins e (x_p x) hop ometh m3) as P.
      destruct (subscribe_pin e (x_p x) hop ometh m3) as [m4 p1]. cbn [snd] in P. destruct P as (pins & ->).
      unfold respond. destruct hop as [[[[h p] t]|]| |]; cbn [fst]; try apply Q_pins.
      exact (Q_trans _ _ _ (Q_pins x (x_learned x) pins) (Q_send _ _ _ _ _)).
  Qed.

  Hypothesis Q_conn : forall x c host port t,
    Q x (ctx_with x (x_learned x) (register_conn e c host port t (x_p x))).

  Lemma process_message_rel peer port from rs tcp m0 x x' :
    process_message e peer port from rs tcp m0 x = Ok x' -> Q x x'.
  Proof.
    rewrite process_message_reach. destruct (reach e peer port from rs tcp m0 x) as [[m5 x1]| |] eqn:R; try discriminate.
    intros H. injection H as <-. refine (Q_trans _ _ _ _ (handle_message_rel from m5 x1)).
    destruct (reach_ctx_cases _ _ _ _ _ _ _ _ _ _ R) as (l & pins & p1 & -> & [->|(c & h & pt & t & _ & ->)]).
    - apply Q_pins.
    - exact (Q_trans _ _ _ (Q_conn x c h pt t) (Q_pins _ l pins)).
  Qed.
End CtxRel.

Lemma handle_message_response_msg e from m x : is_request m = false ->
  handle_message e from m x =
  respond e (ctx_with x (x_learned x) (snd (response_msg e (x_p x) m))) (fst (response_msg e (x_p x) m)) (response_hop m).
Proof.
  intros Q. rewrite handle_message_response by exact Q. unfold response_msg, response_tail, response_hop.
  destruct (mtry s_pop_via m) as [m1 r1]. cbn [fst]. destruct (mtry next_response_hop m1) as [m2 hop].
  destruct (mtry s_get_method m2) as [m3 ometh]. destruct (subscribe_pin e (x_p x) hop ometh m3) as [m4 p1]. reflexivity.
Qed.

Lemma response_msg_pins e p m : pinsonly p (snd (response_msg e p m)).
Proof.
  unfold response_msg, response_tail. destruct (mtry next_response_hop _) as [m2 hop].
  destruct (mtry s_get_method m2) as [m3 ometh]. apply subscribe_pin_pins.
Qed.
(* without a hop nothing is pinned *)
Lemma response_msg_nohop e p m : (forall a, response_hop m <> Ok (Some a)) -> snd (response_msg e p m) = p.
Proof.
  unfold response_msg, response_tail, response_hop. destruct (mtry next_response_hop _) as [m2 hop]. cbn [snd].
  intros N. destruct (mtry s_get_method m2) as [m3 ometh].
  destruct hop as [[a|]| |]; [exfalso; exact (N a eq_refl)|reflexivity..].
Qed.

Lemma stage_dialog_pins e peer port p m : pinsonly p (snd (stage_dialog e peer port p m)).
Proof.
  unfold stage_dialog. destruct (is_response m); [|apply pinsonly_refl].
  pose proof (handle_dialog_pins e peer port p m) as D. destruct (handle_dialog e peer port p m) as [m' r].
  cbn [snd] in *. destruct r as [p'| |]; [exact (D p' eq_refl)|apply pinsonly_refl..].
Qed.

(* a response is never stamped, teaches nothing and registers no connection: it reaches
   HandleMessage through tryRemoveTopRoute and handleDialog only *)
Lemma reach_response e peer port from rs tcp m0 x : is_request m0 = false ->
  reach e peer port from rs tcp m0 x =
  let '(m5, p2) := stage_dialog e peer port (x_p x) (stage_route e from m0) in Ok (m5, ctx_with x (x_learned x) p2).
Proof.
  intros Q. unfold reach.
  assert (L : stage_learn peer from m0 x = (m0, x_learned x)) by (unfold stage_learn; rewrite Q; reflexivity).
  assert (S : stage_stamp peer port rs m0 = m0) by (unfold stage_stamp; rewrite Q; reflexivity).
  assert (C : stage_conn e tcp m0 (x_p x) = (m0, Ok (x_p x))) by (unfold stage_conn; rewrite Q; destruct tcp; reflexivity).
  rewrite L, S, C. reflexivity.
Qed.


(* ---- a request on its way to HandleMessage ---- *)
(* no reading stage changes the start line: a request stays a request, and handleDialog, which is
   for responses, does not run *)
Definition same_start (m m' : message) : Prop := m_start m' = m_start m.
Lemma same_start_request m m' : same_start m m' -> is_request m' = is_request m.
Proof. unfold same_start, is_request. intros ->. reflexivity. Qed.
Lemma same_start_edits : edits_in any_name same_start.
Proof. split; [reflexivity|unfold same_start; congruence|..]; intros _; repeat intro; reflexivity. Qed.

Lemma request_stages e peer port from rs tcp m0 x :
  let m1 := fst (stage_learn peer from m0 x) in
  let m3 := fst (stage_conn e tcp (stage_stamp peer port rs m1) (x_p x)) in
  same_start m0 m1 /\ same_start m0 m3 /\ same_start m0 (stage_route e from m3).
Proof.
  pose proof same_start_edits as E. pose proof (ed_refl E) as rf. pose proof (ed_trans E) as tr. cbv zeta.
  pose proof (stage_learn_rel _ rf peer from x (mpres_s_all_via_params _ _ E I) m0) as A.
  set (m1 := fst (stage_learn peer from m0 x)) in *.
  assert (S : mpres same_start (s_set_received peer port)).
  { apply (mpres_s_set_received _ _ E peer port I). repeat intro. reflexivity. }
  pose proof (tr _ _ _ A (stage_stamp_rel _ rf peer port rs S m1)) as B.
  pose proof (tr _ _ _ B (stage_conn_rel _ rf tr e tcp (x_p x) (mpres_mtry _ _ (mpres_next_response_hop _ _ E I))
                             (mpres_mtry _ _ (mpres_s_client_transaction _ _ E I I)) (stage_stamp peer port rs m1))) as C.
  assert (P : pop_edit same_start (s2b "Route") HRoute) by (intros m h [|a [|b l]] _ _; reflexivity).
  split; [exact A|]. split; [exact C|].
  exact (tr _ _ _ C (mpres_mtry _ _ (mpres_try_remove_top_route _ _ E (e_cfg e) from I P) _)).
Qed.

Lemma reach_of_request e peer port from rs tcp m0 x : is_request m0 = true ->
  reach e peer port from rs tcp m0 x =
  let '(m1, l1) := stage_learn peer from m0 x in
  let '(m3, rp) := stage_conn e tcp (stage_stamp peer port rs m1) (x_p x) in
  match rp with
  | Ok p1 => Ok (stage_route e from m3, ctx_with x l1 p1)
  | Err => Err
  | Panic => Panic
  end.
Proof.
  intros R. unfold reach. destruct (request_stages e peer port from rs tcp m0 x) as (_ & _ & S). cbv zeta in S.
  destruct (stage_learn peer from m0 x) as [m1 l1]. cbn [fst] in S.
  destruct (stage_conn e tcp (stage_stamp peer port rs m1) (x_p x)) as [m3 [p1| |]]; try reflexivity. cbn [fst] in S.
  unfold stage_dialog, is_response. rewrite (same_start_request _ _ S), R. reflexivity.
Qed.

Lemma process_request e peer port from rs tcp m0 x : is_request m0 = true ->
  process_message e peer port from rs tcp m0 x =
  let '(m1, l1) := stage_learn peer from m0 x in
  let '(m3, rp) := stage_conn e tcp (stage_stamp peer port rs m1) (x_p x) in
  match rp with
  | Ok p1 => Ok (fst (handle_message e from (stage_route e from m3) (ctx_with x l1 p1)))
  | Err => Err
  | Panic => Panic
  end.
Proof.
  intros R. rewrite process_message_reach, (reach_of_request _ _ _ _ _ _ _ _ R).
  destruct (stage_learn peer from m0 x) as [m1 l1].
  destruct (stage_conn e tcp (stage_stamp peer port rs m1) (x_p x)) as [m3 [p1| |]]; reflexivity.
Qed.

(* one message: more outputs, and exactly the connections they report dialled *)
Lemma process_message_conns e peer port from rs tcp m0 x x' :
  process_message e peer port from rs tcp m0 x = Ok x' -> ctx_grows e x x'.
Proof.
  apply (process_message_rel (ctx_grows e) (ctx_grows_refl e) (ctx_grows_trans e) e
           (send_message_conns e) (send_to_backend_conns e)); intros; apply ctx_grows_same; reflexivity.
Qed.
