(* C02 — responses follow the Via chain: pop one entry, go to the next.
   On the Via view of C07.v ([via_hdrs], [flat_vias]): what HandleMessage and process_message do
   with a response (handle_response_eq, C02_response_general and its corollaries,
   C02_process_response, C02_step_udp, C02_step_tcp); what sendMessage emits per transport (C02_dest_udp, C02_dest_tcp, C02_dest_unsupported); that the
   destination does not depend on pin table, rotation or learned table (C02_independent_of_pins);
   the round trip with C07 (C02_roundtrip); the TCP slot condition as an invariant
   (C02_tcp_slot_reachable); a stale cached connection is redialled and written (C02_stale_redial).
   No axioms, no admits. *)
From Coq Require Import List Ascii String ZArith Bool Lia.
From Model Require Import Bytes BytesLemmas Uri Hdr Message Msg Rx Glob StaticRoute RoundRobin Pins Proxy.
From Model.proofs Require Import MsgLemmas Pipeline MsgStages C07.
Import ListNotations.
Open Scope Z_scope.

(* PopVia on the view: one entry of a longer list, else the whole first header; an undecodable
   first header (or none) makes PopVia fail and the message stays as it is *)
Definition pop_view (vh : list (option (list via_param))) : list (option (list via_param)) :=
  match vh with
  | Some (_ :: (_ :: _) as rest) :: t => Some rest :: t
  | Some _ :: t => t
  | _ => vh
  end.
(* the entry getNextReponseHop reads: first entry of the first Via header, if it decodes *)
Definition top_view (vh : list (option (list via_param))) : option via_param :=
  match vh with Some (v :: _) :: _ => Some v | _ => None end.
Definition hop_host (v : via_param) : bytes :=
  match via_get_received v with Some h => h | None => v_host v end.
Definition hop_port (v : via_param) : Z :=
  match via_get_received v with
  | Some _ => match via_get_rport v with Some p => p | None => via_get_port v end
  | None => via_get_port v
  end.

Lemma via_hdrs_remove_via m x t : via_hdrs m = x :: t ->
  via_hdrs (with_headers m (remove_header VIA (m_headers m))) = t.
Proof.
  unfold via_hdrs. intros H. destruct (via_view_cons _ _ _ H) as (pre & h & post & H1 & H2 & H3 & H4 & H5).
  cbn [m_headers with_headers]. rewrite H1, remove_header_at by assumption.
  rewrite via_view_app, nomatch_via_view by exact H2. exact H5.
Qed.

Lemma s_pop_via_view m :
  m_start (fst (s_pop_via m)) = m_start m /\ m_body (fst (s_pop_via m)) = m_body m /\
  via_hdrs (fst (s_pop_via m)) = pop_view (via_hdrs m).
Proof.
  destruct (via_hdrs m) as [|[l|] t] eqn:E.
  - destruct (s_get_via_fail m (or_introl E)) as (r & Hr & Hn).
    unfold s_pop_via, mbind. rewrite Hr. destruct r as [l| |]; [exfalso; exact (Hn l eq_refl)| |];
      cbn [fst pop_view]; rewrite E; repeat split.
  - destruct (s_get_via_ok m l t E) as (m' & Hr & (V1 & V2 & V3) & Hs).
    unfold s_pop_via, mbind. rewrite Hr. rewrite E in V3. fold VIA.
    destruct l as [|a [|b r]]; unfold mmodify; cbn [fst pop_view].
    + repeat split; try assumption. apply (via_hdrs_remove_via _ _ _ V3).
    + repeat split; try assumption. apply (via_hdrs_remove_via _ _ _ V3).
    + rewrite Hs. repeat split. apply (via_hdrs_set_via _ _ _ _ E).
  - destruct (s_get_via_fail m (or_intror (ex_intro _ t E))) as (r & Hr & Hn).
    unfold s_pop_via, mbind. rewrite Hr. destruct r as [l| |]; [exfalso; exact (Hn l eq_refl)| |];
      cbn [fst pop_view]; rewrite E; repeat split.
Qed.

Lemma next_response_hop_spec m :
  veq m (fst (next_response_hop m)) /\
  match top_view (via_hdrs m) with
  | Some v => snd (next_response_hop m) = Ok (hop_host v, hop_port v, v_transport v)
  | None => forall a, snd (next_response_hop m) <> Ok a
  end.
Proof.
  split; [apply (mpres_next_response_hop _ veq veq_edits I)|].
  destruct (via_hdrs m) as [|[l|] t] eqn:E; cbn [top_view].
  - destruct (s_get_via_fail m (or_introl E)) as (r & Hr & Hn).
    unfold next_response_hop, s_top_via, mbind. rewrite Hr.
    destruct r as [l| |]; [exfalso; exact (Hn l eq_refl)| |]; cbn; discriminate.
  - destruct (s_get_via_ok m l t E) as (m' & Hr & _ & _).
    unfold next_response_hop, s_top_via, mbind. rewrite Hr. destruct l as [|v r].
    + cbn. discriminate.
    + unfold mret at 1. unfold hop_host, hop_port. destruct (via_get_received v); reflexivity.
  - destruct (s_get_via_fail m (or_intror (ex_intro _ t E))) as (r & Hr & Hn).
    unfold next_response_hop, s_top_via, mbind. rewrite Hr.
    destruct r as [l| |]; [exfalso; exact (Hn l eq_refl)| |]; cbn; discriminate.
Qed.

Lemma mtry_unfold {A} (x : M A) m :
  mtry x m = match snd (x m) with
             | Ok a => (fst (x m), Ok (Some a)) | Err => (fst (x m), Ok None) | Panic => (fst (x m), Panic) end.
Proof. unfold mtry. destruct (x m) as [m1 r]. destruct r; reflexivity. Qed.

(* the SUBSCRIBE pin reads the backend list only (that it writes the pin table only is
   MsgStages.subscribe_pin_pins) *)
Lemma subscribe_pin_backends e p q hop ometh m3 : ps_backends q = ps_backends p ->
  fst (subscribe_pin e q hop ometh m3) = fst (subscribe_pin e p hop ometh m3).
Proof.
  intros B. unfold subscribe_pin. rewrite B.
  destruct hop as [[[[h pt] t]|]| |]; try reflexivity. destruct ometh as [[meth|]| |]; try reflexivity.
  destruct (beq meth (s2b "SUBSCRIBE")); [|reflexivity].
  destruct (alookup _ (ps_backends p)) as [g|]; [|reflexivity].
  destruct (mtry s_get_dialog m3) as [m' od]. destruct od as [[d|]| |]; reflexivity.
Qed.

(* the hop and the message of MsgStages.response_hop / response_msg, on the view *)
Lemma response_hop_view m :
  match top_view (pop_view (via_hdrs m)) with
  | Some v => response_hop m = Ok (Some (hop_host v, hop_port v, v_transport v))
  | None => forall a, response_hop m <> Ok (Some a)
  end.
Proof.
  unfold response_hop. destruct (s_pop_via_view m) as (_ & _ & P3). rewrite <- (fst_mtry s_pop_via m) in P3.
  destruct (next_response_hop_spec (fst (mtry s_pop_via m))) as (_ & NS). rewrite P3 in NS.
  rewrite (mtry_unfold next_response_hop). destruct (top_view (pop_view (via_hdrs m))) as [v|].
  - rewrite NS. reflexivity.
  - destruct (snd (next_response_hop _)) as [a| |]; [exfalso; exact (NS a eq_refl)|intros a; discriminate..].
Qed.
Lemma response_msg_view e p m :
  m_start (fst (response_msg e p m)) = m_start m /\ m_body (fst (response_msg e p m)) = m_body m /\
  via_hdrs (fst (response_msg e p m)) = pop_view (via_hdrs m).
Proof.
  destruct (s_pop_via_view m) as (P1 & P2 & P3). rewrite <- (fst_mtry s_pop_via m) in P1, P2, P3.
  destruct (response_tail_edits _ veq veq_edits I I I I e p (fst (mtry s_pop_via m))) as (A & B & C).
  unfold response_msg. repeat split; congruence.
Qed.

(* HandleMessage on a response, for every message, listener, configuration and state:
   exactly ONE sendMessage call, for the entry on top after the pop, on a message whose Via
   headers are the popped ones; or nothing at all (the context comes back unchanged). *)
Theorem handle_response_eq e from m x : is_request m = false ->
  match top_view (pop_view (via_hdrs m)) with
  | Some v2 =>
      handle_message e from m x =
        send_message e (hop_host v2) (hop_port v2) (v_transport v2) (fst (response_msg e (x_p x) m))
          (ctx_with x (x_learned x) (snd (response_msg e (x_p x) m)))
  | None => fst (handle_message e from m x) = x
  end.
Proof.
  intros Hq. rewrite handle_message_response_msg by exact Hq. pose proof (response_hop_view m) as HV.
  destruct (top_view (pop_view (via_hdrs m))) as [v2|].
  - rewrite HV. reflexivity.
  - rewrite (response_msg_nohop e (x_p x) m HV). unfold respond.
    destruct (response_hop m) as [[a|]| |]; [exfalso; exact (HV a eq_refl)|destruct x; reflexivity..].
Qed.

Theorem C02_response_general : forall e from m x, is_request m = false ->
  match top_view (pop_view (via_hdrs m)) with
  | Some v2 =>
      exists m4 pins',
        handle_message e from m x =
          send_message e (hop_host v2) (hop_port v2) (v_transport v2) m4
            {| x_learned := x_learned x; x_p := with_pins (x_p x) pins'; x_conns := x_conns x;
               x_world := x_world x; x_outs := x_outs x |} /\
        m_start m4 = m_start m /\ m_body m4 = m_body m /\ via_hdrs m4 = pop_view (via_hdrs m)
  | None => fst (handle_message e from m x) = x
  end.
Proof.
  intros e from m x Hq. pose proof (handle_response_eq e from m x Hq) as G.
  destruct (top_view (pop_view (via_hdrs m))) as [v2|]; [|exact G].
  destruct (response_msg_pins e (x_p x) m) as (pins' & P). rewrite P in G.
  exists (fst (response_msg e (x_p x) m)), pins'. split; [exact G|apply response_msg_view].
Qed.

(* the two layouts *)
Theorem C02_response_hop : forall e from m x v1 v2 rest1 t,
  is_response m = true ->
  (via_hdrs m = Some (v1 :: v2 :: rest1) :: t          (* comma list in the first Via header *)
   \/ via_hdrs m = Some [v1] :: Some (v2 :: rest1) :: t)  (* repeated header lines *) ->
  exists m4 pins',
    handle_message e from m x =
      send_message e (hop_host v2) (hop_port v2) (v_transport v2) m4
        {| x_learned := x_learned x; x_p := with_pins (x_p x) pins'; x_conns := x_conns x;
           x_world := x_world x; x_outs := x_outs x |} /\
    m_start m4 = m_start m /\ m_body m4 = m_body m /\
    via_hdrs m4 = Some (v2 :: rest1) :: t /\
    snd (decode_all_vias (m_headers m)) = v1 :: snd (decode_all_vias (m_headers m4)).
Proof.
  intros e from m x v1 v2 rest1 t Hr HV.
  assert (Hq : is_request m = false) by (unfold is_response in Hr; apply negb_true_iff; exact Hr).
  pose proof (C02_response_general e from m x Hq) as G.
  assert (PV : pop_view (via_hdrs m) = Some (v2 :: rest1) :: t) by (destruct HV as [-> | ->]; reflexivity).
  rewrite PV in G. cbn [top_view] in G. destruct G as (m4 & pins' & G1 & G2 & G3 & G4).
  exists m4, pins'. repeat split; try assumption.
  rewrite !flat_vias_decode. unfold flat_vias. rewrite G4. destruct HV as [-> | ->]; reflexivity.
Qed.

(* ... and what that single call can put on the wire: the message sendMessage serialises has
   the same Via headers *)
Corollary C02_response_hop_outs : forall e from m x v1 v2 rest1 t,
  is_response m = true ->
  (via_hdrs m = Some (v1 :: v2 :: rest1) :: t \/ via_hdrs m = Some [v1] :: Some (v2 :: rest1) :: t) ->
  exists m' outs,
    x_outs (fst (handle_message e from m x)) = x_outs x ++ outs /\
    via_hdrs m' = Some (v2 :: rest1) :: t /\
    snd (decode_all_vias (m_headers m')) = v2 :: rest1 ++ flat_view t /\
    (outs = [] \/ (exists ip p, outs = [(DUdp ip p, write_message m')]) \/ tcp_shape (write_message m') outs).
Proof.
  intros e from m x v1 v2 rest1 t Hr HV.
  destruct (C02_response_hop e from m x v1 v2 rest1 t Hr HV) as (m4 & pins' & G1 & _ & _ & G4 & _).
  rewrite G1.
  match goal with |- context [send_message ?e ?h ?p ?t ?m ?X] =>
    destruct (send_message_outs e h p t m X) as (_ & _ & outs & H1 & H2) end.
  exists (sent_msg m4), outs. cbn [x_outs] in H1.
  destruct (veq_sent_msg m4) as (_ & _ & V). rewrite G4 in V.
  split; [exact H1|]. split; [exact V|]. split; [|exact H2].
  rewrite flat_vias_decode. unfold flat_vias. rewrite V. reflexivity.
Qed.

(* nothing is sent, the context is unchanged *)
Theorem C02_single_via_dropped : forall e from m x,
  is_response m = true ->
  (via_hdrs m = [] \/ (exists l, via_hdrs m = [Some l] /\ (List.length l <= 1)%nat)) ->
  fst (handle_message e from m x) = x.
Proof.
  intros e from m x Hr HV.
  assert (Hq : is_request m = false) by (unfold is_response in Hr; apply negb_true_iff; exact Hr).
  pose proof (C02_response_general e from m x Hq) as G.
  destruct HV as [H|(l & H & Hl)]; rewrite H in G; [exact G|].
  destruct l as [|a [|b r]]; cbn in Hl; try lia; exact G.
Qed.

Theorem C02_undecodable_dropped : forall e from m x t,
  is_response m = true ->
  (via_hdrs m = None :: t                                  (* first Via header does not decode *)
   \/ (exists l, via_hdrs m = Some l :: None :: t /\ (List.length l <= 1)%nat)  (* the next one does not *)
   \/ (exists l, via_hdrs m = Some l :: Some [] :: t /\ (List.length l <= 1)%nat)) ->
  fst (handle_message e from m x) = x.
Proof.
  intros e from m x t Hr HV.
  assert (Hq : is_request m = false) by (unfold is_response in Hr; apply negb_true_iff; exact Hr).
  pose proof (C02_response_general e from m x Hq) as G.
  destruct HV as [H|[(l & H & Hl)|(l & H & Hl)]]; rewrite H in G; [exact G| |];
    destruct l as [|a [|b r]]; cbn in Hl; try lia; exact G.
Qed.

Lemma clean_lookup_keep now p k f : alookup k (ps_table p) = Some f ->
  (forall c ex, fo_pri f <> Some (PConn c ex)) -> alookup k (ps_table (clean_expired now p)) = Some f.
Proof.
  intros H Hn. unfold clean_expired. destruct (Z.ltb _ 60); [exact H|]. cbn [ps_table].
  apply alookup_filter_some; [exact H|]. cbn. destruct (fo_pri f) as [[a b|a b|c ex]|]; try reflexivity.
  exfalso. exact (Hn c ex eq_refl).
Qed.
Lemma clean_lookup_none now p k : alookup k (ps_table p) = None -> alookup k (ps_table (clean_expired now p)) = None.
Proof.
  intros H. unfold clean_expired. destruct (Z.ltb _ 60); [exact H|]. cbn [ps_table]. apply alookup_filter_none. exact H.
Qed.
Lemma clean_lookup_in now p k f : alookup k (ps_table (clean_expired now p)) = Some f -> In (k, f) (ps_table p).
Proof.
  unfold clean_expired. destruct (Z.ltb _ 60); [apply alookup_in|]. cbn [ps_table]. apply alookup_filter_in.
Qed.

Lemma get_transport_key now proto host port tid p p1 key :
  get_transport now proto host port tid p = (p1, Ok key) -> key = full_addr (to_lower proto) host port tid.
Proof. intros E. apply (Pipeline.get_transport_key now proto host port tid p). rewrite E. reflexivity. Qed.
Lemma udp_key_not_tcp host port tid : has_prefix (s2b "tcp://") (full_addr (s2b "udp") host port tid) = false.
Proof. reflexivity. Qed.
(* GetTransport drops expired entries and adds at most: under a udp key a UDP client for that
   destination; under tcp keys entries without primary *)
Lemma get_transport_table now proto host port tid p k g :
  In (k, g) (ps_table (fst (get_transport now proto host port tid p))) ->
  In (k, g) (ps_table p) \/
  (to_lower proto = s2b "udp" /\ k = full_addr (s2b "udp") host port tid /\
   g = {| fo_pri := Some (PUdp host port); fo_sec := None |}) \/
  (to_lower proto <> s2b "udp" /\ fo_pri g = None).
Proof.
  assert (C : In (k, g) (ps_table (clean_expired now p)) -> In (k, g) (ps_table p)).
  { unfold clean_expired. destruct (Z.ltb _ 60); [auto|]. cbn [ps_table]. intros H. apply filter_In in H. apply H. }
  unfold get_transport. cbv zeta. destruct (negb _); [auto|]. destruct (alookup _ _); [auto|].
  destruct (beq (to_lower proto) (s2b "udp")) eqn:EB.
  - apply beq_eq in EB. destruct (resolvable host port); [|auto]. cbn [fst ps_table with_table]. intros H.
    apply aset_in in H. destruct H as [[-> ->]|H]; [|auto]. right. left. rewrite EB. auto.
  - assert (NU : to_lower proto <> s2b "udp") by (intros E; rewrite E in EB; discriminate).
    destruct (alookup _ _) as [f|]; cbn [fst ps_table with_table with_clients]; intros H;
      repeat (apply aset_in in H; destruct H as [[_ ->]|H]; [right; right; auto|]); auto.
Qed.

(* a transport other than udp / tcp (any case): nothing is sent *)
Theorem C02_dest_unsupported : forall e host port tr m x,
  supported_proto (to_lower tr) = false ->
  x_outs (fst (send_message e host port tr m x)) = x_outs x.
Proof.
  intros e host port tr m x H. unfold send_message. destruct (mtry s_client_transaction m) as [m1 tid].
  unfold get_transport. cbv zeta. rewrite H. reflexivity.
Qed.

(* udp *)
Definition udp_key (ip : bytes) (port : Z) : bytes := full_addr (s2b "udp") ip port [].
Lemma udp_key_tid ip port tid : full_addr (s2b "udp") ip port tid = udp_key ip port.
Proof. reflexivity. Qed.
(* the table slot of that destination is free, or holds a UDP client for it.  (It can hold a
   forgotten primary after a send to that destination FAILED - in the model: a datagram over
   65507 bytes: udp_primary_forgotten_witness below) *)
Definition udp_slot_ok (ip : bytes) (port : Z) (p : pstate) : Prop :=
  match alookup (udp_key ip port) (ps_table p) with
  | None => True
  | Some f => fo_pri f = Some (PUdp ip port) \/ fo_pri f = Some (PUdpVia ip port)
  end.

Lemma get_transport_udp now tr host port tid p :
  to_lower tr = s2b "udp" -> resolvable host port = true ->
  exists p1, get_transport now tr host port tid p = (p1, Ok (udp_key host port)) /\
    match alookup (udp_key host port) (ps_table p) with
    | Some f => (forall c ex, fo_pri f <> Some (PConn c ex)) -> alookup (udp_key host port) (ps_table p1) = Some f
    | None => alookup (udp_key host port) (ps_table p1) = Some {| fo_pri := Some (PUdp host port); fo_sec := None |}
    end.
Proof.
  intros Htr Hres. unfold get_transport. cbv zeta. rewrite Htr.
  change (negb (supported_proto (s2b "udp"))) with false. cbv iota. rewrite udp_key_tid.
  change (beq (s2b "udp") (s2b "udp")) with true. cbv iota. rewrite Hres.
  destruct (alookup (udp_key host port) (ps_table p)) as [f|] eqn:EL.
  - destruct (alookup (udp_key host port) (ps_table (clean_expired now p))) as [f'|] eqn:EC.
    + eexists. split; [reflexivity|]. intros Hn. apply clean_lookup_keep; assumption.
    + eexists. split; [reflexivity|]. intros Hn. rewrite (clean_lookup_keep _ _ _ _ EL Hn) in EC. discriminate.
  - rewrite (clean_lookup_none _ _ _ EL). eexists. split; [reflexivity|].
    cbn [ps_table with_table]. apply alookup_aset_same.
Qed.

Theorem C02_dest_udp : forall e host port tr m x ip,
  to_lower tr = s2b "udp" -> get_ip (e_cfg e) host = Some ip -> resolvable ip port = true ->
  udp_slot_ok ip port (x_p x) -> fits_datagram (write_message (sent_msg m)) = true ->
  x_outs (fst (send_message e host port tr m x)) = x_outs x ++ [(DUdp ip port, write_message (sent_msg m))].
Proof.
  intros e host port tr m x ip Htr Hip Hres Hslot Hfit.
  unfold send_message. rewrite Hip. unfold sent_msg in Hfit |- *.
  destruct (mtry s_client_transaction m) as [m1 tid]. cbn [fst] in Hfit |- *.
  set (trans_id := match tid with Ok (Some t) => t | _ => [] end).
  destruct (get_transport_udp (now_s e) tr ip port trans_id (x_p x) Htr Hres) as (p1 & EG & HL). rewrite EG.
  assert (EF : exists f, alookup (udp_key ip port) (ps_table p1) = Some f /\
                         (fo_pri f = Some (PUdp ip port) \/ fo_pri f = Some (PUdpVia ip port))).
  { unfold udp_slot_ok in Hslot. destruct (alookup (udp_key ip port) (ps_table (x_p x))) as [f|].
    - exists f. split; [|exact Hslot]. apply HL. intros c ex. destruct Hslot as [H|H]; rewrite H; discriminate.
    - eexists. split; [exact HL|]. left. reflexivity. }
  destruct EF as (f & EF & Hpri). destruct f as [pri sec]. cbn [fo_pri] in Hpri.
  cbv beta iota zeta. rewrite EF.
  destruct Hpri as [-> | ->]; cbv beta iota zeta; rewrite EF; unfold failover_send; cbn [fo_pri];
    rewrite Hfit; reflexivity.
Qed.

(* tcp: no table entry under a tcp key holds a UDP client (true of every state the
   repaired tree reaches; the legacy findClientTransport broke exactly this) *)
Definition tcp_slot_ok (p : pstate) : Prop :=
  forall k f, In (k, f) (ps_table p) -> has_prefix (s2b "tcp://") k = true ->
              forall ip port, fo_pri f <> Some (PUdp ip port) /\ fo_pri f <> Some (PUdpVia ip port).
Lemma tcp_key_prefix host port tid : has_prefix (s2b "tcp://") (full_addr (s2b "tcp") host port tid) = true.
Proof. unfold full_addr. cbv zeta. destruct (_ && _)%bool; reflexivity. Qed.

Lemma get_transport_tcp now tr host port tid p p1 key :
  to_lower tr = s2b "tcp" -> tcp_slot_ok p -> get_transport now tr host port tid p = (p1, Ok key) ->
  forall f, alookup key (ps_table p1) = Some f ->
            forall ip pt, fo_pri f <> Some (PUdp ip pt) /\ fo_pri f <> Some (PUdpVia ip pt).
Proof.
  intros Htr Hslot EG f EF ip pt. apply alookup_in in EF.
  pose proof (get_transport_table now tr host port tid p key f) as T. rewrite EG in T.
  destruct (T EF) as [H|[(U & _)|(_ & ->)]].
  - apply (Hslot _ _ H). rewrite (get_transport_key _ _ _ _ _ _ _ _ EG), Htr. apply tcp_key_prefix.
  - rewrite Htr in U. discriminate.
  - split; discriminate.
Qed.

(* under the repaired findClientTransport, an entry gets a primary through the UDP listener only
   for the udp transport, and only when it has lost its own *)
Lemma no_listener_repair e tr ip port key (l : learned) p1 q :
  fx_udp_via_listener (e_fx e) = true -> ps_table q = ps_table p1 ->
  (equal_fold tr (s2b "udp") = true -> forall f, alookup key (ps_table p1) = Some f -> fo_pri f <> None) ->
  match alookup key (ps_table q) with
  | Some {| fo_pri := None |} =>
      if (fx_udp_via_listener (e_fx e) && negb (equal_fold tr (s2b "udp")))%bool then q else
      match alookup ip l with
      | Some {| t_kind := KUdp |} => if resolvable ip port then set_primary key (PUdpVia ip port) q else q
      | _ => q
      end
  | _ => q
  end = q.
Proof.
  intros Hfx T HU. rewrite T, Hfx. destruct (alookup key (ps_table p1)) as [[[pr|] sec]|] eqn:EF; try reflexivity.
  destruct (equal_fold tr (s2b "udp")) eqn:EU; [|reflexivity]. exfalso. exact (HU eq_refl _ eq_refl eq_refl).
Qed.

Theorem C02_dest_tcp : forall e host port tr m x,
  fx_udp_via_listener (e_fx e) = true -> to_lower tr = s2b "tcp" -> tcp_slot_ok (x_p x) ->
  exists outs, x_outs (fst (send_message e host port tr m x)) = x_outs x ++ outs /\
               tcp_shape (write_message (sent_msg m)) outs.
Proof.
  intros e host port tr m x Hfx Htr Hslot.
  assert (NIL : forall b, exists outs, x_outs x = x_outs x ++ outs /\ tcp_shape b outs).
  { intros b. exists []. split; [symmetry; apply app_nil_r|left; reflexivity]. }
  unfold send_message, sent_msg. destruct (mtry s_client_transaction m) as [m1 tid]. cbn [fst].
  destruct (get_transport _ _ _ _ _ _) as [p1 rkey] eqn:EG.
  destruct rkey as [key| |]; try apply NIL.
  pose proof (get_transport_tcp _ _ _ _ _ _ _ _ Htr Hslot EG) as HT.
  assert (EU : equal_fold tr (s2b "udp") = false) by (unfold equal_fold; rewrite Htr; reflexivity).
  cbv zeta. rewrite (no_listener_repair e tr _ port key _ p1 p1 Hfx eq_refl) by (rewrite EU; discriminate).
  destruct (alookup key (ps_table p1)) as [f|] eqn:EF; [|apply NIL].
  match goal with |- context [failover_send ?a ?b ?c ?d ?e ?f ?g ?h] =>
    destruct (failover_send a b c d e f g h) as [[[[[p4 cs] w] outs] ok] f'] eqn:EFS end.
  cbn [fst x_outs]. exists outs. split; [reflexivity|].
  destruct (failover_send_outs _ _ _ _ _ _ _ _ _ _ _ _ _ _ EFS) as [(ip & pt & Hpri & _)|H]; [|exact H].
  exfalso. destruct (HT f eq_refl ip pt) as [N1 N2]. destruct Hpri as [Hp|Hp]; [exact (N1 Hp)|exact (N2 Hp)].
Qed.

(* in particular: never a datagram, at most one write on a connection, at most one dial *)
Corollary C02_dest_tcp_no_udp : forall e host port tr m x,
  fx_udp_via_listener (e_fx e) = true -> to_lower tr = s2b "tcp" -> tcp_slot_ok (x_p x) ->
  exists outs, x_outs (fst (send_message e host port tr m x)) = x_outs x ++ outs /\
    Forall (fun o => match fst o with DUdp _ _ => False | _ => True end) outs /\
    (List.length (filter (fun o => match fst o with DConn _ => true | _ => false end) outs) <= 1)%nat /\
    (List.length (filter (fun o => match fst o with DDial _ _ _ => true | _ => false end) outs) <= 1)%nat.
Proof.
  intros e host port tr m x Hfx Htr Hslot.
  destruct (C02_dest_tcp e host port tr m x Hfx Htr Hslot) as (outs & H1 & H2). exists outs. split; [exact H1|].
  destruct H2 as [->|[(c & ->)|[(h & p & c & ->)|(h & p & c & c' & ->)]]]; cbn; repeat split; repeat constructor.
Qed.

(* both slot conditions hold of a fresh proxy *)
Lemma slots_ok_init c now lc ip port : udp_slot_ok ip port (init_pstate c now lc) /\ tcp_slot_ok (init_pstate c now lc).
Proof. split; [exact I|intros k f []]. Qed.

(* replace pin table, rotation and generation counter *)
Definition graft (pins' : pins) (rr' : rr) (gen' : nat) (p : pstate) : pstate :=
  {| ps_backends := ps_backends p; ps_rr := rr'; ps_has_rr := ps_has_rr p; ps_gen := gen'; ps_pins := pins';
     ps_table := ps_table p; ps_clients := ps_clients p; ps_last_clean := ps_last_clean p |}.

Section Graft.
Variables (pins' : pins) (rr' : rr) (gen' : nat).
Let G := graft pins' rr' gen'.

Lemma G_clean now p : clean_expired now (G p) = G (clean_expired now p).
Proof. unfold clean_expired, G, graft. cbn. destruct (Z.ltb _ 60); reflexivity. Qed.
Lemma G_get_transport now proto host port tid p :
  get_transport now proto host port tid (G p) =
  (G (fst (get_transport now proto host port tid p)), snd (get_transport now proto host port tid p)).
Proof.
  unfold get_transport. cbv zeta. rewrite G_clean. set (p' := clean_expired now p).
  destruct (negb _); [reflexivity|]. change (ps_table (G p')) with (ps_table p').
  destruct (alookup _ (ps_table p')); [reflexivity|].
  destruct (beq _ (s2b "udp")); [destruct (resolvable host port); reflexivity|].
  destruct (alookup _ (ps_table p')); reflexivity.
Qed.
Lemma G_tcp_client_send n : forall li local rs id b p cs w outs,
  tcp_client_send n li local rs id b (G p) cs w outs =
  let '(p', cs', w', outs', ok) := tcp_client_send n li local rs id b p cs w outs in (G p', cs', w', outs', ok).
Proof.
  induction n as [|n IH]; intros li local rs id b p cs w outs; cbn [tcp_client_send]; [reflexivity|].
  change (ps_clients (G p)) with (ps_clients p).
  destruct (find_client id (ps_clients p)) as [cl|]; [|reflexivity].
  destruct (tc_cached cl) as [c|].
  - destruct (conn_open cs c); [reflexivity|].
    change (with_clients (G p) ?X) with (G (with_clients p X)). apply IH.
  - destruct (existsb _ (w_tcp_listeners w)); reflexivity.
Qed.
Lemma G_failover_send li local rs f b p cs w :
  failover_send li local rs f b (G p) cs w =
  let '(p', cs', w', outs, ok, f') := failover_send li local rs f b p cs w in (G p', cs', w', outs, ok, f').
Proof.
  rewrite !failover_send_eq. destruct (pri_out f b cs); [reflexivity|].
  unfold try_sec. destruct (fo_sec f) as [id|]; [|reflexivity]. rewrite G_tcp_client_send.
  destruct (tcp_client_send 2 li local rs id b p cs w []) as [[[[p2 cs2] w2] outs2] ok2]. reflexivity.
Qed.
End Graft.

(* no table entry under a udp key has lost its client (see udp_slot_ok) *)
Definition udp_known (p : pstate) : Prop :=
  forall k f, In (k, f) (ps_table p) -> has_prefix (s2b "udp://") k = true -> fo_pri f <> None.

Lemma get_transport_udp_known now tr host port tid p p1 key :
  equal_fold tr (s2b "udp") = true -> udp_known p -> get_transport now tr host port tid p = (p1, Ok key) ->
  forall f, alookup key (ps_table p1) = Some f -> fo_pri f <> None.
Proof.
  intros EU HK EG f EF. apply alookup_in in EF.
  assert (Htr : to_lower tr = s2b "udp") by (unfold equal_fold in EU; apply beq_eq in EU; exact EU).
  pose proof (get_transport_table now tr host port tid p key f) as T. rewrite EG in T.
  destruct (T EF) as [H|[(_ & _ & ->)|(NU & _)]]; [|discriminate|contradiction].
  apply (HK _ _ H). rewrite (get_transport_key _ _ _ _ _ _ _ _ EG), Htr. reflexivity.
Qed.

Definition regraft pins' rr' gen' (l' : learned) (x : ctx) : ctx :=
  {| x_learned := l'; x_p := graft pins' rr' gen' (x_p x); x_conns := x_conns x; x_world := x_world x; x_outs := x_outs x |}.

Lemma send_message_regraft pins' rr' gen' l' e host port tr m x :
  fx_udp_via_listener (e_fx e) = true -> udp_known (x_p x) ->
  send_message e host port tr m (regraft pins' rr' gen' l' x) =
  (regraft pins' rr' gen' l' (fst (send_message e host port tr m x)), snd (send_message e host port tr m x)).
Proof.
  intros Hfx HK. unfold send_message. cbn [regraft x_learned x_p x_conns x_world x_outs].
  destruct (mtry s_client_transaction m) as [m1 tid]. rewrite G_get_transport.
  destruct (get_transport _ _ _ _ _ (x_p x)) as [p1 rkey] eqn:EG. cbn [fst snd].
  destruct rkey as [key| |]; try reflexivity.
  pose proof (fun EU => get_transport_udp_known _ _ _ _ _ _ _ _ EU HK EG) as HU.
  rewrite (no_listener_repair e tr _ port key _ p1 p1 Hfx eq_refl HU), (no_listener_repair e tr _ port key _ p1 (graft pins' rr' gen' p1) Hfx eq_refl HU).
  change (ps_table (graft pins' rr' gen' p1)) with (ps_table p1).
  destruct (alookup key (ps_table p1)) as [f|]; [|reflexivity].
  set (hk := if fx_resolved_key (e_fx e) then match get_ip (e_cfg e) host with Some i => i | None => host end else host).
  set (P3 := if is_final_response m1 then remove_transport tr hk port _ p1 else p1).
  assert (E3 : (if is_final_response m1 then remove_transport tr hk port match tid with Ok (Some t) => t | _ => [] end (graft pins' rr' gen' p1)
                else graft pins' rr' gen' p1) = graft pins' rr' gen' P3).
  { subst P3. destruct (is_final_response m1); [|reflexivity]. unfold remove_transport. cbv zeta.
    destruct (negb (supported_proto (to_lower tr))); reflexivity. }
  rewrite E3, G_failover_send.
  destruct (failover_send _ _ _ f _ P3 _ _) as [[[[[p4 cs] w] outs] ok] f'].
  change (ps_table (graft pins' rr' gen' p4)) with (ps_table p4).
  destruct (alookup key (ps_table p4)); reflexivity.
Qed.

(* two contexts that differ only in learned table, pin table, rotation, generation counter *)
Definition same_core (x y : ctx) : Prop :=
  x_conns y = x_conns x /\ x_world y = x_world x /\ x_outs y = x_outs x /\
  ps_backends (x_p y) = ps_backends (x_p x) /\ ps_has_rr (x_p y) = ps_has_rr (x_p x) /\
  ps_table (x_p y) = ps_table (x_p x) /\ ps_clients (x_p y) = ps_clients (x_p x) /\
  ps_last_clean (x_p y) = ps_last_clean (x_p x).

Lemma send_message_indep e host port tr m x y :
  fx_udp_via_listener (e_fx e) = true -> udp_known (x_p x) -> same_core x y ->
  x_outs (fst (send_message e host port tr m y)) = x_outs (fst (send_message e host port tr m x)) /\
  x_conns (fst (send_message e host port tr m y)) = x_conns (fst (send_message e host port tr m x)) /\
  x_world (fst (send_message e host port tr m y)) = x_world (fst (send_message e host port tr m x)).
Proof.
  intros Hfx HK (C1 & C2 & C3 & C4 & C5 & C6 & C7 & C8).
  assert (Ey : y = regraft (ps_pins (x_p y)) (ps_rr (x_p y)) (ps_gen (x_p y)) (x_learned y) x).
  { destruct y as [ly py cy wy oy]. destruct py. cbn in *. subst. reflexivity. }
  rewrite Ey, send_message_regraft by assumption. cbn [fst regraft x_outs x_conns x_world]. repeat split.
Qed.

(* where a response goes does not depend on the pin table, the rotation or the learned
   table: the outputs (destinations AND bytes) are the same *)
Theorem C02_independent_of_pins : forall e from m x pins' rr' gen' l',
  is_response m = true -> fx_udp_via_listener (e_fx e) = true -> udp_known (x_p x) ->
  let y := {| x_learned := l'; x_p := graft pins' rr' gen' (x_p x); x_conns := x_conns x;
              x_world := x_world x; x_outs := x_outs x |} in
  x_outs (fst (handle_message e from m y)) = x_outs (fst (handle_message e from m x)) /\
  x_conns (fst (handle_message e from m y)) = x_conns (fst (handle_message e from m x)) /\
  x_world (fst (handle_message e from m y)) = x_world (fst (handle_message e from m x)).
Proof.
  intros e from m x pins' rr' gen' l' Hr Hfx HK y.
  assert (Hq : is_request m = false) by (unfold is_response in Hr; apply negb_true_iff; exact Hr).
  subst y. rewrite !handle_message_response by exact Hq. cbn [x_p x_learned].
  destruct (mtry s_pop_via m) as [m1 r1]. destruct (mtry next_response_hop m1) as [m2 hop].
  destruct (mtry s_get_method m2) as [m3 ometh].
  pose proof (subscribe_pin_backends e (x_p x) (graft pins' rr' gen' (x_p x)) hop ometh m3 eq_refl) as F.
  destruct (subscribe_pin_pins e (x_p x) hop ometh m3) as (a & Pa).
  destruct (subscribe_pin_pins e (graft pins' rr' gen' (x_p x)) hop ometh m3) as (b & Pb).
  destruct (subscribe_pin e (x_p x) hop ometh m3) as [m4 p1].
  destruct (subscribe_pin e (graft pins' rr' gen' (x_p x)) hop ometh m3) as [m4' q1].
  cbn [fst snd] in F, Pa, Pb. subst m4' p1 q1. unfold respond.
  destruct hop as [[[[h p] t]|]| |]; try (repeat split; reflexivity).
  apply send_message_indep; [exact Hfx|exact HK|repeat split].
Qed.

(* where a response goes whose Via headers are those of a request the proxy relayed with its
   own Via on top and the sender's entry stamped (received-support on) *)
Theorem C02_roundtrip_return : forall e from r x br t0 src sport v rest t,
  is_response r = true -> (int_min <= sport <= int_max)%Z ->
  via_hdrs r = Some [own_via br t0] :: Some (stamp src sport v :: rest) :: t ->
  exists m4 pins',
    handle_message e from r x =
      send_message e src (if kv_has (s2b "rport") (v_params v) then sport else via_get_port v) (v_transport v) m4
        {| x_learned := x_learned x; x_p := with_pins (x_p x) pins'; x_conns := x_conns x;
           x_world := x_world x; x_outs := x_outs x |} /\
    via_hdrs m4 = Some (stamp src sport v :: rest) :: t.
Proof.
  intros e from r x br t0 src sport v rest t Hr Hp HV.
  destruct (C02_response_hop e from r x _ _ _ _ Hr (or_intror HV)) as (m4 & pins' & G1 & _ & _ & G4 & _).
  exists m4, pins'. split; [|exact G4]. rewrite G1. f_equal.
  - unfold hop_host. rewrite stamp_received. reflexivity.
  - unfold hop_port. rewrite stamp_received, stamp_rport by exact Hp. rewrite stamp_port.
    destruct (kv_has _ _); reflexivity.
Qed.

(* request q from (src, sport) on a transport with received-support; every copy of it the
   proxy sends carries q's Via headers with only the sender's entry stamped; when the proxy
   pushed its own Via, ANY later response carrying that Via stack (whatever the state, the
   listener, the events in between) is sent to src - to sport iff q's top entry carried an
   rport parameter, else to its sent-by port - over the sender's transport, and carries q's
   Via headers, the stamped received/rport being the only difference *)
Theorem C02_roundtrip : forall e src sport from tcp q x x' v rest t,
  is_request q = true -> via_hdrs q = Some (v :: rest) :: t -> (int_min <= sport <= int_max)%Z ->
  process_message e src sport from true tcp q x = Ok x' ->
  exists outs, x_outs x' = x_outs x ++ outs /\
    Forall (fun o =>
      match fst o with
      | DDial _ _ _ => snd o = []
      | _ => exists q', snd o = write_message q' /\
          (via_hdrs q' = Some (stamp src sport v :: rest) :: t
           \/ exists t0, via_hdrs q' = Some [own_via (e_branch e) t0] :: Some (stamp src sport v :: rest) :: t /\
                forall e2 from2 r y, is_response r = true -> via_hdrs r = via_hdrs q' ->
                  exists m4 pins',
                    handle_message e2 from2 r y =
                      send_message e2 src (if kv_has (s2b "rport") (v_params v) then sport else via_get_port v)
                        (v_transport v) m4
                        {| x_learned := x_learned y; x_p := with_pins (x_p y) pins'; x_conns := x_conns y;
                           x_world := x_world y; x_outs := x_outs y |} /\
                    via_hdrs m4 = Some (stamp src sport v :: rest) :: t)
      end) outs.
Proof.
  intros e src sport from tcp q x x' v rest t Hq HV Hp H.
  destruct (C07_pipeline _ _ _ _ _ _ _ _ _ Hq H) as (outs & H1 & H2). exists outs. split; [exact H1|].
  rewrite HV in H2. cbn [stamp_hdrs] in H2. eapply Forall_impl; [|exact H2].
  (* a dial marker stays; a message keeps its Via headers, and under the proxy's own Via the way
     back is C02_roundtrip_return *)
  assert (K : forall q', (via_hdrs q' = Some (stamp src sport v :: rest) :: t \/
                          exists t0, via_hdrs q' = Some [own_via (e_branch e) t0] :: Some (stamp src sport v :: rest) :: t) ->
              via_hdrs q' = Some (stamp src sport v :: rest) :: t \/
              exists t0, via_hdrs q' = Some [own_via (e_branch e) t0] :: Some (stamp src sport v :: rest) :: t /\
                forall e2 from2 r y, is_response r = true -> via_hdrs r = via_hdrs q' ->
                  exists m4 pins',
                    handle_message e2 from2 r y =
                      send_message e2 src (if kv_has (s2b "rport") (v_params v) then sport else via_get_port v)
                        (v_transport v) m4
                        {| x_learned := x_learned y; x_p := with_pins (x_p y) pins'; x_conns := x_conns y;
                           x_world := x_world y; x_outs := x_outs y |} /\
                    via_hdrs m4 = Some (stamp src sport v :: rest) :: t).
  { intros q' [E2|(t0 & E2)]; [left; exact E2|]. right. exists t0. split; [exact E2|].
    intros e2 from2 r y Hr HR. rewrite E2 in HR. exact (C02_roundtrip_return e2 from2 r y _ _ _ _ _ _ _ Hr Hp HR). }
  intros o. unfold relayed_as. destruct (fst o); try (intros E; exact E);
    intros (q' & E1 & E2); exists q'; (split; [exact E1|exact (K q' E2)]).
Qed.

(* a response through handleRawMessage is HandleMessage on what tryRemoveTopRoute and handleDialog
   leave, with the learned table as it was *)
Lemma process_response_eq e peer port from rs tcp m0 x x' :
  is_response m0 = true -> process_message e peer port from rs tcp m0 x = Ok x' ->
  x' = fst (handle_message e from (fst (stage_dialog e peer port (x_p x) (stage_route e from m0)))
              (ctx_with x (x_learned x) (snd (stage_dialog e peer port (x_p x) (stage_route e from m0))))).
Proof.
  intros Hr. assert (Hq : is_request m0 = false) by (unfold is_response in Hr; apply negb_true_iff; exact Hr).
  rewrite process_message_reach, (MsgStages.reach_response _ _ _ _ _ _ _ _ Hq).
  destruct (stage_dialog e peer port (x_p x) (stage_route e from m0)) as [m5 p2]. intros H. injection H as <-. reflexivity.
Qed.

(* a response through handleRawMessage: never stamped (whatever rs), no learning, then (a)/(b) *)
Theorem C02_process_response : forall e peer port from rs tcp m0 x x',
  is_response m0 = true ->
  process_message e peer port from rs tcp m0 x = Ok x' ->
  match top_view (pop_view (via_hdrs m0)) with
  | Some v2 =>
      exists m4 pins',
        x' = fst (send_message e (hop_host v2) (hop_port v2) (v_transport v2) m4
                   {| x_learned := x_learned x; x_p := with_pins (x_p x) pins'; x_conns := x_conns x;
                      x_world := x_world x; x_outs := x_outs x |}) /\
        m_start m4 = m_start m0 /\ m_body m4 = m_body m0 /\ via_hdrs m4 = pop_view (via_hdrs m0)
  | None => x_outs x' = x_outs x /\ x_conns x' = x_conns x /\ x_world x' = x_world x /\ x_learned x' = x_learned x
  end.
Proof.
  intros e peer port from rs tcp m0 x x' Hr E. rewrite (process_response_eq _ _ _ _ _ _ _ _ _ Hr E).
  assert (Hq : is_request m0 = false) by (unfold is_response in Hr; apply negb_true_iff; exact Hr).
  pose proof (response_reach_edits _ veq veq_edits I I I I I veq_pop_route e peer port from (x_p x) m0) as V5.
  destruct (stage_dialog_pins e peer port (x_p x) (stage_route e from m0)) as (pins2 & P2).
  destruct (stage_dialog e peer port (x_p x) (stage_route e from m0)) as [m5 p2]. cbn [fst snd] in *. subst p2.
  assert (Q5 : is_request m5 = false) by (rewrite (veq_is_request _ _ V5); exact Hq).
  destruct V5 as (S5 & B5 & H5).
  pose proof (C02_response_general e from m5 (ctx_with x (x_learned x) (with_pins (x_p x) pins2)) Q5) as G.
  rewrite H5 in G. destruct (top_view (pop_view (via_hdrs m0))) as [v2|].
  - destruct G as (m6 & pins' & G1 & G2 & G3 & G4). exists m6, pins'. rewrite G1.
    split; [reflexivity|]. repeat split; congruence.
  - rewrite G. repeat split.
Qed.

Theorem C02_step_udp : forall fx c now br st li src sport data lc p m rest st' outs,
  nth_opt (c_listens c) li = Some lc -> nth_p (st_proxies st) li = Some p ->
  parse_message data = Ok (m, rest) -> is_response m = true ->
  proxy_step fx c now br st (EvUdp li src sport data) = Ok (st', outs) ->
  match top_view (pop_view (via_hdrs m)) with
  | Some v2 =>
      exists m4 pins',
        outs = x_outs (fst (send_message (mk_env fx c (item_rs_of (fx_wiring fx)) li lc now br)
                              (hop_host v2) (hop_port v2) (v_transport v2) m4
                              {| x_learned := st_learned st; x_p := with_pins p pins'; x_conns := st_conns st;
                                 x_world := st_world st; x_outs := [] |})) /\
        m_start m4 = m_start m /\ m_body m4 = m_body m /\ via_hdrs m4 = pop_view (via_hdrs m)
  | None => outs = []
  end.
Proof.
  intros fx c now br st li src sport data lc p m rest st' outs EL EP EM Hr H.
  destruct (proxy_step_udp_single _ _ _ _ _ _ _ _ _ _ _ _ _ _ _ EL EM EP H) as (x' & E & _ & ->).
  pose proof (C02_process_response _ _ _ _ _ _ _ _ _ Hr E) as G.
  cbn [start_ctx x_learned x_p x_conns x_world x_outs] in G.
  destruct (top_view (pop_view (via_hdrs m))) as [v2|].
  - destruct G as (m4 & pins' & -> & G2). exists m4, pins'. split; [reflexivity|exact G2].
  - apply G.
Qed.

(* end to end, UDP next hop: exactly one datagram, to the resolved address of the entry on top
   after the pop, carrying the popped Via headers *)
Corollary C02_step_udp_relay_udp : forall fx c now br st li src sport data lc p m rest st' outs v2 ip,
  nth_opt (c_listens c) li = Some lc -> nth_p (st_proxies st) li = Some p ->
  parse_message data = Ok (m, rest) -> is_response m = true ->
  proxy_step fx c now br st (EvUdp li src sport data) = Ok (st', outs) ->
  top_view (pop_view (via_hdrs m)) = Some v2 ->
  to_lower (v_transport v2) = s2b "udp" -> get_ip c (hop_host v2) = Some ip ->
  resolvable ip (hop_port v2) = true -> udp_slot_ok ip (hop_port v2) p ->
  exists m', via_hdrs m' = pop_view (via_hdrs m) /\ m_start m' = m_start m /\ m_body m' = m_body m /\
             (fits_datagram (write_message m') = true -> outs = [(DUdp ip (hop_port v2), write_message m')]).
Proof.
  intros fx c now br st li src sport data lc p m rest st' outs v2 ip EL EP EM Hr H HT Htr Hip Hres Hslot.
  pose proof (C02_step_udp _ _ _ _ _ _ _ _ _ _ _ _ _ _ _ EL EP EM Hr H) as G. rewrite HT in G.
  destruct G as (m4 & pins' & -> & G2 & G3 & G4). exists (sent_msg m4).
  destruct (veq_sent_msg m4) as (V1 & V2 & V3). repeat split; try congruence.
  intros Hfit.
  match goal with |- x_outs (fst (send_message ?e ?h ?pt ?tr ?mm ?X)) = _ =>
    rewrite (C02_dest_udp e h pt tr mm X ip Htr Hip Hres Hslot Hfit) end. reflexivity.
Qed.

(* with findClientTransport repaired, no state the proxy reaches has a UDP client under a tcp
   key: C02_dest_tcp applies to every reachable state *)
Definition pri_not_udp (o : option primary) : Prop :=
  forall ip port, o <> Some (PUdp ip port) /\ o <> Some (PUdpVia ip port).
Definition tso_table (t : list (bytes * failover)) : Prop :=
  forall k f, In (k, f) t -> has_prefix (s2b "tcp://") k = true -> pri_not_udp (fo_pri f).
Lemma tso_iff p : tcp_slot_ok p <-> tso_table (ps_table p).
Proof. split; intros H; exact H. Qed.
Lemma tso_aset t k v : tso_table t -> (has_prefix (s2b "tcp://") k = true -> pri_not_udp (fo_pri v)) -> tso_table (aset k v t).
Proof.
  intros Ht Hv k0 f0 HI HP. apply aset_in in HI. destruct HI as [[-> ->]|HI]; [apply Hv; exact HP|exact (Ht _ _ HI HP)].
Qed.
Lemma pnu_none : pri_not_udp None. Proof. intros ip port. split; discriminate. Qed.
Lemma pnu_conn c ex : pri_not_udp (Some (PConn c ex)). Proof. intros ip port. split; discriminate. Qed.

Lemma tso_clean now p : tcp_slot_ok p -> tcp_slot_ok (clean_expired now p).
Proof.
  unfold clean_expired. destruct (Z.ltb _ 60); [auto|]. intros H k f HI. cbn [ps_table] in HI.
  apply filter_In in HI. apply H, HI.
Qed.
Lemma tso_get_transport now proto host port tid p :
  tcp_slot_ok p -> tcp_slot_ok (fst (get_transport now proto host port tid p)).
Proof.
  intros H k g I HP ip pt. destruct (get_transport_table _ _ _ _ _ _ _ _ I) as [J|[(_ & -> & _)|(_ & ->)]].
  - exact (H _ _ J HP ip pt).
  - rewrite udp_key_not_tcp in HP. discriminate.
  - split; discriminate.
Qed.
Lemma tso_set_primary key pr p :
  tcp_slot_ok p -> (has_prefix (s2b "tcp://") key = true -> pri_not_udp (Some pr)) -> tcp_slot_ok (set_primary key pr p).
Proof.
  intros H Hp. unfold set_primary. destruct (alookup key (ps_table p)); [|exact H].
  apply tso_iff. cbn [ps_table with_table]. apply tso_aset; [exact H|exact Hp].
Qed.
Lemma tso_remove_transport proto host port tid p : tcp_slot_ok p -> tcp_slot_ok (remove_transport proto host port tid p).
Proof.
  intros H. unfold remove_transport. cbv zeta. destruct (negb _); [exact H|].
  intros k f HI. cbn [ps_table with_table] in HI. rewrite adel_filter in HI. apply filter_In in HI. apply H, HI.
Qed.
Lemma tcs_table n : forall li local rs id b p cs w outs p' cs' w' outs' ok,
  tcp_client_send n li local rs id b p cs w outs = (p', cs', w', outs', ok) -> ps_table p' = ps_table p.
Proof.
  intros li local rs id b p cs w outs p' cs' w' outs' ok H.
  destruct (tcp_client_send_inv _ _ _ _ _ _ _ _ _ _ _ _ _ _ _ H) as ((cls & ->) & _). reflexivity.
Qed.
Lemma fos_table li local rs f b p cs w p' cs' w' outs ok f' :
  failover_send li local rs f b p cs w = (p', cs', w', outs, ok, f') ->
  ps_table p' = ps_table p /\ (fo_pri f' = fo_pri f \/ fo_pri f' = None).
Proof.
  intros H. destruct (failover_send_p _ _ _ _ _ _ _ _ _ _ _ _ _ _ H) as ((cls & ->) & [->| ->]).
  - split; [reflexivity|left; reflexivity].
  - split; [reflexivity|right; reflexivity].
Qed.

Lemma tso_send_message e host port tr m x :
  fx_udp_via_listener (e_fx e) = true -> tcp_slot_ok (x_p x) ->
  tcp_slot_ok (x_p (fst (send_message e host port tr m x))).
Proof.
  intros Hfx H0. unfold send_message. destruct (mtry s_client_transaction m) as [m1 tid].
  match goal with |- context [get_transport ?a ?b ?c ?d ?e0 ?f] =>
    pose proof (tso_get_transport a b c d e0 f H0) as H1;
    destruct (get_transport a b c d e0 f) as [p1 rkey] eqn:EG end.
  cbn [fst] in H1. destruct rkey as [key| |]; try exact H1.
  pose proof (get_transport_key _ _ _ _ _ _ _ _ EG) as EK.
  set (P2 := match alookup key (ps_table p1) with Some {| fo_pri := None |} => _ | _ => p1 end).
  assert (H2 : tcp_slot_ok P2).
  { subst P2. destruct (alookup key (ps_table p1)) as [[[pr|] sec]|]; try exact H1.
    rewrite Hfx. cbn [andb]. destruct (equal_fold tr (s2b "udp")) eqn:EU; cbn [negb]; [|exact H1].
    match goal with |- context [alookup ?ip (x_learned x)] => destruct (alookup ip (x_learned x)) as [[[| |] a pt]|] end; try exact H1.
    destruct (resolvable _ port); [|exact H1].
    apply tso_set_primary; [exact H1|]. intros HP. exfalso.
    unfold equal_fold in EU. apply beq_eq in EU. change (to_lower (s2b "udp")) with (s2b "udp") in EU.
    rewrite EK, EU, udp_key_not_tcp in HP. discriminate. }
  clearbody P2. destruct (alookup key (ps_table P2)) as [f|] eqn:EF; [|exact H2].
  set (P3 := if is_final_response m1 then _ else P2).
  assert (H3 : tcp_slot_ok P3) by (subst P3; destruct (is_final_response m1); [apply tso_remove_transport|]; exact H2).
  clearbody P3.
  match goal with |- context [failover_send ?a ?b ?c ?d ?e0 ?f0 ?g ?h] =>
    destruct (failover_send a b c d e0 f0 g h) as [[[[[p4 cs] w] outs] ok] f'] eqn:EFS end.
  destruct (fos_table _ _ _ _ _ _ _ _ _ _ _ _ _ _ EFS) as [T4 PF].
  assert (H4 : tcp_slot_ok p4) by (apply tso_iff; rewrite T4; exact H3).
  destruct (alookup key (ps_table p4)); cbn [fst x_p]; [|exact H4].
  apply tso_iff. cbn [ps_table with_table]. apply tso_aset; [exact H4|]. intros HP.
  destruct PF as [-> | ->]; [|apply pnu_none]. apply alookup_in in EF. exact (H2 _ _ EF HP).
Qed.

Lemma find_backend_by_dialog_pins e p : mpost (find_backend_by_dialog e p) (fun r => pinsonly p (fst r)).
Proof.
  unfold find_backend_by_dialog.
  apply mpost_mbind with (P := fun _ => True); [apply mpost_true|intros meth _].
  destruct (_ && _)%bool; [apply mpost_mret, pinsonly_refl|].
  apply mpost_mbind with (P := fun _ => True); [apply mpost_true|intros [d|] _]; [|apply mpost_mret, pinsonly_refl].
  destruct (pins_get (e_now e) d (ps_pins p)) as [pins1 ob]. cbv zeta.
  destruct (_ && _)%bool; [apply mpost_mret; cbn [fst]; apply pinsonly_with, pinsonly_with, pinsonly_refl|].
  apply mpost_mbind with (P := fun _ => True); [apply mpost_true|intros ss _].
  apply mpost_mret. cbn [fst]. destruct (_ && _)%bool; [apply pinsonly_with|]; apply pinsonly_with, pinsonly_refl.
Qed.
Lemma send_to_backend_table e m x : ps_table (x_p (fst (send_to_backend e m x))) = ps_table (x_p x).
Proof.
  unfold send_to_backend. destruct (negb _); [reflexivity|]. destruct (first_transport (e_lc e)) as [t0|]; [|reflexivity].
  pose proof (find_backend_by_dialog_pins e (x_p x) m) as PD.
  destruct (find_backend_by_dialog e (x_p x) m) as [m1 r]. cbn [snd] in PD.
  assert (P1 : ps_table (fst (match r with Ok v => v | _ => (x_p x, None) end)) = ps_table (x_p x)).
  { destruct r as [[p1 ob]| |]; try reflexivity. destruct (PD _ eq_refl) as (pp & E). cbn [fst] in E |- *. rewrite E. reflexivity. }
  destruct (match r with Ok v => v | _ => (x_p x, None) end) as [p1 ob]. cbn [fst] in P1.
  match goal with |- context [backend_send ?b ?bs p1] => destruct (backend_send b bs p1) as [[p2 outs] ok] eqn:EB end.
  assert (P2 : ps_table p2 = ps_table p1).
  { unfold backend_send in EB. destruct (match ob with Some b => b | None => BRR end) as [a g|].
    - destruct (_ && _)%bool; injection EB as <- _ _; reflexivity.
    - destruct (rr_dispatch (ps_rr p1)) as [r' o]. destruct o as [a|]; [destruct (fits_datagram _)|]; injection EB as <- _ _; reflexivity. }
  destruct ok.
  - match goal with |- context [mtry s_client_transaction ?mm] => destruct (mtry s_client_transaction mm) as [m3 tid] end.
    cbn [fst x_p]. destruct tid as [[t|]| |]; cbn [ps_table with_pins]; congruence.
  - cbn [fst x_p]. congruence.
Qed.

Lemma tso_register_conn e c host port t p : tcp_slot_ok p -> tcp_slot_ok (register_conn e c host port t p).
Proof.
  intros H. pose proof (register_conn_cases e c host port t p) as C. cbv zeta in C.
  match type of C with context [get_transport ?a ?b ?c0 ?d ?e0 ?f] =>
    pose proof (tso_get_transport a b c0 d e0 f H) as H1 end.
  destruct C as [->|(key & _ & ->)]; [exact H1|]. apply tso_set_primary; [exact H1|]. intros _. apply pnu_conn.
Qed.

Lemma tso_process_message e peer port from rs tcp m0 x x' :
  fx_udp_via_listener (e_fx e) = true -> tcp_slot_ok (x_p x) ->
  process_message e peer port from rs tcp m0 x = Ok x' -> tcp_slot_ok (x_p x').
Proof.
  intros Hfx H0 H. revert H H0.
  apply (process_message_rel (fun x x' => tcp_slot_ok (x_p x) -> tcp_slot_ok (x_p x'))).
  - intros y K. exact K.
  - intros a b c F G K. exact (G (F K)).
  - intros h p t m y. apply tso_send_message. exact Hfx.
  - intros m y K. apply tso_iff. rewrite send_to_backend_table. exact K.
  - intros y l pins K. exact K.
  - intros y c h p t. apply tso_register_conn.
Qed.

Lemma Forall_set_nth_p (P : pstate -> Prop) l i p : Forall P l -> P p -> Forall P (set_nth_p l i p).
Proof.
  intros H Hp. revert i. induction H as [|a r Ha Hr IH]; intros i; [destruct i; constructor|].
  destruct i; cbn; constructor; auto.
Qed.
Lemma Forall_nth_p (P : pstate -> Prop) l i p : Forall P l -> nth_p l i = Some p -> P p.
Proof.
  intros H. revert i. unfold nth_p. induction H as [|a r Ha Hr IH]; intros i; [destruct i; discriminate|].
  destruct i; cbn; [intros E; injection E as <-; exact Ha|apply IH].
Qed.
(* the slot is written wherever it lies: what holds with [p] in it holds with [p'] *)
Lemma Forall_set_nth_p_impl (P : pstate -> Prop) l : forall i p p',
  (P p -> P p') -> Forall P (set_nth_p l i p) -> Forall P (set_nth_p l i p').
Proof.
  induction l as [|a l IH]; intros [|i] p p' K H; cbn in *; try exact H; inversion H; subst; constructor; eauto.
Qed.

Theorem C02_tcp_slot_step : forall fx c now br st ev st' outs,
  fx_udp_via_listener fx = true -> Forall tcp_slot_ok (st_proxies st) ->
  proxy_step fx c now br st ev = Ok (st', outs) -> Forall tcp_slot_ok (st_proxies st').
Proof.
  intros fx c now br st ev st' outs Hfx.
  apply (proxy_step_inv fx c now br (fun st => Forall tcp_slot_ok (st_proxies st))).
  - intros st0 li lc peer port from rs tcp m x x' _ W EP. cbn [ctx_state st_proxies] in *.
    refine (Forall_set_nth_p_impl _ _ _ _ _ _ W). intros K. exact (tso_process_message (listener_env fx c now br li lc) _ _ _ _ _ _ _ _ Hfx K EP).
  - intros st0 cid W. exact W.
  - intros ev0 st0 st1 outs0 K W H. destruct ev0 as [li src sport data|li src sport|cid data|cid|li a|li a];
      try contradiction; cbn [proxy_step] in H.
    + destruct (nth_opt (c_listens c) li) as [lc|]; [|injection H as <- _; exact W].
      destruct (nth_p (st_proxies st0) li) as [p|] eqn:EN; [|injection H as <- _; exact W].
      match type of H with context [get_transport ?a ?b ?c0 ?d ?e0 ?f] =>
        pose proof (tso_get_transport a b c0 d e0 f (Forall_nth_p _ _ _ _ W EN)) as H1;
        destruct (get_transport a b c0 d e0 f) as [p1 rk] end.
      cbn [fst] in H1. injection H as <- _. cbn [st_proxies]. apply Forall_set_nth_p; [exact W|].
      destruct rk; try exact H1. apply tso_set_primary; [exact H1|]. intros _. apply pnu_conn.
    + destruct (nth_p (st_proxies st0) li) as [p|] eqn:EN; [|injection H as <- _; exact W].
      injection H as <- _. cbn [st_proxies]. apply Forall_set_nth_p; [exact W|].
      exact (Forall_nth_p _ _ _ _ W EN).
    + destruct (nth_p (st_proxies st0) li) as [p|] eqn:EN; [|injection H as <- _; exact W].
      destruct (rr_remove a (ps_rr p)) as [r' closed]. injection H as <- _. cbn [st_proxies].
      apply Forall_set_nth_p; [exact W|]. exact (Forall_nth_p _ _ _ _ W EN).
Qed.

Theorem C02_tcp_slot_reachable : forall fx c st,
  fx_udp_via_listener fx = true -> reachable fx c st -> Forall tcp_slot_ok (st_proxies st).
Proof.
  intros fx c st Hfx R. induction R as [now tl|st now br ev st' outs R IH H].
  - cbn [init_state st_proxies]. apply Forall_forall. intros p HI. apply in_map_iff in HI.
    destruct HI as (lc & <- & _). intros k f [].
  - exact (C02_tcp_slot_step _ _ _ _ _ _ _ _ Hfx IH H).
Qed.

(* end to end: in every reachable state of the repaired tree, a response whose next Via entry
   names TCP never leaves as a datagram: at most one dial and one write on a connection *)
Corollary C02_step_udp_relay_tcp : forall c now br st li src sport data lc p m rest st' outs v2,
  reachable all_fixed c st ->
  nth_opt (c_listens c) li = Some lc -> nth_p (st_proxies st) li = Some p ->
  parse_message data = Ok (m, rest) -> is_response m = true ->
  proxy_step all_fixed c now br st (EvUdp li src sport data) = Ok (st', outs) ->
  top_view (pop_view (via_hdrs m)) = Some v2 -> to_lower (v_transport v2) = s2b "tcp" ->
  exists m', via_hdrs m' = pop_view (via_hdrs m) /\ m_start m' = m_start m /\ m_body m' = m_body m /\
             tcp_shape (write_message m') outs.
Proof.
  intros c now br st li src sport data lc p m rest st' outs v2 R EL EP EM Hr H HT Htr.
  pose proof (C02_step_udp _ _ _ _ _ _ _ _ _ _ _ _ _ _ _ EL EP EM Hr H) as G. rewrite HT in G.
  destruct G as (m4 & pins' & -> & G2 & G3 & G4). exists (sent_msg m4).
  destruct (veq_sent_msg m4) as (V1 & V2 & V3). repeat split; try congruence.
  pose proof (Forall_nth_p _ _ _ _ (C02_tcp_slot_reachable all_fixed c st eq_refl R) EP) as HS.
  match goal with |- tcp_shape _ (x_outs (fst (send_message ?e ?h ?pt ?tr ?mm ?X))) =>
    destruct (C02_dest_tcp e h pt tr mm X eq_refl Htr HS) as (os & H1 & H2) end.
  rewrite H1. exact H2.
Qed.

(* TCP chunk carrying responses: per message, in order *)
Theorem C02_step_tcp : forall fx c now br st cid data cn lc st' outs,
  find (fun x => Nat.eqb (cn_id x) cid) (st_conns st) = Some cn ->
  nth_opt (c_listens c) (cn_li cn) = Some lc ->
  proxy_step fx c now br st (EvTcpData cid data) = Ok (st', outs) ->
  exists oss, outs = List.concat oss /\
    Forall2 (fun m os => is_response m = true ->
               match top_view (pop_view (via_hdrs m)) with
               | Some v2 => exists m', via_hdrs m' = pop_view (via_hdrs m) /\ Forall (out_is m') os
               | None => os = []
               end)
            (firstn (List.length oss) (parse_stream (S (List.length data)) data)) oss.
Proof.
  intros fx c now br st cid data cn lc st' outs EF EL H.
  apply proxy_step_tcp_inv in H.
  destruct H as [(_ & ->)|(cn' & lc' & p & x' & EF' & _ & _ & _ & _ & E & _ & ->)]; [exists []; split; [reflexivity|constructor]|].
  rewrite EF in EF'. injection EF' as <-.
  refine (tcp_messages_outs _ _ _ _ _ _ _ _ E).
  intros m x x1 EP. destruct (is_response m) eqn:Hr.
  - pose proof (C02_process_response _ _ _ _ _ _ _ _ _ Hr EP) as G.
    destruct (top_view (pop_view (via_hdrs m))) as [v2|].
    + destruct G as (m4 & pins' & -> & _ & _ & G4).
      match goal with |- context [send_message ?e ?h ?pt ?tr ?mm ?X] =>
        destruct (send_message_out_is e h pt tr mm X) as (os & H1 & H2) end.
      exists os. split; [exact H1|]. intros _. exists (sent_msg m4). split; [|exact H2].
      destruct (veq_sent_msg m4) as (_ & _ & ->). exact G4.
    + destruct G as (G & _). exists []. split; [rewrite app_nil_r; exact G|]. intros _. reflexivity.
  - destruct (process_message_appends _ _ _ _ _ _ _ _ _ EP) as (os & Ho). exists os. split; [exact Ho|]. discriminate.
Qed.

Module C02_examples.
Import C07_examples.
Open Scope string_scope.
Open Scope list_scope.
Open Scope Z_scope.
Definition ex_resp (vias : list string) : bytes :=
  text (["SIP/2.0 200 OK"] ++ vias ++ ["CSeq: 1 INVITE"; "Content-Length: 0"]).
Definition cfgh : cfg :=
  {| c_name := s2b "proxy.example"; c_keep_next_hop := false; c_dialog_timeout := 60; c_routes := [];
     c_hosts := [(s2b "ua.example", s2b "10.1.1.1")]; c_listens := [ex_lc false] |}.
Definition bk := s2b "10.0.0.2".
Definition own := "Via: SIP/2.0/UDP 127.0.0.1:5060;branch=z9hG4bKpx".

(* comma list: received + numeric rport win over the sent-by; the remaining entries stay *)
Example comma_list :
  run all_fixed cfgh (init_state cfgh 0 [])
    [EvUdp 0 bk 5070 (ex_resp ["Via: SIP/2.0/UDP 127.0.0.1:5060;branch=z9hG4bKpx, SIP/2.0/UDP 10.9.9.9:5070;rport=40000;branch=z9hG4bKabc;received=127.0.0.9, SIP/2.0/TCP 10.8.8.8;branch=z9hG4bKdef"])] =
  [[(DUdp (s2b "127.0.0.9") 40000,
     ex_resp ["Via: SIP/2.0/UDP 10.9.9.9:5070;rport=40000;branch=z9hG4bKabc;received=127.0.0.9,SIP/2.0/TCP 10.8.8.8;branch=z9hG4bKdef"])]].
Proof. vm_compute. reflexivity. Qed.

(* repeated lines, compact / odd-case names; valueless rport: the sent-by port *)
Example repeated_lines :
  run all_fixed cfgh (init_state cfgh 0 [])
    [EvUdp 0 bk 5070 (ex_resp ["v: SIP/2.0/UDP 127.0.0.1:5060;branch=z9hG4bKpx";
                               "VIA: SIP/2.0/UDP 10.9.9.9:5070;rport;branch=z9hG4bKabc;received=127.0.0.9";
                               "Via: SIP/2.0/TCP 10.8.8.8;branch=z9hG4bKdef"])] =
  [[(DUdp (s2b "127.0.0.9") 5070,
     ex_resp ["VIA: SIP/2.0/UDP 10.9.9.9:5070;rport;branch=z9hG4bKabc;received=127.0.0.9";
              "Via: SIP/2.0/TCP 10.8.8.8;branch=z9hG4bKdef"])]].
Proof. vm_compute. reflexivity. Qed.

(* no received: sent-by host through the host table, default port *)
Example host_table_default_port :
  run all_fixed cfgh (init_state cfgh 0 [])
    [EvUdp 0 bk 5070 (ex_resp [own; "Via: SIP/2.0/UDP ua.example;branch=z9hG4bKabc"])] =
  [[(DUdp (s2b "10.1.1.1") 5060, ex_resp ["Via: SIP/2.0/UDP ua.example;branch=z9hG4bKabc"])]].
Proof. vm_compute. reflexivity. Qed.

(* single Via / undecodable first / undecodable next / unsupported transport: nothing *)
Example drops :
  run all_fixed cfgh (init_state cfgh 0 [])
    [EvUdp 0 bk 5070 (ex_resp [own]);
     EvUdp 0 bk 5070 (ex_resp ["Via: garbage"; "Via: SIP/2.0/UDP 10.9.9.9:5070"]);
     EvUdp 0 bk 5070 (ex_resp [own; "Via: SIP/2.0"]);
     EvUdp 0 bk 5070 (ex_resp [own; "Via: SIP/2.0/TLS 10.9.9.9:5061;branch=z9hG4bKabc"])] =
  [[]; []; []; []].
Proof. vm_compute. reflexivity. Qed.

(* TCP next hop (lower-case transport): one dial, one write on that connection, no datagram *)
Example tcp_hop :
  run all_fixed cfgh (init_state cfgh 0 [(s2b "10.9.9.9", 5070)])
    [EvUdp 0 bk 5070 (ex_resp [own; "Via: SIP/2.0/tcp 10.9.9.9:5070;branch=z9hG4bKabc"])] =
  [[(DDial (s2b "10.9.9.9") 5070 0, []);
    (DConn 0, ex_resp ["Via: SIP/2.0/tcp 10.9.9.9:5070;branch=z9hG4bKabc"])]].
Proof. vm_compute. reflexivity. Qed.

(* before the repair of findClientTransport: 10.9.9.9 was learned through the UDP listener
   (first event), so the response for a TCP Via entry leaves as a DATAGRAM *)
Definition legacy_udp : fixes :=
  {| fx_wiring := true; fx_udp_via_listener := false; fx_indialog_invite := true; fx_bracket_host := true; fx_resolved_key := true; fx_stale_pin := true |}.
Definition evs_legacy : list event :=
  [EvUdp 0 (s2b "10.9.9.9") 5070 (ex_req ["Via: SIP/2.0/TCP 10.9.9.9:5070;branch=z9hG4bKabc"] "Route: <sip:10.0.0.2:5070;lr>");
   EvUdp 0 bk 5070 (ex_resp [own; "Via: SIP/2.0/TCP 10.9.9.9:5070;branch=z9hG4bKabc;received=10.9.9.9"])].
Example C02_legacy_refuted :
  nth 1 (run legacy_udp cfgh (init_state cfgh 0 [(s2b "10.9.9.9", 5070)]) evs_legacy) [] =
    [(DUdp (s2b "10.9.9.9") 5070, ex_resp ["Via: SIP/2.0/TCP 10.9.9.9:5070;branch=z9hG4bKabc;received=10.9.9.9"])] /\
  nth 1 (run all_fixed cfgh (init_state cfgh 0 [(s2b "10.9.9.9", 5070)]) evs_legacy) [] =
    [(DDial (s2b "10.9.9.9") 5070 0, []);
     (DConn 0, ex_resp ["Via: SIP/2.0/TCP 10.9.9.9:5070;branch=z9hG4bKabc;received=10.9.9.9"])].
Proof. split; vm_compute; reflexivity. Qed.

(* round trip: the request of C07_examples.own_via_on_top, then the response of the next hop *)
Example roundtrip :
  run all_fixed cfgh (init_state cfgh 0 [])
    [EvUdp 0 bk 5070 (ex_req ["Via: SIP/2.0/UDP 10.0.0.2:5070;branch=z9hG4bKq"] "Route: <sip:10.0.0.4;lr>");
     EvUdp 0 src 40000 (ex_req ["Via: SIP/2.0/UDP 10.9.9.9:5070;rport;branch=z9hG4bKabc"] rt);
     EvUdp 0 bk 5070 (ex_resp [own; "Via: SIP/2.0/UDP 10.9.9.9:5070;rport=40000;branch=z9hG4bKabc;received=127.0.0.9"])] =
  [[(DUdp (s2b "10.0.0.4") 5060, ex_out ["Via: SIP/2.0/UDP 10.0.0.2:5070;branch=z9hG4bKq;received=10.0.0.2"])];
   [(DUdp bk 5070, ex_out [own; "Via: SIP/2.0/UDP 10.9.9.9:5070;rport=40000;branch=z9hG4bKabc;received=127.0.0.9"])];
   [(DUdp src 40000, ex_resp ["Via: SIP/2.0/UDP 10.9.9.9:5070;rport=40000;branch=z9hG4bKabc;received=127.0.0.9"])]].
Proof. vm_compute. reflexivity. Qed.

(* FINDING (why C02_dest_udp / C02_independent_of_pins carry a condition on the table slot):
   FailOverClientTransport.Send forgets its primary after ANY send error and nothing restores
   it.  Here a provisional response of 65.6 kB arrives over TCP and is addressed to a UDP Via:
   the datagram is too big, the send fails, and from then on every NON-final response for that
   UDP destination is dropped - the same small response is relayed by a fresh proxy. *)
Definition ringing (vias : list string) (body : bytes) : bytes :=
  flat_map ln (["SIP/2.0 180 Ringing"] ++ vias ++ ["CSeq: 1 INVITE"]) ++
  s2b "Content-Length: " ++ itoa (Z.of_nat (List.length body)) ++ crlf ++ crlf ++ body.
Definition vs := [own; "Via: SIP/2.0/UDP 10.9.9.9:5070;branch=z9hG4bKabc"].
Example udp_primary_forgotten_witness :
  run all_fixed cfgh (init_state cfgh 0 [])
      [EvTcpAccept 0 bk 5070; EvTcpData 0 (ringing vs (repeat "x"%char (656 * 100))); EvUdp 0 bk 5070 (ringing vs [])] =
    [[]; []; []] /\
  map (map fst) (run all_fixed cfgh (init_state cfgh 0 []) [EvUdp 0 bk 5070 (ringing vs [])]) =
    [[DUdp (s2b "10.9.9.9") 5070]].
Proof. split; vm_compute; reflexivity. Qed.

(* the two layouts of the same three entries satisfy the hypotheses of C02_response_hop *)
Definition e1 := "SIP/2.0/UDP 127.0.0.1:5060;branch=z9hG4bKpx".
Definition e2 := "SIP/2.0/UDP 10.9.9.9:5070;rport=40000;received=127.0.0.9".
Definition e3 := "SIP/2.0/TCP 10.8.8.8".
Example layouts_ex :
  exists mc ml rc rl v1 v2 v3,
    parse_message (ex_resp [("Via: " ++ e1 ++ "," ++ e2 ++ "," ++ e3)%string]) = Ok (mc, rc) /\
    parse_message (ex_resp [("v: " ++ e1)%string; ("VIA: " ++ e2)%string; ("Via: " ++ e3)%string]) = Ok (ml, rl) /\
    is_response mc = true /\ is_response ml = true /\
    via_hdrs mc = [Some [v1; v2; v3]] /\ via_hdrs ml = [Some [v1]; Some [v2]; Some [v3]] /\
    snd (decode_all_vias (m_headers mc)) = [v1; v2; v3] /\ snd (decode_all_vias (m_headers ml)) = [v1; v2; v3] /\
    hop_host v2 = s2b "127.0.0.9" /\ hop_port v2 = 40000 /\ v_transport v2 = s2b "UDP".
Proof.
  do 7 eexists. split; [vm_compute; reflexivity|]. split; [vm_compute; reflexivity|].
  repeat (split; [vm_compute; reflexivity|]). vm_compute. reflexivity.
Qed.

(* the state conditions of C02_dest_udp / C02_dest_tcp / C02_independent_of_pins hold initially *)
Example slots_ex : udp_slot_ok (s2b "127.0.0.9") 40000 (init_pstate cfgh 0 (ex_lc false)) /\
                   tcp_slot_ok (init_pstate cfgh 0 (ex_lc false)) /\ udp_known (init_pstate cfgh 0 (ex_lc false)).
Proof. split; [exact I|]. split; intros k f []. Qed.
End C02_examples.

(* TCPClientTransport.Send runs two rounds, and the round that dials also writes.  A reconnectable client whose
   cached connection has been closed by the peer therefore spends round 1 on the failed write (the cache is
   cleared) and in round 2 dials the peer and writes the message on the fresh connection: the message is NOT
   lost. *)
Lemma find_set_cached_eq id v l cl : find_client id l = Some cl ->
  find_client id (set_client_cached id v l) =
  Some {| tc_id := id; tc_host := tc_host cl; tc_port := tc_port cl; tc_cached := v |}.
Proof.
  unfold find_client. induction l as [|x r IH]; cbn; [discriminate|].
  destruct (Nat.eqb (tc_id x) id) eqn:E; cbn.
  - rewrite Nat.eqb_refl. intros H. injection H as <-. reflexivity.
  - rewrite E. exact IH.
Qed.
Lemma set_client_cached_twice id v1 v2 l :
  set_client_cached id v2 (set_client_cached id v1 l) = set_client_cached id v2 l.
Proof.
  induction l as [|x r IH]; cbn; [reflexivity|].
  destruct (Nat.eqb (tc_id x) id) eqn:E; cbn.
  - rewrite Nat.eqb_refl. reflexivity.
  - rewrite E, IH. reflexivity.
Qed.

Theorem C02_stale_redial : forall li local rs id b p cs w outs cl c,
  find_client id (ps_clients p) = Some cl ->
  tc_cached cl = Some c ->
  conn_open cs c = false ->
  existsb (fun '(h, pt) => beq h (tc_host cl) && Z.eqb pt (tc_port cl)) (w_tcp_listeners w) = true ->
  let c' := w_next_conn w in
  let p' := with_clients p (set_client_cached id (Some c') (ps_clients p)) in
  let cs' := cs ++ [{| cn_id := c'; cn_li := li; cn_open := true; cn_peer := tc_host cl; cn_peer_port := tc_port cl;
                       cn_from := {| t_kind := KTcpConn; t_addr := local; t_port := 0 |};
                       cn_received_support := rs |}] in
  tcp_client_send 2 li local rs id b p cs w outs =
    (p', cs', {| w_tcp_listeners := w_tcp_listeners w; w_next_conn := S c' |},
     outs ++ [(DDial (tc_host cl) (tc_port cl) c', []); (DConn c', b)], true) /\
  find_client id (ps_clients p') =
    Some {| tc_id := id; tc_host := tc_host cl; tc_port := tc_port cl; tc_cached := Some c' |} /\
  conn_open cs' c' = true.
Proof.
  intros li local rs id b p cs w outs cl c F C O L c' p' cs'. split; [|split].
  - subst p' cs' c'. cbn [tcp_client_send]. rewrite F, C, O.
    cbn [ps_clients with_clients].
    rewrite (find_set_cached_eq id None _ cl F). cbn [tc_cached tc_host tc_port].
    match goal with |- (if ?e then _ else _) = _ => replace e with true by (symmetry; exact L) end.
    rewrite set_client_cached_twice. reflexivity.
  - subst p'. cbn [ps_clients with_clients]. apply find_set_cached_eq. exact F.
  - subst cs'. unfold conn_open. rewrite existsb_app. cbn [existsb cn_id cn_open].
    rewrite Nat.eqb_refl. cbn [andb orb]. apply orb_true_r.
Qed.

(* non-vacuity: a client whose cached connection 3 is gone (no connection record at all), peer listening *)
Example C02_stale_redial_ex : forall p0 : pstate,
  let cl := {| tc_id := 0; tc_host := s2b "10.0.0.2"%string; tc_port := 5070; tc_cached := Some 3%nat |} in
  let p := with_clients p0 [cl] in
  let w := {| w_tcp_listeners := [(s2b "10.0.0.2"%string, 5070)]; w_next_conn := 4 |} in
  find_client 0 (ps_clients p) = Some cl /\ tc_cached cl = Some 3%nat /\ conn_open [] 3 = false /\
  existsb (fun '(h, pt) => beq h (tc_host cl) && Z.eqb pt (tc_port cl)) (w_tcp_listeners w) = true /\
  snd (fst (tcp_client_send 2 0 (s2b "127.0.0.1"%string) true 0 (s2b "x"%string) p [] w [])) =
    [(DDial (s2b "10.0.0.2"%string) 5070 4%nat, []); (DConn 4%nat, s2b "x"%string)].
Proof. intros p0. repeat split. Qed.

Print Assumptions C02_response_general.
Print Assumptions C02_response_hop.
Print Assumptions C02_response_hop_outs.
Print Assumptions C02_single_via_dropped.
Print Assumptions C02_undecodable_dropped.
Print Assumptions C02_dest_unsupported.
Print Assumptions C02_dest_udp.
Print Assumptions C02_dest_tcp.
Print Assumptions C02_dest_tcp_no_udp.
Print Assumptions C02_independent_of_pins.
Print Assumptions C02_roundtrip_return.
Print Assumptions C02_roundtrip.
Print Assumptions C02_process_response.
Print Assumptions C02_step_udp.
Print Assumptions C02_step_udp_relay_udp.
Print Assumptions C02_tcp_slot_step.
Print Assumptions C02_tcp_slot_reachable.
Print Assumptions C02_step_udp_relay_tcp.
Print Assumptions C02_step_tcp.
Print Assumptions C02_examples.C02_legacy_refuted.
Print Assumptions C02_stale_redial.
