(* NoPanic.v — the decoders of the Route header (name-addr, SIP URI, generic parameters) never
   panic: every bounds-checked operation in them is guarded.  They stand apart from the no-panic
   theorem of the whole pipeline (C08.v) because the hop choice (C03.v, built before it) needs them:
   a Route that does not decode must be an error, so that the static route is tried next. *)
From Coq Require Import List Ascii String ZArith Bool Arith.
From Model Require Import Bytes Uri Hdr.
Import ListNotations.

Lemma rbind_no_panic {A B} (x : res A) (f : A -> res B) :
  x <> Panic -> (forall a, f a <> Panic) -> rbind x f <> Panic.
Proof. intros Hx Hf. destruct x as [a| |]; cbn [rbind]; [apply Hf|discriminate|exfalso; exact (Hx eq_refl)]. Qed.

Lemma parse_sip_uri_no_panic pp s : parse_sip_uri_with pp s <> Panic.
Proof.
  unfold parse_sip_uri_with.
  repeat match goal with
         | |- context [if ?c then _ else _] => destruct c
         | |- context [match index_byte ?c ?s with _ => _ end] => destruct (index_byte c s)
         | |- context [let '(_, _) := ?X in _] => destruct X
         end; discriminate.
Qed.
Lemma parse_addr_spec_no_panic pp s : parse_addr_spec_with pp s <> Panic.
Proof.
  unfold parse_addr_spec_with. destruct (_ || _)%bool; [|discriminate].
  pose proof (parse_sip_uri_no_panic pp s) as H. destruct (parse_sip_uri_with pp s); cbn; try discriminate. contradiction.
Qed.
Lemma parse_name_addr_no_panic s : parse_name_addr s <> Panic.
Proof.
  unfold parse_name_addr. destruct (index_byte "<"%char s) as [p1|]; [|discriminate].
  destruct (index_byte ">"%char s) as [p2|]; [|discriminate]. destruct (Nat.ltb p2 p1); [discriminate|].
  apply rbind_no_panic; [apply parse_addr_spec_no_panic|discriminate].
Qed.
Lemma parse_generic_params_no_panic l : parse_generic_params l <> Panic.
Proof.
  induction l as [|s r IH]; cbn [parse_generic_params]; [discriminate|].
  apply rbind_no_panic; [destruct s; discriminate|]. intros p. apply rbind_no_panic; [exact IH|discriminate].
Qed.
Lemma parse_route_param_no_panic s : parse_route_param s <> Panic.
Proof.
  unfold parse_route_param. destruct (index_byte ">"%char s) as [pos|]; [|discriminate].
  apply rbind_no_panic; [apply parse_name_addr_no_panic|]. intros na.
  destruct (trim_space_go (skipn (S pos) s)) as [|c rest]; [discriminate|].
  destruct (Ascii.eqb c ";"%char); [|discriminate].
  apply rbind_no_panic; [apply parse_generic_params_no_panic|discriminate].
Qed.
Lemma parse_all_no_panic {A} (f : bytes -> res A) l : (forall s, f s <> Panic) -> parse_all f l <> Panic.
Proof.
  intros Hf. induction l as [|s r IH]; cbn [parse_all]; [discriminate|].
  apply rbind_no_panic; [apply Hf|]. intros a. apply rbind_no_panic; [exact IH|discriminate].
Qed.
