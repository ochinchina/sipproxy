(* C09 -- no two goroutines of the proxy touch shared state without synchronisation.

   Three layers:
   (1) Lockset.lockset_sound (all traces, all schedules): disciplined -> race_free.
   (2) The theorems below, by computation over the table gen/Accesses.v that tools/locktab
       regenerates from /repo on every run: every recorded access site obeys the policy of
       Policy.v, every field written outside a constructor is classified, the
       acquires-while-holding graph is acyclic.  These are proofs ABOUT THE TABLE; that the
       table says what the Go text says is the translator's job (trusted base).
   (3) The bridge (Section Bridge): a trace whose memory accesses are instances of recorded
       sites is `disciplined`, under instantiation assumptions that are stated one by one as
       hypotheses I0..I6 (I3 in two parts, I3own and I3by) -- they are what "the table describes the program" means. *)
From Coq Require Import List String Bool Arith NArith.
From Model Require Import Lockset Policy.
From Model.gen Require Import Accesses.
Import ListNotations.
Local Open Scope string_scope.

Theorem C09_discipline : forallb site_ok accesses = true.
Proof. vm_compute. reflexivity. Qed.

Theorem C09_policy_complete : forallb classified written_fields = true.
Proof. vm_compute. reflexivity. Qed.

Theorem C09_policy_wellformed : policy_fields_exist = true.
Proof. vm_compute. reflexivity. Qed.

Theorem C09_lock_order_acyclic : lock_order_acyclic = true.
Proof. vm_compute. reflexivity. Qed.

(* The cached tables are what their definitions compute, and are closed (sound): one evaluation
   per table.  RR_closed, MH_sound and ACQ_closed are cached as the constant `true`.
   How the evaluation is asked for matters to the checker, which has no virtual machine: after
   `vm_compute` the proof is eq_refl of the table written out, so its lazy conversion meets
   constructors on one side and runs the definition at full speed; against `eq_refl RR` both
   sides are headed by constants and it goes through the propagation one unfolding at a time
   (some twenty times dearer). *)
Lemma RR_computed : RR = prop_iter 64 calls root_init.
Proof. vm_compute. reflexivity. Qed.

Lemma MH_computed : MH = mh_step (mh_step (mh_step (mh_step []))).
Proof. vm_compute. reflexivity. Qed.

Lemma ACQ_computed : ACQ = prop_iter 64 (map swap kept_calls) acq_init.
Proof. vm_compute. reflexivity. Qed.

Lemma ORDER_computed : ORDER = dedup_edges order_edges.
Proof. vm_compute. reflexivity. Qed.

Theorem C09_tables :
  RR = prop_iter 64 calls root_init /\ RR_closed = true /\
  MH = mh_step (mh_step (mh_step (mh_step []))) /\ MH_sound = true /\
  ACQ = prop_iter 64 (map swap kept_calls) acq_init /\ ACQ_closed = true /\
  ORDER = dedup_edges order_edges.
Proof.
  split; [exact RR_computed|].
  split; [reflexivity|].
  split; [exact MH_computed|].
  split; [reflexivity|].
  split; [exact ACQ_computed|].
  split; [reflexivity|].
  exact ORDER_computed.
Qed.

(* Non-vacuity: the checker is not constantly true.  The same site without the lock, a write
   to an unclassified field, a second root on confined state, a plain access to an atomic
   flag are all rejected; the table is not empty. *)
Example site_ok_rejects_unlocked :
  site_ok (mkAccess "SelfLearnRoute" "route" "SelfLearnRoute.GetRoute" "self_learn_route.go" 41%N false false false false true "sl" []) = false.
Proof. vm_compute. reflexivity. Qed.
Example site_ok_accepts_locked :
  site_ok (mkAccess "SelfLearnRoute" "route" "SelfLearnRoute.GetRoute" "self_learn_route.go" 41%N false false false false true "sl"
                    [mkHeld "SelfLearnRoute" "sl"]) = true.
Proof. vm_compute. reflexivity. Qed.
Example site_ok_rejects_other_objects_lock :
  site_ok (mkAccess "SelfLearnRoute" "route" "SelfLearnRoute.GetRoute" "self_learn_route.go" 41%N false false false false true "other"
                    [mkHeld "SelfLearnRoute" "sl"]) = false.
Proof. vm_compute. reflexivity. Qed.
Example site_ok_rejects_unclassified_write :
  site_ok (mkAccess "Proxy" "localAddress" "Proxy.HandleMessage" "proxy.go" 1%N true false false false true "p" []) = false.
Proof. vm_compute. reflexivity. Qed.
Example site_ok_rejects_second_root :
  site_ok (mkAccess "Proxy" "backends" "DynamicHostResolver.notifyAddressChanged" "resolver.go" 1%N false false false false true "p" []) = false.
Proof. vm_compute. reflexivity. Qed.
Example site_ok_rejects_plain_flag :
  site_ok (mkAccess "TCPServerTransport" "exit" "TCPServerTransport.IsExit" "transport.go" 1%N false false false false true "u" []) = false.
Proof. vm_compute. reflexivity. Qed.
Example table_not_empty :
  (Nat.leb 500 (List.length accesses) && Nat.leb 10 (List.length written_fields) && Nat.leb 5 (List.length roots)) = true.
Proof. vm_compute. reflexivity. Qed.

Section Bridge.
  Variable tr : trace.
  (* the recorded site that event i is an instance of, and the object whose field it touches:
     locations are (object, struct, field) *)
  Variable site : nat -> access.
  Variable obj : nat -> nat.
  Variable loc_of : nat -> string -> string -> loc.
  (* mutex named m ("RoundRobinBackend", ...) of object o; the unique object guarding o for LockedBy *)
  Variable mtx : nat -> string -> mutex.
  Variable guard : nat -> nat.
  (* the goroutine root a thread is an instance of; the message-loop thread of the Proxy that
     object o belongs to (the loop is started ONCE per Proxy, in NewProxy; ProxyItem,
     ClientTransportMgr, DialogBasedBackend, ... objects belong to exactly one Proxy) *)
  Variable root_of : tid -> string.
  Variable owner : nat -> tid.
  Variable pol : loc -> discipline.

  (* I0: a location that is never accessed carries any discipline it trivially obeys *)
  Hypothesis I0 : forall l, (exists i t w, access_at tr i = Some (t, l, w)) \/ obeys tr l (pol l).
  (* I1: every Rd/Wr event is an instance of a recorded site, of that site's kind; accesses at
     constructor sites (the object is not yet reachable by another goroutine) and operands of
     sync/atomic calls are not memory-access events of the trace *)
  Hypothesis I1 : forall i t l w, access_at tr i = Some (t, l, w) ->
    In (site i) accesses /\ a_ctor (site i) = false /\ a_atomic (site i) = false /\
    l = loc_of (obj i) (a_struct (site i)) (a_field (site i)) /\ w = a_write (site i).
  (* I2: the trace-level policy is the field policy, object by object.  InitOnly / unclassified
     (never written after construction) and HandedOff locations: the trace-level discipline is
     ASSUMED to hold (start-up and publication order, ownership of message objects); the table
     only checks who may touch them *)
  Hypothesis I2 : forall i t l w, access_at tr i = Some (t, l, w) ->
    match policy_of (a_struct (site i)) (a_field (site i)) with
    | Some (LockedOwn m) => pol l = Locked (mtx (obj i) m)
    | Some (LockedBy m) => pol l = Locked (mtx (guard (obj i)) m)
    | Some (ConfinedTo _) => pol l = Owned (owner (obj i))
    | Some Policy.Atomic => False
    | Some Policy.InitOnly | Some (HandedOff _) | None => obeys tr l (pol l)
    end.
  (* I3: lexical lock regions are Acq/Rel pairs of the receiver's mutex, and a lock held at
     every call site of the enclosing function is held inside it *)
  Hypothesis I3own : forall i t l w m, access_at tr i = Some (t, l, w) ->
    existsb (fun h => (h_mutex h =? m) && (h_owner h =? a_base (site i))) (held_at (site i)) = true ->
    holds tr i t (mtx (obj i) m).
  Hypothesis I3by : forall i t l w m, access_at tr i = Some (t, l, w) ->
    existsb (fun h => h_mutex h =? m) (held_at (site i)) = true ->
    holds tr i t (mtx (guard (obj i)) m).
  (* I4: the thread executing a site is an instance of a root that reaches the site's function *)
  Hypothesis I4 : forall i t l w, access_at tr i = Some (t, l, w) ->
    In (root_of t) (roots_reaching (a_func (site i))).
  (* I5 (start-up): what root "main" does to per-listener state happens before the listeners
     exist and is not part of the concurrent phase described by tr *)
  Hypothesis I5 : forall i t l w r, access_at tr i = Some (t, l, w) ->
    policy_of (a_struct (site i)) (a_field (site i)) = Some (ConfinedTo r) -> root_of t <> "main".
  (* I6: one thread per (Proxy, message-loop root) *)
  Hypothesis I6 : forall i t l w r, access_at tr i = Some (t, l, w) ->
    policy_of (a_struct (site i)) (a_field (site i)) = Some (ConfinedTo r) -> root_of t = r -> t = owner (obj i).

  Lemma site_checked : forall i t l w, access_at tr i = Some (t, l, w) ->
    match policy_of (a_struct (site i)) (a_field (site i)) with
    | Some d => disc_ok d (site i) = true
    | None => True
    end.
  Proof.
    intros i t l w Hacc. destruct (I1 _ _ _ _ Hacc) as (Hin & Hctor & _).
    pose proof (proj1 (forallb_forall site_ok accesses) C09_discipline _ Hin) as Hok.
    unfold site_ok in Hok. rewrite Hctor, orb_false_l in Hok.
    apply andb_true_iff in Hok. destruct Hok as [_ Hok].
    destruct (policy_of (a_struct (site i)) (a_field (site i))); [exact Hok|exact I].
  Qed.

  Definition event_obeys (i : nat) (t : tid) (l : loc) (d : discipline) : Prop :=
    match d with Locked m => holds tr i t m | Owned t0 => t = t0 | _ => obeys tr l d end.

  Lemma obeys_event : forall i t l w d,
    access_at tr i = Some (t, l, w) -> obeys tr l d -> event_obeys i t l d.
  Proof.
    intros i t l w d Hacc H. destruct d; [exact (H _ _ _ Hacc)|exact (H _ _ _ Hacc)|exact H|exact H].
  Qed.

  (* by the policy of the field: the lock is held (I3), the thread is the loop (I4-I6), or the
     discipline is assumed (I2) *)
  Lemma event_ok : forall i t l w, access_at tr i = Some (t, l, w) -> event_obeys i t l (pol l).
  Proof.
    intros i t l w Hacc.
    pose proof (I2 _ _ _ _ Hacc) as H2. pose proof (site_checked _ _ _ _ Hacc) as Hc.
    destruct (policy_of (a_struct (site i)) (a_field (site i))) as [[m'|m'|r| |cs|]|] eqn:Ep.
    - rewrite H2. exact (I3own _ _ _ _ _ Hacc Hc).
    - rewrite H2. exact (I3by _ _ _ _ _ Hacc Hc).
    - rewrite H2. unfold disc_ok in Hc.
      pose proof (proj1 (forallb_forall _ _) Hc _ (I4 _ _ _ _ Hacc)) as Hr. cbv beta in Hr.
      apply orb_true_iff in Hr. destruct Hr as [Hr|Hr]; apply String.eqb_eq in Hr.
      + exact (I6 _ _ _ _ _ Hacc Ep Hr).
      + exfalso. exact (I5 _ _ _ _ _ Hacc Ep Hr).
    - exact (obeys_event _ _ _ _ _ Hacc H2).
    - exact (obeys_event _ _ _ _ _ Hacc H2).
    - contradiction.
    - exact (obeys_event _ _ _ _ _ Hacc H2).
  Qed.

  Theorem bridge_disciplined : disciplined pol tr.
  Proof.
    intros l. destruct (I0 l) as [(i0 & t0 & w0 & Hacc0)|H]; [|exact H].
    pose proof (event_ok _ _ _ _ Hacc0) as H0.
    destruct (pol l) as [m|t1|tc|s r] eqn:Hpol; [| |exact H0|exact H0]; intros i t w Hacc;
      pose proof (event_ok _ _ _ _ Hacc) as H; rewrite Hpol in H; exact H.
  Qed.

  Theorem bridge_race_free : wf_trace tr -> race_free tr.
  Proof. intros Hwf. exact (lockset_sound pol tr Hwf bridge_disciplined). Qed.
End Bridge.

(* the statements of Properties.v *)
Definition C09_lockset_sound := lockset_sound.
Definition C09_bridge := bridge_race_free.
