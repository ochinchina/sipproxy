(* proofs/C07_bridge_tcp.v — the judge of C07 on a request read on an ACCEPTED TCP connection: the instances of
   C07_bridge.C07_judge_bridge_in at the input [j_input] yields for such a connection, at the process_message and at
   the proxy_step level (a chunk holding one message).  Compared with a datagram, the judge takes the listen entry and the
   peer it stamps with from its own record of the connection, which must agree with the model's record [cn]
   (the premises on [js_conns], [dial_mark], [cn_li]); the connection is read by the listener's KTcpListen transport
   ([cn_from], so that the own Via of that transport is readable); and the received-support flag is the one stored
   in the record when the connection was accepted, [received_on lc] under the repaired wiring (C07_tcp_accept_records),
   so that [fx_wiring fx = true] is not a premise.  The judge's [single_message] test is not a premise: when it
   fails the judge answers 0 without looking.  Then an example with a sensitivity check. *)
From Coq Require Import List Ascii String ZArith NArith Bool Lia.
From Model Require Import Bytes BytesLemmas Uri Hdr Message Msg Rx Glob StaticRoute RoundRobin Pins Wire
     Proxy RunProxy SpecProxy SpecC14.
From Model.proofs Require Import MsgLemmas Pipeline C14_via C01 C07 C07_bridge.
Import ListNotations.
Open Scope Z_scope.
Open Scope list_scope.

(* The judge accepts what process_message appends for the message read from connection cid (any sub-selection
   [keep] of it), labelled as the correspondence run labels it. *)
Theorem C07_judge_bridge_tcp_msg :
  forall (pc : proxy_case) (stj : jstate) (fx : fixes) (now : Z) (br : bytes) (cid li : nat) (lc : listen_cfg)
         (cn : conn) (data : bytes) (jin : jmsg) (m : message) (rest : bytes)
         (x x' : ctx) (pre : list output) (keep : output -> bool) (closed : list nat),
  let c := pc_cfg pc in
  let e := mk_env fx c (item_rs_of (fx_wiring fx)) li lc now br in
  nth_opt (c_listens c) li = Some lc ->
  find (fun y => Nat.eqb (fst y) cid) (js_conns stj) = Some (cid, (li, cn_peer cn, cn_peer_port cn)) ->
  (li < dial_mark)%nat ->
  cn_from cn = {| t_kind := KTcpListen; t_addr := lc_addr lc; t_port := lc_tcp lc |} ->
  cn_received_support cn = received_on lc ->
  j_read data = Some jin -> parse_message data = Ok (m, rest) ->
  via_domain m ->
  src_ok (cn_peer cn) -> branch_ok br ->
  safe1 (lc_addr lc) = true -> 0 <= lc_udp lc <= 65535 -> 0 <= lc_tcp lc <= 65535 ->
  (forall h t, alookup h (x_learned x) = Some t -> safe1 (t_addr t) = true /\ 0 <= t_port t <= 65535) ->
  process_message e (cn_peer cn) (cn_peer_port cn) (cn_from cn) (cn_received_support cn) (Some (cn_id cn)) m x
    = Ok x' ->
  x_outs x' = x_outs x ++ pre ->
  judge_C07_event pc stj (EvTcpData cid data) (map lab (filter keep pre)) closed = O.
Proof.
  intros pc stj fx now br cid li lc cn data jin m rest x x' pre keep closed c e
         EL HC HM HFr HRS HJ HP HV Hsrc Hbr Ha Hu Ht HLn EP EO.
  rewrite judge_C07_event_in, (j_input_accepted stj cid li _ _ data HC HM).
  rewrite HRS, HFr in EP.
  exact (C07_judge_bridge_in pc {| ji_li := li; ji_tcp := true; ji_conn := cid; ji_src := cn_peer cn;
                                   ji_sport := cn_peer_port cn; ji_data := data |} lc e _ (Some (cn_id cn))
           jin m rest x x' pre keep EL HJ HP HV Hsrc
           (t_ok_intro br {| t_kind := KTcpListen; t_addr := lc_addr lc; t_port := lc_tcp lc |} Ha Ht Hbr)
           (learned_ok_intro br _ Hbr HLn) (first_transport_t_ok br lc Hbr Ha Hu Ht) EP EO).
Qed.

Lemma find_conn_id cid cs cn : find (fun y => Nat.eqb (cn_id y) cid) cs = Some cn -> cn_id cn = cid.
Proof. intros H. apply find_some in H. destruct H as [_ H]. apply Nat.eqb_eq in H. exact H. Qed.

(* The same for one step of the whole proxy.  [cn] is the record the model finds for the connection; a closed
   connection yields no output (the judge accepts the empty list). *)
Theorem C07_judge_bridge_tcp_step :
  forall (pc : proxy_case) (stj : jstate) (fx : fixes) (now : Z) (br : bytes) (st : state) (cid li : nat)
         (lc : listen_cfg) (cn : conn) (data : bytes) (jin : jmsg) (m : message) (rest : bytes)
         (st' : state) (outs : list output) (keep : output -> bool) (closed : list nat),
  nth_opt (c_listens (pc_cfg pc)) li = Some lc ->
  find (fun y => Nat.eqb (cn_id y) cid) (st_conns st) = Some cn ->
  find (fun y => Nat.eqb (fst y) cid) (js_conns stj) = Some (cid, (li, cn_peer cn, cn_peer_port cn)) ->
  (li < dial_mark)%nat ->
  cn_li cn = li ->
  cn_from cn = {| t_kind := KTcpListen; t_addr := lc_addr lc; t_port := lc_tcp lc |} ->
  cn_received_support cn = received_on lc ->
  j_read data = Some jin -> parse_message data = Ok (m, rest) -> trim_left rest = [] ->
  via_domain m -> src_ok (cn_peer cn) -> branch_ok br ->
  safe1 (lc_addr lc) = true -> 0 <= lc_udp lc <= 65535 -> 0 <= lc_tcp lc <= 65535 ->
  (forall h t, alookup h (st_learned st) = Some t -> safe1 (t_addr t) = true /\ 0 <= t_port t <= 65535) ->
  proxy_step fx (pc_cfg pc) now br st (EvTcpData cid data) = Ok (st', outs) ->
  judge_C07_event pc stj (EvTcpData cid data) (map lab (filter keep outs)) closed = O.
Proof.
  intros pc stj fx now br st cid li lc cn data jin m rest st' outs keep closed
         EL HF HC HM HLi HFr HRS HJ HP HT HV Hsrc Hbr Ha Hu Ht HLn H.
  subst li. apply proxy_step_tcp_inv in H.
  destruct H as [(_ & ->)|(cn' & lc' & p & x' & HF' & _ & _ & EL' & _ & E & _ & ->)]; [apply judge_C07_nil|].
  rewrite HF in HF'. injection HF' as <-. rewrite EL in EL'. injection EL' as <-.
  rewrite (tcp_messages_single _ cn data _ m rest HP HT) in E.
  exact (C07_judge_bridge_tcp_msg pc stj fx now br cid (cn_li cn) lc cn data jin m rest (start_ctx st p) x' (x_outs x')
           keep closed EL HC HM HFr HRS HJ HP HV Hsrc Hbr Ha Hu Ht HLn E eq_refl).
Qed.

(* ---- what EvTcpAccept records ---- *)
(* With the repaired wiring, the record the model files for an accepted connection has the listener's KTcpListen
   transport and [received_on lc] as its flag (and carries the listen entry, peer and port the judge's bookkeeping
   [js_step] files for the same event: (js_next_conn, (li, src, sport))). *)
Definition accepted_conn (st : state) (li : nat) (lc : listen_cfg) (src : bytes) (sport : Z) : conn :=
  {| cn_id := w_next_conn (st_world st); cn_li := li; cn_open := true; cn_peer := src; cn_peer_port := sport;
     cn_from := {| t_kind := KTcpListen; t_addr := lc_addr lc; t_port := lc_tcp lc |};
     cn_received_support := received_on lc |}.

Lemma C07_tcp_accept_records fx c now br st li src sport lc p :
  fx_wiring fx = true -> nth_opt (c_listens c) li = Some lc -> nth_p (st_proxies st) li = Some p ->
  exists st', proxy_step fx c now br st (EvTcpAccept li src sport) = Ok (st', []) /\
              st_learned st' = st_learned st /\
              st_conns st' = st_conns st ++ [accepted_conn st li lc src sport].
Proof.
  intros Hfx EL EP. cbn [proxy_step]. rewrite EL, EP. cbv zeta.
  destruct (get_transport _ _ _ _ _ _) as [p1 rk].
  eexists. split; [reflexivity|]. cbn [st_learned st_conns]. split; [reflexivity|].
  unfold accepted_conn, mk_env. cbn [e_item_rs]. rewrite Hfx. reflexivity.
Qed.

Lemma js_step_accept_records stj li src sport outs :
  js_conns (js_step stj (EvTcpAccept li src sport) outs) =
  (js_conns stj ++ [(js_next_conn stj, (li, src, sport))]) ++ dialled O outs.
Proof. reflexivity. Qed.

(* ---- example ---- *)
Module C07_bridge_tcp_example.
Import C07_bridge_example.
Open Scope string_scope.
Open Scope list_scope.
Open Scope Z_scope.

(* top entry: TCP, ";rport;x=1" and a spoofed received=10.9.9.9; two more entries (comma list + compact name) *)
Definition tx_data : bytes :=
  flat_map ln ["INVITE sip:bob@example.com SIP/2.0";
               "Via: SIP/2.0/TCP 10.9.9.9:5070;rport;x=1;received=10.9.9.9,SIP/2.0/TCP 10.8.8.8;branch=z9hG4bKdef";
               "v: SIP/2.0/UDP 10.7.7.7:5062;branch=z9hG4bKghi";
               "Route: <sip:10.0.0.2:5070;lr>";
               "From: <sip:a@example.com>;tag=1";
               "To: <sip:bob@example.com>";
               "Call-ID: c1";
               "CSeq: 1 INVITE";
               "Content-Length: 0"] ++ crlf.
Definition tx_m : message := match parse_message tx_data with Ok (m, _) => m | _ => dummy end.
Definition tx_jin : jmsg :=
  match j_read tx_data with Some j => j | None => Build_jmsg [] [] [] [] false 0 None end.

(* the next hop 10.0.0.2 was learned before (over UDP): the proxy pushes its own Via on top *)
Definition tx_st0 : state :=
  {| st_learned := [(s2b "10.0.0.2", ex_from)]; st_proxies := [init_pstate ex_cfg 0 ex_lc]; st_conns := [];
     st_world := {| w_tcp_listeners := []; w_next_conn := 0 |} |}.
Definition tx_accept : event := EvTcpAccept 0 ex_src 40000.
Definition tx_ev : event := EvTcpData 0 tx_data.
(* model: accept, then the chunk *)
Definition tx_st1 : state :=
  match proxy_step all_fixed ex_cfg 0 ex_br tx_st0 tx_accept with Ok (s, _) => s | _ => tx_st0 end.
Definition tx_step2 : res (state * list output) := proxy_step all_fixed ex_cfg 0 ex_br tx_st1 tx_ev.
Definition tx_st2 : state := match tx_step2 with Ok (s, _) => s | _ => tx_st1 end.
Definition tx_outs : list output := match tx_step2 with Ok (_, o) => o | _ => [] end.
(* judge: the bookkeeping after the accept *)
Definition tx_stj1 : jstate := js_step_c (js_init ex_cfg) tx_accept [] [].
Definition tx_cn : conn := accepted_conn tx_st0 0 ex_lc ex_src 40000.

Example tx_accept_ok : proxy_step all_fixed ex_cfg 0 ex_br tx_st0 tx_accept = Ok (tx_st1, []).
Proof. vm_compute. reflexivity. Qed.
Example tx_step2_ok : tx_step2 = Ok (tx_st2, tx_outs).
Proof. vm_compute. reflexivity. Qed.
Example tx_conn_found : find (fun y => Nat.eqb (cn_id y) 0) (st_conns tx_st1) = Some tx_cn.
Proof. vm_compute. reflexivity. Qed.
Example tx_judge_conn :
  find (fun y => Nat.eqb (fst y) 0%nat) (js_conns tx_stj1) = Some (0%nat, (0%nat, cn_peer tx_cn, cn_peer_port tx_cn)).
Proof. vm_compute. reflexivity. Qed.

(* what leaves the proxy: own entry on top, sender entry stamped with the PEER OF THE CONNECTION (received
   overwritten in place, valueless rport filled, x=1 kept), the other two entries as they came *)
Example tx_output :
  tx_outs = [(DUdp (s2b "10.0.0.2") 5070,
    flat_map ln ["INVITE sip:bob@example.com SIP/2.0";
                 "Via: SIP/2.0/UDP 10.0.0.1:5060;branch=z9hG4bKpx";
                 "Via: SIP/2.0/TCP 10.9.9.9:5070;rport=40000;x=1;received=127.0.0.9,SIP/2.0/TCP 10.8.8.8;branch=z9hG4bKdef";
                 "v: SIP/2.0/UDP 10.7.7.7:5062;branch=z9hG4bKghi";
                 "From: <sip:a@example.com>;tag=1";
                 "To: <sip:bob@example.com>";
                 "Call-ID: c1";
                 "CSeq: 1 INVITE";
                 "Content-Length: 0"] ++ crlf)].
Proof. vm_compute. reflexivity. Qed.

(* [tx_step2_ok] in the words of C07_judge_bridge_tcp_step.  [tx_step2] is unfolded by hand: left to find out
   by itself that the two steps are the same, the kernel runs the step. *)
Lemma tx_step2_at :
  proxy_step all_fixed (pc_cfg ex_pc) 0 ex_br tx_st1 (EvTcpData 0 tx_data) = Ok (tx_st2, tx_outs).
Proof. rewrite <- tx_step2_ok. unfold tx_step2, tx_ev. reflexivity. Qed.

(* the hypotheses of the step-level bridge hold of this instance, hence the judge accepts *)
Example C07_bridge_tcp_ex :
  judge_C07_event ex_pc tx_stj1 tx_ev (map lab (filter (fun _ => true) tx_outs)) [] = O.
Proof.
  apply (C07_judge_bridge_tcp_step ex_pc tx_stj1 all_fixed 0 ex_br tx_st1 0%nat 0%nat ex_lc tx_cn tx_data
            tx_jin tx_m [] tx_st2 tx_outs (fun _ => true) []).
  - reflexivity.
  - exact tx_conn_found.
  - exact tx_judge_conn.
  - exact zero_below_mark.
  - reflexivity.
  - reflexivity.
  - reflexivity.
  - vm_compute. reflexivity.
  - vm_compute. reflexivity.
  - reflexivity.
  - apply via_domain_b_sound. vm_compute. reflexivity.
  - split; vm_compute; reflexivity.
  - split; vm_compute; reflexivity.
  - reflexivity.
  - cbn. lia.
  - cbn. lia.
  - intros h t A.
    assert (L : st_learned tx_st1 = [(s2b "10.0.0.2", ex_from)]) by (vm_compute; reflexivity).
    rewrite L in A. cbn [alookup] in A. destruct (beq h (s2b "10.0.0.2")); [|discriminate A].
    injection A as <-. split; [reflexivity|cbn; lia].
  - exact tx_step2_at.
Qed.
(* ... and the verdict computed directly *)
Example C07_bridge_tcp_ex_computed : judge_C07_event ex_pc tx_stj1 tx_ev (map lab tx_outs) [] = O.
Proof. vm_compute. reflexivity. Qed.

(* the message-level theorem on the same instance *)
Definition tx_e : env := mk_env all_fixed ex_cfg (item_rs_of true) 0 ex_lc 0 ex_br.
Definition tx_x : ctx :=
  {| x_learned := st_learned tx_st1;
     x_p := match nth_p (st_proxies tx_st1) 0 with Some p => p | None => init_pstate ex_cfg 0 ex_lc end;
     x_conns := st_conns tx_st1; x_world := st_world tx_st1; x_outs := [] |}.
Definition tx_x' : ctx :=
  match process_message tx_e (cn_peer tx_cn) (cn_peer_port tx_cn) (cn_from tx_cn) (cn_received_support tx_cn)
                        (Some (cn_id tx_cn)) tx_m tx_x
  with Ok y => y | _ => tx_x end.
Example C07_bridge_tcp_msg_ex :
  x_outs tx_x' = tx_outs /\
  judge_C07_event ex_pc tx_stj1 tx_ev (map lab (filter (fun _ => true) (x_outs tx_x'))) [] = O.
Proof. split; vm_compute; reflexivity. Qed.

(* the judge does look: the same request relayed WITHOUT stamping is rejected with reason 1, ... *)
Example C07_bridge_tcp_ex_sensitive :
  judge_C07_event ex_pc tx_stj1 tx_ev [(s2b "udp:10.0.0.2:5070", tx_data)] [] = 1%nat.
Proof. vm_compute. reflexivity. Qed.
(* ... stamped with the address the sender claimed instead of the peer of the connection: reason 1, ... *)
Example C07_bridge_tcp_ex_sensitive_peer :
  judge_C07_event ex_pc tx_stj1 tx_ev
    [(s2b "udp:10.0.0.2:5070",
      flat_map ln ["INVITE sip:bob@example.com SIP/2.0";
                   "Via: SIP/2.0/TCP 10.9.9.9:5070;rport=40000;x=1;received=10.9.9.9,SIP/2.0/TCP 10.8.8.8;branch=z9hG4bKdef";
                   "v: SIP/2.0/UDP 10.7.7.7:5062;branch=z9hG4bKghi";
                   "From: <sip:a@example.com>;tag=1"; "To: <sip:bob@example.com>"; "Call-ID: c1"; "CSeq: 1 INVITE";
                   "Content-Length: 0"] ++ crlf)] [] = 1%nat.
Proof. vm_compute. reflexivity. Qed.
(* ... and a lower entry touched: reason 2 *)
Example C07_bridge_tcp_ex_sensitive_lower :
  judge_C07_event ex_pc tx_stj1 tx_ev
    [(s2b "udp:10.0.0.2:5070",
      flat_map ln ["INVITE sip:bob@example.com SIP/2.0";
                   "Via: SIP/2.0/TCP 10.9.9.9:5070;rport=40000;x=1;received=127.0.0.9,SIP/2.0/TCP 10.8.8.8;branch=z9hG4bKdef;received=1.2.3.4";
                   "v: SIP/2.0/UDP 10.7.7.7:5062;branch=z9hG4bKghi";
                   "From: <sip:a@example.com>;tag=1"; "To: <sip:bob@example.com>"; "Call-ID: c1"; "CSeq: 1 INVITE";
                   "Content-Length: 0"] ++ crlf)] [] = 2%nat.
Proof. vm_compute. reflexivity. Qed.
(* without the judge's record of the connection there is no verdict (the hypothesis H_conn is not idle) *)
Example C07_bridge_tcp_ex_unknown_conn :
  judge_C07_event ex_pc (js_init ex_cfg) tx_ev [(s2b "udp:10.0.0.2:5070", tx_data)] [] = O.
Proof. vm_compute. reflexivity. Qed.

(* the record the model filed is [accepted_conn] *)
Example tx_accept_records : st_conns tx_st1 = st_conns tx_st0 ++ [accepted_conn tx_st0 0 ex_lc ex_src 40000].
Proof. vm_compute. reflexivity. Qed.
End C07_bridge_tcp_example.

Print Assumptions C07_tcp_accept_records.
Print Assumptions C07_judge_bridge_tcp_msg.
Print Assumptions C07_judge_bridge_tcp_step.
Print Assumptions C07_bridge_tcp_example.C07_bridge_tcp_ex.
