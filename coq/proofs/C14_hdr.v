(* proofs/C14_hdr.v — property C14 for the Route / Record-Route and From / To headers.
   For EVERY well-formed abstract value of SpecC14.v (any number >= 1 of route elements, any
   display name, SIP or other URI, any number of header parameters, valueless or not; name-addr
   or bare addr-spec form for From / To):
     - decoding the reference text yields exactly the embedded abstract value,
     - encoding the embedded value yields the reference text byte for byte,
     - the accessors (tag, host, dialog address) report what the text denotes,
     - the observation made by the correspondence run (Codec.codec_obs) equals
       SpecC14.expected_obs.
   Built on proofs/C14_uri.v (SIP-URI, addr-spec, name-addr).  No axioms, no admits. *)
From Coq Require Import List Ascii String ZArith NArith Bool.
From Model Require Import Bytes BytesLemmas Wire Uri Hdr Message Codec SpecC14.
From Model.proofs Require Import C14_uri.
Import ListNotations.
Open Scope list_scope.

Lemma rp_params_no_lt ps : forallb wf_param ps = true -> ~ In "<"%char (rp_params ps).
Proof. apply rp_params_notin. reflexivity. Qed.

(* what both header decoders do with the text that follows the address: nothing when it is
   empty, otherwise drop the leading ';' and decode the ';'-separated pieces *)
Lemma parse_generic_params_tail p r : forallb wf_param (p :: r) = true ->
  parse_generic_params (split_byte ";"%char (rp_param p ++ rp_params r)) =
  Ok (map embed_param (p :: r)).
Proof. intros H. rewrite split_params by exact H. apply parse_generic_params_ok, H. Qed.

Definition embed_relem (r : a_relem) : route_param :=
  {| r_addr := embed_nameaddr (ar_na r); r_params := map embed_param (ar_params r) |}.

Lemma wf_relem_parts r : wf_relem r = true ->
  wf_nameaddr (ar_na r) = true /\ forallb wf_param (ar_params r) = true.
Proof. unfold wf_relem. intros H. do 2 (apply andb_prop in H; destruct H as [H ?]). split; assumption. Qed.
Lemma wf_relem_tail r : wf_relem r = true -> ends_with_uspace (rp_params (ar_params r)) = false.
Proof. unfold wf_relem. intros H. apply andb_prop in H. apply negb_true_iff, H. Qed.
(* strings.TrimSpace (Unicode white space) leaves the parameter tail of a well-formed element alone:
   no ASCII blank inside, ';' in front, no Unicode space at the end (the third conjunct of wf_relem,
   which is necessary: BytesLemmas.trim_space_go_ends) *)
Lemma rp_params_trim_go r : wf_relem r = true ->
  trim_space_go (rp_params (ar_params r)) = rp_params (ar_params r).
Proof.
  intros H. destruct (wf_relem_parts r H) as [_ Hps]. apply trim_space_go_nospace.
  - apply rp_params_nospace, Hps.
  - apply starts_with_uspace_ascii. destruct (ar_params r); reflexivity.
  - apply wf_relem_tail, H.
Qed.

Theorem parse_route_param_rp r : wf_relem r = true ->
  parse_route_param (rp_relem r) = Ok (embed_relem r).
Proof.
  intros H. destruct (wf_relem_parts r H) as [Hn Hps].
  unfold parse_route_param, rp_relem.
  destruct (nameaddr_cut (ar_na r) (rp_params (ar_params r)) Hn) as (_ & E2 & _ & E4 & E5).
  rewrite E2, E4, E5, parse_name_addr_rp by exact Hn. cbn [rbind].
  rewrite rp_params_trim_go by exact H.
  unfold embed_relem. destruct (ar_params r) as [|p ps]; [reflexivity|].
  rewrite rp_params_cons. change (Ascii.eqb ";"%char ";"%char) with true. cbv iota.
  rewrite parse_generic_params_tail by exact Hps. reflexivity.
Qed.

(* the third conjunct of wf_relem is needed: "<tel:1>;a=b" followed by U+00A0 (C2 A0) satisfies the
   first two, but strings.TrimSpace cuts the no-break space off the parameter value; with a lone A0
   (not a Unicode space) the element is well-formed and decoded exactly *)
Example relem_uspace_tail_cut :
  let mk v := {| ar_na := {| an_display := []; an_addr := AAOther (s2b "tel:1") |};
                 ar_params := [ {| ap_key := s2b "a"; ap_val := Some ("b"%char :: map ascii_of_nat v) |} ] |} in
  let nbsp := [194%nat; 160%nat] in let lone := [160%nat] in
  wf_nameaddr (ar_na (mk nbsp)) && forallb wf_param (ar_params (mk nbsp)) = true /\
  wf_relem (mk nbsp) = false /\
  parse_route_param (rp_relem (mk nbsp)) = Ok (embed_relem (mk [])) /\
  wf_relem (mk lone) = true /\
  parse_route_param (rp_relem (mk lone)) = Ok (embed_relem (mk lone)).
Proof. cbv zeta. repeat apply conj; vm_compute; reflexivity. Qed.

Theorem route_param_print_embed r : wf_relem r = true ->
  route_param_print (embed_relem r) = rp_relem r.
Proof.
  intros H. destruct (wf_relem_parts r H) as [Hn Hps].
  unfold route_param_print, embed_relem, rp_relem. cbn [r_addr r_params].
  rewrite name_addr_print_embed, print_params_ok by assumption. reflexivity.
Qed.

Theorem obs_route_param_embed r : wf_relem r = true -> obs_route_param (embed_relem r) = x_relem r.
Proof.
  intros H. destruct (wf_relem_parts r H) as [Hn _].
  unfold obs_route_param, embed_relem, x_relem. cbn [r_addr r_params].
  rewrite obs_name_addr_embed, e_kvs_embed by exact Hn. reflexivity.
Qed.

Lemma relem_exact :
  exact_codec parse_route_param route_param_print obs_route_param (fun r => wf_relem r = true)
              rp_relem x_relem embed_relem.
Proof. exact (conj parse_route_param_rp (conj route_param_print_embed obs_route_param_embed)). Qed.

Lemma rp_relem_no_comma r : wf_relem r = true -> ~ In ","%char (rp_relem r).
Proof.
  intros H. destruct (wf_relem_parts r H) as [Hn Hps]. unfold rp_relem.
  apply notin_app; [apply rp_nameaddr_no_comma, Hn|apply rp_params_notin; [reflexivity|exact Hps]].
Qed.

Lemma route_list l : forallb wf_relem l = true ->
  (l <> [] -> parse_route (rp_route l) = Ok (map embed_relem l)) /\
  route_print (map embed_relem l) = rp_route l /\
  e_list obs_route_param (map embed_relem l) = e_list x_relem l.
Proof. intros H. apply (exact_list relem_exact rp_relem_no_comma). intros r. apply forallb_In, H. Qed.

Theorem parse_route_rp l : l <> [] -> forallb wf_relem l = true ->
  parse_route (rp_route l) = Ok (map embed_relem l).
Proof. intros NE H. exact (proj1 (route_list l H) NE). Qed.

Theorem parse_record_route_rp l : l <> [] -> forallb wf_relem l = true ->
  parse_record_route (rp_route l) = Ok (map embed_relem l).
Proof.
  intros NE H. unfold parse_record_route. rewrite parse_route_rp by assumption.
  cbn [rbind]. destruct l; [contradiction|reflexivity].
Qed.

Theorem route_print_embed l : forallb wf_relem l = true -> route_print (map embed_relem l) = rp_route l.
Proof. intros H. exact (proj1 (proj2 (route_list l H))). Qed.

Theorem obs_route_embed l : forallb wf_relem l = true ->
  e_list obs_route_param (map embed_relem l) = e_list x_relem l.
Proof. intros H. exact (proj2 (proj2 (route_list l H))). Qed.

Lemma route_exact :
  exact_codec parse_route route_print (e_list obs_route_param)
              (fun l => l <> [] /\ forallb wf_relem l = true) rp_route (e_list x_relem) (map embed_relem).
Proof.
  split; [intros l [NE H]; apply parse_route_rp; assumption|].
  split; intros l [_ H]; [apply route_print_embed, H|apply obs_route_embed, H].
Qed.

Lemma record_route_exact :
  exact_codec parse_record_route route_print (e_list obs_route_param)
              (fun l => l <> [] /\ forallb wf_relem l = true) rp_route (e_list x_relem) (map embed_relem).
Proof. split; [intros l [NE H]; apply parse_record_route_rp; assumption|exact (proj2 route_exact)]. Qed.

Theorem route_roundtrip l : l <> [] -> forallb wf_relem l = true ->
  exists a, parse_route (rp_route l) = Ok a /\ route_print a = rp_route l /\
            parse_route (route_print a) = Ok a.
Proof. intros NE H. exact (exact_roundtrip route_exact l (conj NE H)). Qed.

Theorem record_route_roundtrip l : l <> [] -> forallb wf_relem l = true ->
  exists a, parse_record_route (rp_route l) = Ok a /\ route_print a = rp_route l /\
            parse_record_route (route_print a) = Ok a.
Proof. intros NE H. exact (exact_roundtrip record_route_exact l (conj NE H)). Qed.

Theorem C14_route l : l <> [] -> forallb wf_relem l = true ->
  codec_obs parse_route route_print (e_list obs_route_param) (rp_route l) =
  expected_obs (rp_route l) (e_list x_relem l).
Proof. intros NE H. exact (exact_obs route_exact l (conj NE H)). Qed.

Theorem C14_recordroute l : l <> [] -> forallb wf_relem l = true ->
  codec_obs parse_record_route route_print (e_list obs_route_param) (rp_route l) =
  expected_obs (rp_route l) (e_list x_relem l).
Proof. intros NE H. exact (exact_obs record_route_exact l (conj NE H)). Qed.

Corollary C14_route_judge l : l <> [] -> forallb wf_relem l = true ->
  judge_C14 (expected_obs (rp_route l) (e_list x_relem l))
            (codec_obs parse_route route_print (e_list obs_route_param) (rp_route l)) = true.
Proof. intros NE H. exact (exact_judge route_exact l (conj NE H)). Qed.

Corollary C14_recordroute_judge l : l <> [] -> forallb wf_relem l = true ->
  judge_C14 (expected_obs (rp_route l) (e_list x_relem l))
            (codec_obs parse_record_route route_print (e_list obs_route_param) (rp_route l)) = true.
Proof. intros NE H. exact (exact_judge record_route_exact l (conj NE H)). Qed.

Definition embed_ftaddr (a : a_ftaddr) : ft_addr :=
  match a with AFName n => FtName (embed_nameaddr n) | AFBare x => FtSpec (embed_addr x) end.
Definition embed_fromto (f : a_fromto) : fromto :=
  {| ft_addr_of := embed_ftaddr (af_addr f); ft_params := map embed_param (af_params f) |}.
(* the address a From / To value carries, whichever form it was written in *)
Definition a_ft_addr (f : a_fromto) : a_addr :=
  match af_addr f with AFName n => an_addr n | AFBare a => a end.

Definition wf_ftaddr (a : a_ftaddr) : bool :=
  match a with AFName n => wf_nameaddr n | AFBare x => wf_bare x end.

Lemma wf_fromto_parts f : wf_fromto f = true ->
  wf_ftaddr (af_addr f) = true /\ forallb wf_param (af_params f) = true.
Proof. unfold wf_fromto. intros H. apply andb_true_iff in H. exact H. Qed.

(* the bare form is a restriction of the general address form *)
Lemma wf_bare_addr a : wf_bare a = true -> wf_addr a = true.
Proof.
  destruct a as [u|s]; cbn [wf_bare wf_addr]; intros H; apply andb_true_iff in H; apply H.
Qed.

Lemma wf_fromto_addr f : wf_fromto f = true -> wf_addr (a_ft_addr f) = true.
Proof.
  intros H. destruct (wf_fromto_parts f H) as [Ha _]. unfold a_ft_addr.
  destruct (af_addr f) as [n|a]; cbn [wf_ftaddr] in Ha.
  - apply (wf_nameaddr_parts n Ha).
  - apply wf_bare_addr, Ha.
Qed.

(* a bare address has no ';' : a SIP URI without parameters (and headers), or another URI
   without ';' *)
Lemma rp_bare_no_semi a : wf_bare a = true -> ~ In ";"%char (rp_addr a).
Proof.
  destruct a as [u|s]; cbn [wf_bare rp_addr]; intros H; apply andb_true_iff in H; destruct H as [H1 H2].
  - destruct (au_params u) as [|p ps] eqn:Ep; [|discriminate H2].
    destruct (au_headers u) as [|h hs] eqn:Eh; [|discriminate H2].
    rewrite rp_sipuri_eq2, Ep, Eh. cbn [rp_params flat_map rp_hdrs]. rewrite !app_nil_r.
    apply notin_app; [destruct (au_secure u); cbn; intuition discriminate|].
    apply (hp_notin ";"%char _ eq_refl), rp_core_hp, H1.
  - apply negb_true_iff in H2. intros Hin. apply contains_byte_in in Hin. congruence.
Qed.

(* the shared tail of parse_fromto_with: [finish] *)
Definition ft_finish (a : ft_addr) (params : bytes) : res fromto :=
  match params with
  | [] => Ok {| ft_addr_of := a; ft_params := [] |}
  | _ => let! ps := parse_generic_params (split_byte ";"%char params) in
         Ok {| ft_addr_of := a; ft_params := ps |}
  end.

(* what parse_fromto_with does behind the address, in both forms: cut at the first ';', decode the
   text in front of it (here with [k]; nothing is left to decode behind a name-addr) and the
   parameters behind it.  [pre] is the text of the address, without ';' *)
Lemma ft_tail {X} (k : bytes -> res X) (F : X -> ft_addr) pre ps :
  ~ In ";"%char pre -> forallb wf_param ps = true ->
  match index_byte ";"%char (pre ++ rp_params ps) with
  | None => let! a := k (pre ++ rp_params ps) in ft_finish (F a) []
  | Some pos => let! a := k (firstn pos (pre ++ rp_params ps)) in
                ft_finish (F a) (skipn (S pos) (pre ++ rp_params ps))
  end = let! a := k pre in Ok {| ft_addr_of := F a; ft_params := map embed_param ps |}.
Proof.
  intros N H. destruct ps as [|p r].
  - cbn [rp_params flat_map]. rewrite app_nil_r, index_notin by exact N. reflexivity.
  - rewrite rp_params_cons. destruct (index_cut _ pre (rp_param p ++ rp_params r) N) as (E1 & E2 & E3).
    rewrite E1, E2, E3. destruct (k pre) as [a| |]; [|reflexivity|reflexivity]. cbn [rbind]. unfold ft_finish.
    assert (NE : rp_param p ++ rp_params r <> []).
    { intros E. apply app_eq_nil in E. apply (rp_param_nonempty p); [|apply E].
      apply (andb_prop _ _ H). }
    destruct (rp_param p ++ rp_params r) as [|c s] eqn:E; [contradiction|].
    rewrite <- E, parse_generic_params_tail by exact H. reflexivity.
Qed.

Theorem parse_fromto_rp f : wf_fromto f = true -> parse_fromto (rp_fromto f) = Ok (embed_fromto f).
Proof.
  intros H. destruct (wf_fromto_parts f H) as [Ha Hps].
  unfold parse_fromto, parse_fromto_with, rp_fromto, embed_fromto.
  fold ft_finish.
  destruct (af_addr f) as [n|a]; cbn [wf_ftaddr embed_ftaddr] in *.
  - (* name-addr form *)
    destruct (nameaddr_cut n (rp_params (af_params f)) Ha) as (E1 & E2 & E3 & E4 & E5).
    rewrite E1, E2, E3, E4, E5, parse_name_addr_rp by exact Ha. cbn [rbind].
    exact (ft_tail (fun _ => Ok (embed_nameaddr n)) FtName [] _ (fun I => I) Hps).
  - (* bare addr-spec form *)
    pose proof (wf_bare_addr a Ha) as Hw.
    rewrite index_notin
      by (apply notin_app; [apply rp_addr_no_lt, Hw|apply rp_params_no_lt, Hps]).
    rewrite (ft_tail parse_addr_spec FtSpec) by (try apply rp_bare_no_semi; assumption).
    rewrite parse_addr_spec_rp by exact Hw. reflexivity.
Qed.

Theorem fromto_print_embed f : wf_fromto f = true -> fromto_print (embed_fromto f) = rp_fromto f.
Proof.
  intros H. destruct (wf_fromto_parts f H) as [Ha Hps].
  unfold fromto_print, embed_fromto, rp_fromto. cbn [ft_addr_of ft_params].
  rewrite print_params_ok by exact Hps.
  destruct (af_addr f) as [n|a]; cbn [wf_ftaddr embed_ftaddr] in *.
  - rewrite name_addr_print_embed by exact Ha. reflexivity.
  - rewrite addr_spec_print_embed by (apply wf_bare_addr, Ha). reflexivity.
Qed.

Theorem fromto_tag_embed f : fromto_tag (embed_fromto f) = a_get (s2b "tag") (af_params f).
Proof. unfold fromto_tag, embed_fromto. cbn [ft_params]. apply kv_get_embed. Qed.

Theorem fromto_addr_spec_embed f : fromto_addr_spec (embed_fromto f) = embed_addr (a_ft_addr f).
Proof.
  unfold fromto_addr_spec, embed_fromto, a_ft_addr. cbn [ft_addr_of].
  destruct (af_addr f) as [n|a]; reflexivity.
Qed.

Theorem fromto_host_embed f :
  fromto_host (embed_fromto f) =
  match a_ft_addr f with AASip u => Some (au_host u) | AAOther _ => None end.
Proof.
  unfold fromto_host. rewrite fromto_addr_spec_embed.
  destruct (a_ft_addr f) as [u|s]; reflexivity.
Qed.

(* the dialog half taken from a From / To header *)
Theorem fromto_dialog_addr_embed f : wf_fromto f = true ->
  dialog_addr (fromto_addr_spec (embed_fromto f)) = x_dialog_addr (a_ft_addr f).
Proof.
  intros H. rewrite fromto_addr_spec_embed. apply dialog_addr_embed, wf_fromto_addr, H.
Qed.

Theorem obs_fromto_embed f : wf_fromto f = true -> obs_fromto (embed_fromto f) = x_fromto f.
Proof.
  intros H. destruct (wf_fromto_parts f H) as [Ha _].
  unfold obs_fromto, x_fromto. rewrite fromto_tag_embed, fromto_host_embed.
  unfold embed_fromto, a_ft_addr, x_opt. cbn [ft_addr_of ft_params]. rewrite e_kvs_embed.
  destruct (af_addr f) as [n|a]; cbn [wf_ftaddr embed_ftaddr] in *.
  - rewrite obs_name_addr_embed by exact Ha.
    destruct n as [d [u|s]]; reflexivity.
  - rewrite obs_addr_spec_embed by (apply wf_bare_addr, Ha).
    destruct a as [u|s]; reflexivity.
Qed.

Lemma fromto_exact :
  exact_codec parse_fromto fromto_print obs_fromto (fun f => wf_fromto f = true) rp_fromto x_fromto embed_fromto.
Proof. exact (conj parse_fromto_rp (conj fromto_print_embed obs_fromto_embed)). Qed.

Theorem fromto_roundtrip f : wf_fromto f = true ->
  exists a, parse_fromto (rp_fromto f) = Ok a /\ fromto_print a = rp_fromto f /\
            parse_fromto (fromto_print a) = Ok a.
Proof. apply (exact_roundtrip fromto_exact). Qed.

Theorem C14_fromto f : wf_fromto f = true ->
  codec_obs parse_fromto fromto_print obs_fromto (rp_fromto f) =
  expected_obs (rp_fromto f) (x_fromto f).
Proof. apply (exact_obs fromto_exact). Qed.

Corollary C14_fromto_judge f : wf_fromto f = true ->
  judge_C14 (expected_obs (rp_fromto f) (x_fromto f))
            (codec_obs parse_fromto fromto_print obs_fromto (rp_fromto f)) = true.
Proof. apply (exact_judge fromto_exact). Qed.

(* the pre-fix Route encoder wrote the header parameters without ';' *)
Example route_legacy_glues_params :
  let t := s2b "<sip:h;lr>;a=1;b" in
  match parse_route_param t with
  | Ok r => route_param_print_legacy r = s2b "<sip:h;lr>a=1b" /\
            route_param_print_legacy r <> t /\ route_param_print r = t
  | _ => False
  end.
Proof. vm_compute. repeat split. discriminate. Qed.

Definition ex_relem_legacy : a_relem :=
  {| ar_na := {| an_display := [];
                 an_addr := AASip {| au_secure := false; au_user := None; au_host := s2b "h";
                                     au_port := None;
                                     au_params := [ {| ap_key := s2b "lr"; ap_val := None |} ];
                                     au_headers := [] |} |};
     ar_params := [ {| ap_key := s2b "a"; ap_val := Some (s2b "1") |};
                    {| ap_key := s2b "b"; ap_val := None |} ] |}.

(* the same over the domain: a well-formed element on which the legacy encoder is not
   byte-identical, and whose legacy encoding does not even decode to the same value *)
Theorem C14_route_legacy_refuted :
  exists r, wf_relem r = true /\ rp_relem r = s2b "<sip:h;lr>;a=1;b" /\
    route_param_print_legacy (embed_relem r) <> rp_relem r /\
    parse_route_param (route_param_print_legacy (embed_relem r)) <> Ok (embed_relem r).
Proof.
  exists ex_relem_legacy. split; [reflexivity|]. split; [reflexivity|].
  split; vm_compute; discriminate.
Qed.

(* the pre-fix From / To decoder kept the ';' in a bare addr-spec:
   `tel:+1;tag=x` was re-encoded as `tel:+1;;tag=x` *)
Example fromto_legacy_keeps_semicolon :
  let t := s2b "tel:+1;tag=x" in
  match parse_fromto_legacy t, parse_fromto t with
  | Ok f, Ok g => fromto_print f = s2b "tel:+1;;tag=x" /\ fromto_print f <> t /\
                  fromto_addr_spec f = AAbs (s2b "tel:+1;") /\
                  fromto_addr_spec g = AAbs (s2b "tel:+1") /\ fromto_print g = t
  | _, _ => False
  end.
Proof. vm_compute. repeat split. discriminate. Qed.

Definition ex_fromto_legacy : a_fromto :=
  {| af_addr := AFBare (AAOther (s2b "tel:+1"));
     af_params := [ {| ap_key := s2b "tag"; ap_val := Some (s2b "x") |} ] |}.

Theorem C14_fromto_legacy_refuted :
  exists f, wf_fromto f = true /\ rp_fromto f = s2b "tel:+1;tag=x" /\
    parse_fromto_legacy (rp_fromto f) <> Ok (embed_fromto f) /\
    codec_obs parse_fromto_legacy fromto_print obs_fromto (rp_fromto f) <>
    expected_obs (rp_fromto f) (x_fromto f).
Proof.
  exists ex_fromto_legacy. split; [reflexivity|]. split; [reflexivity|].
  split; vm_compute; discriminate.
Qed.

(* the same defect on a SIP URI: the dialog address gets a trailing ';' parameter list *)
Example fromto_legacy_sip :
  match parse_fromto_legacy (s2b "sip:bob@h;tag=9") with
  | Ok f => fromto_print f = s2b "sip:bob@h;;tag=9"
  | _ => False
  end.
Proof. vm_compute. reflexivity. Qed.

Definition ex_relem_a : a_relem :=
  {| ar_na := ex_na_a;
     ar_params := [ {| ap_key := s2b "r2"; ap_val := Some (s2b "on") |};
                    {| ap_key := s2b "ftag"; ap_val := Some (s2b "a=b:c@d/e") |};
                    {| ap_key := s2b "flag"; ap_val := None |} ] |}.
Definition ex_relem_b : a_relem := {| ar_na := ex_na_c; ar_params := [] |}.
Definition ex_relem_c : a_relem :=
  {| ar_na := ex_na_b; ar_params := [ {| ap_key := s2b "lr"; ap_val := None |} ] |}.
Definition ex_route : list a_relem := [ex_relem_a; ex_relem_b; ex_relem_c].

Example ex_route_wf : ex_route <> [] /\ forallb wf_relem ex_route = true.
Proof. split; [discriminate|reflexivity]. Qed.

Example ex_route_text :
  rp_route [ex_relem_b; ex_relem_c] =
  s2b "<sip:10.0.0.7;lr;transport=tls>,Bob <tel:+1-555-0100;phone-context=example.com>;lr".
Proof. vm_compute. reflexivity. Qed.

Example ex_route_decode : parse_route (rp_route ex_route) = Ok (map embed_relem ex_route).
Proof. vm_compute. reflexivity. Qed.

Example ex_route_by_theorem :
  codec_obs parse_route route_print (e_list obs_route_param) (rp_route ex_route) =
  expected_obs (rp_route ex_route) (e_list x_relem ex_route) /\
  codec_obs parse_record_route route_print (e_list obs_route_param) (rp_route ex_route) =
  expected_obs (rp_route ex_route) (e_list x_relem ex_route).
Proof. split; [apply C14_route|apply C14_recordroute]; try discriminate; vm_compute; reflexivity. Qed.

Example ex_route_by_compute :
  list_beq (expected_obs (rp_route ex_route) (e_list x_relem ex_route))
           (codec_obs parse_route route_print (e_list obs_route_param) (rp_route ex_route)) = true.
Proof. vm_compute. reflexivity. Qed.

(* the hypothesis l <> [] is necessary: the empty list prints as "" which does not decode *)
Example route_empty_rejected : parse_route (rp_route []) = Err /\ parse_record_route (rp_route []) = Err.
Proof. split; reflexivity. Qed.

(* From / To: name-addr form with a rich SIP URI, bare SIP form, bare tel: form, name-addr
   form around a urn: with '?' and '&' *)
Definition ex_ft_a : a_fromto :=
  {| af_addr := AFName ex_na_a;
     af_params := [ {| ap_key := s2b "tag"; ap_val := Some (s2b "1928301774") |};
                    {| ap_key := s2b "x"; ap_val := None |} ] |}.
Definition ex_ft_b : a_fromto :=
  {| af_addr := AFBare (AASip ex_uri_c);
     af_params := [ {| ap_key := s2b "flag"; ap_val := None |};
                    {| ap_key := s2b "tag"; ap_val := Some (s2b "a6c85cf") |} ] |}.
Definition ex_ft_c : a_fromto := {| af_addr := AFBare (AAOther (s2b "tel:+1-555-0100")); af_params := [] |}.
Definition ex_ft_d : a_fromto :=
  {| af_addr := AFName {| an_display := s2b "Fire "; an_addr := ex_addr_urn |};
     af_params := [ {| ap_key := s2b "tag"; ap_val := None |} ] |}.

Example ex_ft_wf :
  wf_fromto ex_ft_a = true /\ wf_fromto ex_ft_b = true /\ wf_fromto ex_ft_c = true /\ wf_fromto ex_ft_d = true.
Proof. vm_compute. repeat split. Qed.

Example ex_ft_text :
  rp_fromto ex_ft_b = s2b "sip:+15551234@h:65535;flag;tag=a6c85cf" /\
  rp_fromto ex_ft_c = s2b "tel:+1-555-0100" /\
  rp_fromto ex_ft_d = s2b "Fire <urn:service:sos.fire?x=1&y>;tag".
Proof. vm_compute. repeat split. Qed.

Example ex_ft_decode : parse_fromto (rp_fromto ex_ft_a) = Ok (embed_fromto ex_ft_a).
Proof. vm_compute. reflexivity. Qed.

Example ex_ft_accessors :
  fromto_tag (embed_fromto ex_ft_a) = Some (s2b "1928301774") /\
  fromto_tag (embed_fromto ex_ft_c) = None /\
  fromto_tag (embed_fromto ex_ft_d) = Some [] /\
  fromto_host (embed_fromto ex_ft_b) = Some (s2b "h") /\
  fromto_host (embed_fromto ex_ft_d) = None /\
  dialog_addr (fromto_addr_spec (embed_fromto ex_ft_a)) = s2b "sips:alice:s3cr%20t@gw-1.example.org:5071" /\
  dialog_addr (fromto_addr_spec (embed_fromto ex_ft_b)) = s2b "sip:+15551234@h:65535".
Proof. vm_compute. repeat split. Qed.

Example ex_ft_by_theorem :
  codec_obs parse_fromto fromto_print obs_fromto (rp_fromto ex_ft_a) =
  expected_obs (rp_fromto ex_ft_a) (x_fromto ex_ft_a) /\
  codec_obs parse_fromto fromto_print obs_fromto (rp_fromto ex_ft_b) =
  expected_obs (rp_fromto ex_ft_b) (x_fromto ex_ft_b).
Proof. split; apply C14_fromto; vm_compute; reflexivity. Qed.

Example ex_ft_by_compute :
  forallb (fun f => list_beq (expected_obs (rp_fromto f) (x_fromto f))
                             (codec_obs parse_fromto fromto_print obs_fromto (rp_fromto f)))
          [ex_ft_a; ex_ft_b; ex_ft_c; ex_ft_d] = true.
Proof. vm_compute. reflexivity. Qed.

(* the bare form is restricted by the domain: a SIP URI with parameters must be bracketed,
   otherwise its parameters would be read as header parameters (RFC 3261 20.10) *)
Example ex_ft_bare_params_not_wf :
  wf_fromto {| af_addr := AFBare (AASip ex_uri_b); af_params := [] |} = false /\
  wf_fromto {| af_addr := AFBare ex_addr_tel; af_params := [] |} = false.
Proof. split; reflexivity. Qed.

Print Assumptions parse_route_param_rp.
Print Assumptions route_param_print_embed.
Print Assumptions obs_route_param_embed.
Print Assumptions parse_route_rp.
Print Assumptions parse_record_route_rp.
Print Assumptions route_print_embed.
Print Assumptions obs_route_embed.
Print Assumptions route_roundtrip.
Print Assumptions record_route_roundtrip.
Print Assumptions C14_route.
Print Assumptions C14_recordroute.
Print Assumptions C14_route_judge.
Print Assumptions C14_recordroute_judge.
Print Assumptions parse_fromto_rp.
Print Assumptions fromto_print_embed.
Print Assumptions fromto_tag_embed.
Print Assumptions fromto_addr_spec_embed.
Print Assumptions fromto_host_embed.
Print Assumptions fromto_dialog_addr_embed.
Print Assumptions obs_fromto_embed.
Print Assumptions fromto_roundtrip.
Print Assumptions C14_fromto.
Print Assumptions C14_fromto_judge.
Print Assumptions C14_route_legacy_refuted.
Print Assumptions C14_fromto_legacy_refuted.
