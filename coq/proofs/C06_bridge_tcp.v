(* proofs/C06_bridge_tcp.v — the judge bridge of C06 for a request read on an ACCEPTED TCP connection
   ([EvTcpData cid data]): the theorems of C06_bridge.v at [jin_tcp li cid (cn_peer cn) (cn_peer_port cn) data].
   There the source and the Via hosts are learned with the TCP listener (model: [learn h (cn_from cn)]; judge: [j_learn]
   files (li, true), read back as ("TCP", lc_addr, lc_tcp)), and the own Route entry and the service match use lc_tcp.
   New premises: the judge's record of the connection agrees with the model's [cn] on listen entry, source address and
   port; the connection is an accepted one on both sides ([cn_from cn] is the KTcpListen transport, the judge's entry
   lies below SpecProxy.dial_mark); 1 <= lc_tcp lc <= 65535, since a learned transport carries a port; at the step
   level the record the model uses, and only blanks after the message in the chunk.  The received-support flag does not
   matter (C06_bridge.stamp_compat); the judge's [single_message jin] stays a premise (it reads the first
   Content-Length header, the model get_header_int).  C06_dialled_example is a host learned over a connection the
   proxy DIALLED: the port-less own Via / Record-Route is what the model emits and the only thing the judge accepts. *)
From Coq Require Import List Ascii String ZArith NArith Bool Arith Lia.
From Model Require Import Bytes BytesLemmas Wire Uri Hdr Message Msg Rx Glob StaticRoute RoundRobin Pins
     Proxy RunProxy SpecProxy SpecC14.
From Model.proofs Require Import C14_uri C14_hdr MsgLemmas Pipeline C06 C01 C13 C03 C06_bridge.
From Model.proofs Require C07_bridge.
Import ListNotations.
Open Scope list_scope.

(* the ServerTransport of an accepted connection: the listener (Proxy.proxy_step, EvTcpAccept) *)
Definition tcp_transport (lc : listen_cfg) : stransport :=
  {| t_kind := KTcpListen; t_addr := lc_addr lc; t_port := lc_tcp lc |}.

(* the judge's record of a chunk read on an accepted connection is [jin_tcp ..], not dialled *)
Lemma judge_C06_tcp_verdict pc stj cid li ip port data outs closed :
  find (fun y => Nat.eqb (fst y) cid) (js_conns stj) = Some (cid, (li, ip, port)) -> (li < dial_mark)%nat ->
  judge_C06_event pc stj (EvTcpData cid data) outs closed = c06_verdict pc stj (jin_tcp li cid ip port data) outs.
Proof.
  intros HC HMk. exact (judge_C06_verdict pc stj _ _ outs closed (C07_bridge.j_input_accepted stj cid li ip port data HC HMk)
                          (C07_bridge.ji_dialled_accepted stj cid li ip port data HC HMk)).
Qed.

(* THE BRIDGE, process_message level, for a message read on the accepted connection [cn].
   Same domain hypotheses as C06_judge_bridge_udp (with the peer of the connection in the place of the
   datagram's source and the port ranges swapped: the TCP port must be >= 1), plus the judge's record of the connection and that it is an accepted one. *)
Theorem C06_judge_bridge_tcp_msg :
  forall pc stj cid li lc cn data closed jin m rest e x x' pre,
  nth_opt (c_listens (pc_cfg pc)) li = Some lc -> e_cfg e = pc_cfg pc -> e_lc e = lc ->
  e_branch e = branch_of (js_event stj) ->
  find (fun y => Nat.eqb (fst y) cid) (js_conns stj) = Some (cid, (li, cn_peer cn, cn_peer_port cn)) ->
  (li < dial_mark)%nat ->
  cn_from cn = {| t_kind := KTcpListen; t_addr := lc_addr lc; t_port := lc_tcp lc |} ->
  j_read data = Some jin -> parse_message data = Ok (m, rest) ->
  agree_learned (pc_cfg pc) (js_learned stj) (x_learned x) ->
  amem (cn_peer cn) (ps_backends (x_p x)) = false ->
  B7.via_domain m -> B13.route_domain_in (B13.RS m) -> to_domain m -> ruri_domain jin ->
  B7.src_ok (cn_peer cn) -> B7.branch_ok (e_branch e) ->
  safe1 (lc_addr lc) = true -> (0 <= lc_udp lc <= 65535)%Z -> (1 <= lc_tcp lc <= 65535)%Z ->
  lrn_ok (x_learned x) ->
  process_message e (cn_peer cn) (cn_peer_port cn) (cn_from cn) (cn_received_support cn) (Some (cn_id cn)) m x
    = Ok x' ->
  x_outs x' = x_outs x ++ pre ->
  forall vis, judge_C06_event pc stj (EvTcpData cid data) (map B13.labelled (filter vis pre)) closed = 0%nat.
Proof.
  intros pc stj cid li lc cn data closed jin m rest e x x' pre
         N He Hlc Hbe HC HMk HFr J P AG NB HV Dom TD RD Hsrc Hbr Ha Hu Ht HLn EP EO vis.
  rewrite (judge_C06_tcp_verdict pc stj cid li _ _ data _ closed HC HMk). rewrite HFr in EP.
  refine (C06_judge_bridge_msg_g pc stj (jin_tcp li cid (cn_peer cn) (cn_peer_port cn) data) lc jin m rest N J P HV
            e _ _ x x' pre He Hlc Hbe Hsrc Hbr Ha Hu _ HLn EO
            (C07_bridge.ji_dialled_accepted stj cid li _ _ data HC HMk) (fun _ => HMk) AG NB EP Dom TD RD (proj1 Ht) vis).
  clear - Ht. lia.
Qed.

(* The same for one step of the whole proxy, as the run judges it: the branch handed to the
   step is the stand-in the judge expects; [cn] is the record the model finds for the connection; a
   closed connection yields no output (the judge accepts the empty list). *)
Theorem C06_judge_bridge_tcp_step :
  forall pc stj fx now br st st' outs cid li lc cn data closed jin m rest,
  nth_opt (c_listens (pc_cfg pc)) li = Some lc ->
  find (fun y => Nat.eqb (cn_id y) cid) (st_conns st) = Some cn ->
  find (fun y => Nat.eqb (fst y) cid) (js_conns stj) = Some (cid, (li, cn_peer cn, cn_peer_port cn)) ->
  (li < dial_mark)%nat ->
  cn_li cn = li ->
  cn_from cn = {| t_kind := KTcpListen; t_addr := lc_addr lc; t_port := lc_tcp lc |} ->
  j_read data = Some jin -> parse_message data = Ok (m, rest) -> trim_left rest = [] ->
  br = branch_of (js_event stj) ->
  agree_learned (pc_cfg pc) (js_learned stj) (st_learned st) ->
  (forall p, nth_p (st_proxies st) li = Some p -> amem (cn_peer cn) (ps_backends p) = false) ->
  B7.via_domain m -> B13.route_domain_in (B13.RS m) -> to_domain m -> ruri_domain jin ->
  B7.src_ok (cn_peer cn) -> B7.branch_ok br ->
  safe1 (lc_addr lc) = true -> (0 <= lc_udp lc <= 65535)%Z -> (1 <= lc_tcp lc <= 65535)%Z ->
  lrn_ok (st_learned st) ->
  proxy_step fx (pc_cfg pc) now br st (EvTcpData cid data) = Ok (st', outs) ->
  forall vis, judge_C06_event pc stj (EvTcpData cid data) (map B13.labelled (filter vis outs)) closed = 0%nat.
Proof.
  intros pc stj fx now br st st' outs cid li lc cn data closed jin m rest
         N HF HC HMk HLi HFr J P HT Hbe AG NB HV Dom TD RD Hsrc Hbr Ha Hu Ht HLn H vis.
  apply proxy_step_tcp_inv in H.
  destruct H as [(_ & ->)|(cn' & lc' & p & x' & F' & _ & _ & N' & NP & TM & _ & ->)]; [apply judge_C06_nil|].
  rewrite HF in F'. injection F' as <-. subst li. rewrite N in N'. injection N' as <-.
  rewrite (tcp_messages_single _ cn data _ m rest P HT) in TM.
  exact (C06_judge_bridge_tcp_msg pc stj cid (cn_li cn) lc cn data closed jin m rest
           (listener_env fx (pc_cfg pc) now br (cn_li cn) lc) (start_ctx st p) x' (x_outs x')
           N eq_refl eq_refl Hbe HC HMk HFr J P AG (NB p NP) HV Dom TD RD Hsrc Hbr Ha Hu Ht HLn TM eq_refl vis).
Qed.

(* THE AGREEMENT IS KEPT by a TCP chunk: the judge's bookkeeping after the event (js_step_c: j_learn with
   (li, true)) against the model's learned table after the step (learn with the KTcpListen transport). *)

Theorem C06_agree_tcp_step :
  forall pc stj fx now br st st' outs cid li lc cn data jin m rest outs' closed,
  nth_opt (c_listens (pc_cfg pc)) li = Some lc ->
  find (fun y => Nat.eqb (cn_id y) cid) (st_conns st) = Some cn ->
  find (fun y => Nat.eqb (fst y) cid) (js_conns stj) = Some (cid, (li, cn_peer cn, cn_peer_port cn)) ->
  (li < dial_mark)%nat ->
  cn_li cn = li -> cn_open cn = true ->
  cn_from cn = {| t_kind := KTcpListen; t_addr := lc_addr lc; t_port := lc_tcp lc |} ->
  j_read data = Some jin -> parse_message data = Ok (m, rest) -> trim_left rest = [] ->
  agree_learned (pc_cfg pc) (js_learned stj) (st_learned st) ->
  (exists p, nth_p (st_proxies st) li = Some p /\ amem (cn_peer cn) (ps_backends p) = false) ->
  B7.via_domain m ->
  proxy_step fx (pc_cfg pc) now br st (EvTcpData cid data) = Ok (st', outs) ->
  agree_learned (pc_cfg pc) (js_learned (js_step_c stj (EvTcpData cid data) outs' closed)) (st_learned st').
Proof.
  intros pc stj fx now br st st' outs cid li lc cn data jin m rest outs' closed
         N HF HC HMk HLi HO HFr J P HT AG (p & NP & NB) HV H. subst li.
  rewrite (js_learned_step stj _ _ jin outs' closed (C07_bridge.j_input_accepted stj cid _ _ _ data HC HMk) J).
  destruct (proxy_step_tcp_single _ _ _ _ _ _ _ _ _ _ _ _ _ _ HF HO N NP P HT H) as (x' & PM & -> & _).
  rewrite HFr in PM.
  exact (agree_msg_g pc stj (jin_tcp (cn_li cn) cid (cn_peer cn) (cn_peer_port cn) data) lc jin m rest N J P HV _ _ _
           (start_ctx st p) x' (C07_bridge.ji_dialled_accepted stj cid _ _ _ data HC HMk) (fun _ => HMk) AG NB PM).
Qed.

(* the readability invariant of the learned table is kept as well (any chunk: whatever it holds, everything
   learned from it is learned with cn_from; a decode error closes the connection, the table is untouched) *)
Theorem C06_lrn_ok_tcp_step :
  forall fx c now br st st' outs cid lc cn data,
  find (fun y => Nat.eqb (cn_id y) cid) (st_conns st) = Some cn ->
  cn_from cn = {| t_kind := KTcpListen; t_addr := lc_addr lc; t_port := lc_tcp lc |} ->
  safe1 (lc_addr lc) = true -> (1 <= lc_tcp lc <= 65535)%Z ->
  lrn_ok (st_learned st) ->
  proxy_step fx c now br st (EvTcpData cid data) = Ok (st', outs) -> lrn_ok (st_learned st').
Proof.
  intros fx c now br st st' outs cid lc cn data HF HFr Ha Ht HL H. apply proxy_step_tcp_inv in H.
  destruct H as [(-> & _)|(cn' & lc' & p & x' & F' & _ & _ & _ & _ & TM & -> & _)]; [exact HL|].
  rewrite HF in F'. injection F' as <-.
  refine (tcp_messages_inv (fun x => lrn_ok (x_learned x)) _ cn _ (fun x Ix => Ix) _ _ (start_ctx st p) x' HL TM).
  intros m x y Ix PM. rewrite HFr in PM. exact (lrn_ok_msg _ _ _ (tcp_transport lc) _ _ _ x y Ha Ht Ix PM).
Qed.

(* what EvTcpAccept records in the model state: the connection record the hypotheses of the step theorems
   talk about (nothing is learned, nothing is emitted); the judge's bookkeeping [js_step] files
   (js_next_conn, (li, src, sport)) for the same event *)
Definition accepted_conn (fx : fixes) (st : state) (li : nat) (lc : listen_cfg) (src : bytes) (sport : Z) : conn :=
  {| cn_id := w_next_conn (st_world st); cn_li := li; cn_open := true; cn_peer := src; cn_peer_port := sport;
     cn_from := {| t_kind := KTcpListen; t_addr := lc_addr lc; t_port := lc_tcp lc |};
     cn_received_support := item_rs_of (fx_wiring fx) lc |}.

Lemma C06_tcp_accept_records fx c now br st li src sport lc p :
  nth_opt (c_listens c) li = Some lc -> nth_p (st_proxies st) li = Some p ->
  exists st', proxy_step fx c now br st (EvTcpAccept li src sport) = Ok (st', []) /\
              st_learned st' = st_learned st /\
              st_conns st' = st_conns st ++ [accepted_conn fx st li lc src sport].
Proof.
  intros EL EP. cbn [proxy_step]. rewrite EL, EP. cbv zeta.
  destruct (get_transport _ _ _ _ _ _) as [p1 rk].
  eexists. split; [reflexivity|]. cbn [st_learned st_conns]. split; reflexivity.
Qed.

Lemma js_step_accept_records stj li src sport outs :
  js_conns (js_step stj (EvTcpAccept li src sport) outs) =
  (js_conns stj ++ [(js_next_conn stj, (li, src, sport))]) ++ dialled O outs /\
  js_learned (js_step stj (EvTcpAccept li src sport) outs) = js_learned stj.
Proof. split; reflexivity. Qed.

(* The configuration of the example of C06_bridge.v (C01.ex_cfg) with a listener whose TCP port (5062) differs
   from its UDP port (5060) and must-record-route OFF.  A peer 10.0.0.9 connects (EvTcpAccept), then sends on
   the connection a request with two Via entries, one Record-Route entry and a Route set whose first entry
   names the listener's address and its TCP port (own: popped) and whose second entry is 10.0.0.9:5070: the
   next hop is the sender itself, LEARNED FROM THIS VERY REQUEST THROUGH THE TCP LISTENER.  The proxy puts
   "SIP/2.0/TCP 10.0.0.1:5062" on top and "<sip:10.0.0.1:5062;lr>" in front of the received Record-Route. *)
Module C06_bridge_tcp_example.
Import C06_bridge_example.

Definition t6_lc : listen_cfg :=
  {| lc_addr := s2b "10.0.0.1"; lc_udp := 5060; lc_tcp := 5062; lc_backends := [s2b "10.0.0.2:5080"];
     lc_dynamic := false; lc_no_received := false; lc_def_route := false; lc_must_rr := false |}.
Definition t6_cfg : cfg :=
  {| c_name := c_name C01.ex_cfg; c_keep_next_hop := false; c_dialog_timeout := 3600;
     c_routes := c_routes C01.ex_cfg; c_hosts := []; c_listens := [t6_lc] |}.
Definition t6_pc : proxy_case :=
  {| pc_cfg := t6_cfg; pc_tcp_listeners := [(s2b "10.0.0.7", 5080%Z)];
     pc_udp_endpoints := [(s2b "10.0.0.9", 5070%Z)]; pc_events := []; pc_waits := [] |}.
Definition t6_st0 : state := init_state t6_cfg 0 [(s2b "10.0.0.7", 5080%Z)].
Definition t6_accept : event := EvTcpAccept 0 (s2b "10.0.0.9") 40000%Z.
(* model state and judge bookkeeping after the accept *)
Definition t6_st1 : state :=
  match proxy_step all_fixed t6_cfg 500 (branch_of 0) t6_st0 t6_accept with Ok (s, _) => s | _ => t6_st0 end.
Definition t6_js1 : jstate := js_step_c (js_init t6_cfg) t6_accept [] [].
Definition t6_routes : list a_relem :=
  [B13.b13_elem "" "10.0.0.1" (Some 5062%Z); B13.b13_elem "" "10.0.0.9" (Some 5070%Z)].
Definition t6_req : bytes :=
  s2b "INVITE sip:bob@elsewhere.example SIP/2.0" ++ crlf ++
  s2b "Route: <sip:10.0.0.1:5062;lr>,<sip:10.0.0.9:5070;lr>" ++ crlf ++
  s2b "Via: SIP/2.0/TCP 10.0.0.9:5070;branch=z9hG4bKabc;rport" ++ crlf ++
  s2b "Via: SIP/2.0/UDP 10.0.0.8:5071;branch=z9hG4bK0" ++ crlf ++
  s2b "Record-Route: <sip:10.0.0.8:5071;lr>" ++ crlf ++
  s2b "From: <sip:alice@a.example.com>;tag=1" ++ crlf ++
  s2b "To: <sip:svc@example.com>" ++ crlf ++
  s2b "Call-ID: call-1@host" ++ crlf ++
  s2b "CSeq: 7 INVITE" ++ crlf ++
  s2b "Content-Length: 3" ++ crlf ++ crlf ++ s2b "abc" ++ crlf.
Definition t6_ev : event := EvTcpData 0 t6_req.
Definition t6_run : res (state * list output) :=
  proxy_step all_fixed (pc_cfg t6_pc) 1000 (branch_of 1) t6_st1 t6_ev.
Definition t6_st2 : state := match t6_run with Ok (s, _) => s | _ => t6_st1 end.
Definition t6_outs : list output := match t6_run with Ok (_, o) => o | _ => [] end.
Definition t6_jin : jmsg :=
  match j_read t6_req with Some j => j | None => Build_jmsg [] [] [] [] false 0 None end.
(* the model's record of the connection: the one the step theorems describe *)
Definition t6_cn : conn := accepted_conn all_fixed t6_st0 0 t6_lc (s2b "10.0.0.9") 40000%Z.
Definition t6_p : pstate :=
  match nth_p (st_proxies t6_st1) 0 with Some p => p | None => init_pstate t6_cfg 0 t6_lc end.

Example t6_accept_ok : proxy_step all_fixed t6_cfg 500 (branch_of 0) t6_st0 t6_accept = Ok (t6_st1, []).
Proof. vm_compute. reflexivity. Qed.
Example t6_accept_records : st_conns t6_st1 = st_conns t6_st0 ++ [t6_cn].
Proof. vm_compute. reflexivity. Qed.
Example t6_run_ok : t6_run = Ok (t6_st2, t6_outs).
Proof. unfold t6_st2, t6_outs. apply ok_pair_eta. vm_compute. reflexivity. Qed.
(* the same, spelled as the step theorems mention it: handing [t6_run_ok] to them would leave the kernel to find
   out that [t6_run] is that step, which it does by running both *)
Lemma t6_step_ok :
  proxy_step all_fixed (pc_cfg t6_pc) 1000 (branch_of 1) t6_st1 (EvTcpData 0 t6_req) = Ok (t6_st2, t6_outs).
Proof. rewrite <- t6_run_ok. unfold t6_run, t6_ev. reflexivity. Qed.

(* the hypotheses of C06_judge_bridge_tcp_step hold *)
Example t6_hyp_listener : nth_opt (c_listens (pc_cfg t6_pc)) 0 = Some t6_lc.
Proof. reflexivity. Qed.
Example t6_hyp_model_conn : find (fun y => Nat.eqb (cn_id y) 0) (st_conns t6_st1) = Some t6_cn.
Proof. vm_compute. reflexivity. Qed.
Example t6_hyp_judge_conn :
  find (fun y => Nat.eqb (fst y) 0) (js_conns t6_js1) = Some (0%nat, (0%nat, cn_peer t6_cn, cn_peer_port t6_cn)).
Proof. vm_compute. reflexivity. Qed.
Example t6_hyp_read : j_read t6_req = Some t6_jin.
Proof. vm_compute. reflexivity. Qed.
Example t6_hyp_single : (jm_has_cl t6_jin, single_message t6_jin, j_is_response t6_jin) = (true, true, false).
Proof. vm_compute. reflexivity. Qed.
Example t6_hyp_parse : parse_message t6_req = Ok (parsed t6_req, crlf).
Proof. vm_compute. reflexivity. Qed.
Example t6_hyp_rest : trim_left crlf = [].
Proof. vm_compute. reflexivity. Qed.
Example t6_hyp_two_vias_one_rr :
  (List.length (filter (fun h => is_via (h_name h)) (m_headers (parsed t6_req))),
   List.length (sel (s2b "Record-Route") (m_headers (parsed t6_req)))) = (2%nat, 1%nat).
Proof. vm_compute. reflexivity. Qed.
Example t6_learned_before : js_learned t6_js1 = [] /\ st_learned t6_st1 = [].
Proof. split; vm_compute; reflexivity. Qed.
Example t6_hyp_agree : agree_learned (pc_cfg t6_pc) (js_learned t6_js1) (st_learned t6_st1).
Proof. destruct t6_learned_before as [E1 E2]. unfold agree_learned. intros h. rewrite E1, E2. exact I. Qed.
Example t6_p_eq : nth_p (st_proxies t6_st1) 0 = Some t6_p.
Proof. vm_compute. reflexivity. Qed.
Example t6_p_nb : amem (cn_peer t6_cn) (ps_backends t6_p) = false.
Proof. vm_compute. reflexivity. Qed.
Example t6_hyp_nb : forall p, nth_p (st_proxies t6_st1) 0 = Some p -> amem (cn_peer t6_cn) (ps_backends p) = false.
Proof. intros p NP. rewrite t6_p_eq in NP. injection NP as <-. exact t6_p_nb. Qed.
Example t6_hyp_via : B7.via_domain (parsed t6_req).
Proof. apply B7.via_domain_b_sound. vm_compute. reflexivity. Qed.
Example t6_hyp_routes : B13.route_domain_in (B13.RS (parsed t6_req)).
Proof.
  assert (E : B13.RS (parsed t6_req) = [{| h_name := s2b "Route"; h_val := HRaw (rp_route t6_routes) |}])
    by (vm_compute; reflexivity).
  rewrite E. cbn [B13.route_domain_in]. split; [|exact I]. exists t6_routes.
  split; [discriminate|]. split; [vm_compute; reflexivity|]. split; [vm_compute; reflexivity|reflexivity].
Qed.
Example t6_hyp_to : to_domain (parsed t6_req).
Proof.
  intros h GT. vm_compute in GT. injection GT as <-. exists ex_to. split; vm_compute; reflexivity.
Qed.
Example t6_hyp_ruri : ruri_domain t6_jin.
Proof.
  split; [vm_compute; reflexivity|].
  intros q Q. vm_compute in Q. injection Q as <-. exists ex_ruri. split; vm_compute; reflexivity.
Qed.
Example t6_hyp_lrn : lrn_ok (st_learned t6_st1).
Proof. destruct t6_learned_before as [_ E2]. rewrite E2. intros h t A. discriminate A. Qed.

(* every hypothesis of the step theorem holds of the run: the judge accepts, by the theorem *)
Example C06_bridge_tcp_ex :
  forall vis, judge_C06_event t6_pc t6_js1 t6_ev (map B13.labelled (filter vis t6_outs)) [] = 0%nat.
Proof.
  refine (C06_judge_bridge_tcp_step t6_pc t6_js1 all_fixed 1000%Z (branch_of 1) t6_st1 t6_st2 t6_outs
            0%nat 0%nat t6_lc t6_cn t6_req [] t6_jin (parsed t6_req) crlf
            t6_hyp_listener t6_hyp_model_conn t6_hyp_judge_conn C07_bridge.zero_below_mark eq_refl eq_refl t6_hyp_read t6_hyp_parse t6_hyp_rest
            _ t6_hyp_agree t6_hyp_nb t6_hyp_via t6_hyp_routes t6_hyp_to t6_hyp_ruri _ _ _ _ _ t6_hyp_lrn t6_step_ok).
  - vm_compute. reflexivity.
  - split; vm_compute; reflexivity.
  - split; vm_compute; reflexivity.
  - vm_compute. reflexivity.
  - unfold t6_lc. cbn [lc_udp]. lia.
  - unfold t6_lc. cbn [lc_tcp]. lia.
Qed.
(* ... and the verdict computed directly *)
Example C06_bridge_tcp_ex_computed : judge_C06_event t6_pc t6_js1 t6_ev (map B13.labelled t6_outs) [] = 0%nat.
Proof. vm_compute. reflexivity. Qed.

(* what leaves the proxy: one datagram to the learned next hop; own Via of the TCP listener on top of the two
   received entries; own Record-Route (TCP port) ahead of the received one; only the own Route entry and the
   next hop were consumed *)
Example t6_out_labels : map (fun o => fst (B13.labelled o)) t6_outs = [s2b "udp:10.0.0.9:5070"].
Proof. vm_compute. reflexivity. Qed.
Example t6_out_via :
  map (fun o => option_map (fun om => map (fun e => option_map (fun v => (jv_transport v, jv_host v, jv_port v)) (j_via e))
                                          (j_flat_via (jm_headers om)))
                           (j_read (snd o))) t6_outs
  = [Some [Some (s2b "TCP", s2b "10.0.0.1", Some 5062%Z); Some (s2b "TCP", s2b "10.0.0.9", Some 5070%Z);
           Some (s2b "UDP", s2b "10.0.0.8", Some 5071%Z)]].
Proof. vm_compute. reflexivity. Qed.
Example t6_out_rr :
  map (fun o => option_map (fun om => j_flat is_rr (jm_headers om)) (j_read (snd o))) t6_outs
  = [Some [s2b "<sip:10.0.0.1:5062;lr>"; s2b "<sip:10.0.0.8:5071;lr>"]].
Proof. vm_compute. reflexivity. Qed.

(* the message-level theorem on the same instance *)
Definition t6_e : env := mk_env all_fixed t6_cfg (item_rs_of true) 0 t6_lc 1000 (branch_of 1).
Definition t6_x : ctx :=
  {| x_learned := st_learned t6_st1; x_p := t6_p; x_conns := st_conns t6_st1; x_world := st_world t6_st1;
     x_outs := [] |}.
Definition t6_x' : ctx :=
  match process_message t6_e (cn_peer t6_cn) (cn_peer_port t6_cn) (cn_from t6_cn) (cn_received_support t6_cn)
                        (Some (cn_id t6_cn)) (parsed t6_req) t6_x
  with Ok y => y | _ => t6_x end.
Example t6_msg_ok :
  process_message t6_e (cn_peer t6_cn) (cn_peer_port t6_cn) (cn_from t6_cn) (cn_received_support t6_cn)
                  (Some (cn_id t6_cn)) (parsed t6_req) t6_x = Ok t6_x' /\ x_outs t6_x' = t6_outs.
Proof. split; [unfold t6_x'; apply ok_eta|]; vm_compute; reflexivity. Qed.
Example C06_bridge_tcp_msg_ex :
  forall vis, judge_C06_event t6_pc t6_js1 t6_ev (map B13.labelled (filter vis (x_outs t6_x'))) [] = 0%nat.
Proof.
  refine (C06_judge_bridge_tcp_msg t6_pc t6_js1 0%nat 0%nat t6_lc t6_cn t6_req [] t6_jin (parsed t6_req) crlf
            t6_e t6_x t6_x' (x_outs t6_x')
            t6_hyp_listener eq_refl eq_refl _ t6_hyp_judge_conn C07_bridge.zero_below_mark eq_refl t6_hyp_read t6_hyp_parse
            t6_hyp_agree t6_p_nb t6_hyp_via t6_hyp_routes t6_hyp_to t6_hyp_ruri _ _ _ _ _ t6_hyp_lrn
            (proj1 t6_msg_ok) eq_refl).
  - vm_compute. reflexivity.
  - split; vm_compute; reflexivity.
  - split; vm_compute; reflexivity.
  - vm_compute. reflexivity.
  - unfold t6_lc. cbn [lc_udp]. lia.
  - unfold t6_lc. cbn [lc_tcp]. lia.
Qed.

(* the agreement of the learned tables after the event, by the theorem; the sender was learned with the TCP
   listener on both sides *)
Example C06_agree_tcp_ex :
  agree_learned (pc_cfg t6_pc) (js_learned (js_step_c t6_js1 t6_ev [] [])) (st_learned t6_st2) /\
  alookup (s2b "10.0.0.9") (st_learned t6_st2) = Some (tcp_transport t6_lc) /\
  alookup (s2b "10.0.0.9") (js_learned (js_step_c t6_js1 t6_ev [] [])) = Some (0%nat, true) /\
  lrn_ok (st_learned t6_st2).
Proof.
  split; [|split; [vm_compute; reflexivity|split; [vm_compute; reflexivity|]]].
  - exact (C06_agree_tcp_step t6_pc t6_js1 all_fixed 1000%Z (branch_of 1) t6_st1 t6_st2 t6_outs 0%nat 0%nat
             t6_lc t6_cn t6_req t6_jin (parsed t6_req) crlf [] []
             t6_hyp_listener t6_hyp_model_conn t6_hyp_judge_conn C07_bridge.zero_below_mark eq_refl eq_refl eq_refl t6_hyp_read t6_hyp_parse
             t6_hyp_rest t6_hyp_agree (ex_intro _ t6_p (conj t6_p_eq t6_p_nb)) t6_hyp_via t6_step_ok).
  - refine (C06_lrn_ok_tcp_step all_fixed (pc_cfg t6_pc) 1000%Z (branch_of 1) t6_st1 t6_st2 t6_outs 0%nat t6_lc
              t6_cn t6_req t6_hyp_model_conn eq_refl _ _ t6_hyp_lrn t6_step_ok).
    + vm_compute. reflexivity.
    + unfold t6_lc. cbn [lc_tcp]. lia.
Qed.

(* SENSITIVITY.  The judge does look: the same request relayed as it came (no own Via) is rejected: reason 1 *)
Example C06_bridge_tcp_ex_sensitive :
  judge_C06_event t6_pc t6_js1 t6_ev [(s2b "udp:10.0.0.9:5070", t6_req)] [] = 1%nat.
Proof. vm_compute. reflexivity. Qed.
(* the identity the judge expects is the one of the TCP listener: the model's (correct) output judged as if the
   request had come in a datagram (own entry = UDP port, nothing learned for the then next hop) is rejected *)
Example C06_bridge_tcp_ex_sensitive_udp :
  judge_C06_event t6_pc t6_js1 (EvUdp 0 (s2b "10.0.0.9") 40000%Z t6_req) (map B13.labelled t6_outs) [] = 1%nat.
Proof. vm_compute. reflexivity. Qed.
(* ... and what the model emits for that datagram (another hop: the first Route entry is not own over UDP)
   is rejected by the judge of the TCP event *)
Definition t6u_outs : list output :=
  match proxy_step all_fixed (pc_cfg t6_pc) 1000 (branch_of 1) t6_st1 (EvUdp 0 (s2b "10.0.0.9") 40000%Z t6_req)
  with Ok (_, o) => o | _ => [] end.
Example C06_bridge_tcp_ex_sensitive_model_udp :
  (List.length t6u_outs = 1)%nat /\
  judge_C06_event t6_pc t6_js1 (EvUdp 0 (s2b "10.0.0.9") 40000%Z t6_req) (map B13.labelled t6u_outs) [] = 0%nat /\
  judge_C06_event t6_pc t6_js1 t6_ev (map B13.labelled t6u_outs) [] <> 0%nat.
Proof. pattern t6u_outs. vm_compute. split; [reflexivity|split; [reflexivity|discriminate]]. Qed.
(* without the judge's record of the connection there is no verdict (the hypothesis on js_conns is not idle) *)
Example C06_bridge_tcp_ex_unknown_conn :
  judge_C06_event t6_pc (js_init t6_cfg) t6_ev [(s2b "udp:10.0.0.9:5070", t6_req)] [] = 0%nat.
Proof. vm_compute. reflexivity. Qed.
End C06_bridge_tcp_example.

(* A judge that does not tell dialled from accepted connections raises a false alarm (reason 1) here.
   Listener 10.0.0.1 (UDP 5060, TCP 5062) of the example above; the peer 10.0.0.7:5090 accepts connections.
     event 0  a datagram from 10.0.0.9:5070, Route: <sip:10.0.0.7:5090;transport=tcp;lr>: the proxy DIALS
              10.0.0.7:5090 (connection 0) and writes the request on it (10.0.0.7 not learned: no own Via);
     event 1  the peer sends a request of its own ON THAT CONNECTION (Route: 10.0.0.9:5070): its address
              10.0.0.7 is learned with the connection's own transport (KTcpConn, listener address, port 0);
              the request is relayed to 10.0.0.9:5070 with the UDP listener on top (10.0.0.9: learned at event 0);
     event 2  a second datagram routed to 10.0.0.7:5090;transport=tcp: written on connection 0 with the own Via
              "SIP/2.0/TCP 10.0.0.1" and the own Record-Route "<sip:10.0.0.1;lr>", both WITHOUT a port.
   The judge (its bookkeeping stepped by js_step_c through the events, fed with what the run shows) answers 0
   on the three events; it answers 1 when the own Via of event 2 carries the listener's TCP port or another
   address, and 2 when the own Record-Route carries the TCP port. *)
Module C06_dialled_example.
Import C06_bridge_example C06_bridge_tcp_example.

Definition d6_peers : list (bytes * Z) := [(s2b "10.0.0.7", 5090%Z)].
Definition d6_pc : proxy_case :=
  {| pc_cfg := t6_cfg; pc_tcp_listeners := d6_peers;
     pc_udp_endpoints := [(s2b "10.0.0.9", 5070%Z)]; pc_events := []; pc_waits := [] |}.
Definition d6_st0 : state := init_state t6_cfg 0 d6_peers.
Definition d6_req (branch callid : string) : bytes :=
  s2b "INVITE sip:bob@elsewhere.example SIP/2.0" ++ crlf ++
  s2b "Route: <sip:10.0.0.7:5090;transport=tcp;lr>" ++ crlf ++
  s2b "Via: SIP/2.0/UDP 10.0.0.9:5070;branch=" ++ s2b branch ++ crlf ++
  s2b "Record-Route: <sip:10.0.0.8:5071;lr>" ++ crlf ++
  s2b "From: <sip:alice@a.example.com>;tag=1" ++ crlf ++
  s2b "To: <sip:svc@example.com>" ++ crlf ++
  s2b "Call-ID: " ++ s2b callid ++ crlf ++
  s2b "CSeq: 7 INVITE" ++ crlf ++
  s2b "Content-Length: 3" ++ crlf ++ crlf ++ s2b "abc".
(* what the peer sends back on the connection the proxy opened *)
Definition d6_back : bytes :=
  s2b "OPTIONS sip:alice@a.example.com SIP/2.0" ++ crlf ++
  s2b "Route: <sip:10.0.0.9:5070;lr>" ++ crlf ++
  s2b "Via: SIP/2.0/TCP 10.0.0.7:5090;branch=z9hG4bKpeer" ++ crlf ++
  s2b "From: <sip:peer@b.example.com>;tag=9" ++ crlf ++
  s2b "To: <sip:alice@a.example.com>" ++ crlf ++
  s2b "Call-ID: call-back@peer" ++ crlf ++
  s2b "CSeq: 1 OPTIONS" ++ crlf ++
  s2b "Content-Length: 0" ++ crlf ++ crlf.
Definition d6_ev0 : event := EvUdp 0 (s2b "10.0.0.9") 5070%Z (d6_req "z9hG4bKone" "call-1@host").
Definition d6_ev1 : event := EvTcpData 0 d6_back.
Definition d6_ev2 : event := EvUdp 0 (s2b "10.0.0.9") 5070%Z (d6_req "z9hG4bKtwo" "call-2@host").
(* the model, event after event (the branch handed to the step is the one the judge expects) *)
Definition d6_run (st : state) (n : nat) (ev : event) : state * list output :=
  match proxy_step all_fixed t6_cfg 1000 (branch_of n) st ev with Ok r => r | _ => (st, []) end.
Definition d6_st1 : state := fst (d6_run d6_st0 0 d6_ev0).
Definition d6_outs0 : list output := snd (d6_run d6_st0 0 d6_ev0).
Definition d6_st2 : state := fst (d6_run d6_st1 1 d6_ev1).
Definition d6_outs1 : list output := snd (d6_run d6_st1 1 d6_ev1).
Definition d6_st3 : state := fst (d6_run d6_st2 2 d6_ev2).
Definition d6_outs2 : list output := snd (d6_run d6_st2 2 d6_ev2).
(* the judge's bookkeeping, from the events and what the run shows (nothing closed) *)
Definition d6_js0 : jstate := js_init t6_cfg.
Definition d6_js1 : jstate := js_step_c d6_js0 d6_ev0 (map B13.labelled d6_outs0) [].
Definition d6_js2 : jstate := js_step_c d6_js1 d6_ev1 (map B13.labelled d6_outs1) [].

Example d6_steps_ok :
  proxy_step all_fixed t6_cfg 1000 (branch_of 0) d6_st0 d6_ev0 = Ok (d6_st1, d6_outs0) /\
  proxy_step all_fixed t6_cfg 1000 (branch_of 1) d6_st1 d6_ev1 = Ok (d6_st2, d6_outs1) /\
  proxy_step all_fixed t6_cfg 1000 (branch_of 2) d6_st2 d6_ev2 = Ok (d6_st3, d6_outs2).
Proof.
  assert (K : forall st n ev, is_ok (proxy_step all_fixed t6_cfg 1000 (branch_of n) st ev) = true ->
            proxy_step all_fixed t6_cfg 1000 (branch_of n) st ev = Ok (fst (d6_run st n ev), snd (d6_run st n ev))).
  { intros st n ev R. rewrite <- surjective_pairing. exact (ok_eta _ (st, []) R). }
  split; [|split]; apply K; vm_compute; reflexivity.
Qed.
(* event 0 dials and writes; event 1 relays to the datagram peer; event 2 writes on the open connection *)
Example d6_labels :
  map (fun o => fst (B13.labelled o)) d6_outs0 = [s2b "dial:10.0.0.7:5090"; s2b "conn:0"] /\
  map (fun o => fst (B13.labelled o)) d6_outs1 = [s2b "udp:10.0.0.9:5070"] /\
  map (fun o => fst (B13.labelled o)) d6_outs2 = [s2b "conn:0"].
Proof. split; [|split]; vm_compute; reflexivity. Qed.
(* the model's record of connection 0 is a dialled one and 10.0.0.7 is learned with ITS transport (port 0);
   the judge's bookkeeping says the same with the mark *)
Example d6_learned :
  alookup (s2b "10.0.0.7") (st_learned d6_st2) = Some {| t_kind := KTcpConn; t_addr := s2b "10.0.0.1"; t_port := 0 |} /\
  conn_dialled d6_js1 0 = true /\
  alookup (s2b "10.0.0.7") (js_learned d6_js2) = Some (dial_mark, true) /\
  jident_of t6_cfg dial_mark true = Some (s2b "TCP", s2b "10.0.0.1", 0%Z) /\
  agree_learned t6_cfg (js_learned d6_js2) (st_learned d6_st2).
Proof.
  assert (EJ : js_learned d6_js2 = [(s2b "10.0.0.9", (0%nat, false)); (s2b "10.0.0.7", (dial_mark, true))])
    by (vm_compute; reflexivity).
  assert (EM : st_learned d6_st2 = [(s2b "10.0.0.9", B13.udp_transport t6_lc);
                                    (s2b "10.0.0.7", {| t_kind := KTcpConn; t_addr := s2b "10.0.0.1"; t_port := 0 |})])
    by (vm_compute; reflexivity).
  rewrite EJ, EM. split; [reflexivity|]. split; [vm_compute; reflexivity|]. split; [reflexivity|].
  split; [vm_compute; reflexivity|].
  intros h. cbn [alookup].
  destruct (beq h (s2b "10.0.0.9")); [vm_compute; reflexivity|].
  destruct (beq h (s2b "10.0.0.7")); [vm_compute; reflexivity|exact I].
Qed.
(* what is written at event 2: the own Via and the own Record-Route entry carry NO port *)
Example d6_out_via :
  map (fun o => option_map (fun om => map (fun e => option_map (fun v => (jv_transport v, jv_host v, jv_port v)) (j_via e))
                                          (j_flat_via (jm_headers om)))
                           (j_read (snd o))) d6_outs2
  = [Some [Some (s2b "TCP", s2b "10.0.0.1", None); Some (s2b "UDP", s2b "10.0.0.9", Some 5070%Z)]].
Proof. vm_compute. reflexivity. Qed.
Example d6_out_rr :
  map (fun o => option_map (fun om => j_flat is_rr (jm_headers om)) (j_read (snd o))) d6_outs2
  = [Some [s2b "<sip:10.0.0.1;lr>"; s2b "<sip:10.0.0.8:5071;lr>"]].
Proof. vm_compute. reflexivity. Qed.

(* THE JUDGE ACCEPTS the three events (reason code 1 was the false alarm at event 2) *)
Example C06_dialled_ex :
  judge_C06_event d6_pc d6_js0 d6_ev0 (map B13.labelled d6_outs0) [] = 0%nat /\
  judge_C06_event d6_pc d6_js1 d6_ev1 (map B13.labelled d6_outs1) [] = 0%nat /\
  judge_C06_event d6_pc d6_js2 d6_ev2 (map B13.labelled d6_outs2) [] = 0%nat /\
  j_run judge_C06_event d6_pc d6_js0 [d6_ev0; d6_ev1; d6_ev2]
        [(map B13.labelled d6_outs0, []); (map B13.labelled d6_outs1, []); (map B13.labelled d6_outs2, [])] = None.
Proof. unfold d6_js2, d6_js1. pattern d6_outs0, d6_outs1, d6_outs2. vm_compute. repeat split. Qed.

(* SENSITIVITY: the first occurrence of [pat] in [s] replaced by [rep] *)
Fixpoint d6_subst (pat rep s : bytes) : bytes :=
  match s with
  | [] => []
  | c :: r => if has_prefix pat s then rep ++ skipn (List.length pat) s else c :: d6_subst pat rep r
  end.
Definition d6_edit (pat rep : string) : list (bytes * bytes) :=
  map (fun o => (fst (B13.labelled o), d6_subst (s2b pat) (s2b rep) (snd (B13.labelled o)))) d6_outs2.
(* the edits do change the bytes: the own Via / Record-Route texts are where the examples above show them *)
Example d6_edits_differ :
  map (fun p => forallb (fun '(a, b) => beq (snd a) (snd b)) (combine (d6_edit (fst p) (snd p)) (map B13.labelled d6_outs2)))
      [("SIP/2.0/TCP 10.0.0.1;", "SIP/2.0/TCP 10.0.0.1:5062;"); ("SIP/2.0/TCP 10.0.0.1;", "SIP/2.0/TCP 10.0.0.2;");
       ("<sip:10.0.0.1;lr>", "<sip:10.0.0.1:5062;lr>")]%string
  = [false; false; false].
Proof. unfold d6_edit. pattern d6_outs2. vm_compute. reflexivity. Qed.
(* own Via with the listener's TCP port (what a judge that does not tell dialled from accepted connections demands): rejected, reason 1; own Via with
   another address: reason 1; own Record-Route with the TCP port: reason 2 *)
Example C06_dialled_ex_sensitive :
  judge_C06_event d6_pc d6_js2 d6_ev2 (d6_edit "SIP/2.0/TCP 10.0.0.1;" "SIP/2.0/TCP 10.0.0.1:5062;") [] = 1%nat /\
  judge_C06_event d6_pc d6_js2 d6_ev2 (d6_edit "SIP/2.0/TCP 10.0.0.1;" "SIP/2.0/TCP 10.0.0.2;") [] = 1%nat /\
  judge_C06_event d6_pc d6_js2 d6_ev2 (d6_edit "<sip:10.0.0.1;lr>" "<sip:10.0.0.1:5062;lr>") [] = 2%nat.
Proof. unfold d6_edit. pattern d6_js2, d6_outs2. vm_compute. repeat split. Qed.
(* ... and the port-less form is accepted for hosts learned over a DIALLED connection only: the same output
   judged with a bookkeeping in which connection 0 is an accepted one (10.0.0.7 learned through the TCP
   listener: identity 10.0.0.1:5062) is rejected *)
Definition d6_js1_acc : jstate := js_step_c d6_js0 (EvTcpAccept 0 (s2b "10.0.0.7") 5090%Z) [] [].
Definition d6_js2_acc : jstate := js_step_c d6_js1_acc d6_ev1 (map B13.labelled d6_outs1) [].
Example C06_dialled_ex_only_dialled :
  conn_dialled d6_js1_acc 0 = false /\
  alookup (s2b "10.0.0.7") (js_learned d6_js2_acc) = Some (0%nat, true) /\
  judge_C06_event d6_pc d6_js2_acc d6_ev2 (map B13.labelled d6_outs2) [] = 1%nat.
Proof. unfold d6_js2_acc. pattern d6_outs1, d6_outs2. vm_compute. repeat split. Qed.
End C06_dialled_example.

Print Assumptions C06_judge_bridge_tcp_msg.
Print Assumptions C06_judge_bridge_tcp_step.
Print Assumptions C06_agree_tcp_step.
Print Assumptions C06_lrn_ok_tcp_step.
Print Assumptions C06_tcp_accept_records.
Print Assumptions C06_bridge_tcp_example.C06_bridge_tcp_ex.
Print Assumptions C06_bridge_tcp_example.C06_bridge_tcp_msg_ex.
Print Assumptions C06_bridge_tcp_example.C06_agree_tcp_ex.
Print Assumptions C06_dialled_example.C06_dialled_ex.
Print Assumptions C06_dialled_example.C06_dialled_ex_sensitive.
