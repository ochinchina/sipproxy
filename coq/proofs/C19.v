(* proofs/C19.v — DNS re-resolution: the rotation tracks the resolved address set; three
   consecutive failures are tolerated, the fourth empties the set.  For ALL outcome sequences.
   Main results: chp_inj, C19_tracks, C19_tolerates, C19_fourth_empties, C19_success_resets,
   C19_inv_step, C19_judged, resolver_run_obs.  No axioms, no admits. *)
From Coq Require Import List Ascii String ZArith Bool Arith Lia Permutation.
From Model Require Import Bytes BytesLemmas Wire RoundRobin Resolver SpecC19 Run.
From Model.proofs Require C05.
Import ListNotations.
Open Scope list_scope.

Lemma nodup_b_iff l : nodup_b l = true <-> NoDup l.
Proof. apply (nodup_mem_bytes nodup_b); reflexivity. Qed.

Lemma lbeq_eq a b : lbeq a b = true <-> a = b.
Proof.
  revert b. induction a as [|x a IH]; intros [|y b]; cbn [lbeq]; try (split; [discriminate|congruence]).
  - split; reflexivity.
  - rewrite andb_true_iff, beq_eq, IH. split; [intros [-> ->]; reflexivity|intros E; injection E; auto].
Qed.

Lemma lbeq_refl l : lbeq l l = true.
Proof. apply lbeq_eq. reflexivity. Qed.

Lemma subset_b_iff a b : subset_b a b = true <-> incl a b.
Proof.
  unfold subset_b, incl. rewrite forallb_forall.
  split; intros H x Hx; apply mem_bytes_In, H, Hx.
Qed.

Lemma is_nil_length l : is_nil l = Nat.eqb (List.length l) 0.
Proof. destruct l; reflexivity. Qed.

Lemma in_sub x a b : In x (str_array_sub a b) <-> In x a /\ ~ In x b.
Proof.
  unfold str_array_sub. rewrite filter_In, negb_true_iff, mem_bytes_notIn. tauto.
Qed.

Lemma in_dec_bytes (x : bytes) l : In x l \/ ~ In x l.
Proof.
  destruct (mem_bytes x l) eqn:E; [left; apply mem_bytes_In|right; apply mem_bytes_notIn]; exact E.
Qed.

(* what hostIPChanged makes of the old set: (old + (A - old)) - (old - A) = A, seen through an
   injective formatting [f] *)
Lemma sub_patch (f : bytes -> bytes) (A old : list bytes) x :
  (forall y z, f y = f z -> y = z) ->
  (In x (map f old) \/ In x (map f (str_array_sub A old))) /\ ~ In x (map f (str_array_sub old A))
  <-> In x (map f A).
Proof.
  intros Hinj. rewrite !in_map_iff. split.
  - intros [[(ip & <- & H)|(ip & <- & H)] Hn]; exists ip; (split; [reflexivity|]).
    + destruct (in_dec_bytes ip A) as [HA|HA]; [exact HA|].
      exfalso. apply Hn. exists ip. split; [reflexivity|]. apply in_sub. tauto.
    + apply in_sub in H. tauto.
  - intros (ip & <- & H). split.
    + destruct (in_dec_bytes ip old) as [Ho|Ho]; [left|right]; exists ip; (split; [reflexivity|]);
        [exact Ho|apply in_sub; tauto].
    + intros (ip' & E & H'). apply Hinj in E. subst ip'. apply in_sub in H'. tauto.
Qed.

Definition chp (port ip : bytes) : bytes := create_host_port ip port.

Lemma is_ipv6_in ip : is_ipv6 ip = true <-> In ":"%char ip.
Proof. apply contains_byte_in. Qed.

Lemma chp_mixed port ip ip' :
  is_ipv6 ip = true -> is_ipv6 ip' = false ->
  s2b "[" ++ ip ++ s2b "]:" ++ port <> ip' ++ ":"%char :: port.
Proof.
  intros E1 E2 H.
  assert (H' : ("["%char :: ip ++ ["]"%char]) ++ ":"%char :: port = ip' ++ ":"%char :: port).
  { rewrite <- H. cbn. rewrite <- app_assoc. reflexivity. }
  apply app_inv_tail in H'. subst ip'.
  apply is_ipv6_in in E1.
  assert (E3 : is_ipv6 ("["%char :: ip ++ ["]"%char]) = true).
  { apply is_ipv6_in. right. apply in_or_app. left. exact E1. }
  congruence.
Qed.

(* the two formats are distinguishable: brackets are used exactly when ip contains ':' *)
Theorem chp_inj port ip ip' :
  create_host_port ip port = create_host_port ip' port -> ip = ip'.
Proof.
  unfold create_host_port.
  destruct (is_ipv6 ip) eqn:E1; destruct (is_ipv6 ip') eqn:E2; intros H.
  - cbn in H. injection H as H. apply app_inv_tail in H. exact H.
  - exfalso. exact (chp_mixed port ip ip' E1 E2 H).
  - exfalso. symmetry in H. exact (chp_mixed port ip' ip E2 E1 H).
  - apply app_inv_tail in H. exact H.
Qed.

Lemma in_map_chp port ip l : In (chp port ip) (map (chp port) l) <-> In ip l.
Proof.
  split; [|apply in_map].
  intros H. apply in_map_iff in H. destruct H as (y & E & Hy).
  apply chp_inj in E. subst y. exact Hy.
Qed.

Lemma nodup_map_chp port l : NoDup l -> NoDup (map (chp port) l).
Proof. intros H. apply NoDup_map_inj_on; [exact H|]. intros x y _ _. apply chp_inj. Qed.

(* the pool is consistent: no repeated address in rotation, backendMap knows exactly the
   addresses in rotation (more than C05.rr_inv asks) *)
Definition pool_ok (s : rr) : Prop :=
  NoDup (rr_backends s) /\ (forall x, In x (rr_map s) <-> In x (rr_backends s)).

Lemma pool_ok_inv s : pool_ok s -> C05.rr_inv s.
Proof. intros [ND EQ]. split; [exact ND|]. intros x Hx. apply EQ. exact Hx. Qed.

Lemma pool_remove a s : pool_ok s -> In a (rr_backends s) ->
  snd (rr_remove a s) = true /\ pool_ok (fst (rr_remove a s)) /\
  forall x, In x (rr_backends (fst (rr_remove a s))) <-> In x (rr_backends s) /\ x <> a.
Proof.
  intros HP Ha. destruct (C05.rr_remove_spec a s (pool_ok_inv s HP)) as (Hb & Hm & ND' & ->).
  split; [apply mem_bytes_In; exact Ha|]. split; [|exact Hb].
  split; [exact ND'|]. intros x. rewrite Hb, Hm, (proj2 HP). reflexivity.
Qed.

Definition add_fun (port : bytes) := fun (s : rr) (ip : bytes) => rr_add (chp port ip) s.
Definition rm_fun (port : bytes) : rr * list rr_out -> bytes -> rr * list rr_out :=
  fun '(s, outs) ip => let '(s', c) := rr_remove (chp port ip) s in (s', outs ++ [ORemoved c]).

Lemma add_fold_backends port nw : forall s,
  rr_backends (fold_left (add_fun port) nw s) = rr_backends s ++ map (chp port) nw.
Proof.
  induction nw as [|a nw IH]; intros s; cbn [fold_left map].
  - rewrite app_nil_r. reflexivity.
  - rewrite IH. unfold add_fun at 1. cbn [rr_add rr_backends]. rewrite <- app_assoc. reflexivity.
Qed.

Lemma add_fold_map port nw : forall s x,
  In x (rr_map (fold_left (add_fun port) nw s)) <-> In x (rr_map s) \/ In x (map (chp port) nw).
Proof.
  induction nw as [|a nw IH]; intros s x; cbn [fold_left map In].
  - tauto.
  - rewrite IH. unfold add_fun at 1. rewrite C05.rr_add_map_in. intuition congruence.
Qed.

Lemma remove_fold port rm : forall s outs,
  pool_ok s -> NoDup (map (chp port) rm) -> incl (map (chp port) rm) (rr_backends s) ->
  snd (fold_left (rm_fun port) rm (s, outs)) = outs ++ repeat (ORemoved true) (List.length rm) /\
  pool_ok (fst (fold_left (rm_fun port) rm (s, outs))) /\
  forall x, In x (rr_backends (fst (fold_left (rm_fun port) rm (s, outs)))) <->
            In x (rr_backends s) /\ ~ In x (map (chp port) rm).
Proof.
  induction rm as [|a rm IH]; intros s outs HP NDr HIn; cbn [fold_left map List.length repeat fst snd].
  - rewrite app_nil_r. split; [reflexivity|]. split; [exact HP|]. cbn [In]. tauto.
  - cbn [map] in NDr, HIn. apply NoDup_cons_iff in NDr. destruct NDr as [Hna NDr].
    destruct (pool_remove (chp port a) s HP (HIn _ (or_introl eq_refl))) as (Hc & HP1 & Hb1).
    unfold rm_fun at 2 4 6. rewrite (surjective_pairing (rr_remove (chp port a) s)), Hc.
    destruct (IH (fst (rr_remove (chp port a) s)) (outs ++ [ORemoved true]) HP1 NDr) as (Ho & HP' & Hb').
    { intros y Hy. apply Hb1. split; [apply HIn; right; exact Hy|]. intros ->. exact (Hna Hy). }
    split; [rewrite Ho, <- app_assoc; reflexivity|]. split; [exact HP'|].
    intros x. rewrite Hb', Hb1. cbn [In]. intuition congruence.
Qed.

(* hostIPChanged on a consistent pool: new addresses not yet in rotation, vanished ones in it *)
Lemma hic_spec port nw rm s :
  pool_ok s ->
  NoDup nw -> (forall ip, In ip nw -> ~ In (chp port ip) (rr_backends s)) ->
  NoDup rm -> (forall ip, In ip rm -> In (chp port ip) (rr_backends s)) ->
  snd (host_ip_changed port nw rm s) = repeat (ORemoved true) (List.length rm) /\
  pool_ok (fst (host_ip_changed port nw rm s)) /\
  forall x, In x (rr_backends (fst (host_ip_changed port nw rm s))) <->
            (In x (rr_backends s) \/ In x (map (chp port) nw)) /\ ~ In x (map (chp port) rm).
Proof.
  intros [ND EQ] NDn Hn NDr Hr.
  change (host_ip_changed port nw rm s)
    with (fold_left (rm_fun port) rm (fold_left (add_fun port) nw s, [])).
  set (s1 := fold_left (add_fun port) nw s).
  assert (B1 : rr_backends s1 = rr_backends s ++ map (chp port) nw) by apply add_fold_backends.
  destruct (remove_fold port rm s1 []) as (Ho & HP' & Hb').
  - split.
    + rewrite B1. apply NoDup_app_iff. split; [exact ND|]. split; [apply nodup_map_chp; exact NDn|].
      intros x Hx H. apply in_map_iff in H. destruct H as (ip & <- & Hip). exact (Hn ip Hip Hx).
    + intros x. unfold s1. rewrite add_fold_map. fold s1. rewrite B1, in_app_iff, EQ. reflexivity.
  - apply nodup_map_chp. exact NDr.
  - intros y Hy. apply in_map_iff in Hy. destruct Hy as (ip & <- & Hip).
    rewrite B1. apply in_or_app. left. apply Hr. exact Hip.
  - split; [exact Ho|]. split; [exact HP'|]. intros x. rewrite Hb', B1, in_app_iff. reflexivity.
Qed.

(* [e] the host-name entry, [s] the pool: rotation duplicate-free and (up to order) exactly the
   formatted resolved addresses; backendMap (recognised source addresses) has the same elements *)
Definition Inv (port : bytes) (st : rentry * rr) : Prop :=
  NoDup (re_addrs (fst st)) /\
  NoDup (rr_backends (snd st)) /\
  Permutation (rr_backends (snd st)) (map (fun ip => create_host_port ip port) (re_addrs (fst st))) /\
  (forall x, In x (rr_map (snd st)) <-> In x (rr_backends (snd st))).

Lemma Inv_init port : Inv port (rentry_init, rr_init).
Proof.
  unfold Inv. cbn. repeat split; try constructor; tauto.
Qed.

Definition removed_true (x : rr_out) : bool := match x with ORemoved true => true | _ => false end.
Definition removed_count (outs : list rr_out) : nat := List.length (filter removed_true outs).

Lemma removed_count_repeat n : removed_count (repeat (ORemoved true) n) = n.
Proof. unfold removed_count. induction n as [|n IH]; cbn; [reflexivity|]. rewrite IH. reflexivity. Qed.

(* a successful resolution always goes through hostIPChanged (a no-op when nothing changed) *)
Lemma step_ok_unfold port e s A :
  resolver_step port (e, s) (ROk A) =
  let '(s', outs) := host_ip_changed port (str_array_sub A (re_addrs e))
                                     (str_array_sub (re_addrs e) A) s in
  (({| re_addrs := A; re_failed := 0 |}, s'), outs).
Proof.
  unfold resolver_step, address_resolved.
  destruct (str_array_sub A (re_addrs e)) as [|n1 nw];
    destruct (str_array_sub (re_addrs e) A) as [|r1 rm]; reflexivity.
Qed.

Lemma step_fail_unfold port e s :
  resolver_step port (e, s) RFail =
  if (Nat.ltb 3 (S (re_failed e)) && negb (Nat.eqb (List.length (re_addrs e)) 0))%bool
  then let '(s', outs) := host_ip_changed port [] (re_addrs e) s in
       (({| re_addrs := []; re_failed := 0 |}, s'), outs)
  else (({| re_addrs := re_addrs e; re_failed := S (re_failed e) |}, s), []).
Proof.
  unfold resolver_step, address_resolved.
  destruct (Nat.ltb 3 (S (re_failed e)) && negb (Nat.eqb (List.length (re_addrs e)) 0))%bool; reflexivity.
Qed.

Lemma fail_test e :
  (Nat.ltb 3 (S (re_failed e)) && negb (Nat.eqb (List.length (re_addrs e)) 0))%bool = true
  <-> 3 <= re_failed e /\ re_addrs e <> [].
Proof.
  rewrite andb_true_iff, negb_true_iff, Nat.ltb_lt, Nat.eqb_neq.
  destruct (re_addrs e); cbn [List.length]; split; intros [H1 H2]; (split; [lia|congruence]).
Qed.

(* After a successful resolution to a duplicate-free A the invariant holds again with
   re_addrs = A, i.e. the rotation is exactly (a permutation of) the formatted resolved
   addresses; one ORemoved true (backend closed) per vanished address and nothing else is
   emitted; vanished addresses are gone from rotation and backendMap, all resolved ones are in
   both; the failure counter is reset. *)
Theorem C19_tracks port e s A e' s' outs :
  Inv port (e, s) -> NoDup A ->
  resolver_step port (e, s) (ROk A) = ((e', s'), outs) ->
  Inv port (e', s') /\
  re_addrs e' = A /\ re_failed e' = 0 /\
  NoDup (rr_backends s') /\
  Permutation (rr_backends s') (map (fun ip => create_host_port ip port) A) /\
  outs = repeat (ORemoved true) (List.length (str_array_sub (re_addrs e) A)) /\
  (forall ip, In ip (re_addrs e) -> ~ In ip A ->
     ~ In (create_host_port ip port) (rr_backends s') /\ ~ In (create_host_port ip port) (rr_map s')) /\
  (forall ip, In ip A ->
     In (create_host_port ip port) (rr_backends s') /\ In (create_host_port ip port) (rr_map s')).
Proof.
  intros (NDa & NDb & P & EQ) NDA Hstep. cbn [fst snd] in *.
  rewrite step_ok_unfold in Hstep.
  change (map (fun ip => create_host_port ip port) (re_addrs e)) with (map (chp port) (re_addrs e)) in P.
  assert (Hbk : forall x, In x (rr_backends s) <-> In x (map (chp port) (re_addrs e))).
  { intros x. split; apply Permutation_in; [exact P|apply Permutation_sym; exact P]. }
  destruct (hic_spec port (str_array_sub A (re_addrs e)) (str_array_sub (re_addrs e) A) s)
    as (Ho & [ND2 EQ2] & HIn2).
  - split; assumption.
  - apply NoDup_filter. exact NDA.
  - intros ip Hip Hx. apply in_sub in Hip. apply Hbk, in_map_chp in Hx. tauto.
  - apply NoDup_filter. exact NDa.
  - intros ip Hip. apply in_sub in Hip. apply Hbk, in_map_chp. tauto.
  - destruct (host_ip_changed port _ _ s) as [s2 o2]. cbn [fst snd] in *. injection Hstep as <- <- <-.
    assert (Hset : forall x, In x (rr_backends s2) <-> In x (map (chp port) A)).
    { intros x. rewrite HIn2, Hbk. apply sub_patch. intros y z. apply chp_inj. }
    assert (P2 : Permutation (rr_backends s2) (map (chp port) A)).
    { apply NoDup_Permutation; [exact ND2|apply nodup_map_chp; exact NDA|exact Hset]. }
    split; [exact (conj NDA (conj ND2 (conj P2 EQ2)))|].
    split; [reflexivity|split; [reflexivity|split; [exact ND2|split; [exact P2|split; [exact Ho|split]]]]].
    + intros ip _ HA.
      assert (Hn : ~ In (chp port ip) (rr_backends s2)) by (rewrite Hset, in_map_chp; exact HA).
      split; [exact Hn|]. rewrite EQ2. exact Hn.
    + intros ip HA.
      assert (Hi : In (chp port ip) (rr_backends s2)) by (apply Hset, in_map; exact HA).
      split; [exact Hi|]. apply EQ2. exact Hi.
Qed.

(* a success resets the failure counter and installs the new list, whatever the state *)
Theorem C19_success_resets port e s A :
  fst (fst (resolver_step port (e, s) (ROk A))) = {| re_addrs := A; re_failed := 0 |}.
Proof.
  rewrite step_ok_unfold.
  destruct (host_ip_changed port (str_array_sub A (re_addrs e)) (str_array_sub (re_addrs e) A) s).
  reflexivity.
Qed.

(* a failure with fewer than three previous consecutive failures, or with nothing resolved,
   changes nothing but the counter (no invariant needed) *)
Theorem C19_tolerates port e s :
  re_failed e < 3 \/ re_addrs e = [] ->
  resolver_step port (e, s) RFail =
  (({| re_addrs := re_addrs e; re_failed := S (re_failed e) |}, s), []).
Proof.
  intros H. rewrite step_fail_unfold.
  destruct (Nat.ltb 3 _ && _)%bool eqn:E; [|reflexivity].
  apply fail_test in E. destruct E as [E1 E2]. destruct H as [H|H]; [lia|contradiction].
Qed.

(* the fourth consecutive failure (counter already at 3, or more) with a non-empty list: every
   address is removed and closed, rotation and backendMap become empty, counter reset *)
Theorem C19_fourth_empties port e s :
  Inv port (e, s) -> 3 <= re_failed e -> re_addrs e <> [] ->
  exists s',
    resolver_step port (e, s) RFail =
      (({| re_addrs := []; re_failed := 0 |}, s'),
       repeat (ORemoved true) (List.length (re_addrs e))) /\
    rr_backends s' = [] /\ rr_map s' = [] /\
    Inv port ({| re_addrs := []; re_failed := 0 |}, s').
Proof.
  intros (NDa & NDb & P & EQ) Hf Hne. cbn [fst snd] in *.
  rewrite step_fail_unfold, (proj2 (fail_test e) (conj Hf Hne)).
  destruct (hic_spec port [] (re_addrs e) s) as (Ho & [ND2 EQ2] & HIn2).
  - split; assumption.
  - constructor.
  - intros ip [].
  - exact NDa.
  - intros ip Hip. apply (Permutation_in _ (Permutation_sym P)). apply in_map. exact Hip.
  - destruct (host_ip_changed port [] (re_addrs e) s) as [s2 o2]. cbn [fst snd] in *. subst o2.
    exists s2.
    assert (B : rr_backends s2 = []).
    { apply incl_l_nil. intros x Hx. apply HIn2 in Hx. destruct Hx as [[H|[]] Hn].
      apply Hn. exact (Permutation_in _ P H). }
    assert (M : rr_map s2 = []).
    { apply incl_l_nil. intros x Hx. apply EQ2 in Hx. rewrite B in Hx. exact Hx. }
    split; [reflexivity|split; [exact B|split; [exact M|]]].
    unfold Inv. cbn [fst snd re_addrs map]. rewrite B, M.
    repeat split; try constructor; tauto.
Qed.

Lemma step_fail_cases port e s : Inv port (e, s) ->
  ((Nat.ltb 3 (S (re_failed e)) && negb (Nat.eqb (List.length (re_addrs e)) 0))%bool = false /\
   resolver_step port (e, s) RFail =
     (({| re_addrs := re_addrs e; re_failed := S (re_failed e) |}, s), [])) \/
  ((Nat.ltb 3 (S (re_failed e)) && negb (Nat.eqb (List.length (re_addrs e)) 0))%bool = true /\
   exists s', resolver_step port (e, s) RFail =
                (({| re_addrs := []; re_failed := 0 |}, s'),
                 repeat (ORemoved true) (List.length (re_addrs e))) /\
              rr_backends s' = [] /\ Inv port ({| re_addrs := []; re_failed := 0 |}, s')).
Proof.
  intros HI. destruct (Nat.ltb 3 _ && _)%bool eqn:E; [right|left]; (split; [reflexivity|]).
  - apply fail_test in E.
    destruct (C19_fourth_empties port e s HI (proj1 E) (proj2 E)) as (s' & Hs & B & _ & HI'). eauto.
  - rewrite step_fail_unfold, E. reflexivity.
Qed.

(* the invariant is preserved by every step of the quantifier's domain *)
Theorem C19_inv_step port st o :
  Inv port st -> match o with ROk A => NoDup A | RFail => True end ->
  Inv port (fst (resolver_step port st o)).
Proof.
  intros HI Hd. destruct st as [e s]. destruct o as [|A].
  - destruct (step_fail_cases port e s HI) as [[_ Hs]|[_ (s' & Hs & _ & HI')]]; rewrite Hs;
      [exact HI|exact HI'].
  - destruct (resolver_step port (e, s) (ROk A)) as [[e' s'] outs] eqn:Hs.
    exact (proj1 (C19_tracks port e s A e' s' outs HI Hd Hs)).
Qed.

(* the structured observation behind Run.resolver_run *)
Fixpoint resolver_obs (port : bytes) (st : rentry * rr) (os : list outcome) : list c19_obs :=
  match os with
  | [] => []
  | o :: r =>
      let '(st', outs) := resolver_step port st o in
      (rr_backends (snd st'), removed_count outs, re_addrs (fst st')) :: resolver_obs port st' r
  end.

Definition e_c19_obs (x : c19_obs) : list bytes :=
  let '(rot, n, ent) := x in
  e_list (fun a => [a]) rot ++ [e_nat n] ++ e_list (fun a => [a]) ent.

(* what the CLI prints is exactly the encoding of [resolver_obs] *)
Theorem resolver_run_obs port os : forall st,
  resolver_run port st os = flat_map e_c19_obs (resolver_obs port st os).
Proof.
  induction os as [|o r IH]; intros st; cbn [resolver_run resolver_obs]; [reflexivity|].
  destruct (resolver_step port st o) as [st' outs]. cbn [flat_map e_c19_obs].
  rewrite IH. reflexivity.
Qed.

Lemma judged_from port os : forall st,
  Inv port st -> c19_domain os = true ->
  judge_C19_from port (re_addrs (fst st)) (re_failed (fst st)) (rr_backends (snd st))
                 os (resolver_obs port st os) = true.
Proof.
  induction os as [|o r IH]; intros [e s] HI Hd; [reflexivity|].
  cbn [c19_domain forallb] in Hd. apply andb_true_iff in Hd. destruct Hd as [Hd1 Hd2].
  fold (c19_domain r) in Hd2.
  cbn [resolver_obs judge_C19_from fst snd].
  destruct o as [|A].
  - rewrite Nat.add_1_r, is_nil_length.
    destruct (step_fail_cases port e s HI) as [[E Hs]|[E (s' & Hs & B & HI')]];
      rewrite Hs, E; cbn [fst snd re_addrs].
    + rewrite !lbeq_refl. cbn [removed_count filter List.length Nat.eqb andb]. 
      exact (IH ({| re_addrs := re_addrs e; re_failed := S (re_failed e) |}, s) HI Hd2).
    + rewrite B, removed_count_repeat, Nat.eqb_refl.
      specialize (IH _ HI' Hd2). cbn [fst snd re_addrs re_failed] in IH. rewrite B in IH. exact IH.
  - apply nodup_b_iff in Hd1.
    destruct (resolver_step port (e, s) (ROk A)) as [[e' s'] outs] eqn:Hs.
    destruct (C19_tracks port e s A e' s' outs HI Hd1 Hs)
      as (HI' & Ha & Hf & ND' & P' & Ho & _ & _).
    cbn [fst snd]. rewrite Ha, Ho, removed_count_repeat.
    assert (T1 : nodup_b (rr_backends s') = true) by (apply nodup_b_iff; exact ND').
    assert (T2 : subset_b (rr_backends s') (map (fun ip => create_host_port ip port) A) = true).
    { apply subset_b_iff. intros x. apply Permutation_in. exact P'. }
    assert (T3 : subset_b (map (fun ip => create_host_port ip port) A) (rr_backends s') = true).
    { apply subset_b_iff. intros x. apply Permutation_in, Permutation_sym. exact P'. }
    rewrite T1, T2, T3, lbeq_refl. unfold count_vanished, str_array_sub. rewrite Nat.eqb_refl.
    cbn [andb].
    specialize (IH _ HI' Hd2). cbn [fst snd] in IH. rewrite Ha, Hf in IH. exact IH.
Qed.

(* For EVERY sequence of resolution outcomes of the property's domain, what the model produces
   from the initial state satisfies the C19 judge. *)
Theorem C19_judged port os :
  c19_domain os = true -> judge_C19 port os (resolver_obs port (rentry_init, rr_init) os) = true.
Proof.
  intros Hd. unfold judge_C19.
  exact (judged_from port os (rentry_init, rr_init) (Inv_init port) Hd).
Qed.

(* every reachable state of the domain satisfies the invariant *)
Fixpoint resolver_states (port : bytes) (st : rentry * rr) (os : list outcome) : rentry * rr :=
  match os with
  | [] => st
  | o :: r => resolver_states port (fst (resolver_step port st o)) r
  end.

Lemma resolver_states_fold port os : forall st,
  resolver_states port st os = fold_left (fun st o => fst (resolver_step port st o)) os st.
Proof. induction os as [|o r IH]; intros st; [reflexivity|apply IH]. Qed.

Theorem C19_inv_reachable port os :
  c19_domain os = true -> Inv port (resolver_states port (rentry_init, rr_init) os).
Proof.
  intros Hd. rewrite resolver_states_fold. apply fold_left_inv; [|apply Inv_init].
  intros st o Ho HI. apply C19_inv_step; [exact HI|].
  apply (proj1 (forallb_forall _ _) Hd) in Ho. destruct o; [exact I|apply nodup_b_iff; exact Ho].
Qed.

Definition ex_port := s2b "5060".
Definition ip_a := s2b "10.0.0.1".
Definition ip_b := s2b "10.0.0.2".
Definition ip_c := s2b "fe80::1".
Definition ex_os : list outcome :=
  [ROk [ip_a; ip_b]; RFail; RFail; RFail; RFail; ROk [ip_b; ip_c]; ROk [ip_c; ip_b]; ROk []].

Example ex_domain : c19_domain ex_os = true.
Proof. vm_compute. reflexivity. Qed.

(* ok [a;b] ; three failures: unchanged ; fourth: emptied, 2 closed ; ok [b;c] (c is IPv6) ;
   same set in another order: nothing happens ; ok []: both closed *)
Example ex_obs :
  resolver_obs ex_port (rentry_init, rr_init) ex_os =
  [ ([s2b "10.0.0.1:5060"; s2b "10.0.0.2:5060"], 0, [ip_a; ip_b]);
    ([s2b "10.0.0.1:5060"; s2b "10.0.0.2:5060"], 0, [ip_a; ip_b]);
    ([s2b "10.0.0.1:5060"; s2b "10.0.0.2:5060"], 0, [ip_a; ip_b]);
    ([s2b "10.0.0.1:5060"; s2b "10.0.0.2:5060"], 0, [ip_a; ip_b]);
    ([], 2, []);
    ([s2b "10.0.0.2:5060"; s2b "[fe80::1]:5060"], 0, [ip_b; ip_c]);
    ([s2b "10.0.0.2:5060"; s2b "[fe80::1]:5060"], 0, [ip_c; ip_b]);
    ([], 2, []) ].
Proof. vm_compute. reflexivity. Qed.

Example ex_judged : judge_C19 ex_port ex_os (resolver_obs ex_port (rentry_init, rr_init) ex_os) = true.
Proof. vm_compute. reflexivity. Qed.

(* the judge is not trivially true: it rejects a rotation that kept a vanished address, a
   missed close notification, an early emptying and a late one *)
Example ex_judge_rejects_stale :
  judge_C19 ex_port [ROk [ip_a; ip_b]; ROk [ip_b]]
    [ ([s2b "10.0.0.1:5060"; s2b "10.0.0.2:5060"], 0, [ip_a; ip_b]);
      ([s2b "10.0.0.1:5060"; s2b "10.0.0.2:5060"], 1, [ip_b]) ] = false.
Proof. vm_compute. reflexivity. Qed.
Example ex_judge_rejects_unclosed :
  judge_C19 ex_port [ROk [ip_a; ip_b]; ROk [ip_b]]
    [ ([s2b "10.0.0.1:5060"; s2b "10.0.0.2:5060"], 0, [ip_a; ip_b]);
      ([s2b "10.0.0.2:5060"], 0, [ip_b]) ] = false.
Proof. vm_compute. reflexivity. Qed.
Example ex_judge_rejects_early_empty :
  judge_C19 ex_port [ROk [ip_a]; RFail]
    [ ([s2b "10.0.0.1:5060"], 0, [ip_a]); ([], 1, []) ] = false.
Proof. vm_compute. reflexivity. Qed.
Example ex_judge_rejects_late_empty :
  judge_C19 ex_port [ROk [ip_a]; RFail; RFail; RFail; RFail]
    [ ([s2b "10.0.0.1:5060"], 0, [ip_a]); ([s2b "10.0.0.1:5060"], 0, [ip_a]);
      ([s2b "10.0.0.1:5060"], 0, [ip_a]); ([s2b "10.0.0.1:5060"], 0, [ip_a]);
      ([s2b "10.0.0.1:5060"], 0, [ip_a]) ] = false.
Proof. vm_compute. reflexivity. Qed.

(* hypotheses of the readable theorems are satisfiable by non-trivial states *)
Definition ex_state : rentry * rr :=
  fst (resolver_step ex_port (rentry_init, rr_init) (ROk [ip_a; ip_b])).
Definition ex_state3 : rentry * rr :=
  resolver_states ex_port (rentry_init, rr_init) [ROk [ip_a; ip_b]; RFail; RFail; RFail].

Example ex_state_inv : Inv ex_port ex_state /\ re_addrs (fst ex_state) = [ip_a; ip_b].
Proof.
  split; [|vm_compute; reflexivity].
  apply (C19_inv_reachable ex_port [ROk [ip_a; ip_b]]). vm_compute. reflexivity.
Qed.

(* C19_tracks: a takes over from b... a vanishes, c is new *)
Example ex_tracks :
  NoDup [ip_b; ip_c] /\
  resolver_step ex_port ex_state (ROk [ip_b; ip_c]) =
    (({| re_addrs := [ip_b; ip_c]; re_failed := 0 |},
      {| rr_index := 0; rr_backends := [s2b "10.0.0.2:5060"; s2b "[fe80::1]:5060"];
         rr_map := [s2b "10.0.0.2:5060"; s2b "[fe80::1]:5060"] |}),
     [ORemoved true]).
Proof.
  split; [|vm_compute; reflexivity].
  apply nodup_b_iff. vm_compute. reflexivity.
Qed.

(* C19_tolerates / C19_fourth_empties: hypotheses hold in reachable states *)
Example ex_tolerates_hyp : re_failed (fst ex_state) < 3 /\ re_addrs (fst ex_state) <> [].
Proof. split; [vm_compute; lia|vm_compute; discriminate]. Qed.

Example ex_fourth_hyp :
  Inv ex_port ex_state3 /\ 3 <= re_failed (fst ex_state3) /\ re_addrs (fst ex_state3) <> [].
Proof.
  split; [|split; [vm_compute; lia|vm_compute; discriminate]].
  apply (C19_inv_reachable ex_port [ROk [ip_a; ip_b]; RFail; RFail; RFail]). vm_compute. reflexivity.
Qed.

Example ex_chp_formats :
  create_host_port ip_a ex_port = s2b "10.0.0.1:5060" /\
  create_host_port ip_c ex_port = s2b "[fe80::1]:5060".
Proof. split; vm_compute; reflexivity. Qed.

Print Assumptions chp_inj.
Print Assumptions C19_tracks.
Print Assumptions C19_success_resets.
Print Assumptions C19_tolerates.
Print Assumptions C19_fourth_empties.
Print Assumptions C19_inv_step.
Print Assumptions C19_inv_reachable.
Print Assumptions resolver_run_obs.
Print Assumptions C19_judged.
