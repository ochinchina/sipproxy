(* Theorems about ProxyTB.v, the model of backends reached over TCP: it is a conservative extension of Proxy.v
   (TB_conservative, TB_copy_faithful and their variants); TCPBackend.Send case by case (TB_send_reuse, _dial, _refused,
   _malformed); the bytes written are those the UDP model writes (TB_payload_agrees); C03 and C04 over TCP backends
   (TB_at_most_one, TB_sticky_step, TB_unpinned_step); RemoveBackend closes the cached connection; the cache stays
   true to the connections and connection numbers stay unique along every history (TB_cached_peer,
   TB_conns_fresh_history, TB_cached_conn_unique). *)
From Coq Require Import List Ascii String ZArith Bool Arith Lia.
From Model Require Import Bytes BytesLemmas Uri Hdr Message Msg Rx Glob StaticRoute RoundRobin Pins Proxy RunProxy ProxyTB.
From Model.proofs Require C03 C04 C06 C12 Pipeline MsgStages.
Import ListNotations.
Open Scope Z_scope.

(* per entry: the listen entry the event belongs to (if any) is not a TCP-backend entry *)
Theorem TB_conservative_entry : forall tb fx c now br st cache ev,
  match ev_li st ev with Some li => is_tb tb li = false | None => True end ->
  proxy_step_tb tb fx c now br st cache ev = lift_step (proxy_step fx c now br st ev) cache.
Proof.
  intros tb fx c now br st cache ev H. unfold proxy_step_tb.
  destruct (ev_li st ev) as [li|]; [rewrite H|]; reflexivity.
Qed.

Theorem TB_conservative : forall tb fx c now br st cache ev,
  (forall li, is_tb tb li = false) ->
  proxy_step_tb tb fx c now br st cache ev = lift_step (proxy_step fx c now br st ev) cache.
Proof.
  intros tb fx c now br st cache ev H. apply TB_conservative_entry. destruct (ev_li st ev); [apply H|exact I].
Qed.

(* an all-false (or empty) flag list *)
Lemma is_tb_all_false tb : forallb negb tb = true -> forall li, is_tb tb li = false.
Proof.
  unfold is_tb. induction tb as [|b r IH]; intros H li; [destruct li; reflexivity|].
  cbn [forallb] in H. apply andb_true_iff in H. destruct H as [Hb Hr].
  destruct li as [|li]; cbn [nth_opt]; [destruct b; [discriminate|reflexivity]|apply IH; exact Hr].
Qed.

(* histories: events with their instant and branch (C04.hist), folded with the extended step *)
Fixpoint run_tb (tb : list bool) (fx : fixes) (c : cfg) (st : state) (cache : bcache) (h : C04.hist)
  : res (state * bcache * list (list output)) :=
  match h with
  | [] => Ok (st, cache, [])
  | (now, br, ev) :: r =>
      match proxy_step_tb tb fx c now br st cache ev with
      | Ok (st1, cache1, o) =>
          match run_tb tb fx c st1 cache1 r with
          | Ok (st2, cache2, os) => Ok (st2, cache2, o :: os)
          | Err => Err
          | Panic => Panic
          end
      | Err => Err
      | Panic => Panic
      end
  end.
Definition lift_run (r : res (state * list (list output))) (cache : bcache) : res (state * bcache * list (list output)) :=
  match r with Ok (st', os) => Ok (st', cache, os) | Err => Err | Panic => Panic end.

(* with no TCP entry the extended run of ANY history is the Proxy run (C04.run), the cache untouched: every
   theorem about histories of proxy_step holds of the extended model *)
Theorem TB_conservative_history : forall tb fx c, (forall li, is_tb tb li = false) ->
  forall h st cache, run_tb tb fx c st cache h = lift_run (C04.run fx c st h) cache.
Proof.
  intros tb fx c H h. induction h as [|[[now br] ev] r IH]; intros st cache; cbn [run_tb C04.run]; [reflexivity|].
  rewrite (TB_conservative tb fx c now br st cache ev H).
  destruct (proxy_step fx c now br st ev) as [[st1 o]| |]; cbn [lift_step rbind]; try reflexivity.
  rewrite IH. destruct (C04.run fx c st1 r) as [[st2 os]| |]; reflexivity.
Qed.

Lemma run_ctx_tb_inv st cache li f st' cache' outs : run_ctx_tb st cache li f = Ok (st', cache', outs) ->
  (nth_p (st_proxies st) li = None /\ st' = st /\ cache' = cache /\ outs = []) \/
  exists p x', nth_p (st_proxies st) li = Some p /\ f (Pipeline.start_ctx st p) cache = Ok (x', cache') /\
               st' = Pipeline.ctx_state st li x' /\ outs = x_outs x'.
Proof.
  unfold run_ctx_tb. destruct (nth_p (st_proxies st) li) as [p|].
  - fold (Pipeline.start_ctx st p). destruct (f (Pipeline.start_ctx st p) cache) as [[x' ch']| |] eqn:E; try discriminate.
    intros H. injection H as <- <- <-. right. exists p, x'. auto.
  - intros H. injection H as <- <- <-. left. auto.
Qed.

(* It is Proxy's step with the cache untouched; or, on a TCP-backend entry, a datagram through process_message_tb,
   a chunk through tcp_messages_tb, or RemoveBackend closing the connection the removed object had cached. *)
Lemma proxy_step_tb_cases tb fx c now br st cache ev st' cache' outs :
  proxy_step_tb tb fx c now br st cache ev = Ok (st', cache', outs) ->
  (proxy_step fx c now br st ev = Ok (st', outs) /\ cache' = cache) \/
  (exists li src sport data lc m rest p x',
     ev = EvUdp li src sport data /\ is_tb tb li = true /\
     nth_opt (c_listens c) li = Some lc /\ parse_message data = Ok (m, rest) /\ nth_p (st_proxies st) li = Some p /\
     process_message_tb (Pipeline.listener_env fx c now br li lc) src sport (Pipeline.udp_transport lc)
                        (e_item_rs (Pipeline.listener_env fx c now br li lc)) None m (Pipeline.start_ctx st p) cache
       = Ok (x', cache') /\
     st' = Pipeline.ctx_state st li x' /\ outs = x_outs x') \/
  (exists cid data cn lc p x',
     ev = EvTcpData cid data /\ is_tb tb (cn_li cn) = true /\
     find (fun y => Nat.eqb (cn_id y) cid) (st_conns st) = Some cn /\ cn_open cn = true /\
     nth_opt (c_listens c) (cn_li cn) = Some lc /\ nth_p (st_proxies st) (cn_li cn) = Some p /\
     tcp_messages_tb (S (List.length data)) (Pipeline.listener_env fx c now br (cn_li cn) lc) cn data
                     (Pipeline.start_ctx st p) cache = Ok (x', cache') /\
     st' = Pipeline.ctx_state st (cn_li cn) x' /\ outs = x_outs x') \/
  (exists li addr stp cid,
     ev = EvBackendRemove li addr /\ is_tb tb li = true /\
     proxy_step fx c now br st ev = Ok (stp, outs) /\ st' = Pipeline.close_state cid stp /\ cache' = cache).
Proof.
  unfold proxy_step_tb. intros H.
  assert (LIFT : lift_step (proxy_step fx c now br st ev) cache = Ok (st', cache', outs) ->
                 proxy_step fx c now br st ev = Ok (st', outs) /\ cache' = cache).
  { unfold lift_step. destruct (proxy_step fx c now br st ev) as [[st1 o]| |]; try discriminate.
    intros E. injection E as <- <- <-. split; reflexivity. }
  (* where the extended step does nothing, Proxy's step does nothing either *)
  assert (NOP : proxy_step fx c now br st ev = Ok (st, []) -> Ok (st, cache, @nil output) = Ok (st', cache', outs) ->
                proxy_step fx c now br st ev = Ok (st', outs) /\ cache' = cache).
  { intros P E. injection E as <- <- <-. split; [exact P|reflexivity]. }
  destruct (negb _) eqn:NT; [left; exact (LIFT H)|]. apply negb_false_iff in NT.
  destruct ev as [li src sport data| |cid data| | |li addr]; try (left; exact (LIFT H)); cbn [ev_li] in NT.
  - destruct (nth_opt (c_listens c) li) as [lc|] eqn:EL; [|left; apply NOP; [cbn [proxy_step]; rewrite EL; reflexivity|exact H]].
    cbv zeta in H. destruct (parse_message data) as [[m rest]| |] eqn:EP;
      try (left; apply NOP; [cbn [proxy_step]; rewrite EL, EP; reflexivity|exact H]).
    apply run_ctx_tb_inv in H. destruct H as [(N & -> & -> & ->)|(p & x' & N & E & -> & ->)].
    + left. split; [|reflexivity]. cbn [proxy_step]. rewrite EL, EP. unfold run_ctx. rewrite N. reflexivity.
    + right. left. exists li, src, sport, data, lc, m, rest, p, x'. repeat split; assumption.
  - destruct (find _ (st_conns st)) as [cn|] eqn:F; [|discriminate NT].
    destruct (cn_open cn) eqn:O; [|left; apply NOP; [cbn [proxy_step]; rewrite F, O; reflexivity|exact H]].
    cbv zeta in H.
    destruct (nth_opt (c_listens c) (cn_li cn)) as [lc|] eqn:EL;
      [|left; apply NOP; [cbn [proxy_step]; rewrite F, O, EL; reflexivity|exact H]].
    apply run_ctx_tb_inv in H. destruct H as [(N & -> & -> & ->)|(p & x' & N & E & -> & ->)].
    + left. split; [|reflexivity]. cbn [proxy_step]. rewrite F, O, EL. unfold run_ctx. rewrite N. reflexivity.
    + right. right. left. exists cid, data, cn, lc, p, x'. repeat split; assumption.
  - destruct (nth_p (st_proxies st) li) as [p|] eqn:N; [|left; apply NOP; [cbn [proxy_step]; rewrite N; reflexivity|exact H]].
    cbv zeta in H. destruct (proxy_step fx c now br st (EvBackendRemove li addr)) as [[stp o]| |]; try discriminate.
    destruct (if mem_bytes addr (rr_map (ps_rr p)) then _ else None) as [cid|]; injection H as <- <- <-.
    + right. right. right. exists li, addr, stp, cid. repeat split. exact NT.
    + left. split; reflexivity.
Qed.

(* the only place where handle_message_tb leaves handle_message: a request without next hop (no Route entry left,
   no static route) that names the service *)
Definition reaches_backend (e : env) (from : stransport) (m : message) : bool :=
  is_request m &&
  (negb (is_ok (snd (next_request_hop (c_keep_next_hop (e_cfg e)) (route_table_of (e_cfg e)) m))) &&
   is_my_message (new_my_name (c_name (e_cfg e))) from
                 (fst (next_request_hop (c_keep_next_hop (e_cfg e)) (route_table_of (e_cfg e)) m))).
Definition lift_hm (r : ctx * message) (cache : bcache) : ctx * message * bcache :=
  let '(x', m') := r in (x', m', cache).

Theorem TB_copy_faithful : forall e from m x cache,
  reaches_backend e from m = false ->
  handle_message_tb e from m x cache = lift_hm (handle_message e from m x) cache.
Proof.
  intros e from m x cache. unfold reaches_backend, handle_message_tb, lift_hm.
  destruct (is_request m) eqn:R; [|intros _; reflexivity].
  cbn [andb]. unfold handle_message. rewrite R.
  destruct (next_request_hop (c_keep_next_hop (e_cfg e)) (route_table_of (e_cfg e)) m) as [m1 r]. cbn [fst snd].
  destruct r as [[[h p] t]| |]; cbn [is_ok negb andb]; intros H; [reflexivity| |]; rewrite H; reflexivity.
Qed.

(* ... and there both sides are their sendToBackend *)
Theorem TB_copy_faithful_backend : forall e from m x cache,
  reaches_backend e from m = true ->
  let m1 := fst (next_request_hop (c_keep_next_hop (e_cfg e)) (route_table_of (e_cfg e)) m) in
  handle_message_tb e from m x cache = send_to_backend_tb e m1 x cache /\
  handle_message e from m x = send_to_backend e m1 x.
Proof.
  intros e from m x cache. unfold reaches_backend, handle_message_tb, handle_message.
  destruct (is_request m) eqn:R; [|intros H; discriminate H].
  cbn [andb].
  destruct (next_request_hop (c_keep_next_hop (e_cfg e)) (route_table_of (e_cfg e)) m) as [m1 r]. cbn [fst snd].
  destruct r as [[[h p] t]| |]; cbn [is_ok negb andb]; intros H; [discriminate H| |]; rewrite H; split; reflexivity.
Qed.

(* three ways for [reaches_backend] to be false *)
Theorem TB_copy_faithful_response : forall e from m x cache,
  is_request m = false ->
  handle_message_tb e from m x cache = (let '(x', m') := handle_message e from m x in (x', m', cache)).
Proof. intros e from m x cache R. apply TB_copy_faithful. unfold reaches_backend. rewrite R. reflexivity. Qed.
Theorem TB_copy_faithful_hop : forall e from m x cache v,
  snd (next_request_hop (c_keep_next_hop (e_cfg e)) (route_table_of (e_cfg e)) m) = Ok v ->
  handle_message_tb e from m x cache = (let '(x', m') := handle_message e from m x in (x', m', cache)).
Proof. intros e from m x cache v H. apply TB_copy_faithful. unfold reaches_backend. rewrite H. apply andb_false_r. Qed.
Theorem TB_copy_faithful_not_mine : forall e from m x cache,
  is_my_message (new_my_name (c_name (e_cfg e))) from
    (fst (next_request_hop (c_keep_next_hop (e_cfg e)) (route_table_of (e_cfg e)) m)) = false ->
  handle_message_tb e from m x cache = (let '(x', m') := handle_message e from m x in (x', m', cache)).
Proof. intros e from m x cache H. apply TB_copy_faithful. unfold reaches_backend. rewrite H, !andb_false_r. reflexivity. Qed.

(* handleRawMessage: the common prefix, as one function.  [pm_reach] is the message (and the context)
   that reaches HandleMessage. *)
Definition pm_reach (e : env) (peer : bytes) (peer_port : Z) (from : stransport) (rs : bool)
           (tcp : option nat) (m0 : message) (x : ctx) : res (message * ctx) :=
  let '(m1, l1) := C06.pm_learn peer from m0 x in
  let m2 := if (is_request m1 && rs)%bool then fst (s_set_received peer peer_port m1) else m1 in
  let '(m3, rp) := C06.pm_conn e tcp m2 x in
  match rp with
  | Panic => Panic
  | Err => Err
  | Ok p1 =>
      let m4 := fst (mtry (try_remove_top_route (e_cfg e) from) m3) in
      let '(m5, p2) :=
        if is_response m4 then
          let '(m', r) := handle_dialog e peer peer_port p1 m4 in
          (m', match r with Ok p' => p' | _ => p1 end)
        else (m4, p1) in
      Ok (m5, {| x_learned := l1; x_p := p2; x_conns := x_conns x; x_world := x_world x; x_outs := x_outs x |})
  end.

(* it is Pipeline's [reach], written with C06's stage names *)
Lemma pm_reach_stage e peer peer_port from rs tcp m0 x :
  pm_reach e peer peer_port from rs tcp m0 x = Pipeline.reach e peer peer_port from rs tcp m0 x.
Proof.
  unfold pm_reach, Pipeline.reach. rewrite C06.pm_learn_stage.
  destruct (Pipeline.stage_learn peer from m0 x) as [m1 l1]. cbv zeta. rewrite C06.pm_conn_stage.
  fold (Pipeline.stage_stamp peer peer_port rs m1).
  destruct (Pipeline.stage_conn e tcp (Pipeline.stage_stamp peer peer_port rs m1) (x_p x)) as [m3 [p1| |]]; reflexivity.
Qed.
Lemma process_message_pm_reach e peer peer_port from rs tcp m0 x :
  process_message e peer peer_port from rs tcp m0 x =
  match pm_reach e peer peer_port from rs tcp m0 x with
  | Ok (m5, x1) => Ok (fst (handle_message e from m5 x1))
  | Err => Err
  | Panic => Panic
  end.
Proof. rewrite pm_reach_stage. apply Pipeline.process_message_reach. Qed.

Lemma process_message_tb_reach e peer peer_port from rs tcp m0 x cache :
  process_message_tb e peer peer_port from rs tcp m0 x cache =
  match pm_reach e peer peer_port from rs tcp m0 x with
  | Ok (m5, x1) => let '(x2, _, cache2) := handle_message_tb e from m5 x1 cache in Ok (x2, cache2)
  | Err => Err
  | Panic => Panic
  end.
Proof.
  unfold process_message_tb, pm_reach. fold (C06.pm_learn peer from m0 x).
  destruct (C06.pm_learn peer from m0 x) as [m1 l1]. cbv zeta.
  set (m2 := if (is_request m1 && rs)%bool then fst (s_set_received peer peer_port m1) else m1).
  fold (C06.pm_conn e tcp m2 x). destruct (C06.pm_conn e tcp m2 x) as [m3 [p1| |]]; try reflexivity.
  match goal with |- context [if is_response ?m4 then ?A else ?B] => destruct (if is_response m4 then A else B) as [m5 p2] end.
  reflexivity.
Qed.

Definition lift_pm (r : res ctx) (cache : bcache) : res (ctx * bcache) :=
  match r with Ok x' => Ok (x', cache) | Err => Err | Panic => Panic end.

(* the whole per-message pipeline: when the message that reaches HandleMessage does not go to a backend, the
   copy computes what the original computes, and the cache is untouched *)
Theorem TB_copy_faithful_process : forall e peer peer_port from rs tcp m0 x cache,
  match pm_reach e peer peer_port from rs tcp m0 x with
  | Ok (m5, _) => reaches_backend e from m5 = false
  | _ => True
  end ->
  process_message_tb e peer peer_port from rs tcp m0 x cache =
  match process_message e peer peer_port from rs tcp m0 x with
  | Ok x' => Ok (x', cache) | Err => Err | Panic => Panic end.
Proof.
  intros e peer pp from rs tcp m0 x cache H. rewrite process_message_tb_reach, process_message_pm_reach.
  destruct (pm_reach e peer pp from rs tcp m0 x) as [[m5 x1]| |]; try reflexivity.
  rewrite (TB_copy_faithful e from m5 x1 cache H). unfold lift_hm.
  destruct (handle_message e from m5 x1) as [x' m']. reflexivity.
Qed.

(* a response is still a response when it reaches HandleMessage *)
Lemma pm_reach_response e peer peer_port from rs tcp m0 x : is_request m0 = false ->
  exists m5 x1, pm_reach e peer peer_port from rs tcp m0 x = Ok (m5, x1) /\ is_request m5 = false.
Proof.
  intros R. rewrite pm_reach_stage, (MsgStages.reach_response e peer peer_port from rs tcp m0 x R).
  (* neither the Route pop nor handleDialog touches the start line *)
  assert (P : MsgLemmas.pop_edit MsgStages.same_start (s2b "Route") HRoute) by (intros m h [|a [|b l]] _ _; reflexivity).
  pose proof (MsgStages.response_reach_edits _ _ MsgStages.same_start_edits I I I I I P e peer peer_port from (x_p x) m0) as K.
  destruct (Pipeline.stage_dialog e peer peer_port (x_p x) (Pipeline.stage_route e from m0)) as [m5 p2].
  exists m5. eexists. split; [reflexivity|]. rewrite <- R. exact (MsgStages.same_start_request _ _ K).
Qed.

(* every response, any transport, any state *)
Theorem TB_copy_faithful_process_response : forall e peer peer_port from rs tcp m x cache,
  is_request m = false ->
  process_message_tb e peer peer_port from rs tcp m x cache =
  match process_message e peer peer_port from rs tcp m x with
  | Ok x' => Ok (x', cache) | Err => Err | Panic => Panic end.
Proof.
  intros e peer pp from rs tcp m x cache R. apply TB_copy_faithful_process.
  destruct (pm_reach_response e peer pp from rs tcp m x R) as (m5 & x1 & -> & R5).
  unfold reaches_backend. rewrite R5. reflexivity.
Qed.

Definition tb_listens (x : ctx) (ip : bytes) (port : Z) : bool :=
  existsb (fun '(h, pt) => beq h ip && Z.eqb pt port) (w_tcp_listeners (x_world x)).
(* the cached connection of the object, if it can still be written *)
Definition tb_usable (x : ctx) (key : bytes) (cache : bcache) : option nat :=
  match alookup key cache with
  | Some c => if conn_open (x_conns x) c then Some c else None
  | None => None
  end.
(* the failed write forgets the cached connection *)
Definition tb_forget (key : bytes) (cache : bcache) : bcache :=
  match alookup key cache with Some _ => adel key cache | None => cache end.
Definition tb_new_conn (e : env) (x : ctx) (ip : bytes) (port : Z) : conn :=
  {| cn_id := w_next_conn (x_world x); cn_li := e_li e; cn_open := true; cn_peer := ip; cn_peer_port := port;
     cn_from := tb_local; cn_received_support := e_item_rs e |}.
Definition tb_dial_ctx (e : env) (x : ctx) (ip : bytes) (port : Z) : ctx :=
  {| x_learned := x_learned x; x_p := x_p x; x_conns := x_conns x ++ [tb_new_conn e x ip port];
     x_world := {| w_tcp_listeners := w_tcp_listeners (x_world x); w_next_conn := S (w_next_conn (x_world x)) |};
     x_outs := x_outs x |}.

(* the whole function, case by case *)
Lemma tcp_backend_send_cases e a g b x cache :
  tcp_backend_send e a g b x cache =
  match last_index_byte ":"%char a with
  | None => (x, cache, [], false)
  | Some pos =>
      let ip := firstn pos a in
      let port := atoi_val (skipn (S pos) a) in
      let key := tb_key (e_li e) a g in
      match tb_usable x key cache with
      | Some c => (x, cache, [(DConn c, b)], true)
      | None =>
          if tb_listens x ip port
          then (tb_dial_ctx e x ip port, aset key (w_next_conn (x_world x)) (tb_forget key cache),
                [(DDial ip port (w_next_conn (x_world x)), []); (DConn (w_next_conn (x_world x)), b)], true)
          else (x, tb_forget key cache, [], false)
      end
  end.
Proof.
  unfold tcp_backend_send, tb_usable, tb_forget, tb_listens, tb_dial_ctx, tb_new_conn.
  destruct (last_index_byte ":"%char a) as [pos|]; [|reflexivity]. cbv zeta.
  destruct (alookup (tb_key (e_li e) a g) cache) as [c|]; [destruct (conn_open (x_conns x) c)|]; reflexivity.
Qed.

(* what [tb_usable] and [tb_forget] answer *)
Lemma tb_usable_none x key cache :
  (alookup key cache = None \/ exists c0, alookup key cache = Some c0 /\ conn_open (x_conns x) c0 = false) ->
  tb_usable x key cache = None.
Proof. unfold tb_usable. intros [->|(c0 & -> & ->)]; reflexivity. Qed.
Lemma alookup_forget_same key (cache : bcache) : alookup key (tb_forget key cache) = None.
Proof. unfold tb_forget. destruct (alookup key cache) eqn:A; [apply alookup_adel_same|exact A]. Qed.
Lemma alookup_forget_other k key (cache : bcache) : k <> key -> alookup k (tb_forget key cache) = alookup k cache.
Proof. intros NE. unfold tb_forget. destruct (alookup key cache); [apply alookup_adel_other; exact NE|reflexivity]. Qed.
Lemma conn_open_new cs cn : cn_open cn = true -> conn_open (cs ++ [cn]) (cn_id cn) = true.
Proof.
  intros O. unfold conn_open. rewrite existsb_app. cbn [existsb]. rewrite Nat.eqb_refl, O. cbn. apply orb_true_r.
Qed.

(* the four outcomes, read off [tcp_backend_send_cases] *)
Theorem TB_send_reuse : forall e a g b x cache pos c,
  last_index_byte ":"%char a = Some pos ->
  alookup (tb_key (e_li e) a g) cache = Some c -> conn_open (x_conns x) c = true ->
  tcp_backend_send e a g b x cache = (x, cache, [(DConn c, b)], true).
Proof.
  intros e a g b x cache pos c LI A O. rewrite tcp_backend_send_cases, LI. cbv zeta. unfold tb_usable. rewrite A, O. reflexivity.
Qed.

Theorem TB_send_dial : forall e a g b x cache pos,
  last_index_byte ":"%char a = Some pos ->
  let ip := firstn pos a in
  let port := atoi_val (skipn (S pos) a) in
  let key := tb_key (e_li e) a g in
  let c := w_next_conn (x_world x) in
  (* no cached connection, or the cached one is closed *)
  (alookup key cache = None \/ exists c0, alookup key cache = Some c0 /\ conn_open (x_conns x) c0 = false) ->
  (* the backend accepts connections *)
  existsb (fun '(h, pt) => beq h ip && Z.eqb pt port) (w_tcp_listeners (x_world x)) = true ->
  exists x' cache',
    tcp_backend_send e a g b x cache = (x', cache', [(DDial ip port c, []); (DConn c, b)], true) /\
    x_conns x' = x_conns x ++ [{| cn_id := c; cn_li := e_li e; cn_open := true; cn_peer := ip; cn_peer_port := port;
                                  cn_from := tb_local; cn_received_support := e_item_rs e |}] /\
    conn_open (x_conns x') c = true /\
    alookup key cache' = Some c /\
    cache' = aset key c (tb_forget key cache) /\
    w_next_conn (x_world x') = S c /\ w_tcp_listeners (x_world x') = w_tcp_listeners (x_world x) /\
    x_p x' = x_p x /\ x_learned x' = x_learned x /\ x_outs x' = x_outs x.
Proof.
  intros e a g b x cache pos LI ip port key c NU L.
  exists (tb_dial_ctx e x ip port), (aset key c (tb_forget key cache)).
  split.
  - rewrite tcp_backend_send_cases, LI. cbv zeta. fold ip port key. rewrite (tb_usable_none x key cache NU). unfold tb_listens.
    fold ip port. rewrite L. reflexivity.
  - split; [reflexivity|]. split; [apply (conn_open_new (x_conns x) (tb_new_conn e x ip port)); reflexivity|].
    split; [apply alookup_aset_same|]. repeat split.
Qed.

Theorem TB_send_refused : forall e a g b x cache pos,
  last_index_byte ":"%char a = Some pos ->
  let ip := firstn pos a in
  let port := atoi_val (skipn (S pos) a) in
  let key := tb_key (e_li e) a g in
  (alookup key cache = None \/ exists c0, alookup key cache = Some c0 /\ conn_open (x_conns x) c0 = false) ->
  existsb (fun '(h, pt) => beq h ip && Z.eqb pt port) (w_tcp_listeners (x_world x)) = false ->
  exists cache',
    (* no output, no new connection, nothing else changed *)
    tcp_backend_send e a g b x cache = (x, cache', [], false) /\
    (* the stale entry, if any, is gone; every other entry is as before *)
    alookup key cache' = None /\ cache' = tb_forget key cache /\
    (forall k, k <> key -> alookup k cache' = alookup k cache).
Proof.
  intros e a g b x cache pos LI ip port key NU L. exists (tb_forget key cache). split.
  - rewrite tcp_backend_send_cases, LI. cbv zeta. fold ip port key. rewrite (tb_usable_none x key cache NU). unfold tb_listens.
    fold ip port. rewrite L. reflexivity.
  - split; [apply alookup_forget_same|]. split; [reflexivity|]. intros k. apply alookup_forget_other.
Qed.

(* an address without ':' (net.Dial fails on it): nothing at all *)
Theorem TB_send_malformed : forall e a g b x cache,
  last_index_byte ":"%char a = None -> tcp_backend_send e a g b x cache = (x, cache, [], false).
Proof. intros e a g b x cache LI. rewrite tcp_backend_send_cases, LI. reflexivity. Qed.

(* every case: at most one output carries bytes, and those bytes are [b]; the send succeeds iff exactly one
   does; the proxy state proper (pstate, learned routes, earlier outputs) is not touched; connections are only added *)
Theorem TB_send_one_message : forall e a g b x cache x' cache' outs ok,
  tcp_backend_send e a g b x cache = (x', cache', outs, ok) ->
  C06.one_msg b outs /\
  (ok = true -> C06.msg_count outs = 1%nat) /\ (ok = false -> outs = []) /\
  x_p x' = x_p x /\ x_learned x' = x_learned x /\ x_outs x' = x_outs x /\
  (exists extra, x_conns x' = x_conns x ++ extra) /\
  w_tcp_listeners (x_world x') = w_tcp_listeners (x_world x).
Proof.
  intros e a g b x cache x' cache' outs ok. rewrite tcp_backend_send_cases.
  destruct (last_index_byte ":"%char a) as [pos|]; cbv zeta;
    [destruct (tb_usable x (tb_key (e_li e) a g) cache) as [c|];
       [|destruct (tb_listens x (firstn pos a) (atoi_val (skipn (S pos) a)))]|];
    intros H; injection H as <- _ <- <-; (split; [apply C06.send_shape_one_msg; constructor|]).
  (* reused; dialled (one connection more); refused; malformed *)
  - split; [reflexivity|]. split; [discriminate|]. repeat split. exists []. symmetry. apply app_nil_r.
  - split; [reflexivity|]. split; [discriminate|]. repeat split. eexists. reflexivity.
  - split; [discriminate|]. repeat split. exists []. symmetry. apply app_nil_r.
  - split; [discriminate|]. repeat split. exists []. symmetry. apply app_nil_r.
Qed.

(* the pstate side of the context handed to TCPBackend.Send plays no part in it *)
Lemma tcp_backend_send_with_p e a g b x p cache :
  tcp_backend_send e a g b (with_p x p) cache =
  let '(x2, c2, o, ok) := tcp_backend_send e a g b x cache in (with_p x2 p, c2, o, ok).
Proof.
  rewrite !tcp_backend_send_cases. destruct (last_index_byte ":"%char a) as [pos|]; [|reflexivity]. cbv zeta.
  unfold tb_usable, tb_listens, tb_dial_ctx, tb_new_conn, with_p. cbn [x_conns x_world x_learned x_p x_outs].
  destruct (alookup (tb_key (e_li e) a g) cache) as [c|].
  - destruct (conn_open (x_conns x) c); [reflexivity|].
    destruct (existsb _ (w_tcp_listeners (x_world x))); reflexivity.
  - destruct (existsb _ (w_tcp_listeners (x_world x))); reflexivity.
Qed.

(* the pstate Backend.Send leaves behind, in either model and whatever the outcome: the rotation has moved iff
   it was asked *)
Definition sent_p (bk : bref) (p : pstate) : pstate :=
  match bk with BObj _ _ => p | BRR => with_rr p (fst (rr_dispatch (ps_rr p))) end.

(* Backend.Send over UDP (Proxy.backend_send) *)
Lemma backend_send_spec bk b p p2 outs ok : backend_send bk b p = (p2, outs, ok) ->
  p2 = sent_p bk p /\ C06.one_msg b outs /\ (ok = false -> outs = []).
Proof.
  intros H. destruct (Pipeline.backend_send_shape _ _ _ _ _ _ H) as (S & K).
  split; [|split; [exact (C06.send_shape_one_msg b outs S)|exact K]].
  revert H. unfold backend_send, sent_p. cbv zeta. destruct bk as [a g|].
  - destruct (_ && _)%bool; intros H; injection H as <- _ _; reflexivity.
  - destruct (rr_dispatch (ps_rr p)) as [r' o]. cbn [fst].
    destruct o as [a|]; [destruct (fits_datagram b)|]; intros H; injection H as <- _ _; reflexivity.
Qed.

(* Backend.Send over TCP: the same pstate, the same bytes *)
Lemma backend_send_tb_spec e bk b x cache x' cache' outs ok :
  backend_send_tb e bk b x cache = (x', cache', outs, ok) ->
  x_p x' = sent_p bk (x_p x) /\ x_learned x' = x_learned x /\ x_outs x' = x_outs x /\
  C06.one_msg b outs /\ (ok = true -> C06.msg_count outs = 1%nat) /\ (ok = false -> outs = []).
Proof.
  assert (TS : forall a g x1, tcp_backend_send e a g b x1 cache = (x', cache', outs, ok) ->
               x_p x' = x_p x1 /\ x_learned x' = x_learned x1 /\ x_outs x' = x_outs x1 /\
               C06.one_msg b outs /\ (ok = true -> C06.msg_count outs = 1%nat) /\ (ok = false -> outs = [])).
  { intros a g x1 H. destruct (TB_send_one_message _ _ _ _ _ _ _ _ _ _ H) as (O & K1 & K0 & P & L & XO & _).
    split; [exact P|]. split; [exact L|]. split; [exact XO|]. split; [exact O|]. split; [exact K1|exact K0]. }
  unfold backend_send_tb, sent_p. destruct bk as [a g|]; [apply TS|].
  destruct (rr_dispatch (ps_rr (x_p x))) as [r' o]. cbn [fst].
  destruct o as [a|]; [destruct (alookup a (ps_backends (x_p x))) as [g|]|]; intros H; [exact (TS a g _ H)| |];
    injection H as <- _ <- <-; (split; [reflexivity|]); (split; [reflexivity|]); (split; [reflexivity|]);
    (split; [apply C06.send_shape_one_msg; constructor|]); (split; [discriminate|reflexivity]).
Qed.

(* the backend sendToBackend selects is C04's [stb_sel] *)
Lemma stb_found_sel e p m :
  (let '(p1, ob) := match snd (find_backend_by_dialog e p m) with Ok v => v | _ => (p, None) end in
   (p1, match ob with Some b => b | None => BRR end)) = C04.stb_sel e p m.
Proof. unfold C04.stb_sel. destruct (C04.fbd_run e p m) as (m1 & E & _). rewrite E. reflexivity. Qed.

(* the transaction pin both models add after a successful send *)
Definition tb_pin (e : env) (b : bref) (m2 : message) (p : pstate) : pstate :=
  match snd (mtry s_client_transaction m2) with
  | Ok (Some t) => with_pins p (pins_add (e_now e) t (bref_val b) (get_expires (fst (mtry s_client_transaction m2)) 0) (ps_pins p))
  | _ => p
  end.

(* what sendToBackend makes of the outcome of Backend.Send, in either model: [x2] is the context after the send *)
Definition stb_finish (e : env) (bk : bref) (m2 : message) (x2 : ctx) (outs : list output) (ok : bool) : ctx * message :=
  if ok then ({| x_learned := x_learned x2; x_p := tb_pin e bk m2 (x_p x2); x_conns := x_conns x2; x_world := x_world x2;
                 x_outs := x_outs x2 ++ outs |}, fst (mtry s_client_transaction m2))
  else (x2, m2).
Lemma stb_finish_frame e bk m2 x2 outs ok :
  x_conns (fst (stb_finish e bk m2 x2 outs ok)) = x_conns x2 /\ x_world (fst (stb_finish e bk m2 x2 outs ok)) = x_world x2 /\
  x_learned (fst (stb_finish e bk m2 x2 outs ok)) = x_learned x2 /\
  ps_rr (x_p (fst (stb_finish e bk m2 x2 outs ok))) = ps_rr (x_p x2) /\
  ps_backends (x_p (fst (stb_finish e bk m2 x2 outs ok))) = ps_backends (x_p x2) /\
  ps_has_rr (x_p (fst (stb_finish e bk m2 x2 outs ok))) = ps_has_rr (x_p x2).
Proof. unfold stb_finish, tb_pin. destruct ok; [destruct (snd (mtry s_client_transaction m2)) as [[t|]| |]|]; repeat split. Qed.
Lemma stb_finish_outs e bk m2 x2 outs ok : (ok = false -> outs = []) ->
  x_outs (fst (stb_finish e bk m2 x2 outs ok)) = x_outs x2 ++ outs.
Proof. destruct ok; intros H; [reflexivity|]. rewrite (H eq_refl). symmetry. apply app_nil_r. Qed.
(* the same outcome on the same pstate: the same message comes back, the same pstate is left *)
Lemma stb_finish_same e bk m2 x2 y2 outs outs' ok : x_p x2 = x_p y2 ->
  snd (stb_finish e bk m2 x2 outs ok) = snd (stb_finish e bk m2 y2 outs' ok) /\
  x_p (fst (stb_finish e bk m2 x2 outs ok)) = x_p (fst (stb_finish e bk m2 y2 outs' ok)).
Proof. intros E. destruct ok; cbn [stb_finish fst snd x_p]; rewrite ?E; split; reflexivity. Qed.

(* the transport sendToBackend stamps, when it sends at all (a rotation object exists, the entry has a port) *)
Definition stb_transport (e : env) (x : ctx) : option stransport :=
  if ps_has_rr (x_p x) then first_transport (e_lc e) else None.
Lemma stb_transport_on e x t0 : ps_has_rr (x_p x) = true -> first_transport (e_lc e) = Some t0 -> stb_transport e x = Some t0.
Proof. intros HR FT. unfold stb_transport. rewrite HR. exact FT. Qed.
Lemma stb_transport_first e x t0 : stb_transport e x = Some t0 -> first_transport (e_lc e) = Some t0.
Proof. unfold stb_transport. destruct (ps_has_rr (x_p x)); [intros H; exact H|discriminate]. Qed.

Lemma send_to_backend_unfold e m x :
  send_to_backend e m x =
  match stb_transport e x with
  | None => (x, m)
  | Some t0 =>
      let '(p1, bk) := C04.stb_sel e (x_p x) m in
      let m2 := C06.backend_message e t0 (x_p x) m in
      let '(p2, outs, ok) := backend_send bk (write_message m2) p1 in
      stb_finish e bk m2 (with_p x p2) outs ok
  end.
Proof.
  unfold send_to_backend, stb_transport. cbv zeta. destruct (ps_has_rr (x_p x)); cbn [negb]; [|reflexivity].
  destruct (first_transport (e_lc e)) as [t0|]; [|reflexivity].
  rewrite <- stb_found_sel. unfold C06.backend_message, stb_finish, tb_pin.
  destruct (find_backend_by_dialog e (x_p x) m) as [m1 r]. cbn [fst snd].
  destruct r as [[p1 ob]| |]; cbv beta iota zeta;
    match goal with |- context [backend_send ?b ?bs ?p] => destruct (backend_send b bs p) as [[p2 outs] ok] end;
    (destruct ok; [|reflexivity]);
    match goal with |- context [mtry s_client_transaction ?m2] => destruct (mtry s_client_transaction m2) as [m3 tid] end;
    reflexivity.
Qed.

Lemma send_to_backend_tb_unfold e m x cache :
  send_to_backend_tb e m x cache =
  match stb_transport e x with
  | None => (x, m, cache)
  | Some t0 =>
      let '(p1, bk) := C04.stb_sel e (x_p x) m in
      let m2 := C06.backend_message e t0 (x_p x) m in
      let '(x2, cache2, outs, ok) := backend_send_tb e bk (write_message m2) (with_p x p1) cache in
      (stb_finish e bk m2 x2 outs ok, cache2)
  end.
Proof.
  unfold send_to_backend_tb, stb_transport. cbv zeta. destruct (ps_has_rr (x_p x)); cbn [negb]; [|reflexivity].
  destruct (first_transport (e_lc e)) as [t0|]; [|reflexivity].
  rewrite <- stb_found_sel. unfold C06.backend_message, stb_finish, tb_pin.
  destruct (find_backend_by_dialog e (x_p x) m) as [m1 r]. cbn [fst snd].
  destruct r as [[p1 ob]| |]; cbv beta iota zeta;
    match goal with |- context [backend_send_tb ?e ?b ?bs ?x ?c] => destruct (backend_send_tb e b bs x c) as [[[x2 cache2] outs] ok] end;
    (destruct ok; [|reflexivity]);
    match goal with |- context [mtry s_client_transaction ?m2] => destruct (mtry s_client_transaction m2) as [m3 tid] end;
    reflexivity.
Qed.

(* did the send succeed (UDP model / TCP model) *)
Definition stb_ok (e : env) (m : message) (x : ctx) : bool :=
  ps_has_rr (x_p x) &&
  match first_transport (e_lc e) with
  | None => false
  | Some t0 => snd (backend_send (snd (C04.stb_sel e (x_p x) m)) (write_message (C06.backend_message e t0 (x_p x) m))
                                 (fst (C04.stb_sel e (x_p x) m)))
  end.
Definition stb_ok_tb (e : env) (m : message) (x : ctx) (cache : bcache) : bool :=
  ps_has_rr (x_p x) &&
  match first_transport (e_lc e) with
  | None => false
  | Some t0 => snd (backend_send_tb e (snd (C04.stb_sel e (x_p x) m)) (write_message (C06.backend_message e t0 (x_p x) m))
                                    (with_p x (fst (C04.stb_sel e (x_p x) m))) cache)
  end.

Lemma stb_ok_transport e m x :
  stb_ok e m x = match stb_transport e x with
                 | None => false
                 | Some t0 => snd (backend_send (snd (C04.stb_sel e (x_p x) m)) (write_message (C06.backend_message e t0 (x_p x) m))
                                                (fst (C04.stb_sel e (x_p x) m)))
                 end.
Proof. unfold stb_ok, stb_transport. destruct (ps_has_rr (x_p x)); reflexivity. Qed.
Lemma stb_ok_tb_transport e m x cache :
  stb_ok_tb e m x cache =
  match stb_transport e x with
  | None => false
  | Some t0 => snd (backend_send_tb e (snd (C04.stb_sel e (x_p x) m)) (write_message (C06.backend_message e t0 (x_p x) m))
                                    (with_p x (fst (C04.stb_sel e (x_p x) m))) cache)
  end.
Proof. unfold stb_ok_tb, stb_transport. destruct (ps_has_rr (x_p x)); reflexivity. Qed.

(* TB_payload_agrees.  ONE message [m2] - the request after findBackendByDialog has looked at it, with the Via
   and (by policy) the Record-Route of the listener's first transport - is what either model writes: every
   byte-carrying output of the UDP send and of the TCP send carries write_message m2.  Whenever the two sends
   have the same outcome (both succeed, or both fail) the returned messages coincide and the pin tables
   coincide; the rotation, the member set and the learned routes coincide in every case. *)
Theorem TB_payload_agrees : forall e m x cache,
  let xu := fst (send_to_backend e m x) in
  let mu := snd (send_to_backend e m x) in
  let xt := fst (fst (send_to_backend_tb e m x cache)) in
  let mt := snd (fst (send_to_backend_tb e m x cache)) in
  exists extra_u extra_t,
    x_outs xu = x_outs x ++ extra_u /\ x_outs xt = x_outs x ++ extra_t /\
    (forall t0, first_transport (e_lc e) = Some t0 ->
       let m2 := px_add_record_route (pa_must_rr (wire_proxy (e_lc e))) t0
                   (px_add_via e t0 (fst (find_backend_by_dialog e (x_p x) m))) in
       C06.one_msg (write_message m2) extra_u /\ C06.one_msg (write_message m2) extra_t) /\
    (first_transport (e_lc e) = None -> extra_u = [] /\ extra_t = []) /\
    (stb_ok e m x = false -> extra_u = []) /\
    (stb_ok_tb e m x cache = true -> C06.msg_count extra_t = 1%nat) /\
    (stb_ok_tb e m x cache = false -> extra_t = []) /\
    (stb_ok e m x = stb_ok_tb e m x cache -> mt = mu /\ ps_pins (x_p xt) = ps_pins (x_p xu)) /\
    ps_rr (x_p xt) = ps_rr (x_p xu) /\ ps_backends (x_p xt) = ps_backends (x_p xu) /\
    ps_has_rr (x_p xt) = ps_has_rr (x_p xu) /\ x_learned xt = x_learned xu.
Proof.
  intros e m x cache. cbv zeta. rewrite stb_ok_transport, stb_ok_tb_transport, send_to_backend_unfold, send_to_backend_tb_unfold.
  destruct (stb_transport e x) as [t0|] eqn:ST.
  2:{ exists [], []. cbn [fst snd]. rewrite app_nil_r. split; [reflexivity|]. split; [reflexivity|].
      split; [intros t1 _; split; apply C06.send_shape_one_msg; constructor|]. split; [intros _; split; reflexivity|].
      split; [reflexivity|]. split; [discriminate|]. repeat split. }
  apply stb_transport_first in ST.
  destruct (C04.stb_sel e (x_p x) m) as [p1 bk]. cbn [fst snd]. cbv zeta. set (m2 := C06.backend_message e t0 (x_p x) m).
  destruct (backend_send bk (write_message m2) p1) as [[p2 outu] oku] eqn:BU.
  destruct (backend_send_tb e bk (write_message m2) (with_p x p1) cache) as [[[x2 cache2] outt] okt] eqn:BT.
  cbn [fst snd].
  destruct (backend_send_spec _ _ _ _ _ _ BU) as (-> & OU & NU).
  destruct (backend_send_tb_spec _ _ _ _ _ _ _ _ _ BT) as (PT & LT & XT & OT & K1 & K0).
  cbn [with_p x_p x_learned x_outs] in PT, LT, XT.
  destruct (stb_finish_frame e bk m2 (with_p x (sent_p bk p1)) outu oku) as (_ & _ & LU & RU & BKU & HU).
  destruct (stb_finish_frame e bk m2 x2 outt okt) as (_ & _ & LT2 & RT & BKT & HT).
  exists outu, outt.
  split; [exact (stb_finish_outs e bk m2 (with_p x (sent_p bk p1)) outu oku NU)|].
  split; [rewrite <- XT; exact (stb_finish_outs e bk m2 x2 outt okt K0)|].
  split. { intros t1 E. rewrite ST in E. injection E as <-. split; assumption. }
  split; [intros E; rewrite ST in E; discriminate E|].
  split; [exact NU|]. split; [exact K1|]. split; [exact K0|].
  split.
  { intros <-. destruct (stb_finish_same e bk m2 x2 (with_p x (sent_p bk p1)) outt outu oku PT) as (M & P).
    split; [exact M|rewrite P; reflexivity]. }
  rewrite RT, RU, BKT, BKU, HT, HU, LT2, LU, PT, LT. repeat split.
Qed.

(* in particular: the rotation moves exactly as in the UDP model, whatever the outcome of the TCP send *)
Theorem TB_rotation_agrees : forall e m x cache,
  ps_rr (x_p (fst (fst (send_to_backend_tb e m x cache)))) = ps_rr (x_p (fst (send_to_backend e m x))) /\
  ps_backends (x_p (fst (fst (send_to_backend_tb e m x cache)))) = ps_backends (x_p (fst (send_to_backend e m x))).
Proof.
  intros e m x cache. destruct (TB_payload_agrees e m x cache) as (eu & et & _ & _ & _ & _ & _ & _ & _ & _ & R & B & _).
  split; assumption.
Qed.

Lemma send_to_backend_tb_outs e m x cache :
  exists extra, x_outs (fst (fst (send_to_backend_tb e m x cache))) = x_outs x ++ extra /\ (C06.msg_count extra <= 1)%nat.
Proof.
  destruct (TB_payload_agrees e m x cache) as (eu & et & _ & O & M & N & _). exists et. split; [exact O|].
  destruct (first_transport (e_lc e)) as [t0|] eqn:FT.
  - destruct (M t0 eq_refl) as (_ & (C & _)). exact C.
  - destruct (N eq_refl) as (_ & ->). apply Nat.le_0_l.
Qed.

Lemma pm_reach_frame e peer peer_port from rs tcp m0 x m5 x1 :
  pm_reach e peer peer_port from rs tcp m0 x = Ok (m5, x1) ->
  x_outs x1 = x_outs x /\ x_conns x1 = x_conns x /\ x_world x1 = x_world x.
Proof. rewrite pm_reach_stage. intros H. rewrite (Pipeline.reach_ctx _ _ _ _ _ _ _ _ _ _ H). repeat split. Qed.

(* HandleMessage: sendToBackend's one message at most, or what the Proxy model sends *)
Lemma handle_message_tb_outs e from m x cache :
  exists extra, x_outs (fst (fst (handle_message_tb e from m x cache))) = x_outs x ++ extra /\ (C06.msg_count extra <= 1)%nat.
Proof.
  destruct (reaches_backend e from m) eqn:RB.
  - pose proof (TB_copy_faithful_backend e from m x cache RB) as E. cbv zeta in E. destruct E as (-> & _).
    apply send_to_backend_tb_outs.
  - rewrite (TB_copy_faithful e from m x cache RB). unfold lift_hm.
    destruct (Pipeline.handle_message_sends e from m x) as (_ & b & extra & O & S).
    destruct (handle_message e from m x) as [x2 mm]. exists extra. split; [exact O|exact (C06.send_shape_count b extra S)].
Qed.

(* ANY decoded message (request or response) on a TCP-backend entry, any state, configuration and cache: the
   outputs appended while it is processed contain at most one byte-carrying output *)
Theorem TB_at_most_one_message : forall e peer peer_port from rs tcp m x cache x' cache',
  process_message_tb e peer peer_port from rs tcp m x cache = Ok (x', cache') ->
  exists extra, x_outs x' = x_outs x ++ extra /\ (C06.msg_count extra <= 1)%nat.
Proof.
  intros e peer pp from rs tcp m x cache x' cache'. rewrite process_message_tb_reach.
  destruct (pm_reach e peer pp from rs tcp m x) as [[m5 x1]| |] eqn:PR; try discriminate.
  destruct (pm_reach_frame _ _ _ _ _ _ _ _ _ _ PR) as (O1 & _).
  destruct (handle_message_tb_outs e from m5 x1 cache) as (extra & O & C).
  destruct (handle_message_tb e from m5 x1 cache) as [[x2 mm] c2]. cbn [fst] in O.
  intros H. injection H as <- _. exists extra. rewrite O, O1. split; [reflexivity|exact C].
Qed.

(* a chunk on a connection of a TCP-backend entry: at most as many process_message_tb steps as the chunk holds
   messages, then possibly the closing of the connection.  [R n a b]: from a to b in n messages. *)
Lemma tcp_messages_tb_run (R : nat -> ctx * bcache -> ctx * bcache -> Prop) e c :
  (forall a, R 0%nat a a) ->
  (forall x cache, R 0%nat (x, cache) (Pipeline.close_ctx (cn_id c) x, cache)) ->
  (forall n m x cache a b,
     process_message_tb e (cn_peer c) (cn_peer_port c) (cn_from c) (cn_received_support c) (Some (cn_id c)) m x cache = Ok a ->
     R n a b -> R (S n) (x, cache) b) ->
  forall fuel s x cache b, tcp_messages_tb fuel e c s x cache = Ok b ->
  exists n, (n <= List.length (parse_stream fuel s))%nat /\ R n (x, cache) b.
Proof.
  intros R0 RC RS. induction fuel as [|f IH]; intros s x cache b H; cbn [tcp_messages_tb] in H.
  - injection H as <-. exists 0%nat. split; [apply Nat.le_0_l|apply R0].
  - destruct (trim_left s) eqn:T; [injection H as <-; exists 0%nat; split; [apply Nat.le_0_l|apply R0]|].
    cbn [parse_stream]. destruct (parse_message s) as [[m rest]| |];
      try (injection H as <-; exists 0%nat; split; [apply Nat.le_0_l|apply RC]).
    destruct (process_message_tb e (cn_peer c) (cn_peer_port c) (cn_from c) (cn_received_support c)
                                 (Some (cn_id c)) m x cache) as [[x1 cache1]| |] eqn:PM; try discriminate.
    destruct (IH _ _ _ _ H) as (n & L & K). exists (S n).
    split; [cbn [List.length]; lia|exact (RS n m x cache (x1, cache1) b PM K)].
Qed.

(* one datagram in, at most one message out: every listen entry, TCP backends or not *)
Theorem TB_at_most_one : forall tb fx c now br st cache li src sport data st' cache' outs,
  proxy_step_tb tb fx c now br st cache (EvUdp li src sport data) = Ok (st', cache', outs) ->
  (C06.msg_count outs <= 1)%nat.
Proof.
  intros tb fx c now br st cache li src sport data st' cache' outs H.
  destruct (proxy_step_tb_cases _ _ _ _ _ _ _ _ _ _ _ H)
    as [(E & _)|[(li0 & src0 & sport0 & data0 & lc & m & rest & p & x' & _ & _ & _ & _ & _ & PM & _ & ->)
       |[(cid & data0 & cn & lc & p & x' & E & _)|(li0 & a & stp & cid & E & _)]]]; try discriminate E.
  - exact (C03.C03_at_most_one_udp _ _ _ _ _ _ _ _ _ _ _ E).
  - apply TB_at_most_one_message in PM. destruct PM as (extra & -> & C). exact C.
Qed.

(* a TCP chunk on a connection of a TCP-backend entry (a client's connection or a backend's): one group of outputs
   per processed message, each with at most one byte-carrying output *)
Lemma tcp_messages_tb_outs fuel e c s x cache x' cache' :
  tcp_messages_tb fuel e c s x cache = Ok (x', cache') ->
  exists chunks, x_outs x' = x_outs x ++ List.concat chunks /\
                 (List.length chunks <= List.length (parse_stream fuel s))%nat /\
                 Forall (fun ch => (C06.msg_count ch <= 1)%nat) chunks.
Proof.
  intros H.
  apply (tcp_messages_tb_run
           (fun n a b => exists chunks, x_outs (fst b) = x_outs (fst a) ++ List.concat chunks /\ List.length chunks = n /\
                                        Forall (fun ch => (C06.msg_count ch <= 1)%nat) chunks) e c) in H.
  - destruct H as (n & L & chunks & O & <- & F). exists chunks. auto.
  - intros a. exists []. cbn. rewrite app_nil_r. auto.
  - intros y ch. exists []. cbn. rewrite app_nil_r. auto.
  - intros n m y ch [y1 ch1] b PM (chunks & O & <- & F). apply TB_at_most_one_message in PM. destruct PM as (extra & O1 & C1).
    exists (extra :: chunks). cbn [fst List.concat List.length] in *. rewrite O, O1, <- app_assoc.
    split; [reflexivity|]. split; [reflexivity|constructor; assumption].
Qed.

Theorem TB_at_most_one_tcp : forall tb fx c now br st cache cid data st' cache' outs,
  proxy_step_tb tb fx c now br st cache (EvTcpData cid data) = Ok (st', cache', outs) ->
  exists chunks, outs = List.concat chunks /\
                 (List.length chunks <= List.length (parse_stream (S (List.length data)) data))%nat /\
                 Forall (fun ch => (C06.msg_count ch <= 1)%nat) chunks.
Proof.
  intros tb fx c now br st cache cid data st' cache' outs H.
  destruct (proxy_step_tb_cases _ _ _ _ _ _ _ _ _ _ _ H)
    as [(E & _)|[(li & src & sport & data0 & lc & m & rest & p & x' & E & _)
       |[(cid0 & data0 & cn & lc & p & x' & E & _ & _ & _ & _ & _ & TM & _ & ->)|(li & a & stp & cid0 & E & _)]]];
    try discriminate E.
  - exact (C03.C03_at_most_one_tcp _ _ _ _ _ _ _ _ _ E).
  - injection E as _ <-. exact (tcp_messages_tb_outs _ _ _ _ _ _ _ _ TM).
Qed.

Lemma backend_message_bytes e t0 p m : write_message (C06.backend_message e t0 p m) = C04.fwd_bytes e t0 p m.
Proof. reflexivity. Qed.

(* the transaction pin, as a function of the received request (C04.send_to_backend_spec's computation) *)
Lemma tb_pin_spec e t0 p0 m bk p :
  tb_pin e bk (C06.backend_message e t0 p0 m) p =
  match snd (s_get_cseq m) with
  | Ok c => with_pins p (pins_add (e_now e) (C04.trans_key e c) (bref_val bk) (get_expires m 0) (ps_pins p))
  | _ => p
  end.
Proof.
  unfold tb_pin, C06.backend_message. destruct (C04.fbd_run e p0 m) as (m1 & E1 & K1). rewrite E1. cbn [fst].
  fold (C04.fwd_msg e t0 m1).
  pose proof (C04.mtry_snd s_client_transaction (C04.fwd_msg e t0 m1)) as S3.
  pose proof (C04.pres_try C04.names _ C04.P_tid (C04.fwd_msg e t0 m1)) as K3.
  destruct (mtry s_client_transaction (C04.fwd_msg e t0 m1)) as [m3 tid]. cbn [fst snd] in S3, K3 |- *.
  rewrite C04.s_client_transaction_snd, C04.fwd_msg_tid, (C04.k_cseq C04.names m m1 K1 ltac:(C04.in_names)) in S3. subst tid.
  assert (KE : get_expires m3 0 = get_expires m 0).
  { assert (K : C04.keeps C04.NQ m m3).
    { eapply C04.keeps_trans; [eapply C04.keeps_incl; [apply C04.NQ_names|exact K1]|].
      eapply C04.keeps_trans; [eapply C04.keeps_incl; [apply C04.NQ_NP|apply C04.fwd_msg_keeps]|].
      eapply C04.keeps_incl; [apply C04.NQ_names|exact K3]. }
    apply (C04.k_expires C04.NQ m m3 K). C04.in_names. }
  destruct (snd (s_get_cseq m)) as [c| |]; cbn [rbind C04.opt_res]; [|reflexivity|reflexivity].
  rewrite KE. reflexivity.
Qed.

(* TB_sticky_step.  A request that reaches sendToBackend on a TCP-backend entry, whose dialog is pinned (unexpired)
   to the backend object (addr, g) that is still registered: it is written on ONE connection to addr - the cached one
   when that is open, otherwise a newly dialled one (peer = addr's ip and port) - and on nothing else; when addr
   does not accept the connection nothing is written.  The rotation and the member set are untouched; the pin stays
   (except after a terminating NOTIFY, which removes it after having used it).  Hypotheses = C04_sticky_step's,
   plus the form of the address. *)
Theorem TB_sticky_step : forall e m x cache t0 d addr g ex pos,
  fx_indialog_invite (e_fx e) = true ->
  ps_has_rr (x_p x) = true -> first_transport (e_lc e) = Some t0 ->
  is_request m = true -> C04.dialog_of m = Ok d ->
  C04.pin_at d (pin_val_backend addr g) ex (ps_pins (x_p x)) -> e_now e < ex ->
  alookup addr (ps_backends (x_p x)) = Some g -> C04.gen_ok g ->
  last_index_byte ":"%char addr = Some pos ->
  let ip := firstn pos addr in
  let port := atoi_val (skipn (S pos) addr) in
  let key := tb_key (e_li e) addr g in
  let n := w_next_conn (x_world x) in
  let b := C04.fwd_bytes e t0 (x_p x) m in
  let x' := fst (fst (send_to_backend_tb e m x cache)) in
  let cache' := snd (send_to_backend_tb e m x cache) in
  (* where the bytes go *)
  match tb_usable x key cache with
  | Some c => x_outs x' = x_outs x ++ [(DConn c, b)] /\ x_conns x' = x_conns x /\ x_world x' = x_world x /\ cache' = cache
  | None =>
      if tb_listens x ip port
      then x_outs x' = x_outs x ++ [(DDial ip port n, []); (DConn n, b)] /\
           x_conns x' = x_conns x ++ [{| cn_id := n; cn_li := e_li e; cn_open := true; cn_peer := ip; cn_peer_port := port;
                                         cn_from := tb_local; cn_received_support := e_item_rs e |}] /\
           w_next_conn (x_world x') = S n /\ alookup key cache' = Some n
      else x_outs x' = x_outs x /\ x_conns x' = x_conns x /\ x_world x' = x_world x /\ alookup key cache' = None
  end /\
  (* the rotation did not move, the members did not change *)
  ps_rr (x_p x') = ps_rr (x_p x) /\ ps_backends (x_p x') = ps_backends (x_p x) /\ x_learned x' = x_learned x /\
  (* the pin stays, except after a terminating NOTIFY which removes it after having used it *)
  ((forall c, snd (s_get_cseq m) = Ok c -> C04.trans_key e c <> d) ->
   if C04.notify_terminated (C04.req_method m) m
   then alookup d (p_tab (ps_pins (x_p x'))) = None
   else C04.pin_at d (pin_val_backend addr g) ex (ps_pins (x_p x'))).
Proof.
  intros e m x cache t0 d addr g ex pos FX HR FT R D P L A G LI ip port key n b x' cache'.
  subst x' cache'. rewrite send_to_backend_tb_unfold, (stb_transport_on e x t0 HR FT).
  (* the selection keeps members and rotation; here it is the pinned object, on a pstate p1 *)
  pose proof (C04.stb_sel_mem e (x_p x) m) as [(B1 & _) R1].
  rewrite (C04.stb_sel_pinned e (x_p x) m d addr g ex FX R D P L G A) in B1, R1 |- *. cbn [fst] in B1, R1. cbv beta iota zeta.
  set (p1 := if C04.notify_terminated (C04.req_method m) m
             then with_pins (with_pins (x_p x) (ps_pins (x_p x))) (pins_remove d (ps_pins (x_p x)))
             else with_pins (x_p x) (ps_pins (x_p x))) in *.
  rewrite backend_message_bytes. fold b. unfold backend_send_tb. rewrite tcp_backend_send_with_p.
  destruct (tcp_backend_send e addr g b x cache) as [[[x3 c3] o] ok] eqn:TS. cbn [fst snd].
  split.
  { rewrite tcp_backend_send_cases, LI in TS. cbv zeta in TS. fold ip port key n in TS.
    destruct (tb_usable x key cache) as [c|]; [|destruct (tb_listens x ip port)]; injection TS as <- <- <- <-;
      cbn [stb_finish fst with_p tb_dial_ctx x_outs x_conns x_world w_next_conn].
    - repeat split.
    - split; [reflexivity|]. split; [reflexivity|]. split; [reflexivity|apply alookup_aset_same].
    - repeat split. apply alookup_forget_same. }
  destruct (stb_finish_frame e (BObj addr g) (C06.backend_message e t0 (x_p x) m) (with_p x3 p1) o ok)
    as (_ & _ & LF & RF & BF & _).
  destruct (TB_send_one_message _ _ _ _ _ _ _ _ _ _ TS) as (_ & _ & _ & _ & L3 & _).
  split; [rewrite RF; exact R1|]. split; [rewrite BF; exact B1|]. split; [rewrite LF; exact L3|].
  (* the pstate left is p1, with the transaction pin when the send succeeded *)
  intros NK. pose proof (C04.sticky_pin_clause e m (x_p x) d addr g ex ok P L NK) as K. cbv zeta in K. fold p1 in K.
  destruct ok; cbn [stb_finish fst x_p with_p]; [rewrite tb_pin_spec|]; exact K.
Qed.

(* ... and when both sends succeed - the message fits a datagram (UDP model), the backend's connection is usable or
   the backend accepts a new one (TCP model) - the two models return the same message and leave the same pin table
   (TB_payload_agrees with its condition discharged) *)
Theorem TB_sticky_same_message : forall e m x cache t0 d addr g ex pos,
  fx_indialog_invite (e_fx e) = true ->
  ps_has_rr (x_p x) = true -> first_transport (e_lc e) = Some t0 ->
  is_request m = true -> C04.dialog_of m = Ok d ->
  C04.pin_at d (pin_val_backend addr g) ex (ps_pins (x_p x)) -> e_now e < ex ->
  alookup addr (ps_backends (x_p x)) = Some g -> C04.gen_ok g ->
  last_index_byte ":"%char addr = Some pos ->
  fits_datagram (C04.fwd_bytes e t0 (x_p x) m) = true ->
  (tb_usable x (tb_key (e_li e) addr g) cache <> None \/
   tb_listens x (firstn pos addr) (atoi_val (skipn (S pos) addr)) = true) ->
  snd (fst (send_to_backend_tb e m x cache)) = snd (send_to_backend e m x) /\
  ps_pins (x_p (fst (fst (send_to_backend_tb e m x cache)))) = ps_pins (x_p (fst (send_to_backend e m x))).
Proof.
  intros e m x cache t0 d addr g ex pos FX HR FT R D P L A G LI FD OK.
  destruct (TB_payload_agrees e m x cache) as (eu & et & _ & _ & _ & _ & _ & _ & _ & SAME & _).
  apply SAME. unfold stb_ok, stb_ok_tb. rewrite HR, FT. cbn [andb].
  pose proof (C04.stb_sel_mem e (x_p x) m) as [(B1 & _) _].
  rewrite (C04.stb_sel_pinned e (x_p x) m d addr g ex FX R D P L G A) in B1 |- *. cbn [fst snd] in B1 |- *.
  rewrite !backend_message_bytes.
  rewrite (C04.backend_send_obj addr g (C04.fwd_bytes e t0 (x_p x) m)) by (rewrite B1; apply alookup_in; exact A).
  cbn [snd]. rewrite FD.
  unfold backend_send_tb. rewrite tcp_backend_send_with_p, tcp_backend_send_cases, LI. cbv zeta.
  destruct (tb_usable x (tb_key (e_li e) addr g) cache) as [c|]; [reflexivity|].
  destruct OK as [OK|OK]; [exfalso; apply OK; reflexivity|]. rewrite OK. reflexivity.
Qed.

(* TB_unpinned_step.  A request without a live pin (C04_unpinned_step's hypotheses): the rotation advances exactly
   as in the UDP model, and the bytes go through TCPBackend.Send of the object currently registered under the
   address the rotation yields (TB_send_reuse / TB_send_dial / TB_send_refused say what that does). *)
Theorem TB_unpinned_step : forall e m x cache t0,
  ps_has_rr (x_p x) = true -> first_transport (e_lc e) = Some t0 -> is_request m = true ->
  (forall d, C04.dialog_of m = Ok d -> snd (pins_get (e_now e) d (ps_pins (x_p x))) = None) ->
  let b := C04.fwd_bytes e t0 (x_p x) m in
  let x' := fst (fst (send_to_backend_tb e m x cache)) in
  let cache' := snd (send_to_backend_tb e m x cache) in
  ps_rr (x_p x') = fst (rr_dispatch (ps_rr (x_p x))) /\
  ps_rr (x_p x') = ps_rr (x_p (fst (send_to_backend e m x))) /\
  ps_backends (x_p x') = ps_backends (x_p x) /\
  match snd (rr_dispatch (ps_rr (x_p x))) with
  | Some a =>
      match alookup a (ps_backends (x_p x)) with
      | Some g =>
          let '(xs, cs, outs, ok) := tcp_backend_send e a g b x cache in
          x_outs x' = x_outs x ++ outs /\ x_conns x' = x_conns xs /\ x_world x' = x_world xs /\ cache' = cs
      | None => x_outs x' = x_outs x /\ x_conns x' = x_conns x /\ x_world x' = x_world x /\ cache' = cache
      end
  | None => x_outs x' = x_outs x /\ x_conns x' = x_conns x /\ x_world x' = x_world x /\ cache' = cache
  end.
Proof.
  intros e m x cache t0 HR FT R NP b x' cache'.
  assert (RA : ps_rr (x_p x') = ps_rr (x_p (fst (send_to_backend e m x)))) by apply TB_rotation_agrees.
  pose proof (C04.C04_unpinned_step e m x t0 HR FT R NP) as RU. cbv zeta in RU. destruct RU as (_ & RU).
  split; [rewrite RA; exact RU|]. split; [exact RA|].
  subst x' cache'. rewrite send_to_backend_tb_unfold, (stb_transport_on e x t0 HR FT).
  pose proof (C04.stb_sel_mem e (x_p x) m) as [(B1 & _) RR].
  pose proof (C04.stb_sel_unpinned e (x_p x) m R NP) as S.
  destruct (C04.stb_sel e (x_p x) m) as [p1 sel]. cbn [fst snd] in B1, RR, S. subst sel. cbv beta iota zeta.
  rewrite backend_message_bytes. fold b.
  destruct (backend_send_tb e BRR b (with_p x p1) cache) as [[[x2 c2] o] ok] eqn:BT. cbn [fst snd].
  destruct (stb_finish_frame e BRR (C06.backend_message e t0 (x_p x) m) x2 o ok) as (CF & WF & _ & _ & BF & _).
  destruct (backend_send_tb_spec _ _ _ _ _ _ _ _ _ BT) as (P2 & _ & X2 & _ & _ & K0).
  rewrite BF, CF, WF, (stb_finish_outs _ _ _ _ _ _ K0), X2, P2. cbn [with_p x_p x_outs sent_p with_rr ps_backends].
  split; [exact B1|].
  (* which object the rotation's pick names: Backend.Send on the selected pstate reads the rotation and members of x *)
  unfold backend_send_tb in BT. cbn [with_p x_p] in BT. rewrite RR, B1 in BT.
  destruct (rr_dispatch (ps_rr (x_p x))) as [r' o']. cbn [snd].
  destruct o' as [a|]; [destruct (alookup a (ps_backends (x_p x))) as [g|]|].
  - rewrite !tcp_backend_send_with_p in BT. destruct (tcp_backend_send e a g b x cache) as [[[xs cs] outs] ok'].
    injection BT as <- <- <- <-. repeat split.
  - injection BT as <- <- <- <-. rewrite app_nil_r. repeat split.
  - injection BT as <- <- <- <-. rewrite app_nil_r. repeat split.
Qed.

Lemma mem_bytes_remove_all a l : mem_bytes a (remove_all a l) = false.
Proof.
  unfold mem_bytes. induction l as [|x r IH]; [reflexivity|]. cbn [remove_all].
  destruct (beq a x) eqn:E; [exact IH|]. cbn [existsb]. rewrite E. exact IH.
Qed.
Lemma conn_open_absent c cs : ~ In c (map cn_id cs) -> conn_open cs c = false.
Proof.
  unfold conn_open. induction cs as [|x r IH]; intros NI; [reflexivity|]. cbn [existsb map In] in *.
  destruct (Nat.eqb_spec (cn_id x) c) as [E|E]; [exfalso; apply NI; left; exact E|]. cbn [andb orb].
  apply IH. intros H. apply NI. right. exact H.
Qed.
Lemma conn_open_close_same c cs : NoDup (map cn_id cs) -> conn_open (close_conn c cs) c = false.
Proof.
  induction cs as [|x r IH]; intros ND; [reflexivity|]. cbn [close_conn map] in *. inversion ND as [|? ? NI ND']. subst.
  destruct (Nat.eqb_spec (cn_id x) c) as [E|E].
  - unfold conn_open. cbn [existsb cn_id cn_open]. rewrite andb_false_r. cbn [orb].
    apply (conn_open_absent c r). rewrite <- E. exact NI.
  - unfold conn_open. cbn [existsb]. destruct (Nat.eqb_spec (cn_id x) c) as [E'|_]; [contradiction|]. cbn [andb orb].
    apply IH. exact ND'.
Qed.

(* EvBackendRemove on a TCP-backend entry, the address being a member whose current object has a cached
   connection [cid]: that connection is closed (the first - by unique numbering: the - record numbered cid), no
   other connection changes, nothing is emitted, the cache is left as it is (the object is gone with its key: a
   later AddBackend of the same address creates a NEW generation, hence a new key), and the proxy objects are
   exactly what Proxy.proxy_step makes them: the address has left the member set and the rotation's map *)
Theorem TB_remove_closes : forall tb fx c now br st cache li addr p g cid,
  is_tb tb li = true -> nth_p (st_proxies st) li = Some p ->
  mem_bytes addr (rr_map (ps_rr p)) = true -> alookup addr (ps_backends p) = Some g ->
  alookup (tb_key li addr g) cache = Some cid ->
  exists st' stp p',
    proxy_step_tb tb fx c now br st cache (EvBackendRemove li addr) = Ok (st', cache, []) /\
    proxy_step fx c now br st (EvBackendRemove li addr) = Ok (stp, []) /\
    st_conns st' = close_conn cid (st_conns st) /\ st_conns stp = st_conns st /\
    (NoDup (map cn_id (st_conns st)) -> conn_open (st_conns st') cid = false) /\
    (forall c', c' <> cid -> conn_open (st_conns st') c' = conn_open (st_conns st) c') /\
    st_proxies st' = st_proxies stp /\ st_learned st' = st_learned stp /\ st_world st' = st_world stp /\
    nth_p (st_proxies st') li = Some p' /\
    ps_backends p' = adel addr (ps_backends p) /\ alookup addr (ps_backends p') = None /\
    ps_rr p' = fst (rr_remove addr (ps_rr p)) /\ mem_bytes addr (rr_map (ps_rr p')) = false.
Proof.
  intros tb fx c now br st cache li addr p g cid TB N M A K.
  unfold proxy_step_tb. cbn [ev_li]. rewrite TB. cbn [negb proxy_step]. rewrite N. cbv beta iota zeta. rewrite M, A, K.
  destruct (rr_remove addr (ps_rr p)) as [r' closed] eqn:RM. cbv beta iota zeta.
  eexists. eexists. eexists. split; [reflexivity|]. split; [reflexivity|].
  cbn [st_conns st_proxies st_learned st_world].
  split; [reflexivity|]. split; [reflexivity|]. split; [apply conn_open_close_same|].
  split; [intros c' NE; apply C12.conn_open_close_other; congruence|].
  split; [reflexivity|]. split; [reflexivity|]. split; [reflexivity|].
  split; [eapply Pipeline.nth_set_same; exact N|]. cbn [ps_backends ps_rr].
  split; [reflexivity|]. split; [apply alookup_adel_same|]. split; [reflexivity|].
  unfold rr_remove in RM. rewrite M in RM. injection RM as <- _. cbn [rr_map]. apply mem_bytes_remove_all.
Qed.

(* no cached connection for the object (or the address is not a member, or the entry has no proxy object): the
   step is the Proxy step, the cache untouched *)
Theorem TB_remove_no_cached : forall tb fx c now br st cache li addr,
  (forall p g, nth_p (st_proxies st) li = Some p -> mem_bytes addr (rr_map (ps_rr p)) = true ->
               alookup addr (ps_backends p) = Some g -> alookup (tb_key li addr g) cache = None) ->
  proxy_step_tb tb fx c now br st cache (EvBackendRemove li addr) =
  lift_step (proxy_step fx c now br st (EvBackendRemove li addr)) cache.
Proof.
  intros tb fx c now br st cache li addr H. unfold proxy_step_tb. cbn [ev_li].
  destruct (is_tb tb li); cbn [negb]; [|reflexivity].
  destruct (nth_p (st_proxies st) li) as [p|] eqn:N.
  - assert (V : (if mem_bytes addr (rr_map (ps_rr p))
                 then match alookup addr (ps_backends p) with
                      | Some g => alookup (tb_key li addr g) cache
                      | None => None end
                 else None) = None).
    { destruct (mem_bytes addr (rr_map (ps_rr p))) eqn:M; [|reflexivity].
      destruct (alookup addr (ps_backends p)) as [g|] eqn:A; [|reflexivity]. exact (H p g eq_refl M A). }
    rewrite V. unfold lift_step.
    destruct (proxy_step fx c now br st (EvBackendRemove li addr)) as [[st' outs]| |]; reflexivity.
  - cbn [proxy_step]. rewrite N. reflexivity.
Qed.

(* one listen entry 10.0.0.1:5060 whose two backends are reached over TCP; both accept connections *)
Definition tb_lc : listen_cfg :=
  {| lc_addr := s2b "10.0.0.1"; lc_udp := 5060; lc_tcp := 5060;
     lc_backends := [s2b "10.0.0.11:5070"; s2b "10.0.0.12:5070"];
     lc_dynamic := false; lc_no_received := false; lc_def_route := false; lc_must_rr := false |}.
Definition tb_cfg : cfg :=
  {| c_name := s2b "sip.example.com"; c_keep_next_hop := false; c_dialog_timeout := 1800;
     c_routes := []; c_hosts := []; c_listens := [tb_lc] |}.
Definition tb_st0 : state := init_state tb_cfg 0 [(s2b "10.0.0.11", 5070); (s2b "10.0.0.12", 5070)].
Definition tb_flags : list bool := [true].
Definition opt (n : string) : event := EvUdp 0 (s2b "10.0.0.98") 5060 (C04.ex_options n).
Definition dests_tb (r : res (state * bcache * list (list output))) : list (list dest) :=
  match r with Ok (_, _, o) => map (map fst) o | _ => [] end.
Definition state_tb (r : res (state * bcache * list (list output))) : state * bcache :=
  match r with Ok (s, ch, _) => (s, ch) | _ => (tb_st0, []) end.

(* INVITE, OPTIONS, OPTIONS, the backend closes connection 0, OPTIONS, OPTIONS *)
Definition tb_hist1 : C04.hist :=
  [ (C04.sec 1, s2b "z9hG4bKpx0", EvUdp 0 (s2b "10.0.0.99") 5060 C04.ex_invite);
    (C04.sec 2, s2b "z9hG4bKpx1", opt "1");
    (C04.sec 3, s2b "z9hG4bKpx2", opt "2");
    (C04.sec 4, [], EvTcpClose 0);
    (C04.sec 5, s2b "z9hG4bKpx4", opt "3");
    (C04.sec 6, s2b "z9hG4bKpx5", opt "4") ].
(* INVITE, the 200 arrives on the backend's connection, BYE of that dialog, OPTIONS *)
Definition tb_hist2 : C04.hist :=
  [ (C04.sec 1, s2b "z9hG4bKpx0", EvUdp 0 (s2b "10.0.0.99") 5060 C04.ex_invite);
    (C04.sec 2, s2b "z9hG4bKpx1", EvTcpData 0 C04.ex_200);
    (C04.sec 3, s2b "z9hG4bKpx2", EvUdp 0 (s2b "10.0.0.99") 5060 C04.ex_bye);
    (C04.sec 4, s2b "z9hG4bKpx3", opt "1") ].
(* RemoveBackend after the first request *)
Definition tb_hist3 : C04.hist :=
  [ (C04.sec 1, s2b "z9hG4bKpx0", EvUdp 0 (s2b "10.0.0.99") 5060 C04.ex_invite);
    (C04.sec 2, [], EvBackendRemove 0 (s2b "10.0.0.12:5070")) ].

Definition b11 : bytes := s2b "10.0.0.11".
Definition b12 : bytes := s2b "10.0.0.12".
Definition tb_r1 := run_tb tb_flags all_fixed tb_cfg tb_st0 [] tb_hist1.
Definition tb_r2 := run_tb tb_flags all_fixed tb_cfg tb_st0 [] tb_hist2.
Definition tb_r3 := run_tb tb_flags all_fixed tb_cfg tb_st0 [] tb_hist3.

(* What the examples need of a run is gathered in one evaluated statement per run.  The run stands under a [let] (or
   is a constant): the checker's lazy machine then evaluates it once for all the conjuncts, and only as far as they
   look - the bytes of the outputs are never rendered. *)
Lemma tb_first_facts :
  let r := run_tb tb_flags all_fixed tb_cfg tb_st0 [] (firstn 1 tb_hist1) in
  dests_tb r = [[DDial b12 5070 0; DConn 0]] /\ conn_open (st_conns (fst (state_tb r))) 0 = true /\
  exists p, nth_p (st_proxies (fst (state_tb r))) 0 = Some p /\ mem_bytes (s2b "10.0.0.12:5070") (rr_map (ps_rr p)) = true /\
            alookup (s2b "10.0.0.12:5070") (ps_backends p) = Some 1%nat /\
            alookup (tb_key 0 (s2b "10.0.0.12:5070") 1) (snd (state_tb r)) = Some 0%nat.
Proof. vm_compute. split; [reflexivity|]. split; [reflexivity|]. eexists. repeat apply conj; reflexivity. Qed.
Lemma tb_r1_facts :
  let r := run_tb tb_flags all_fixed tb_cfg tb_st0 [] tb_hist1 in
  is_ok r = true /\
  dests_tb r =
    [ [DDial b12 5070 0; DConn 0]; [DDial b11 5070 1; DConn 1]; [DConn 0]; []; [DConn 1]; [DDial b12 5070 2; DConn 2] ] /\
  snd (state_tb r) = [(tb_key 0 (s2b "10.0.0.11:5070") 0, 1%nat); (tb_key 0 (s2b "10.0.0.12:5070") 1, 2%nat)] /\
  map cn_id (st_conns (fst (state_tb r))) = [0; 1; 2]%nat /\ w_next_conn (st_world (fst (state_tb r))) = 3%nat.
Proof. vm_compute. repeat apply conj; reflexivity. Qed.
(* a run that succeeds, as the equation the history theorems ask for *)
Lemma run_tb_parts (r : res (state * bcache * list (list output))) :
  is_ok r = true -> exists outss, r = Ok (fst (state_tb r), snd (state_tb r), outss).
Proof. destruct r as [[[st cache] outss]| |]; try discriminate. intros _. exists outss. reflexivity. Qed.

(* the first request: a connection to the rotation's first pick (index 0 -> element 1) is dialled and written *)
Example TB_ex_first_request :
  dests_tb (run_tb tb_flags all_fixed tb_cfg tb_st0 [] (firstn 1 tb_hist1)) = [[DDial b12 5070 0; DConn 0]].
Proof. exact (proj1 tb_first_facts). Qed.
(* ... and what is written is, byte for byte, the datagram the UDP model sends for the same event *)
Example TB_ex_same_bytes :
  match proxy_step_tb tb_flags all_fixed tb_cfg (C04.sec 1) (s2b "z9hG4bKpx0") tb_st0 []
                      (EvUdp 0 (s2b "10.0.0.99") 5060 C04.ex_invite),
        proxy_step all_fixed tb_cfg (C04.sec 1) (s2b "z9hG4bKpx0") tb_st0 (EvUdp 0 (s2b "10.0.0.99") 5060 C04.ex_invite) with
  | Ok (_, _, [(DDial _ _ _, []); (DConn _, b)]), Ok (_, [(DUdp _ _, b')]) => b = b'
  | _, _ => False
  end.
Proof. vm_compute. reflexivity. Qed.
(* the second request dials the other backend, the third REUSES connection 0 (no dial);
   after the backend closed connection 0, the next request for it (the fifth event's goes to .11 on its open
       connection 1) dials again: connection 2.  The cache ends with the two live connections. *)
Example TB_ex_reuse_and_redial :
  dests_tb tb_r1 =
  [ [DDial b12 5070 0; DConn 0]; [DDial b11 5070 1; DConn 1]; [DConn 0]; []; [DConn 1]; [DDial b12 5070 2; DConn 2] ] /\
  snd (state_tb tb_r1) = [(tb_key 0 (s2b "10.0.0.11:5070") 0, 1%nat); (tb_key 0 (s2b "10.0.0.12:5070") 1, 2%nat)].
Proof. destruct tb_r1_facts as (_ & D & C & _). split; [exact D|exact C]. Qed.
(* the 200 (both tags, CSeq INVITE) arriving on connection 0 is relayed to the caller and pins the dialog to the
   object 10.0.0.12:5070#1; the BYE of the dialog is written on connection 0 although the rotation's next pick is
   10.0.0.11 - where the following OPTIONS goes *)
Example TB_ex_pinned :
  dests_tb tb_r2 =
  [ [DDial b12 5070 0; DConn 0]; [DUdp (s2b "10.0.0.99") 5060]; [DConn 0]; [DDial b11 5070 1; DConn 1] ] /\
  match nth_p (st_proxies (fst (state_tb (run_tb tb_flags all_fixed tb_cfg tb_st0 [] (firstn 2 tb_hist2))))) 0 with
  | Some p => alookup C04.ex_d (p_tab (ps_pins p)) =
              Some {| pin_backend := pin_val_backend (s2b "10.0.0.12:5070") 1; pin_expire := C04.sec 1802 |}
  | None => False
  end.
Proof. vm_compute. split; reflexivity. Qed.
(* RemoveBackend of the backend whose connection is cached: nothing is emitted, the connection is closed *)
Example TB_ex_remove :
  dests_tb tb_r3 = [[DDial b12 5070 0; DConn 0]; []] /\
  conn_open (st_conns (fst (state_tb tb_r3))) 0 = false /\
  conn_open (st_conns (fst (state_tb (run_tb tb_flags all_fixed tb_cfg tb_st0 [] (firstn 1 tb_hist3))))) 0 = true.
Proof.
  assert (R3 : dests_tb tb_r3 = [[DDial b12 5070 0; DConn 0]; []] /\ conn_open (st_conns (fst (state_tb tb_r3))) 0 = false)
    by (vm_compute; split; reflexivity).
  destruct R3 as (D & O). split; [exact D|]. split; [exact O|].
  change (firstn 1 tb_hist3) with (firstn 1 tb_hist1). exact (proj1 (proj2 tb_first_facts)).
Qed.
(* the same events on the same configuration with UDP backends: TB_conservative_history at work *)
Example TB_ex_conservative :
  run_tb [false] all_fixed tb_cfg tb_st0 [] tb_hist1 = lift_run (C04.run all_fixed tb_cfg tb_st0 tb_hist1) [].
Proof. apply TB_conservative_history. apply is_tb_all_false. reflexivity. Qed.

(* the hypotheses of the main theorems are satisfiable: instances on the states of these runs *)
Definition tb_r2a := run_tb tb_flags all_fixed tb_cfg tb_st0 [] (firstn 2 tb_hist2).   (* after INVITE and 200 *)
Definition tb_st2 : state := fst (state_tb tb_r2a).
Definition tb_cache2 : bcache := snd (state_tb tb_r2a).
Definition tb_p2 : pstate := match nth_p (st_proxies tb_st2) 0 with Some p => p | None => init_pstate tb_cfg 0 tb_lc end.
Definition tb_x2 : ctx :=
  {| x_learned := st_learned tb_st2; x_p := tb_p2; x_conns := st_conns tb_st2; x_world := st_world tb_st2; x_outs := [] |}.
Definition tb_e3 : env := mk_env all_fixed tb_cfg (item_rs_of true) 0 tb_lc (C04.sec 3) (s2b "z9hG4bKpx2").

(* TB_sticky_step on the re-INVITE the callee sends inside the pinned dialog: written on the cached connection 0 *)
Lemma tb_x2_facts :
  let m := C04.msg_of C04.ex_reinvite in
  ps_has_rr (x_p tb_x2) = true /\ is_request m = true /\ C04.dialog_of m = Ok C04.ex_d /\
  C04.pin_at C04.ex_d (pin_val_backend (s2b "10.0.0.12:5070") 1) (C04.sec 1802) (ps_pins (x_p tb_x2)) /\
  alookup (s2b "10.0.0.12:5070") (ps_backends (x_p tb_x2)) = Some 1%nat /\
  tb_usable tb_x2 (tb_key (e_li tb_e3) (s2b "10.0.0.12:5070") 1) tb_cache2 = Some 0%nat.
Proof. vm_compute. repeat apply conj; reflexivity. Qed.
Example TB_sticky_step_ex :
  let m := C04.msg_of C04.ex_reinvite in
  let b := C04.fwd_bytes tb_e3 (C04.udp_from tb_lc) (x_p tb_x2) m in
  x_outs (fst (fst (send_to_backend_tb tb_e3 m tb_x2 tb_cache2))) = x_outs tb_x2 ++ [(DConn 0, b)] /\
  ps_rr (x_p (fst (fst (send_to_backend_tb tb_e3 m tb_x2 tb_cache2)))) = ps_rr (x_p tb_x2) /\
  snd (send_to_backend_tb tb_e3 m tb_x2 tb_cache2) = tb_cache2.
Proof.
  intros m b. destruct tb_x2_facts as (HR & R & D & P & A & U).
  assert (G : C04.gen_ok 1) by (vm_compute; discriminate).
  pose proof (TB_sticky_step tb_e3 m tb_x2 tb_cache2 (C04.udp_from tb_lc) C04.ex_d (s2b "10.0.0.12:5070") 1%nat
                (C04.sec 1802) 9%nat eq_refl HR eq_refl R D P eq_refl A G eq_refl) as H.
  cbv zeta in H. rewrite U in H. destruct H as ((O & _ & _ & CE) & H2 & _). split; [exact O|]. split; [exact H2|exact CE].
Qed.

(* TB_unpinned_step on the first INVITE (no To tag: no dialog) *)
Example TB_unpinned_step_ex :
  let e := mk_env all_fixed tb_cfg (item_rs_of true) 0 tb_lc (C04.sec 1) (s2b "z9hG4bKpx0") in
  let x := {| x_learned := []; x_p := init_pstate tb_cfg 0 tb_lc; x_conns := []; x_world := st_world tb_st0; x_outs := [] |} in
  ps_rr (x_p (fst (fst (send_to_backend_tb e (C04.msg_of C04.ex_invite) x [])))) = fst (rr_dispatch (ps_rr (x_p x))) /\
  snd (rr_dispatch (ps_rr (x_p x))) = Some (s2b "10.0.0.12:5070").
Proof.
  intros e x.
  unshelve epose proof (TB_unpinned_step e (C04.msg_of C04.ex_invite) x [] (C04.udp_from tb_lc) _ _ _ _) as H.
  1-3: vm_compute; reflexivity.
  1: intros d Hd; vm_compute in Hd; discriminate Hd.
  cbv zeta in H. destruct H as (H1 & _). split; [exact H1|]. vm_compute. reflexivity.
Qed.

(* TB_remove_closes on the state after the first request *)
Example TB_remove_closes_ex :
  let r := run_tb tb_flags all_fixed tb_cfg tb_st0 [] (firstn 1 tb_hist3) in
  let st := fst (state_tb r) in let cache := snd (state_tb r) in
  exists st', proxy_step_tb tb_flags all_fixed tb_cfg (C04.sec 2) [] st cache (EvBackendRemove 0 (s2b "10.0.0.12:5070"))
              = Ok (st', cache, []) /\ st_conns st' = close_conn 0 (st_conns st).
Proof.
  intros r st cache. subst st cache r. change (firstn 1 tb_hist3) with (firstn 1 tb_hist1).
  destruct tb_first_facts as (_ & _ & p & N & M & A & K).
  set (r := run_tb tb_flags all_fixed tb_cfg tb_st0 [] (firstn 1 tb_hist1)) in *.
  destruct (TB_remove_closes tb_flags all_fixed tb_cfg (C04.sec 2) [] (fst (state_tb r)) (snd (state_tb r)) 0%nat
              (s2b "10.0.0.12:5070") p 1%nat 0%nat eq_refl N M A K) as (st' & stp & p' & E1 & _ & C & _).
  exists st'. split; [exact E1|exact C].
Qed.

(* The model changes the connection list and the world in two ways only: it closes a connection, and it opens
   one, which it appends under the next free number.  [evolves] is the closure of the two; what TB_cache_ok_history
   and TB_conns_fresh_history claim of every history is shown for these two changes. *)
Inductive evolves : list conn -> world -> list conn -> world -> Prop :=
| evolves_refl cs w : evolves cs w cs w
| evolves_trans cs1 w1 cs2 w2 cs3 w3 : evolves cs1 w1 cs2 w2 -> evolves cs2 w2 cs3 w3 -> evolves cs1 w1 cs3 w3
| evolves_close c cs w : evolves cs w (close_conn c cs) w
| evolves_open cn cs w : cn_id cn = w_next_conn w ->
    evolves cs w (cs ++ [cn]) {| w_tcp_listeners := w_tcp_listeners w; w_next_conn := S (w_next_conn w) |}.
Definition xevolves (x x' : ctx) : Prop := evolves (x_conns x) (x_world x) (x_conns x') (x_world x').

(* Proxy.v: every function that is handed connections and world lets them evolve *)
Lemma failover_send_evolves li local rs f b p cs w p' cs' w' outs ok f' :
  failover_send li local rs f b p cs w = (p', cs', w', outs, ok, f') -> evolves cs w cs' w'.
Proof.
  rewrite Pipeline.failover_send_eq. destruct (Pipeline.pri_out f b cs); intros H.
  - injection H as _ <- <- _ _ _. apply evolves_refl.
  - injection H as H _. revert p' cs' w' outs ok H. apply Pipeline.try_sec_inv.
    + intros p' cs' w' outs ok H. injection H as _ <- <- _ _. apply evolves_refl.
    + intros id p' cs' w' outs ok H. apply Pipeline.tcp_client_send_inv in H.
      destruct H as (_ & [(-> & -> & _)|(h & pt & -> & -> & _)]); [apply evolves_refl|apply evolves_open; reflexivity].
Qed.
Lemma send_message_evolves e host port tr m x : xevolves x (fst (send_message e host port tr m x)).
Proof.
  unfold xevolves.
  destruct (Pipeline.send_message_io e host port tr m x) as (_ & [(-> & -> & _)|(f & p3 & p4 & outs & ok & f' & EF & _)]).
  - apply evolves_refl.
  - exact (failover_send_evolves _ _ _ _ _ _ _ _ _ _ _ _ _ _ EF).
Qed.
Lemma handle_message_evolves e from m x : xevolves x (fst (handle_message e from m x)).
Proof.
  apply (MsgStages.handle_message_rel xevolves).
  - intros y. apply evolves_refl.
  - intros y1 y2 y3. apply evolves_trans.
  - apply send_message_evolves.
  - intros m1 y. unfold xevolves. destruct (Pipeline.send_to_backend_msg e m1 y) as (_ & -> & -> & _). apply evolves_refl.
  - intros y l pins. apply evolves_refl.
Qed.
Lemma process_message_evolves e peer port from rs tcp m0 x x' :
  process_message e peer port from rs tcp m0 x = Ok x' -> xevolves x x'.
Proof.
  rewrite process_message_pm_reach. destruct (pm_reach e peer port from rs tcp m0 x) as [[m5 x1]| |] eqn:PR; try discriminate.
  destruct (pm_reach_frame _ _ _ _ _ _ _ _ _ _ PR) as (_ & C1 & W1).
  intros H. injection H as <-. unfold xevolves. rewrite <- C1, <- W1. apply handle_message_evolves.
Qed.
Lemma proxy_step_evolves fx c now br st ev st' outs :
  proxy_step fx c now br st ev = Ok (st', outs) -> evolves (st_conns st) (st_world st) (st_conns st') (st_world st').
Proof.
  intros H.
  refine (Pipeline.proxy_step_inv fx c now br (fun s => evolves (st_conns st) (st_world st) (st_conns s) (st_world s))
            _ _ _ st ev st' outs (evolves_refl _ _) H).
  - intros s li lc peer port from rs tcp m x x' _ Ix E.
    exact (evolves_trans _ _ _ _ _ _ Ix (process_message_evolves _ _ _ _ _ _ _ _ _ E)).
  - intros s cid Is. exact (evolves_trans _ _ _ _ _ _ Is (evolves_close cid _ _)).
  - (* a connection is accepted under the next number; AddBackend and RemoveBackend leave connections alone *)
    intros ev0 s s' o T Is E. apply (evolves_trans _ _ _ _ _ _ Is).
    destruct ev0 as [| li src sport | | | li a | li a]; try contradiction; cbn [proxy_step] in E.
    + destruct (nth_opt (c_listens c) li) as [lc|]; [destruct (nth_p (st_proxies s) li) as [p|]|];
        try (injection E as <- _; apply evolves_refl).
      destruct (get_transport _ _ _ _ _ _) as [p1 rk]. injection E as <- _. apply evolves_open. reflexivity.
    + destruct (nth_p (st_proxies s) li) as [p|]; injection E as <- _; apply evolves_refl.
    + destruct (nth_p (st_proxies s) li) as [p|]; [destruct (rr_remove a (ps_rr p)) as [r' closed]|];
        injection E as <- _; apply evolves_refl.
Qed.

(* a connection record keeps its number, listen entry and peer for ever: closing touches cn_open only *)
Definition conn_end (cn : conn) : nat * nat * bytes * Z := (cn_id cn, cn_li cn, cn_peer cn, cn_peer_port cn).
Lemma close_conn_map {B} (f : conn -> B) c cs :
  (forall x, f {| cn_id := cn_id x; cn_li := cn_li x; cn_open := false; cn_peer := cn_peer x; cn_peer_port := cn_peer_port x;
                  cn_from := cn_from x; cn_received_support := cn_received_support x |} = f x) ->
  map f (close_conn c cs) = map f cs.
Proof.
  intros H. induction cs as [|x r IH]; [reflexivity|]. cbn [close_conn].
  destruct (Nat.eqb (cn_id x) c); cbn [map]; [rewrite H|rewrite IH]; reflexivity.
Qed.
Lemma evolves_ends cs w cs' w' : evolves cs w cs' w' -> incl (map conn_end cs) (map conn_end cs').
Proof.
  induction 1 as [cs w|cs1 w1 cs2 w2 cs3 w3 _ IH1 _ IH2|c cs w|cn cs w _].
  - apply incl_refl.
  - exact (incl_tran IH1 IH2).
  - rewrite (close_conn_map conn_end c cs (fun _ => eq_refl)). apply incl_refl.
  - rewrite map_app. apply incl_appl, incl_refl.
Qed.

(* the invariant of the cache: every entry is filed under the key of a backend object (li, a, g) whose address has
   a port, and names a known connection of entry li whose peer is that address *)
Definition cache_ok (cs : list conn) (cache : bcache) : Prop :=
  forall k c, alookup k cache = Some c ->
    exists li a g pos cn, k = tb_key li a g /\ last_index_byte ":"%char a = Some pos /\
      In cn cs /\ cn_id cn = c /\ cn_li cn = li /\
      cn_peer cn = firstn pos a /\ cn_peer_port cn = atoi_val (skipn (S pos) a).
Lemma cache_ok_evolves cs w cs' w' cache : evolves cs w cs' w' -> cache_ok cs cache -> cache_ok cs' cache.
Proof.
  intros EV H k c A. destruct (H k c A) as (li & a & g & pos & cn & E & LI & I & C1 & C2 & C3 & C4).
  apply (in_map conn_end), (evolves_ends _ _ _ _ EV), in_map_iff in I. destruct I as (cn' & E' & I').
  injection E' as D1 D2 D3 D4. exists li, a, g, pos, cn'.
  split; [exact E|]. split; [exact LI|]. split; [exact I'|]. repeat split; congruence.
Qed.
Lemma cache_ok_forget cs key cache : cache_ok cs cache -> cache_ok cs (tb_forget key cache).
Proof.
  intros H k c A. apply H. destruct (beq_spec k key) as [->|NE]; [rewrite alookup_forget_same in A; discriminate A|].
  rewrite <- (alookup_forget_other k key cache NE). exact A.
Qed.
Lemma cache_ok_set cs cache li a g pos cn : cache_ok cs cache ->
  last_index_byte ":"%char a = Some pos -> In cn cs -> cn_li cn = li ->
  cn_peer cn = firstn pos a -> cn_peer_port cn = atoi_val (skipn (S pos) a) ->
  cache_ok cs (aset (tb_key li a g) (cn_id cn) cache).
Proof.
  intros H LI I C2 C3 C4 k c A. destruct (beq_spec k (tb_key li a g)) as [->|NE].
  - rewrite alookup_aset_same in A. injection A as <-. exists li, a, g, pos, cn. repeat split; assumption.
  - rewrite alookup_aset_other in A by exact NE. exact (H k c A).
Qed.

(* every known connection has its own number, below the next one to be given out *)
Definition conns_fresh (st : state) : Prop :=
  NoDup (map cn_id (st_conns st)) /\ forall c, In c (st_conns st) -> (cn_id c < w_next_conn (st_world st))%nat.
(* the same of a connection list and a world: [conns_fresh st] unfolds to [fresh (st_conns st) (st_world st)] *)
Definition fresh (cs : list conn) (w : world) : Prop :=
  NoDup (map cn_id cs) /\ forall c, In c cs -> (cn_id c < w_next_conn w)%nat.
Lemma fresh_evolves cs w cs' w' : evolves cs w cs' w' -> fresh cs w -> fresh cs' w'.
Proof.
  induction 1 as [cs w|cs1 w1 cs2 w2 cs3 w3 _ IH1 _ IH2|c cs w|cn cs w E]; intros F.
  - exact F.
  - exact (IH2 (IH1 F)).
  - destruct F as (ND & B). split; [rewrite (close_conn_map cn_id c cs (fun _ => eq_refl)); exact ND|].
    (* a record of the closed list has the number of a record of the list *)
    intros x I. apply (in_map cn_id) in I. rewrite (close_conn_map cn_id c cs (fun _ => eq_refl)) in I.
    apply in_map_iff in I. destruct I as (y & <- & I). exact (B y I).
  - (* the new number is not below itself *)
    destruct F as (ND & B). split.
    + rewrite map_app. apply (proj2 (NoDup_Add (Add_app (cn_id cn) (map cn_id cs) []))). rewrite app_nil_r.
      split; [exact ND|]. intros I. apply in_map_iff in I. destruct I as (y & EY & I). apply B in I. lia.
    + cbn [w_next_conn]. intros x I. apply in_app_or in I. destruct I as [I|[<-|[]]]; [apply B in I; lia|lia].
Qed.

(* ProxyTB.v: connections and world evolve, and the cache stays true to the connections *)
Definition tb_evolves (x : ctx) (cache : bcache) (x' : ctx) (cache' : bcache) : Prop :=
  xevolves x x' /\ (cache_ok (x_conns x) cache -> cache_ok (x_conns x') cache').
Lemma tb_evolves_refl x cache : tb_evolves x cache x cache.
Proof. split; [apply evolves_refl|intros H; exact H]. Qed.
Lemma tb_evolves_trans x1 c1 x2 c2 x3 c3 : tb_evolves x1 c1 x2 c2 -> tb_evolves x2 c2 x3 c3 -> tb_evolves x1 c1 x3 c3.
Proof. intros (E1 & K1) (E2 & K2). split; [exact (evolves_trans _ _ _ _ _ _ E1 E2)|intros H; exact (K2 (K1 H))]. Qed.
Lemma tb_evolves_lift x x' cache : xevolves x x' -> tb_evolves x cache x' cache.
Proof. intros E. split; [exact E|exact (cache_ok_evolves _ _ _ _ cache E)]. Qed.

Lemma tcp_backend_send_evolves e a g b x cache x' cache' outs ok :
  tcp_backend_send e a g b x cache = (x', cache', outs, ok) -> tb_evolves x cache x' cache'.
Proof.
  rewrite tcp_backend_send_cases.
  destruct (last_index_byte ":"%char a) as [pos|] eqn:LI; cbv zeta;
    [destruct (tb_usable x (tb_key (e_li e) a g) cache) as [c|];
       [|destruct (tb_listens x (firstn pos a) (atoi_val (skipn (S pos) a)))]|];
    intros H; injection H as <- <- _ _; try apply tb_evolves_refl.
  - (* dialled: the new entry names the new connection *)
    assert (EV : xevolves x (tb_dial_ctx e x (firstn pos a) (atoi_val (skipn (S pos) a)))) by (apply evolves_open; reflexivity).
    split; [exact EV|]. intros H.
    apply (cache_ok_set _ _ (e_li e) a g pos (tb_new_conn e x (firstn pos a) (atoi_val (skipn (S pos) a))));
      try reflexivity; [|exact LI|apply in_or_app; right; left; reflexivity].
    apply cache_ok_forget. exact (cache_ok_evolves _ _ _ _ cache EV H).
  - split; [apply evolves_refl|apply cache_ok_forget].
Qed.
Lemma backend_send_tb_evolves e bk b x cache x' cache' outs ok :
  backend_send_tb e bk b x cache = (x', cache', outs, ok) -> tb_evolves x cache x' cache'.
Proof.
  unfold backend_send_tb. destruct bk as [a g|]; [apply tcp_backend_send_evolves|].
  destruct (rr_dispatch (ps_rr (x_p x))) as [r' o].
  destruct o as [a|]; [destruct (alookup a (ps_backends (x_p x))) as [g|]|]; intros H;
    [exact (tcp_backend_send_evolves _ _ _ _ _ _ _ _ _ _ H)| |]; injection H as <- <- _ _;
    exact (tb_evolves_lift x _ cache (evolves_refl _ _)).
Qed.
Lemma send_to_backend_tb_evolves e m x cache :
  tb_evolves x cache (fst (fst (send_to_backend_tb e m x cache))) (snd (send_to_backend_tb e m x cache)).
Proof.
  rewrite send_to_backend_tb_unfold. destruct (stb_transport e x) as [t0|]; [|apply tb_evolves_refl].
  destruct (C04.stb_sel e (x_p x) m) as [p1 bk]. cbv zeta.
  destruct (backend_send_tb e bk _ (with_p x p1) cache) as [[[x2 cache2] outs] ok] eqn:BT.
  apply backend_send_tb_evolves in BT. cbn [fst snd].
  destruct (stb_finish_frame e bk (C06.backend_message e t0 (x_p x) m) x2 outs ok) as (C & W & _).
  unfold tb_evolves, xevolves. rewrite C, W. exact BT.
Qed.
Lemma handle_message_tb_evolves e from m x cache :
  tb_evolves x cache (fst (fst (handle_message_tb e from m x cache))) (snd (handle_message_tb e from m x cache)).
Proof.
  destruct (reaches_backend e from m) eqn:RB.
  - pose proof (TB_copy_faithful_backend e from m x cache RB) as E. cbv zeta in E. destruct E as (-> & _).
    apply send_to_backend_tb_evolves.
  - rewrite (TB_copy_faithful e from m x cache RB). unfold lift_hm.
    pose proof (handle_message_evolves e from m x) as K. destruct (handle_message e from m x) as [x' m'].
    exact (tb_evolves_lift x x' cache K).
Qed.
Lemma process_message_tb_evolves e peer port from rs tcp m0 x cache x' cache' :
  process_message_tb e peer port from rs tcp m0 x cache = Ok (x', cache') -> tb_evolves x cache x' cache'.
Proof.
  rewrite process_message_tb_reach.
  destruct (pm_reach e peer port from rs tcp m0 x) as [[m5 x1]| |] eqn:PR; try discriminate.
  destruct (pm_reach_frame _ _ _ _ _ _ _ _ _ _ PR) as (_ & C1 & W1).
  pose proof (handle_message_tb_evolves e from m5 x1 cache) as K.
  destruct (handle_message_tb e from m5 x1 cache) as [[x2 mm] c2]. cbn [fst snd] in K.
  intros E. injection E as <- <-. unfold tb_evolves, xevolves in *. rewrite <- C1, <- W1. exact K.
Qed.
Lemma tcp_messages_tb_evolves f e c s x cache x' cache' :
  tcp_messages_tb f e c s x cache = Ok (x', cache') -> tb_evolves x cache x' cache'.
Proof.
  intros H. apply (tcp_messages_tb_run (fun _ a b => tb_evolves (fst a) (snd a) (fst b) (snd b)) e c) in H.
  - destruct H as (n & _ & K). exact K.
  - intros a. apply tb_evolves_refl.
  - intros y ch. exact (tb_evolves_lift y (Pipeline.close_ctx (cn_id c) y) ch (evolves_close (cn_id c) _ _)).
  - intros n m y ch [y1 ch1] b PM K. exact (tb_evolves_trans _ _ _ _ _ _ (process_message_tb_evolves _ _ _ _ _ _ _ _ _ _ _ PM) K).
Qed.
Lemma proxy_step_tb_evolves tb fx c now br st cache ev st' cache' outs :
  proxy_step_tb tb fx c now br st cache ev = Ok (st', cache', outs) ->
  evolves (st_conns st) (st_world st) (st_conns st') (st_world st') /\
  (cache_ok (st_conns st) cache -> cache_ok (st_conns st') cache').
Proof.
  intros H. destruct (proxy_step_tb_cases _ _ _ _ _ _ _ _ _ _ _ H)
    as [(E & ->)|[(li & src & sport & data & lc & m & rest & p & x' & _ & _ & _ & _ & _ & E & -> & _)
       |[(cid & data & cn & lc & p & x' & _ & _ & _ & _ & _ & _ & E & -> & _)|(li & a & stp & cid & _ & _ & E & -> & ->)]]].
  - apply proxy_step_evolves in E. split; [exact E|exact (cache_ok_evolves _ _ _ _ cache E)].
  - exact (process_message_tb_evolves _ _ _ _ _ _ _ _ _ _ _ E).
  - exact (tcp_messages_tb_evolves _ _ _ _ _ _ _ _ E).
  - apply proxy_step_evolves in E. pose proof (evolves_trans _ _ _ _ _ _ E (evolves_close cid _ _)) as E2.
    split; [exact E2|exact (cache_ok_evolves _ _ _ _ cache E2)].
Qed.

Theorem TB_cache_ok_step : forall tb fx c now br st cache ev st' cache' outs,
  cache_ok (st_conns st) cache ->
  proxy_step_tb tb fx c now br st cache ev = Ok (st', cache', outs) -> cache_ok (st_conns st') cache'.
Proof. intros tb fx c now br st cache ev st' cache' outs H E. exact (proj2 (proxy_step_tb_evolves _ _ _ _ _ _ _ _ _ _ _ E) H). Qed.

(* what every step keeps, every history keeps *)
Lemma run_tb_inv (I : state -> bcache -> Prop) tb fx c :
  (forall now br st cache ev st' cache' outs,
     I st cache -> proxy_step_tb tb fx c now br st cache ev = Ok (st', cache', outs) -> I st' cache') ->
  forall h st cache st' cache' outss, I st cache -> run_tb tb fx c st cache h = Ok (st', cache', outss) -> I st' cache'.
Proof.
  intros STEP h. induction h as [|[[now br] ev] r IH]; intros st cache st' cache' outss H; cbn [run_tb].
  - intros E. injection E as <- <- _. exact H.
  - destruct (proxy_step_tb tb fx c now br st cache ev) as [[[st1 cache1] o]| |] eqn:E1; try discriminate.
    destruct (run_tb tb fx c st1 cache1 r) as [[[st2 cache2] os]| |] eqn:E2; try discriminate.
    intros E. injection E as <- <- _. exact (IH _ _ _ _ _ (STEP _ _ _ _ _ _ _ _ H E1) E2).
Qed.
Theorem TB_cache_ok_history : forall tb fx c h st cache st' cache' outss,
  cache_ok (st_conns st) cache -> run_tb tb fx c st cache h = Ok (st', cache', outss) ->
  cache_ok (st_conns st') cache'.
Proof.
  intros tb fx c. apply (run_tb_inv (fun st cache => cache_ok (st_conns st) cache)).
  intros now br st cache ev st' cache' outs. apply TB_cache_ok_step.
Qed.

(* the key names the object: it is injective *)
Lemma itoa_no_slash z : ~ In "/"%char (itoa z).
Proof. apply itoa_notin; [reflexivity|discriminate]. Qed.
Lemma itoa_nat_inj n m : itoa (Z.of_nat n) = itoa (Z.of_nat m) -> n = m.
Proof.
  unfold itoa. destruct (Z.ltb_spec (Z.of_nat n) 0) as [L|L]; [lia|]. destruct (Z.ltb_spec (Z.of_nat m) 0) as [L'|L']; [lia|].
  intros E. pose proof (digits_val_utoa (Z.to_N (Z.of_nat n))) as A. pose proof (digits_val_utoa (Z.to_N (Z.of_nat m))) as B.
  rewrite E in A. rewrite A in B. injection B as B. rewrite !Z2N.id in B by lia. lia.
Qed.
Theorem tb_key_inj : forall li a g li' a' g', tb_key li a g = tb_key li' a' g' -> li = li' /\ a = a' /\ g = g'.
Proof.
  intros li a g li' a' g'. unfold tb_key, pin_val_backend. intros E.
  apply sep_first in E; [|apply itoa_no_slash|apply itoa_no_slash]. destruct E as (E1 & E2).
  apply sep_last in E2; [|apply C04.itoa_no_hash|apply C04.itoa_no_hash]. destruct E2 as (E2 & E3).
  split; [exact (itoa_nat_inj _ _ E1)|]. split; [exact E2|exact (itoa_nat_inj _ _ E3)].
Qed.

(* an entry of the cache after a history that starts with an empty cache, its key read back (tb_key_inj) *)
Lemma cached_entry tb fx c h st0 st cache outss li a g cid :
  run_tb tb fx c st0 [] h = Ok (st, cache, outss) -> alookup (tb_key li a g) cache = Some cid ->
  exists pos cn, last_index_byte ":"%char a = Some pos /\ In cn (st_conns st) /\ cn_id cn = cid /\ cn_li cn = li /\
                 cn_peer cn = firstn pos a /\ cn_peer_port cn = atoi_val (skipn (S pos) a).
Proof.
  intros R A.
  assert (H0 : cache_ok (st_conns st0) []) by (intros k c' E; discriminate E).
  destruct (TB_cache_ok_history _ _ _ _ _ _ _ _ _ H0 R _ _ A) as (li' & a' & g' & pos & cn & E & LI & I & C1 & C2 & C3 & C4).
  apply tb_key_inj in E. destruct E as (<- & <- & <-). exists pos, cn. repeat split; assumption.
Qed.

(* TB_cached_peer.  After ANY history that starts with an empty cache: the connection cached for the backend object
   (a, g) of listen entry li is a known connection of that entry whose peer is a's ip and port.  Together with
   TB_send_reuse / TB_sticky_step: the bytes written on "the cached connection" reach the backend's address. *)
Theorem TB_cached_peer : forall tb fx c h st0 st cache outss,
  run_tb tb fx c st0 [] h = Ok (st, cache, outss) ->
  forall li a g cid pos,
    alookup (tb_key li a g) cache = Some cid -> last_index_byte ":"%char a = Some pos ->
    exists cn, In cn (st_conns st) /\ cn_id cn = cid /\ cn_li cn = li /\
               cn_peer cn = firstn pos a /\ cn_peer_port cn = atoi_val (skipn (S pos) a).
Proof.
  intros tb fx c h st0 st cache outss R li a g cid pos A LI.
  destruct (cached_entry _ _ _ _ _ _ _ _ _ _ _ _ R A) as (pos' & cn & LI' & K). rewrite LI in LI'. injection LI' as <-.
  exists cn. exact K.
Qed.
(* a cached entry is never filed for an address without a port *)
Corollary TB_cached_has_port : forall tb fx c h st0 st cache outss li a g cid,
  run_tb tb fx c st0 [] h = Ok (st, cache, outss) -> alookup (tb_key li a g) cache = Some cid ->
  last_index_byte ":"%char a <> None.
Proof.
  intros tb fx c h st0 st cache outss li a g cid R A.
  destruct (cached_entry _ _ _ _ _ _ _ _ _ _ _ _ R A) as (pos & _ & -> & _). discriminate.
Qed.

(* TB_cached_peer on the first history: the connection cached for 10.0.0.12:5070#1 is connection 2, to 10.0.0.12:5070 *)
Definition tb_st1 : state := fst (state_tb tb_r1).
Example TB_cached_peer_ex :
  exists cn, In cn (st_conns tb_st1) /\ cn_id cn = 2%nat /\ cn_li cn = 0%nat /\ cn_peer cn = b12 /\ cn_peer_port cn = 5070.
Proof.
  destruct tb_r1_facts as (OK & _ & C & _). set (r := run_tb tb_flags all_fixed tb_cfg tb_st0 [] tb_hist1) in *.
  destruct (run_tb_parts r OK) as (outss & R).
  destruct (TB_cached_peer tb_flags all_fixed tb_cfg tb_hist1 tb_st0 (fst (state_tb r)) (snd (state_tb r)) outss R
              0%nat (s2b "10.0.0.12:5070") 1%nat 2%nat 9%nat)
    as (cn & I & C1 & C2 & C3 & C4); [rewrite C; reflexivity|reflexivity|].
  exists cn. split; [exact I|]. split; [exact C1|]. split; [exact C2|]. split; [exact C3|]. rewrite C4. reflexivity.
Qed.

(* A note on ProxyTB.tb_local: a REQUEST that arrives from a backend on the connection the
   proxy dialled is processed with from = tb_local, and since Proxy's test "the peer is a backend" compares the bare
   ip with the "ip:port" member names, the backend's ip (and the hosts of the request's Via entries) ARE learned
   through tb_local - the comment at tb_local ("a backend's address is never learned") does not hold of the model *)
Example TB_note_backend_address_learned :
  let h := [ (C04.sec 1, s2b "z9hG4bKpx0", EvUdp 0 (s2b "10.0.0.99") 5060 C04.ex_invite);
             (C04.sec 2, s2b "z9hG4bKpx1", EvTcpData 0 (C04.ex_options "9")) ] in
  alookup b12 (st_learned (fst (state_tb (run_tb tb_flags all_fixed tb_cfg tb_st0 [] h)))) = Some tb_local /\
  alookup (s2b "10.0.0.98") (st_learned (fst (state_tb (run_tb tb_flags all_fixed tb_cfg tb_st0 [] h)))) = Some tb_local.
Proof.
  intros h. set (r := run_tb tb_flags all_fixed tb_cfg tb_st0 [] h). vm_compute. split; reflexivity.
Qed.

(* the initial state; one event of Proxy; one event of ProxyTB; every history *)
Theorem TB_conns_fresh_init : forall c now tl, conns_fresh (init_state c now tl).
Proof. intros c now tl. split; [constructor|intros cn []]. Qed.
Theorem TB_conns_fresh_proxy_step : forall fx c now br st ev st' outs,
  conns_fresh st -> proxy_step fx c now br st ev = Ok (st', outs) -> conns_fresh st'.
Proof.
  intros fx c now br st ev st' outs F H. exact (fresh_evolves _ _ _ _ (proxy_step_evolves _ _ _ _ _ _ _ _ H) F).
Qed.
Theorem TB_conns_fresh_step : forall tb fx c now br st cache ev st' cache' outs,
  conns_fresh st -> proxy_step_tb tb fx c now br st cache ev = Ok (st', cache', outs) -> conns_fresh st'.
Proof.
  intros tb fx c now br st cache ev st' cache' outs F H.
  exact (fresh_evolves _ _ _ _ (proj1 (proxy_step_tb_evolves _ _ _ _ _ _ _ _ _ _ _ H)) F).
Qed.
Theorem TB_conns_fresh_history : forall tb fx c h st cache st' cache' outss,
  conns_fresh st -> run_tb tb fx c st cache h = Ok (st', cache', outss) -> conns_fresh st'.
Proof.
  intros tb fx c. apply (run_tb_inv (fun st _ => conns_fresh st)).
  intros now br st cache ev st' cache' outs. apply TB_conns_fresh_step.
Qed.
(* ... in particular in every state reached from the initial one *)
Corollary TB_conns_fresh_reachable : forall tb fx c c0 now0 tl h st cache outss,
  run_tb tb fx c (init_state c0 now0 tl) [] h = Ok (st, cache, outss) -> conns_fresh st.
Proof.
  intros tb fx c c0 now0 tl h st cache outss R.
  exact (TB_conns_fresh_history _ _ _ _ _ _ _ _ _ (TB_conns_fresh_init c0 now0 tl) R).
Qed.

(* with unique numbers, "the connection numbered c" is one record *)
Lemma NoDup_map_inj {A B} (f : A -> B) (l : list A) a b :
  NoDup (map f l) -> In a l -> In b l -> f a = f b -> a = b.
Proof.
  induction l as [|x r IH]; intros ND Ia Ib E; [destruct Ia|]. cbn [map] in ND. inversion ND as [|? ? NI ND']; subst.
  destruct Ia as [->|Ia], Ib as [->|Ib].
  - reflexivity.
  - exfalso. apply NI. rewrite E. apply in_map. exact Ib.
  - exfalso. apply NI. rewrite <- E. apply in_map. exact Ia.
  - exact (IH ND' Ia Ib E).
Qed.
Lemma conn_open_unique cs cn : NoDup (map cn_id cs) -> In cn cs -> conn_open cs (cn_id cn) = cn_open cn.
Proof.
  induction cs as [|x r IH]; intros ND I; [destruct I|]. cbn [map] in ND. inversion ND as [|? ? NI ND']; subst.
  unfold conn_open. cbn [existsb]. destruct I as [->|I].
  - rewrite Nat.eqb_refl. cbn [andb]. destruct (cn_open cn); [reflexivity|]. cbn [orb].
    exact (conn_open_absent (cn_id cn) r NI).
  - destruct (Nat.eqb_spec (cn_id x) (cn_id cn)) as [E|E].
    + exfalso. apply NI. rewrite E. apply in_map. exact I.
    + cbn [andb orb]. exact (IH ND' I).
Qed.

(* TB_remove_closes in a reachable state: the cached connection IS closed (no side condition) *)
Theorem TB_remove_closes_reachable : forall tb fx c c0 now0 tl h st cache outss,
  run_tb tb fx c (init_state c0 now0 tl) [] h = Ok (st, cache, outss) ->
  forall now br li addr p g cid,
  is_tb tb li = true -> nth_p (st_proxies st) li = Some p ->
  mem_bytes addr (rr_map (ps_rr p)) = true -> alookup addr (ps_backends p) = Some g ->
  alookup (tb_key li addr g) cache = Some cid ->
  exists st' stp p',
    proxy_step_tb tb fx c now br st cache (EvBackendRemove li addr) = Ok (st', cache, []) /\
    proxy_step fx c now br st (EvBackendRemove li addr) = Ok (stp, []) /\
    st_conns st' = close_conn cid (st_conns st) /\ st_conns stp = st_conns st /\
    conn_open (st_conns st') cid = false /\
    (forall c', c' <> cid -> conn_open (st_conns st') c' = conn_open (st_conns st) c') /\
    st_proxies st' = st_proxies stp /\ st_learned st' = st_learned stp /\ st_world st' = st_world stp /\
    nth_p (st_proxies st') li = Some p' /\
    ps_backends p' = adel addr (ps_backends p) /\ alookup addr (ps_backends p') = None /\
    ps_rr p' = fst (rr_remove addr (ps_rr p)) /\ mem_bytes addr (rr_map (ps_rr p')) = false /\
    conns_fresh st'.
Proof.
  intros tb fx c c0 now0 tl h st cache outss R now br li addr p g cid TB N M A K.
  pose proof (TB_conns_fresh_reachable _ _ _ _ _ _ _ _ _ _ R) as F.
  destruct (TB_remove_closes tb fx c now br st cache li addr p g cid TB N M A K)
    as (st' & stp & p' & E1 & E2 & C & C0 & ND & O & X1 & X2 & X3 & N' & B1 & B2 & R1 & R2).
  exists st', stp, p'.
  split; [exact E1|]. split; [exact E2|]. split; [exact C|]. split; [exact C0|].
  split; [apply ND; exact (proj1 F)|]. split; [exact O|]. split; [exact X1|]. split; [exact X2|]. split; [exact X3|].
  split; [exact N'|]. split; [exact B1|]. split; [exact B2|]. split; [exact R1|]. split; [exact R2|].
  exact (TB_conns_fresh_step _ _ _ _ _ _ _ _ _ _ _ F E1).
Qed.

(* TB_cached_conn_unique.  In a reachable state the connection a backend object has cached is THE connection with
   that number: one record, to the backend's address, its number already given out; whether it can be written
   (conn_open) is that record's flag.  So "written on the cached connection" (TB_send_reuse, TB_sticky_step)
   determines the peer. *)
Theorem TB_cached_conn_unique : forall tb fx c c0 now0 tl h st cache outss,
  run_tb tb fx c (init_state c0 now0 tl) [] h = Ok (st, cache, outss) ->
  forall li a g cid pos,
    alookup (tb_key li a g) cache = Some cid -> last_index_byte ":"%char a = Some pos ->
    exists cn, In cn (st_conns st) /\ cn_id cn = cid /\ cn_li cn = li /\
               cn_peer cn = firstn pos a /\ cn_peer_port cn = atoi_val (skipn (S pos) a) /\
               (forall cn', In cn' (st_conns st) -> cn_id cn' = cid -> cn' = cn) /\
               conn_open (st_conns st) cid = cn_open cn /\
               (cid < w_next_conn (st_world st))%nat.
Proof.
  intros tb fx c c0 now0 tl h st cache outss R li a g cid pos A LI.
  destruct (TB_conns_fresh_reachable _ _ _ _ _ _ _ _ _ _ R) as (ND & B).
  destruct (TB_cached_peer _ _ _ _ _ _ _ _ R _ _ _ _ _ A LI) as (cn & I & C1 & C2 & C3 & C4).
  exists cn. split; [exact I|]. split; [exact C1|]. split; [exact C2|]. split; [exact C3|]. split; [exact C4|].
  split; [|split].
  - intros cn' I' E. apply (NoDup_map_inj cn_id (st_conns st) cn' cn ND I' I). rewrite E, C1. reflexivity.
  - rewrite <- C1. exact (conn_open_unique _ _ ND I).
  - rewrite <- C1. exact (B cn I).
Qed.

(* instances: the state after the first history *)
Example TB_conns_fresh_ex : conns_fresh tb_st1 /\ map cn_id (st_conns tb_st1) = [0; 1; 2]%nat /\ w_next_conn (st_world tb_st1) = 3%nat.
Proof.
  destruct tb_r1_facts as (OK & _ & _ & I & W). set (r := run_tb tb_flags all_fixed tb_cfg tb_st0 [] tb_hist1) in *.
  destruct (run_tb_parts r OK) as (outss & R). split; [|split; [exact I|exact W]].
  exact (TB_conns_fresh_reachable tb_flags all_fixed tb_cfg tb_cfg 0 [(s2b "10.0.0.11", 5070); (s2b "10.0.0.12", 5070)]
           tb_hist1 (fst (state_tb r)) (snd (state_tb r)) outss R).
Qed.
Example TB_cached_conn_unique_ex :
  exists cn, In cn (st_conns tb_st1) /\ cn_id cn = 2%nat /\ cn_peer cn = b12 /\ cn_peer_port cn = 5070 /\
             (forall cn', In cn' (st_conns tb_st1) -> cn_id cn' = 2%nat -> cn' = cn) /\
             conn_open (st_conns tb_st1) 2 = cn_open cn.
Proof.
  destruct tb_r1_facts as (OK & _ & C & _). set (r := run_tb tb_flags all_fixed tb_cfg tb_st0 [] tb_hist1) in *.
  destruct (run_tb_parts r OK) as (outss & R).
  destruct (TB_cached_conn_unique tb_flags all_fixed tb_cfg tb_cfg 0 [(s2b "10.0.0.11", 5070); (s2b "10.0.0.12", 5070)]
              tb_hist1 (fst (state_tb r)) (snd (state_tb r)) outss R 0%nat (s2b "10.0.0.12:5070") 1%nat 2%nat 9%nat)
    as (cn & I & C1 & _ & C3 & C4 & U & O & _); [rewrite C; reflexivity|reflexivity|].
  exists cn. split; [exact I|]. split; [exact C1|]. split; [exact C3|].
  split; [rewrite C4; reflexivity|]. split; [exact U|exact O].
Qed.

Print Assumptions TB_conservative.
Print Assumptions TB_conservative_entry.
Print Assumptions TB_conservative_history.
Print Assumptions TB_copy_faithful.
Print Assumptions TB_copy_faithful_backend.
Print Assumptions TB_copy_faithful_process.
Print Assumptions TB_copy_faithful_process_response.
Print Assumptions TB_send_reuse.
Print Assumptions TB_send_dial.
Print Assumptions TB_send_refused.
Print Assumptions TB_send_malformed.
Print Assumptions TB_send_one_message.
Print Assumptions TB_payload_agrees.
Print Assumptions TB_rotation_agrees.
Print Assumptions TB_at_most_one_message.
Print Assumptions TB_at_most_one.
Print Assumptions TB_at_most_one_tcp.
Print Assumptions TB_sticky_step.
Print Assumptions TB_sticky_same_message.
Print Assumptions TB_unpinned_step.
Print Assumptions TB_remove_closes.
Print Assumptions TB_remove_no_cached.
Print Assumptions TB_cache_ok_step.
Print Assumptions TB_cache_ok_history.
Print Assumptions tb_key_inj.
Print Assumptions TB_cached_peer.
Print Assumptions TB_cached_has_port.
Print Assumptions TB_ex_first_request.
Print Assumptions TB_ex_same_bytes.
Print Assumptions TB_ex_reuse_and_redial.
Print Assumptions TB_ex_pinned.
Print Assumptions TB_ex_remove.
Print Assumptions TB_ex_conservative.
Print Assumptions TB_sticky_step_ex.
Print Assumptions TB_unpinned_step_ex.
Print Assumptions TB_remove_closes_ex.
Print Assumptions TB_cached_peer_ex.
Print Assumptions TB_note_backend_address_learned.
Print Assumptions TB_conns_fresh_init.
Print Assumptions TB_conns_fresh_proxy_step.
Print Assumptions TB_conns_fresh_step.
Print Assumptions TB_conns_fresh_history.
Print Assumptions TB_conns_fresh_reachable.
Print Assumptions TB_remove_closes_reachable.
Print Assumptions TB_cached_conn_unique.
Print Assumptions TB_conns_fresh_ex.
Print Assumptions TB_cached_conn_unique_ex.
