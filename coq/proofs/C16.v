(* proofs/C16.v — C16 "Dialog identity is direction-independent and discriminating".
   For ALL byte strings (no bounds).  Main results:
     blt_trichotomy (BytesLemmas)                          (Go's string [<] is a strict total order)
     C16_symmetric                                         (From/To exchange leaves the identifier unchanged)
     C16_legacy_refuted                                    (the pre-fix code is not symmetric)
     C16_callid_discriminates, C16_discriminates           (one change => different identifier, under sep_ok)
     half_ok_sep_ok, half_ok_distinct_tags, half_ok_tags_same_length, half_ok_equal_tags
                                                           (readable sufficient conditions for sep_ok)
     C16_K3_refuted                                        (outside sep_ok one URI change can keep the identifier)
     C16_same_id, C16_judged, C16_judged_halves            (the group judge accepts the model)
     C16_no_tag_from, C16_no_tag_to, C16_to_after_from, C16_get_dialog_string, C16_get_dialog_raw,
     C16_message_symmetric                                 (message level)
   No axioms, no admits. *)
From Coq Require Import List Ascii String ZArith NArith Bool Arith Lia.
From Model Require Import Bytes BytesLemmas Uri Hdr Message Wire SpecC16.
Import ListNotations.
Open Scope list_scope.

Lemma byte_ltb_irrefl x : byte_ltb x x = false.
Proof. unfold byte_ltb. apply N.ltb_irrefl. Qed.

Definition dash : ascii := "-"%char.
Definition half (t a : bytes) : bytes := t ++ dash :: a.
(* the two halves in the order the identifier lists them *)
Definition ord_halves (t1 a1 t2 a2 : bytes) : bytes * bytes :=
  if dialog_first a1 t1 a2 t2 then (half t1 a1, half t2 a2) else (half t2 a2, half t1 a1).
Definition glue (c : bytes) (o : bytes * bytes) : bytes := c ++ dash :: fst o ++ dash :: snd o.

Lemma dialog_string_glue c t1 a1 t2 a2 :
  dialog_string c t1 a1 t2 a2 = glue c (ord_halves t1 a1 t2 a2).
Proof. unfold dialog_string, glue, ord_halves, half, dash. destruct (dialog_first a1 t1 a2 t2); reflexivity. Qed.

Lemma ord_halves_cases t1 a1 t2 a2 :
  ord_halves t1 a1 t2 a2 = (half t1 a1, half t2 a2) \/ ord_halves t1 a1 t2 a2 = (half t2 a2, half t1 a1).
Proof. unfold ord_halves. destruct (dialog_first a1 t1 a2 t2); [left|right]; reflexivity. Qed.

Lemma ord_halves_sym t1 a1 t2 a2 : ord_halves t1 a1 t2 a2 = ord_halves t2 a2 t1 a1.
Proof.
  unfold ord_halves, dialog_first.
  destruct (blt_trichotomy a1 a2) as [(L & N & G)|[(L & N & G)|(L & N & G)]]; rewrite L, G.
  - assert (E : beq a2 a1 = false) by (apply beq_neq; congruence). rewrite E. reflexivity.
  - subst a2. rewrite beq_refl. cbn.
    destruct (blt_trichotomy t1 t2) as [(L' & N' & G')|[(L' & N' & G')|(L' & N' & G')]]; rewrite L', G';
      [reflexivity|subst t2; reflexivity|reflexivity].
  - assert (E : beq a1 a2 = false) by (apply beq_neq; congruence). rewrite E. reflexivity.
Qed.

Theorem C16_symmetric : forall c t1 a1 t2 a2,
  dialog_string c t1 a1 t2 a2 = dialog_string c t2 a2 t1 a1.
Proof. intros. rewrite !dialog_string_glue, (ord_halves_sym t1 a1 t2 a2). reflexivity. Qed.

(* non-vacuity: '-'-rich values, different URIs / equal URIs, both directions give the same non-trivial string *)
Example C16_symmetric_ex1 :
  dialog_string (s2b "a-b-c@h-1") (s2b "t-1") (s2b "sip:alice@a-1.example.com") (s2b "t-2") (s2b "sip:bob@b-2.example.com")
  = s2b "a-b-c@h-1-t-1-sip:alice@a-1.example.com-t-2-sip:bob@b-2.example.com" /\
  dialog_string (s2b "a-b-c@h-1") (s2b "t-2") (s2b "sip:bob@b-2.example.com") (s2b "t-1") (s2b "sip:alice@a-1.example.com")
  = s2b "a-b-c@h-1-t-1-sip:alice@a-1.example.com-t-2-sip:bob@b-2.example.com".
Proof. split; vm_compute; reflexivity. Qed.
Example C16_symmetric_ex2 :   (* equal URIs: the tags decide *)
  dialog_string (s2b "c-1") (s2b "zz-9") (s2b "sip:u@h-1") (s2b "aa-1") (s2b "sip:u@h-1")
  = s2b "c-1-aa-1-sip:u@h-1-zz-9-sip:u@h-1" /\
  dialog_string (s2b "c-1") (s2b "aa-1") (s2b "sip:u@h-1") (s2b "zz-9") (s2b "sip:u@h-1")
  = s2b "c-1-aa-1-sip:u@h-1-zz-9-sip:u@h-1".
Proof. split; vm_compute; reflexivity. Qed.

Theorem C16_legacy_refuted : exists c t1 a t2,
  t1 <> t2 /\ dialog_string_legacy c t1 a t2 a <> dialog_string_legacy c t2 a t1 a.
Proof.
  exists (s2b "c-1"), (s2b "aa-1"), (s2b "sip:u@h-1"), (s2b "zz-9").
  split; vm_compute; intros H; discriminate H.
Qed.

(* the identifier the model computes for an abstract message *)
Definition c16_id (m : c16_msg) : bytes :=
  dialog_string (cm_callid m) (cm_ta m) (cm_ua m) (cm_tb m) (cm_ub m).
Definition cm_P (m : c16_msg) : bytes := half (cm_ta m) (cm_ua m).
Definition cm_Q (m : c16_msg) : bytes := half (cm_tb m) (cm_ub m).
Definition c16_ord (m : c16_msg) : bytes * bytes := ord_halves (cm_ta m) (cm_ua m) (cm_tb m) (cm_ub m).

Lemma c16_id_glue m : c16_id m = glue (cm_callid m) (c16_ord m).
Proof. apply dialog_string_glue. Qed.
Lemma c16_ord_cases m : c16_ord m = (cm_P m, cm_Q m) \/ c16_ord m = (cm_Q m, cm_P m).
Proof. apply ord_halves_cases. Qed.
Lemma c16_ord_swap m : c16_ord (c16_swap m) = c16_ord m.
Proof. unfold c16_ord, c16_swap; cbn. apply ord_halves_sym. Qed.
Lemma c16_id_swap m : c16_id (c16_swap m) = c16_id m.
Proof. unfold c16_id, c16_swap; cbn. apply C16_symmetric. Qed.

(* the Call-ID alone: cancellation of the common suffix, unconditional *)
Theorem C16_callid_discriminates : forall c c' t1 a1 t2 a2,
  c <> c' -> dialog_string c t1 a1 t2 a2 <> dialog_string c' t1 a1 t2 a2.
Proof.
  intros c c' t1 a1 t2 a2 N E. rewrite !dialog_string_glue in E. unfold glue in E.
  apply app_inv_tail in E. contradiction.
Qed.
Corollary C16_callid_discriminates_msg : forall a b,
  cm_ta a = cm_ta b -> cm_ua a = cm_ua b -> cm_tb a = cm_tb b -> cm_ub a = cm_ub b ->
  cm_callid a <> cm_callid b -> c16_id a <> c16_id b.
Proof.
  intros a b E1 E2 E3 E4 N. unfold c16_id. rewrite E1, E2, E3, E4. apply C16_callid_discriminates. exact N.
Qed.
Example C16_callid_discriminates_ex :   (* "a-b" vs "a" with '-' everywhere: still different *)
  s2b "a-b" <> s2b "a" /\
  dialog_string (s2b "a-b") (s2b "b-1") (s2b "sip:u@h-1") (s2b "b-2") (s2b "sip:v@h-2") <>
  dialog_string (s2b "a") (s2b "b-1") (s2b "sip:u@h-1") (s2b "b-2") (s2b "sip:v@h-2").
Proof. split; vm_compute; intros H; discriminate H. Qed.

(* the separator hypothesis.  [x] and [y] followed by '-' are prefix-comparable *)
Definition dashed (x : bytes) : bytes := x ++ [dash].
Definition comparable (x y : bytes) : bool :=
  has_prefix (dashed x) (dashed y) || has_prefix (dashed y) (dashed x).
(* on the two canonically ordered pairs of halves (X, Y) and (X', Y'):  X = X' or Y = Y' (then
   c-X-Y = c-X'-Y' cancels), or else X- and X'- are not prefixes one of the other *)
Definition sep_pairs (oa ob : bytes * bytes) : bool :=
  beq (fst oa) (fst ob) || beq (snd oa) (snd ob) || negb (comparable (fst oa) (fst ob)).
Definition sep_ok (a b : c16_msg) : bool := sep_pairs (c16_ord a) (c16_ord b).

Lemma half_dashed t a : half t a = dashed t ++ a.
Proof. unfold half, dashed. rewrite <- app_assoc. reflexivity. Qed.

Lemma half_inj_tag t t' a : half t a = half t' a -> t = t'.
Proof.
  rewrite !half_dashed. intros E. apply app_inv_tail in E. unfold dashed in E.
  apply app_inv_tail in E. exact E.
Qed.
Lemma half_inj_addr t a a' : half t a = half t a' -> a = a'.
Proof. unfold half. intros E. apply app_inv_head in E. injection E as E. exact E. Qed.

Lemma glue_inj c oa ob : sep_pairs oa ob = true -> glue c oa = glue c ob -> oa = ob.
Proof.
  destruct oa as [xa ya], ob as [xb yb]. unfold sep_pairs, glue; cbn [fst snd]. intros S E.
  apply app_inv_head in E. injection E as E. fold (half xa ya) in E. fold (half xb yb) in E.
  apply orb_true_iff in S. destruct S as [S|S]; [apply orb_true_iff in S; destruct S as [S|S]|].
  - apply beq_eq in S. subst xb. apply half_inj_addr in E. subst yb. reflexivity.
  - apply beq_eq in S. subst yb. apply half_inj_tag in E. subst xb. reflexivity.
  - exfalso. apply negb_true_iff in S. unfold comparable in S. rewrite !half_dashed in E.
    apply has_prefix_app_eq in E. apply orb_false_iff in S. destruct S, E; congruence.
Qed.

(* the number of differences between two (tag, URI) pairs, read on the halves *)
Lemma half_diff t u t' u' :
  match (b2n (beq t t') + b2n (beq u u'))%nat with
  | 0%nat => t = t' /\ u = u'
  | 1%nat => half t u <> half t' u'
  | _ => True
  end.
Proof.
  destruct (beq_spec t t') as [<-|Nt], (beq_spec u u') as [<-|Nu]; cbn [b2n Nat.add].
  - split; reflexivity.
  - intros E. exact (Nu (half_inj_addr _ _ _ E)).
  - intros E. exact (Nt (half_inj_tag _ _ _ E)).
  - exact I.
Qed.

(* what "exactly one aligned difference" means for the halves *)
Lemma c16_diff1_cases a b : c16_diff a b = 1%nat ->
  (cm_callid a <> cm_callid b /\ c16_ord a = c16_ord b) \/
  (cm_callid a = cm_callid b /\
   (cm_P a <> cm_P b /\ cm_Q a = cm_Q b \/ cm_P a = cm_P b /\ cm_Q a <> cm_Q b)).
Proof.
  unfold c16_diff, c16_ord, cm_P, cm_Q. intros H.
  pose proof (half_diff (cm_ta a) (cm_ua a) (cm_ta b) (cm_ua b)) as HP.
  pose proof (half_diff (cm_tb a) (cm_ub a) (cm_tb b) (cm_ub b)) as HQ.
  remember (b2n (beq (cm_ta a) (cm_ta b)) + b2n (beq (cm_ua a) (cm_ua b)))%nat as p eqn:Ep.
  remember (b2n (beq (cm_tb a) (cm_tb b)) + b2n (beq (cm_ub a) (cm_ub b)))%nat as q eqn:Eq.
  destruct (beq_spec (cm_callid a) (cm_callid b)) as [Ec|Nc]; cbn [b2n] in H.
  - right. split; [exact Ec|].
    assert (C : (p = 0%nat /\ q = 1%nat) \/ (p = 1%nat /\ q = 0%nat)) by lia.
    destruct C as [[-> ->]|[-> ->]].
    + right. destruct HP as [-> ->]. split; [reflexivity|exact HQ].
    + left. destruct HQ as [-> ->]. split; [exact HP|reflexivity].
  - left. split; [exact Nc|].
    assert (C : p = 0%nat /\ q = 0%nat) by lia. destruct C as [-> ->].
    destruct HP as [-> ->], HQ as [-> ->]. reflexivity.
Qed.

Lemma C16_discriminates_aligned a b :
  c16_diff a b = 1%nat -> sep_ok a b = true -> c16_id a <> c16_id b.
Proof.
  intros D S E. rewrite !c16_id_glue in E. unfold sep_ok in S.
  destruct (c16_diff1_cases a b D) as [(Nc & Eo)|(Ec & C)].
  - rewrite Eo in E. unfold glue in E. apply app_inv_tail in E. contradiction.
  - rewrite Ec in E. apply glue_inj in E; [|exact S].
    destruct (c16_ord_cases a) as [Ha|Ha], (c16_ord_cases b) as [Hb|Hb]; rewrite Ha, Hb in E;
      injection E as E1 E2; destruct C as [[N1 N2]|[N1 N2]]; congruence.
Qed.

Lemma sep_ok_swap_r a b : sep_ok a (c16_swap b) = sep_ok a b.
Proof. unfold sep_ok. rewrite c16_ord_swap. reflexivity. Qed.

(* a statement about pairs of messages that does not mind From and To being exchanged in the
   second one need only be proved for a single aligned difference *)
Lemma one_change_ind (R : c16_msg -> c16_msg -> Prop) :
  (forall a b, R a (c16_swap b) -> R a b) ->
  (forall a b, c16_diff a b = 1%nat -> R a b) ->
  forall a b, c16_one_change a b = true -> R a b.
Proof.
  intros Hswap Hal a b OC. unfold c16_one_change in OC. apply orb_true_iff in OC.
  destruct OC as [D|D]; apply Nat.eqb_eq in D; [|apply Hswap]; apply Hal; exact D.
Qed.

Lemma one_change_discriminates : forall a b,
  c16_one_change a b = true -> sep_ok a b = true -> c16_id a <> c16_id b.
Proof.
  apply (one_change_ind (fun a b => sep_ok a b = true -> c16_id a <> c16_id b)).
  - intros a b. rewrite sep_ok_swap_r, c16_id_swap. trivial.
  - exact C16_discriminates_aligned.
Qed.

(* the hypotheses cm_has / c16_same = false are those under which the judge demands different
   identifiers; the proof does not need them (one aligned difference already excludes c16_same) *)
Theorem C16_discriminates : forall a b,
  cm_has a = true -> cm_has b = true -> c16_one_change a b = true -> c16_same a b = false ->
  sep_ok a b = true -> c16_id a <> c16_id b.
Proof.
  intros a b _ _ OC _. exact (one_change_discriminates a b OC).
Qed.

Definition mk16 (c ta ua tb ub : string) : c16_msg :=
  {| cm_has := true; cm_callid := s2b c; cm_ta := s2b ta; cm_ua := s2b ua; cm_tb := s2b tb; cm_ub := s2b ub |}.

(* non-vacuity: '-' in Call-ID, tags and hosts; a tag change, and a URI change that FLIPS the
   canonical order (alice < bob < carol); all hypotheses hold, so the identifiers differ *)
Example C16_discriminates_ex_tag :
  let a := mk16 "a-b-c@h-1" "t-1" "sip:alice@a-1.example.com" "t-2" "sip:bob@b-2.example.com" in
  let b := mk16 "a-b-c@h-1" "t-1-1" "sip:alice@a-1.example.com" "t-2" "sip:bob@b-2.example.com" in
  cm_has a = true /\ cm_has b = true /\ c16_one_change a b = true /\ c16_same a b = false /\ sep_ok a b = true.
Proof. vm_compute. repeat split. Qed.
Example C16_discriminates_ex_flip :
  let a := mk16 "a-b-c@h-1" "t-1" "sip:alice@a-1.example.com" "t-2" "sip:bob@b-2.example.com" in
  let b := mk16 "a-b-c@h-1" "t-2" "sip:bob@b-2.example.com" "t-1" "sip:carol@a-1.example.com" in
  cm_has a = true /\ cm_has b = true /\ c16_one_change a b = true /\ c16_same a b = false /\ sep_ok a b = true /\
  fst (c16_ord a) = cm_P a /\ fst (c16_ord b) = cm_P b (* = the unchanged half: the order flipped *).
Proof. vm_compute. repeat split. Qed.
Example C16_discriminates_ex_equal_uris :
  let a := mk16 "c-1" "aa-1" "sip:u@h-1" "zz-9" "sip:u@h-1" in
  let b := mk16 "c-1" "zz-9" "sip:u@h-1" "aa-2" "sip:u@h-1" in
  cm_has a = true /\ cm_has b = true /\ c16_one_change a b = true /\ c16_same a b = false /\ sep_ok a b = true.
Proof. vm_compute. repeat split. Qed.

(* x = y, or neither of x-, y- is a prefix of the other *)
Definition inc (x y : bytes) : bool := beq x y || negb (comparable x y).
(* per message: the two halves do not run into each other *)
Definition half_ok (m : c16_msg) : bool := inc (cm_P m) (cm_Q m).

Lemma comparable_sym x y : comparable x y = comparable y x.
Proof. unfold comparable. apply orb_comm. Qed.
Lemma inc_sym x y : inc x y = inc y x.
Proof. unfold inc. rewrite beq_sym, comparable_sym. reflexivity. Qed.
Lemma half_ok_swap m : half_ok (c16_swap m) = half_ok m.
Proof. unfold half_ok, cm_P, cm_Q, c16_swap; cbn. apply inc_sym. Qed.

Lemma sep_from_inc P P' Q oa ob :
  oa = (P, Q) \/ oa = (Q, P) -> ob = (P', Q) \/ ob = (Q, P') ->
  inc P Q = true -> inc P' Q = true -> sep_pairs oa ob = true.
Proof.
  intros [->| ->] [->| ->] I1 I2; unfold sep_pairs; cbn.
  - rewrite (beq_refl Q). rewrite orb_true_r. reflexivity.
  - unfold inc in I1. apply orb_true_iff in I1. destruct I1 as [I1|I1]; rewrite I1; [reflexivity|apply orb_true_r].
  - unfold inc in I2. rewrite beq_sym, comparable_sym in I2.
    apply orb_true_iff in I2. destruct I2 as [I2|I2]; rewrite I2; [reflexivity|apply orb_true_r].
  - rewrite (beq_refl Q). reflexivity.
Qed.

Lemma half_ok_sep_ok_aligned a b :
  c16_diff a b = 1%nat -> half_ok a = true -> half_ok b = true -> sep_ok a b = true.
Proof.
  intros D Ha Hb. unfold sep_ok, half_ok in *.
  destruct (c16_diff1_cases a b D) as [(Nc & Eo)|(Ec & [(NP & EQ)|(EP & NQ)])].
  - rewrite Eo. unfold sep_pairs. rewrite beq_refl. reflexivity.
  - apply (sep_from_inc (cm_P a) (cm_P b) (cm_Q a)); [apply c16_ord_cases|rewrite EQ; apply c16_ord_cases|exact Ha|].
    rewrite EQ. exact Hb.
  - apply (sep_from_inc (cm_Q a) (cm_Q b) (cm_P a)).
    + destruct (c16_ord_cases a) as [H|H]; [right|left]; exact H.
    + rewrite EP. destruct (c16_ord_cases b) as [H|H]; [right|left]; exact H.
    + rewrite inc_sym. exact Ha.
    + rewrite EP, inc_sym. exact Hb.
Qed.

(* per-message condition => pairwise condition, for every one-change pair *)
Theorem half_ok_sep_ok : forall a b,
  c16_one_change a b = true -> half_ok a = true -> half_ok b = true -> sep_ok a b = true.
Proof.
  apply (one_change_ind (fun a b => half_ok a = true -> half_ok b = true -> sep_ok a b = true)).
  - intros a b. rewrite sep_ok_swap_r, half_ok_swap. trivial.
  - exact half_ok_sep_ok_aligned.
Qed.

Lemma dashed_half t u : dashed (half t u) = t ++ dash :: dashed u.
Proof. unfold dashed, half. rewrite <- app_assoc. reflexivity. Qed.

(* neither tag followed by '-' begins the other followed by '-': the halves do not run into
   each other, whatever the URIs *)
Lemma half_ok_tags m :
  (forall r r', has_prefix (cm_ta m ++ dash :: r) (cm_tb m ++ dash :: r') = false) ->
  (forall r r', has_prefix (cm_tb m ++ dash :: r) (cm_ta m ++ dash :: r') = false) ->
  half_ok m = true.
Proof.
  intros H1 H2. unfold half_ok, inc, comparable, cm_P, cm_Q. rewrite !dashed_half, H1, H2.
  apply orb_true_r.
Qed.

(* class 1: the two tags of the message are different and contain no '-' (any URIs) *)
Theorem half_ok_distinct_tags : forall m,
  ~ In "-"%char (cm_ta m) -> ~ In "-"%char (cm_tb m) -> cm_ta m <> cm_tb m -> half_ok m = true.
Proof.
  intros m N1 N2 D. apply half_ok_tags; intros r r'; apply not_true_is_false; intros E;
    apply has_prefix_sep_eq in E; try assumption; congruence.
Qed.

(* class 2: the two tags are different and have the same length (any bytes, any URIs) *)
Theorem half_ok_tags_same_length : forall m,
  List.length (cm_ta m) = List.length (cm_tb m) -> cm_ta m <> cm_tb m -> half_ok m = true.
Proof.
  intros m L D. apply half_ok_tags; intros r r'; apply not_true_is_false; intros E;
    apply has_prefix_len_eq in E; congruence.
Qed.

(* class 3: equal tags (any bytes); the URIs are equal or neither followed by '-' is a prefix of
   the other followed by '-' *)
Theorem half_ok_equal_tags : forall m,
  cm_ta m = cm_tb m -> inc (cm_ua m) (cm_ub m) = true -> half_ok m = true.
Proof.
  intros m E I. unfold half_ok, cm_P, cm_Q. rewrite <- E. unfold inc in *.
  destruct (beq_spec (cm_ua m) (cm_ub m)) as [Eu|Nu].
  - rewrite Eu, beq_refl. reflexivity.
  - cbn [orb] in I. unfold comparable in *. rewrite !dashed_half, !has_prefix_app_same.
    cbn [has_prefix]. rewrite Ascii.eqb_refl. cbn [andb]. rewrite I. apply orb_true_r.
Qed.

Example half_ok_classes_ex :
  half_ok (mk16 "c" "t1" "sip:u@h" "t2" "sip:u@h-1") = true /\        (* class 1 *)
  half_ok (mk16 "c" "a-b" "sip:u@h" "a-c" "sip:u@h-1") = true /\      (* class 2 *)
  half_ok (mk16 "c" "a-b" "sip:u@h-1" "a-b" "sip:u@h-2") = true /\    (* class 3 *)
  half_ok (mk16 "c" "a-b" "sip:u@h" "a-b" "sip:u@h-1") = false.       (* sip:u@h- is a prefix of sip:u@h-1- *)
Proof. vm_compute. repeat split. Qed.

(* outside sep_ok a single URI change can leave the identifier unchanged *)
Theorem C16_K3_refuted : exists a b,
  cm_has a = true /\ cm_has b = true /\
  cm_callid a = cm_callid b /\ cm_ta a = cm_ta b /\ cm_tb a = cm_tb b /\ cm_ub a = cm_ub b /\ cm_ua a <> cm_ua b /\
  c16_one_change a b = true /\ c16_same a b = false /\ sep_ok a b = false /\ c16_id a = c16_id b.
Proof.
  exists (mk16 "c" "t" "urn:x:1-t-urn:x:2" "t" "urn:x:1-t-urn:x:2-t-urn:x:1"),
         (mk16 "c" "t" "urn:x:2-t-urn:x:1" "t" "urn:x:1-t-urn:x:2-t-urn:x:1").
  vm_compute. repeat split. intros H; discriminate H.
Qed.

Lemma c16_aligned_eq_id a b : c16_aligned_eq a b = true -> c16_id a = c16_id b.
Proof.
  unfold c16_aligned_eq, c16_id. rewrite !andb_true_iff, !beq_eq.
  intros ((((E1 & E2) & E3) & E4) & E5). rewrite E1, E2, E3, E4, E5. reflexivity.
Qed.

(* the same Call-ID and the same two endpoint pairs, in either direction, give the same identifier *)
Theorem C16_same_id : forall a b, c16_same a b = true -> c16_id a = c16_id b.
Proof.
  intros a b H. unfold c16_same in H. apply orb_true_iff in H. destruct H as [H|H].
  - apply c16_aligned_eq_id. exact H.
  - rewrite <- (c16_id_swap b). apply c16_aligned_eq_id. exact H.
Qed.
Example C16_same_id_ex :
  c16_same (mk16 "a-b" "t-1" "sip:u@h-1" "t-2" "sip:u@h-1") (mk16 "a-b" "t-2" "sip:u@h-1" "t-1" "sip:u@h-1") = true.
Proof. vm_compute. reflexivity. Qed.

(* what the model answers for an abstract message *)
Definition c16_obs (m : c16_msg) : option bytes := if cm_has m then Some (c16_id m) else None.

Lemma c16_single_ok m : c16_single m (c16_obs m) = true.
Proof. unfold c16_single, c16_obs. destruct (cm_has m); reflexivity. Qed.

Lemma c16_pair_ok a b :
  (cm_has a = true -> cm_has b = true -> c16_one_change a b = true -> c16_same a b = false -> sep_ok a b = true) ->
  c16_pair a b (c16_obs a) (c16_obs b) = 0%nat.
Proof.
  intros H. unfold c16_pair, c16_obs.
  destruct (cm_has a) eqn:Ha; [|reflexivity]. destruct (cm_has b) eqn:Hb; [|reflexivity]. cbn.
  destruct (c16_same a b) eqn:Es.
  - rewrite (C16_same_id a b Es), beq_refl. reflexivity.
  - destruct (c16_one_change a b) eqn:Eo; [|reflexivity].
    assert (N : c16_id a <> c16_id b)
      by (apply C16_discriminates; auto).
    apply beq_neq in N. rewrite N. reflexivity.
Qed.

Lemma c16_scan_row_ok a : forall rest i j,
  (forall b, In b rest -> c16_pair a b (c16_obs a) (c16_obs b) = 0%nat) ->
  c16_scan_row i j a (c16_obs a) (map (fun m => (m, c16_obs m)) rest) = None.
Proof.
  induction rest as [|b r IH]; intros i j H; cbn; [reflexivity|].
  rewrite (H b (or_introl eq_refl)). apply IH. intros b' Hb'. apply H. right. exact Hb'.
Qed.

Lemma c16_scan_ok : forall ms i,
  (forall a b, In a ms -> In b ms -> c16_pair a b (c16_obs a) (c16_obs b) = 0%nat) ->
  c16_scan i (map (fun m => (m, c16_obs m)) ms) = None.
Proof.
  induction ms as [|a r IH]; intros i H; cbn; [reflexivity|].
  rewrite c16_single_ok. cbn. rewrite c16_scan_row_ok.
  - apply IH. intros x y Hx Hy. apply H; right; assumption.
  - intros b Hb. apply H; [left; reflexivity|right; exact Hb].
Qed.

Theorem C16_judged : forall (ms : list c16_msg),
  (forall a b, In a ms -> In b ms -> cm_has a = true -> cm_has b = true ->
               c16_one_change a b = true -> c16_same a b = false -> sep_ok a b = true) ->
  judge_C16 (map (fun m => (m, if cm_has m then Some (c16_id m) else None)) ms) = None.
Proof.
  intros ms H. unfold judge_C16. apply (c16_scan_ok ms 0%nat).
  intros a b Ha Hb. apply c16_pair_ok. apply H; assumption.
Qed.

(* the same with the per-message condition: every message that has a dialog is half_ok *)
Theorem C16_judged_halves : forall (ms : list c16_msg),
  (forall m, In m ms -> cm_has m = true -> half_ok m = true) ->
  judge_C16 (map (fun m => (m, if cm_has m then Some (c16_id m) else None)) ms) = None.
Proof.
  intros ms H. apply C16_judged. intros a b Ha Hb Ca Cb OC _.
  apply half_ok_sep_ok; [exact OC|apply H; assumption|apply H; assumption].
Qed.

(* boolean form of the two group hypotheses, to evaluate on generated groups *)
Definition group_sep_ok (ms : list c16_msg) : bool :=
  forallb (fun a => forallb (fun b =>
    negb (cm_has a && cm_has b && c16_one_change a b && negb (c16_same a b)) || sep_ok a b) ms) ms.
Definition group_half_ok (ms : list c16_msg) : bool :=
  forallb (fun m => negb (cm_has m) || half_ok m) ms.

Theorem C16_judged_b : forall ms, group_sep_ok ms = true ->
  judge_C16 (map (fun m => (m, if cm_has m then Some (c16_id m) else None)) ms) = None.
Proof.
  intros ms G. apply C16_judged. intros a b Ha Hb Ca Cb OC NS.
  unfold group_sep_ok in G. rewrite forallb_forall in G. specialize (G a Ha).
  rewrite forallb_forall in G. specialize (G b Hb).
  rewrite Ca, Cb, OC, NS in G. exact G.
Qed.
Lemma group_half_ok_sep_ok ms : group_half_ok ms = true -> group_sep_ok ms = true.
Proof.
  unfold group_half_ok, group_sep_ok. rewrite !forallb_forall. intros G a Ha.
  rewrite forallb_forall. intros b Hb.
  destruct (cm_has a) eqn:Ca; [|reflexivity]. destruct (cm_has b) eqn:Cb; [|reflexivity].
  destruct (c16_one_change a b) eqn:OC; [|reflexivity]. destruct (c16_same a b); [reflexivity|]. cbn.
  apply half_ok_sep_ok; [exact OC| |].
  - specialize (G a Ha). rewrite Ca in G. exact G.
  - specialize (G b Hb). rewrite Cb in G. exact G.
Qed.

(* non-vacuity: a group with both directions, one-change variants (tag, URI with an order flip,
   Call-ID), a message without dialog; '-' everywhere; the hypotheses hold and pairs of every kind
   (same / one change / unrelated) occur *)
Definition c16_group_ex : list c16_msg :=
  [ mk16 "a-b-c@h-1" "t-1" "sip:alice@a-1.example.com" "t-2" "sip:bob@b-2.example.com";
    mk16 "a-b-c@h-1" "t-2" "sip:bob@b-2.example.com" "t-1" "sip:alice@a-1.example.com";
    mk16 "a-b-c@h-1" "t-1-1" "sip:alice@a-1.example.com" "t-2" "sip:bob@b-2.example.com";
    mk16 "a-b-c@h-1" "t-2" "sip:bob@b-2.example.com" "t-1" "sip:carol@a-1.example.com";
    mk16 "a-b-c@h-1-x" "t-1" "sip:alice@a-1.example.com" "t-2" "sip:bob@b-2.example.com";
    mk16 "c-1" "aa-1" "sip:u@h-1" "zz-9" "sip:u@h-1";
    mk16 "c-1" "zz-9" "sip:u@h-1" "aa-1" "sip:u@h-1";
    {| cm_has := false; cm_callid := s2b "c-1"; cm_ta := s2b "aa-1"; cm_ua := s2b "sip:u@h-1";
       cm_tb := []; cm_ub := s2b "sip:u@h-1" |} ].
Example C16_judged_ex :
  group_half_ok c16_group_ex = true /\ group_sep_ok c16_group_ex = true /\
  existsb (fun a => existsb (fun b => c16_one_change a b && negb (c16_same a b)) c16_group_ex) c16_group_ex = true /\
  judge_C16 (map (fun m => (m, if cm_has m then Some (c16_id m) else None)) c16_group_ex) = None.
Proof. vm_compute. repeat split. Qed.
(* the judge is not trivially accepting: it rejects the K3 pair *)
Example C16_judge_rejects_K3 :
  judge_C16 (map (fun m => (m, if cm_has m then Some (c16_id m) else None))
    [mk16 "c" "t" "urn:x:1-t-urn:x:2" "t" "urn:x:1-t-urn:x:2-t-urn:x:1";
     mk16 "c" "t" "urn:x:2-t-urn:x:1" "t" "urn:x:1-t-urn:x:2-t-urn:x:1"]) = Some (0, 1, 2)%nat.
Proof. vm_compute. reflexivity. Qed.

(* These theorems are about Message.get_from / get_to / get_dialog.  The proxy model calls the
   state-passing getters Msg.s_get_from / s_get_dialog; the same symmetry for those is
   C04.dialog_of_symmetric. *)
Lemma get_compact_From : get_compact (s2b "From") = Some (s2b "f").
Proof. vm_compute. reflexivity. Qed.
Lemma get_compact_To : get_compact (s2b "To") = Some (s2b "t").
Proof. vm_compute. reflexivity. Qed.

(* a header name that matches From (also in compact form, any case) does not match To *)
Lemma same_header_From_not_To n :
  same_header n (s2b "From") = true -> same_header n (s2b "To") = false.
Proof.
  unfold same_header. rewrite get_compact_From, get_compact_To. unfold equal_fold. intros H.
  apply orb_true_iff in H. destruct H as [H|H]; apply beq_eq in H; rewrite H; vm_compute; reflexivity.
Qed.

(* decoding one header in place does not disturb the lookup of a header with a disjoint name *)
Lemma get_header_update_other n1 n2 f :
  (forall n, same_header n n1 = true -> same_header n n2 = false) ->
  forall hs, get_header n2 (update_header n1 f hs) = get_header n2 hs.
Proof.
  intros D. induction hs as [|h r IH]; cbn; [reflexivity|].
  destruct (same_header (h_name h) n1) eqn:E1; cbn.
  - rewrite (D _ E1). reflexivity.
  - destruct (same_header (h_name h) n2); [reflexivity|exact IH].
Qed.

Lemma get_from_inv m m1 f : get_from m = Ok (m1, f) ->
  m1 = m \/ m1 = with_headers m (update_header (s2b "From") (fun _ => HFrom f) (m_headers m)).
Proof.
  unfold get_from. destruct (get_header (s2b "From") (m_headers m)) as [h|]; [|discriminate].
  destruct (h_val h) as [s|l|l|l|f0|f0|c]; try discriminate.
  - destruct (parse_fromto s) as [f1| |]; cbn; try discriminate. intros E. injection E as <- <-. right. reflexivity.
  - intros E. injection E as <- <-. left. reflexivity.
Qed.

Lemma get_to_snd m :
  rmap snd (get_to m) =
  match get_header (s2b "To") (m_headers m) with
  | None => Err
  | Some h => match h_val h with HTo f => Ok f | HRaw s => parse_fromto s | _ => Err end
  end.
Proof.
  unfold get_to. destruct (get_header (s2b "To") (m_headers m)) as [h|]; [|reflexivity].
  destruct (h_val h) as [s|l|l|l|f0|f0|c]; try reflexivity.
  destruct (parse_fromto s); reflexivity.
Qed.

(* the To value read after From was decoded is the To value of the original message *)
Theorem C16_to_after_from : forall m m1 f,
  get_from m = Ok (m1, f) -> rmap snd (get_to m1) = rmap snd (get_to m).
Proof.
  intros m m1 f H. apply get_from_inv in H. destruct H as [->| ->]; [reflexivity|].
  rewrite !get_to_snd. cbn [m_headers with_headers].
  rewrite (get_header_update_other _ _ _ same_header_From_not_To). reflexivity.
Qed.

Lemma get_call_id_cases m : (exists c, get_call_id m = Ok c) \/ get_call_id m = Err.
Proof.
  unfold get_call_id, get_raw. destruct (get_header (s2b "Call-ID") (m_headers m)) as [h|]; [|right; reflexivity].
  destruct (h_val h); try (right; reflexivity). left. eexists. reflexivity.
Qed.

(* with Call-ID, From and To readable, everything hangs on the two tags *)
Lemma get_dialog_eq m cid m1 f m2 t :
  get_call_id m = Ok cid -> get_from m = Ok (m1, f) -> get_to m1 = Ok (m2, t) ->
  get_dialog m =
  match fromto_tag f, fromto_tag t with
  | Some ftag, Some ttag =>
      Ok (m2, dialog_string cid ftag (dialog_addr (fromto_addr_spec f))
                                ttag (dialog_addr (fromto_addr_spec t)))
  | _, _ => Err
  end.
Proof.
  intros Hc Hf Ht. unfold get_dialog. rewrite Hc. cbn. rewrite Hf. cbn.
  destruct (fromto_tag f); cbn; [|reflexivity]. rewrite Ht. cbn. destruct (fromto_tag t); reflexivity.
Qed.

(* From without a tag parameter: no dialog *)
Theorem C16_no_tag_from : forall m m1 f,
  get_from m = Ok (m1, f) -> fromto_tag f = None -> get_dialog m = Err.
Proof.
  intros m m1 f H T. unfold get_dialog.
  destruct (get_call_id_cases m) as [[c E]|E]; rewrite E; cbn; [|reflexivity].
  rewrite H. cbn. rewrite T. reflexivity.
Qed.

(* To without a tag parameter: no dialog.  [get_to] runs on the message [get_from] returned *)
Theorem C16_no_tag_to : forall m m1 f m2 t,
  get_from m = Ok (m1, f) -> get_to m1 = Ok (m2, t) -> fromto_tag t = None -> get_dialog m = Err.
Proof.
  intros m m1 f m2 t H1 H2 T.
  destruct (get_call_id_cases m) as [[c E]|E]; [|unfold get_dialog; rewrite E; reflexivity].
  rewrite (get_dialog_eq m c m1 f m2 t E H1 H2), T. destruct (fromto_tag f); reflexivity.
Qed.

(* the same, with To read from the ORIGINAL message *)
Theorem C16_no_tag_to' : forall m m1 f m2 t,
  get_from m = Ok (m1, f) -> get_to m = Ok (m2, t) -> fromto_tag t = None -> get_dialog m = Err.
Proof.
  intros m m1 f m2 t H1 H2 T.
  pose proof (C16_to_after_from m m1 f H1) as E. rewrite H2 in E. cbn in E.
  destruct (get_to m1) as [[m2' t']| |] eqn:G; cbn in E; try discriminate. injection E as ->.
  eapply C16_no_tag_to; eassumption.
Qed.

(* both tags present: the identifier is dialog_string of the Call-ID and the (tag, URI core) pairs *)
Theorem C16_get_dialog_string : forall m cid m1 f m2 t ftag ttag,
  get_call_id m = Ok cid -> get_from m = Ok (m1, f) -> get_to m1 = Ok (m2, t) ->
  fromto_tag f = Some ftag -> fromto_tag t = Some ttag ->
  get_dialog m = Ok (m2, dialog_string cid ftag (dialog_addr (fromto_addr_spec f))
                                           ttag (dialog_addr (fromto_addr_spec t))).
Proof.
  intros m cid m1 f m2 t ftag ttag Hc Hf Ht Tf Tt.
  rewrite (get_dialog_eq m cid m1 f m2 t Hc Hf Ht), Tf, Tt. reflexivity.
Qed.

(* and conversely: an identifier exists only in that way (in particular only with both tags) *)
Theorem C16_get_dialog_inv : forall m m2 d,
  get_dialog m = Ok (m2, d) ->
  exists cid m1 f t ftag ttag,
    get_call_id m = Ok cid /\ get_from m = Ok (m1, f) /\ get_to m1 = Ok (m2, t) /\
    fromto_tag f = Some ftag /\ fromto_tag t = Some ttag /\
    d = dialog_string cid ftag (dialog_addr (fromto_addr_spec f)) ttag (dialog_addr (fromto_addr_spec t)).
Proof.
  intros m m2 d. unfold get_dialog.
  destruct (get_call_id m) as [cid| |] eqn:Hc; cbn; try discriminate.
  destruct (get_from m) as [[m1 f]| |] eqn:Hf; cbn; try discriminate.
  destruct (fromto_tag f) as [ftag|] eqn:Tf; cbn; try discriminate.
  destruct (get_to m1) as [[m2' t]| |] eqn:Ht; cbn; try discriminate.
  destruct (fromto_tag t) as [ttag|] eqn:Tt; cbn; try discriminate.
  intros E. injection E as <- <-. exists cid, m1, f, t, ftag, ttag. repeat split; first [reflexivity|assumption].
Qed.

(* raw headers (the state after parse_message): explicit resulting message *)
Theorem C16_get_dialog_raw : forall m hc cid hf sf f ht st t ftag ttag,
  get_header (s2b "Call-ID") (m_headers m) = Some hc -> h_val hc = HRaw cid ->
  get_header (s2b "From") (m_headers m) = Some hf -> h_val hf = HRaw sf -> parse_fromto sf = Ok f ->
  get_header (s2b "To") (m_headers m) = Some ht -> h_val ht = HRaw st -> parse_fromto st = Ok t ->
  fromto_tag f = Some ftag -> fromto_tag t = Some ttag ->
  get_dialog m =
    Ok (with_headers m (update_header (s2b "To") (fun _ => HTo t)
                         (update_header (s2b "From") (fun _ => HFrom f) (m_headers m))),
        dialog_string cid ftag (dialog_addr (fromto_addr_spec f)) ttag (dialog_addr (fromto_addr_spec t))).
Proof.
  intros m hc cid hf sf f ht st t ftag ttag Hc Vc Hf Vf Pf Ht Vt Pt Tf Tt.
  apply (C16_get_dialog_string m cid
           (with_headers m (update_header (s2b "From") (fun _ => HFrom f) (m_headers m))) f _ t ftag ttag).
  - unfold get_call_id, get_raw. rewrite Hc, Vc. reflexivity.
  - unfold get_from. rewrite Hf, Vf, Pf. reflexivity.
  - unfold get_to. cbn [m_headers with_headers].
    rewrite (get_header_update_other _ _ _ same_header_From_not_To), Ht, Vt, Pt. reflexivity.
  - exact Tf.
  - exact Tt.
Qed.

(* direction independence at message level: two messages of one dialog whose From/To values are
   exchanged (request one way, request the other way; URI parameters may differ, only the URI
   cores [dialog_addr] must agree) get the same answer *)
Theorem C16_message_symmetric : forall m m' cid m1 f m2 t m1' f' m2' t',
  get_call_id m = Ok cid -> get_call_id m' = Ok cid ->
  get_from m = Ok (m1, f) -> get_to m1 = Ok (m2, t) ->
  get_from m' = Ok (m1', f') -> get_to m1' = Ok (m2', t') ->
  fromto_tag f' = fromto_tag t -> fromto_tag t' = fromto_tag f ->
  dialog_addr (fromto_addr_spec f') = dialog_addr (fromto_addr_spec t) ->
  dialog_addr (fromto_addr_spec t') = dialog_addr (fromto_addr_spec f) ->
  rmap snd (get_dialog m) = rmap snd (get_dialog m').
Proof.
  intros m m' cid m1 f m2 t m1' f' m2' t' Hc Hc' Hf Ht Hf' Ht' T1 T2 A1 A2.
  rewrite (get_dialog_eq m cid m1 f m2 t Hc Hf Ht), (get_dialog_eq m' cid m1' f' m2' t' Hc' Hf' Ht').
  rewrite T1, T2, A1, A2.
  destruct (fromto_tag f) as [ftag|], (fromto_tag t) as [ttag|]; cbn [rmap snd]; try reflexivity.
  rewrite (C16_symmetric cid ftag). reflexivity.
Qed.

(* non-vacuity: compact / upper-case header names, name-addr with URI parameters and a port, '-' in
   Call-ID, tags and hosts; the reverse-direction message; a To without tag *)
Definition raw_msg (from to : string) : message :=
  {| m_start := SResp (s2b "SIP/2.0") 200%Z (s2b "OK");
     m_headers := [ {| h_name := s2b "Via"; h_val := HRaw (s2b "SIP/2.0/UDP h-1;branch=z9hG4bK-1") |};
                    {| h_name := s2b "f"; h_val := HRaw (s2b from) |};
                    {| h_name := s2b "TO"; h_val := HRaw (s2b to) |};
                    {| h_name := s2b "i"; h_val := HRaw (s2b "a-b-c@h-1") |} ];
     m_body := [] |}.
Definition msg_ab := raw_msg "<sip:alice@a-1.example.com;transport=tcp>;tag=t-1" "Bob <sip:bob@b-2.example.com:5060>;tag=t-2".
Definition msg_ba := raw_msg "Bob <sip:bob@b-2.example.com:5060>;tag=t-2" "<sip:alice@a-1.example.com>;tag=t-1".
Definition msg_notag := raw_msg "<sip:alice@a-1.example.com>;tag=t-1" "<sip:bob@b-2.example.com>".

Example C16_get_dialog_ex :
  rmap snd (get_dialog msg_ab) = Ok (s2b "a-b-c@h-1-t-1-sip:alice@a-1.example.com-t-2-sip:bob@b-2.example.com:5060") /\
  rmap snd (get_dialog msg_ba) = Ok (s2b "a-b-c@h-1-t-1-sip:alice@a-1.example.com-t-2-sip:bob@b-2.example.com:5060").
Proof. split; vm_compute; reflexivity. Qed.
(* the hypotheses of C16_get_dialog_raw hold on msg_ab *)
Example C16_get_dialog_raw_ex :
  match get_header (s2b "Call-ID") (m_headers msg_ab), get_header (s2b "From") (m_headers msg_ab),
        get_header (s2b "To") (m_headers msg_ab) with
  | Some hc, Some hf, Some ht =>
      match h_val hc, h_val hf, h_val ht with
      | HRaw cid, HRaw sf, HRaw st =>
          match parse_fromto sf, parse_fromto st with
          | Ok f, Ok t => cid = s2b "a-b-c@h-1" /\ fromto_tag f = Some (s2b "t-1") /\ fromto_tag t = Some (s2b "t-2")
          | _, _ => False
          end
      | _, _, _ => False
      end
  | _, _, _ => False
  end.
Proof. vm_compute. repeat split. Qed.
(* the hypotheses of C16_no_tag_to hold on msg_notag, and indeed there is no dialog *)
Example C16_no_tag_ex :
  match get_from msg_notag with
  | Ok (m1, f) => match get_to m1 with Ok (m2, t) => fromto_tag t = None | _ => False end
  | _ => False
  end /\ get_dialog msg_notag = Err.
Proof. vm_compute. split; reflexivity. Qed.
(* the hypotheses of C16_message_symmetric hold on msg_ab / msg_ba (the URI parameters differ) *)
Example C16_message_symmetric_ex :
  get_call_id msg_ab = get_call_id msg_ba /\ is_ok (get_call_id msg_ab) = true /\
  match get_from msg_ab, get_from msg_ba with
  | Ok (m1, f), Ok (m1', f') =>
      match get_to m1, get_to m1' with
      | Ok (m2, t), Ok (m2', t') =>
          fromto_tag f' = fromto_tag t /\ fromto_tag t' = fromto_tag f /\
          dialog_addr (fromto_addr_spec f') = dialog_addr (fromto_addr_spec t) /\
          dialog_addr (fromto_addr_spec t') = dialog_addr (fromto_addr_spec f) /\
          fromto_addr_spec t' <> fromto_addr_spec f
      | _, _ => False
      end
  | _, _ => False
  end.
Proof. vm_compute. repeat split. intros H; discriminate H. Qed.

Print Assumptions blt_trichotomy.
Print Assumptions C16_symmetric.
Print Assumptions C16_legacy_refuted.
Print Assumptions C16_callid_discriminates.
Print Assumptions C16_callid_discriminates_msg.
Print Assumptions C16_discriminates.
Print Assumptions half_ok_sep_ok.
Print Assumptions half_ok_distinct_tags.
Print Assumptions half_ok_tags_same_length.
Print Assumptions half_ok_equal_tags.
Print Assumptions C16_K3_refuted.
Print Assumptions C16_same_id.
Print Assumptions C16_judged.
Print Assumptions C16_judged_halves.
Print Assumptions C16_judged_b.
Print Assumptions group_half_ok_sep_ok.
Print Assumptions C16_to_after_from.
Print Assumptions C16_no_tag_from.
Print Assumptions C16_no_tag_to.
Print Assumptions C16_no_tag_to'.
Print Assumptions C16_get_dialog_string.
Print Assumptions C16_get_dialog_inv.
Print Assumptions C16_get_dialog_raw.
Print Assumptions C16_message_symmetric.
