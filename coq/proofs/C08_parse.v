(* C08, the parse part: the receive path (bufio reader, readLine, skipWhiteSpace, ParseMessage,
   the per-connection loop, the UDP parse step) never panics, never runs out of fuel, and
   requests from make at most 4 x (bytes received) + 64 KiB -- for every byte string, every
   segmentation, every reader window.  The proofs are in C11.v (they come with the refinement);
   this file states them and refutes the same claims for the code as found.

   What is counted: the explicit make calls of readBody (the message body).  Line buffers,
   strings and header structs are proportional to the bytes of the lines they hold by
   construction (append of received fragments) and are not modelled as make.
   The bound [2 * length <= make_limit] (streams and datagrams below 2^46 bytes) is where the
   model's make primitive would refuse even a legitimate doubling. *)
From Coq Require Import List Ascii String ZArith Bool Arith.
From Model Require Import Bytes Message Bufio.
From Model.proofs Require C11.
Import ListNotations.
Local Open Scope nat_scope.

(* TCP: the connection loop ends with a decode error (the connection is closed): not with a
   panic, and not because the model ran out of fuel -- every loop of the model is bounded by
   the bytes still to come *)
Theorem C08_parse_no_panic : forall size cs, Forall C11.nonempty cs ->
  (2 * Z.of_nat (List.length (List.concat cs)) <= make_limit)%Z ->
  snd (fst (parse_conn_full size cs)) = EndErr.
Proof. intros size cs Hne Hlim. exact (proj1 (proj2 (C11.parse_conn_full_abs size cs Hne Hlim))). Qed.

Theorem C08_parse_terminates : forall size cs, Forall C11.nonempty cs ->
  (2 * Z.of_nat (List.length (List.concat cs)) <= make_limit)%Z ->
  snd (fst (parse_conn_full size cs)) <> EndFuel /\ snd (fst (parse_conn_full size cs)) <> EndPanic.
Proof.
  intros size cs Hne Hlim. rewrite (C08_parse_no_panic size cs Hne Hlim). split; discriminate.
Qed.

Theorem C08_alloc_bounded : forall size cs, Forall C11.nonempty cs ->
  (2 * Z.of_nat (List.length (List.concat cs)) <= make_limit)%Z ->
  (snd (parse_conn_full size cs) <= 4 * Z.of_nat (List.length (List.concat cs)) + 65536)%Z.
Proof. intros size cs Hne Hlim. exact (proj2 (proj2 (C11.parse_conn_full_abs size cs Hne Hlim))). Qed.

(* UDP: one datagram, whatever the rest of the receive buffer holds *)
Theorem C08_parse_no_panic_udp : forall buf n,
  (2 * Z.of_nat (List.length (firstn n buf)) <= make_limit)%Z ->
  udp_parse buf n <> Panic /\
  (snd (udp_parse_a buf n) <= 4 * Z.of_nat (List.length (firstn n buf)) + 65536)%Z.
Proof.
  intros buf n Hlim. destruct (C11.udp_parse_abs buf n Hlim) as (H & Ha). split; [|exact Ha].
  rewrite H. unfold parse_bytes, res_fst.
  destruct (parse_message (firstn n buf)) as [[m r]| |] eqn:E; try discriminate.
  exfalso. exact (C11.parse_message_no_panic _ E).
Qed.

(* the code as found: make([]byte, contentLength) before reading.  A 68-byte input makes it
   panic (TCP and UDP), resp. request a gigabyte; the repaired code answers Err and requests
   nothing beyond the bound *)
Definition absurd (cl : string) : bytes :=
  s2b "INVITE sip:a@h SIP/2.0" ++ [CR; LF] ++ s2b "Content-Length: " ++ s2b cl ++ [CR; LF; CR; LF] ++ s2b "short".
Theorem C08_legacy_refuted :
  snd (fst (parse_conn_legacy_full 4096 [absurd "4611686018427387904"])) = EndPanic /\
  udp_parse_legacy (absurd "4611686018427387904") 68 = Panic /\
  snd (parse_conn_legacy_full 4096 [absurd "1073741824"]) = 1073741824%Z /\
  parse_conn_full 4096 [absurd "4611686018427387904"] = ([], EndErr, 65536%Z) /\
  parse_conn_full 4096 [absurd "1073741824"] = ([], EndErr, 65536%Z).
Proof.
  split; [vm_compute; reflexivity|]. split; [vm_compute; reflexivity|].
  split; [vm_compute; reflexivity|]. split; vm_compute; reflexivity.
Qed.

(* non-vacuity: the hypotheses hold for an ordinary segmented stream *)
Example C08_ex :
  let cs := C11.chop 5 100 (C11.legacy_stream ++ C11.legacy_stream) in
  Forall C11.nonempty cs /\ (2 * Z.of_nat (List.length (List.concat cs)) <= make_limit)%Z /\
  parse_conn_full 16 cs = (parse_conn 16 cs, EndErr, 0%Z) /\ List.length (parse_conn 16 cs) = 2.
Proof.
  cbv zeta. split; [vm_compute; repeat constructor; discriminate|].
  split; [vm_compute; discriminate|]. split; vm_compute; reflexivity.
Qed.

Print Assumptions C08_parse_no_panic.
Print Assumptions C08_parse_terminates.
Print Assumptions C08_alloc_bounded.
Print Assumptions C08_parse_no_panic_udp.
Print Assumptions C08_legacy_refuted.
