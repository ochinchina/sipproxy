(* proofs/MsgLemmas.v — general facts about the header list of Message.v and the state-passing
   getters of Msg.v, shared by the whole-proxy proofs:

     - header names ([names_disjoint]); get_header / update_header / remove_header / insert_at,
     - [mpres R x]: every run of the M-computation [x] stays inside the relation [R]; closure
       under mret / mbind / mtry / ..., the lazy getter [typed_get] by cases, and one lemma per
       getter of Msg.v for every relation that contains the elementary edits ([edits_in]),
     - the NON-ROUTING VIEW of a message ([view]): start line text, the (name, printed value)
       list of every header that is not Via / Route / Record-Route / Content-Length, body;
       [stable]: raw From / To / CSeq values re-encode to themselves when decoded;
       [pres_rel]: stable messages stay stable and keep their view, the relation at which C01.v
       instantiates the relay theorem ([pres_edits]).  [preserves x] is [mpres pres_rel x] written
       out for one computation ([preserves_mpres]); the proofs go through [mpres], and only the
       last lemmas of the file restate the getters' results as [preserves].

   No axioms, no admits. *)
From Coq Require Import List Ascii String ZArith Bool Arith.
From Model Require Import Bytes BytesLemmas Uri Hdr Message Msg.
Import ListNotations.
Open Scope list_scope.

#[local] Arguments same_header : simpl never.
#[local] Arguments s2b : simpl never.

(* the spellings a look-up for [a] accepts (lower case): the name and its compact form *)
Definition names_of (a : bytes) : list bytes :=
  to_lower a :: match get_compact a with Some c => [to_lower c] | None => [] end.
Lemma same_header_names n a : same_header n a = existsb (beq (to_lower n)) (names_of a).
Proof.
  unfold same_header, equal_fold, names_of. destruct (get_compact a); simpl; rewrite ?orb_false_r; reflexivity.
Qed.
(* no header answers to both names: decided by evaluation for two given names *)
Definition names_disjoint (a b : bytes) : bool :=
  forallb (fun x => negb (existsb (beq x) (names_of b))) (names_of a).
Lemma same_header_disjoint a b n :
  names_disjoint a b = true -> same_header n a = true -> same_header n b = false.
Proof.
  intros D H. rewrite same_header_names in *. apply existsb_exists in H. destruct H as (x & Hx & E).
  apply beq_eq in E. rewrite E. unfold names_disjoint in D.
  rewrite forallb_forall in D. specialize (D x Hx). apply negb_true_iff in D. exact D.
Qed.

Lemma same_header_refl n : same_header n n = true.
Proof. unfold same_header, equal_fold. rewrite beq_refl. reflexivity. Qed.

Lemma get_header_in name hs h :
  get_header name hs = Some h -> In h hs /\ same_header (h_name h) name = true.
Proof.
  induction hs as [|a r IH]; simpl; intros H; [discriminate|].
  destruct (same_header (h_name a) name) eqn:E.
  - inversion H; subst. split; [left; reflexivity|exact E].
  - destruct (IH H) as [I S]. split; [right; exact I|exact S].
Qed.

Lemma get_header_none name hs :
  get_header name hs = None <-> Forall (fun h => same_header (h_name h) name = false) hs.
Proof.
  induction hs as [|a r IH]; simpl.
  - split; intros; [constructor|reflexivity].
  - destruct (same_header (h_name a) name) eqn:E.
    + split; intros H; [discriminate|]. inversion H; subst. congruence.
    + rewrite IH. split; intros H; [constructor; assumption|inversion H; assumption].
Qed.

Lemma update_header_none name f hs : get_header name hs = None -> update_header name f hs = hs.
Proof.
  induction hs as [|a r IH]; simpl; intros H; [reflexivity|].
  destruct (same_header (h_name a) name); [discriminate|]. rewrite IH by exact H. reflexivity.
Qed.

Lemma remove_header_none name hs : get_header name hs = None -> remove_header name hs = hs.
Proof.
  induction hs as [|a r IH]; simpl; intros H; [reflexivity|].
  destruct (same_header (h_name a) name); [discriminate|]. rewrite IH by exact H. reflexivity.
Qed.

(* the headers before the first one with that name are passed over *)
Lemma get_header_app_none name b r : get_header name b = None -> get_header name (b ++ r) = get_header name r.
Proof.
  induction b as [|a b IH]; simpl; intros H; [reflexivity|].
  destruct (same_header (h_name a) name); [discriminate|exact (IH H)].
Qed.
Lemma update_header_app_none name f b r :
  get_header name b = None -> update_header name f (b ++ r) = b ++ update_header name f r.
Proof.
  induction b as [|a b IH]; simpl; intros H; [reflexivity|].
  destruct (same_header (h_name a) name); [discriminate|]. rewrite IH by exact H. reflexivity.
Qed.
Lemma remove_header_app_none name b r :
  get_header name b = None -> remove_header name (b ++ r) = b ++ remove_header name r.
Proof.
  induction b as [|a b IH]; simpl; intros H; [reflexivity|].
  destruct (same_header (h_name a) name); [discriminate|]. rewrite IH by exact H. reflexivity.
Qed.
Lemma find_header_pos_from_app_none name b r : forall i,
  get_header name b = None ->
  find_header_pos_from name (b ++ r) i = find_header_pos_from name r (i + List.length b).
Proof.
  induction b as [|a b IH]; simpl; intros i H; [rewrite Nat.add_0_r; reflexivity|].
  destruct (same_header (h_name a) name); [discriminate|]. rewrite IH by exact H. rewrite Nat.add_succ_r. reflexivity.
Qed.

(* ... and the first one with that name is the one found, rewritten, removed *)
Lemma get_header_at name pre h post : get_header name pre = None -> same_header (h_name h) name = true ->
  get_header name (pre ++ h :: post) = Some h.
Proof. intros N S. rewrite get_header_app_none by exact N. cbn [get_header]. rewrite S. reflexivity. Qed.
Lemma update_header_at name f pre h post : get_header name pre = None -> same_header (h_name h) name = true ->
  update_header name f (pre ++ h :: post) = pre ++ {| h_name := h_name h; h_val := f (h_val h) |} :: post.
Proof. intros N S. rewrite update_header_app_none by exact N. cbn [update_header]. rewrite S. reflexivity. Qed.
Lemma remove_header_at name pre h post : get_header name pre = None -> same_header (h_name h) name = true ->
  remove_header name (pre ++ h :: post) = pre ++ post.
Proof. intros N S. rewrite remove_header_app_none by exact N. cbn [remove_header]. rewrite S. reflexivity. Qed.

(* the first header with that name splits the list; update / remove act exactly there *)
Lemma get_header_split name hs h :
  get_header name hs = Some h ->
  exists l1 l2, hs = l1 ++ h :: l2 /\
                Forall (fun x => same_header (h_name x) name = false) l1 /\
                same_header (h_name h) name = true /\
                (forall f, update_header name f hs = l1 ++ {| h_name := h_name h; h_val := f (h_val h) |} :: l2) /\
                remove_header name hs = l1 ++ l2.
Proof.
  induction hs as [|a r IH]; simpl; intros H; [discriminate|].
  destruct (same_header (h_name a) name) eqn:E.
  - inversion H; subst. exists [], r. repeat split; auto.
  - destruct (IH H) as (l1 & l2 & E1 & F & S & U & R).
    exists (a :: l1), l2. subst r. repeat split; auto.
    + intros f. simpl. rewrite U. reflexivity.
    + simpl. rewrite R. reflexivity.
Qed.

Lemma update_header_names name f hs : map h_name (update_header name f hs) = map h_name hs.
Proof.
  induction hs as [|a r IH]; simpl; [reflexivity|].
  destruct (same_header (h_name a) name); simpl; [reflexivity|rewrite IH; reflexivity].
Qed.

Lemma update_header_length name f hs : List.length (update_header name f hs) = List.length hs.
Proof. rewrite <- (map_length h_name), update_header_names, map_length. reflexivity. Qed.

Lemma get_header_update name f hs :
  get_header name (update_header name f hs) =
  match get_header name hs with
  | Some h => Some {| h_name := h_name h; h_val := f (h_val h) |}
  | None => None
  end.
Proof.
  induction hs as [|a r IH]; simpl; [reflexivity|].
  destruct (same_header (h_name a) name) eqn:E; simpl; rewrite E; [reflexivity|exact IH].
Qed.

Lemma get_header_update_other name name' f hs :
  (forall n, same_header n name = true -> same_header n name' = false) ->
  get_header name' (update_header name f hs) = get_header name' hs.
Proof.
  intros D. induction hs as [|a r IH]; simpl; [reflexivity|].
  destruct (same_header (h_name a) name) eqn:E; simpl.
  - rewrite (D _ E). reflexivity.
  - rewrite IH. reflexivity.
Qed.

Lemma in_update_header name f hs x :
  In x (update_header name f hs) ->
  In x hs \/ exists h, get_header name hs = Some h /\ x = {| h_name := h_name h; h_val := f (h_val h) |}.
Proof.
  induction hs as [|a r IH]; simpl; intros H; [contradiction|].
  destruct (same_header (h_name a) name) eqn:E.
  - destruct H as [H|H]; [right; exists a; auto|left; right; exact H].
  - destruct H as [H|H]; [left; left; exact H|].
    destruct (IH H) as [I|I]; [left; right; exact I|right; exact I].
Qed.

Lemma in_remove_header name hs x : In x (remove_header name hs) -> In x hs.
Proof.
  induction hs as [|a r IH]; simpl; intros H; [contradiction|].
  destruct (same_header (h_name a) name); [right; exact H|].
  destruct H as [H|H]; [left; exact H|right; exact (IH H)].
Qed.

Lemma in_insert_at {A} n (x y : A) l : In y (insert_at n x l) <-> y = x \/ In y l.
Proof.
  unfold insert_at. rewrite in_app_iff. simpl. rewrite <- (firstn_skipn n l) at 3. rewrite in_app_iff.
  split; intros H; intuition auto.
Qed.

Lemma insert_at_length {A} n (x : A) l : List.length (insert_at n x l) = S (List.length l).
Proof.
  unfold insert_at. rewrite app_length. simpl. rewrite <- plus_n_Sm, <- app_length, firstn_skipn. reflexivity.
Qed.

(* argument order of the model's own look-ups: same_header <name in the message> <name asked for> *)
Definition routing_name (n : bytes) : bool :=
  same_header n (s2b "Via") || same_header n (s2b "Route") ||
  same_header n (s2b "Record-Route") || same_header n (s2b "Content-Length").

Definition view (m : message) : bytes * list (bytes * bytes) * bytes :=
  (start_line_print (m_start m),
   map (fun h => (h_name h, hval_print (h_val h)))
       (filter (fun h => negb (routing_name (h_name h))) (m_headers m)),
   m_body m).

(* the header component, on lists *)
Definition view_hs (hs : list header) : list (bytes * bytes) :=
  map (fun h => (h_name h, hval_print (h_val h))) (filter (fun h => negb (routing_name (h_name h))) hs).

Lemma view_eq m : view m = (start_line_print (m_start m), view_hs (m_headers m), m_body m).
Proof. reflexivity. Qed.
Lemma view_with_headers m hs :
  view (with_headers m hs) = (start_line_print (m_start m), view_hs hs, m_body m).
Proof. reflexivity. Qed.
Lemma view_with_headers_eq m hs : view_hs hs = view_hs (m_headers m) -> view (with_headers m hs) = view m.
Proof. intros H. rewrite view_with_headers, H. reflexivity. Qed.

Lemma routing_via n : same_header n (s2b "Via") = true -> routing_name n = true.
Proof. unfold routing_name. intros ->. reflexivity. Qed.
Lemma routing_route n : same_header n (s2b "Route") = true -> routing_name n = true.
Proof. unfold routing_name. intros ->. rewrite orb_true_r. reflexivity. Qed.
Lemma routing_record_route n : same_header n (s2b "Record-Route") = true -> routing_name n = true.
Proof. unfold routing_name. intros ->. rewrite !orb_true_r. reflexivity. Qed.
Lemma routing_content_length n : same_header n (s2b "Content-Length") = true -> routing_name n = true.
Proof. unfold routing_name. intros ->. rewrite !orb_true_r. reflexivity. Qed.

Lemma view_hs_nil : view_hs [] = [].
Proof. reflexivity. Qed.
Lemma view_hs_cons h hs :
  view_hs (h :: hs) = if routing_name (h_name h) then view_hs hs
                      else (h_name h, hval_print (h_val h)) :: view_hs hs.
Proof. unfold view_hs. simpl. destruct (routing_name (h_name h)); reflexivity. Qed.
Lemma view_hs_app l1 l2 : view_hs (l1 ++ l2) = view_hs l1 ++ view_hs l2.
Proof. unfold view_hs. rewrite filter_app, map_app. reflexivity. Qed.

(* update: the touched header is a routing header, or its printed value does not change *)
Lemma view_hs_update name f hs :
  (forall h, get_header name hs = Some h ->
             routing_name (h_name h) = true \/ hval_print (f (h_val h)) = hval_print (h_val h)) ->
  view_hs (update_header name f hs) = view_hs hs.
Proof.
  intros H. destruct (get_header name hs) as [h|] eqn:G.
  - destruct (get_header_split _ _ _ G) as (l1 & l2 & E & _ & _ & U & _).
    rewrite U, E, !view_hs_app, !view_hs_cons. simpl.
    destruct (H h eq_refl) as [R|P]; [rewrite R; reflexivity|rewrite P; reflexivity].
  - rewrite update_header_none by exact G. reflexivity.
Qed.

Lemma view_hs_remove name hs :
  (forall h, get_header name hs = Some h -> routing_name (h_name h) = true) ->
  view_hs (remove_header name hs) = view_hs hs.
Proof.
  intros H. destruct (get_header name hs) as [h|] eqn:G.
  - destruct (get_header_split _ _ _ G) as (l1 & l2 & E & _ & _ & _ & R).
    rewrite R, E, !view_hs_app, view_hs_cons, (H h eq_refl). reflexivity.
  - rewrite remove_header_none by exact G. reflexivity.
Qed.

Lemma view_hs_insert n h hs : routing_name (h_name h) = true -> view_hs (insert_at n h hs) = view_hs hs.
Proof.
  intros R. unfold insert_at. rewrite view_hs_app, view_hs_cons, R, <- view_hs_app, firstn_skipn. reflexivity.
Qed.

(* a raw From / To / CSeq value that the proxy may decode is re-encoded to the same bytes *)
Definition stable_h (h : header) : Prop :=
  match h_val h with
  | HRaw s =>
      ((same_header (h_name h) (s2b "From") = true \/ same_header (h_name h) (s2b "To") = true) ->
       forall f, parse_fromto s = Ok f -> fromto_print f = s) /\
      (same_header (h_name h) (s2b "CSeq") = true ->
       forall c, parse_cseq s = Ok c -> cseq_print c = s)
  | _ => True
  end.
Definition stable_hs (hs : list header) : Prop := Forall stable_h hs.
Definition stable (m : message) : Prop := stable_hs (m_headers m).

Definition typed (v : hval) : bool := match v with HRaw _ => false | _ => true end.
Lemma stable_h_typed n v : typed v = true -> stable_h {| h_name := n; h_val := v |}.
Proof. unfold stable_h. simpl. destruct v; simpl; intros H; try exact I. discriminate. Qed.

(* [stable], header by header *)
Lemma stable_spec m :
  stable m <->
  forall h s, In h (m_headers m) -> h_val h = HRaw s ->
    ((same_header (h_name h) (s2b "From") = true \/ same_header (h_name h) (s2b "To") = true) ->
     forall f, parse_fromto s = Ok f -> fromto_print f = s) /\
    (same_header (h_name h) (s2b "CSeq") = true -> forall c, parse_cseq s = Ok c -> cseq_print c = s).
Proof.
  unfold stable, stable_hs. rewrite Forall_forall. split.
  - intros H h s I V. specialize (H h I). unfold stable_h in H. rewrite V in H. exact H.
  - intros H h Hin. unfold stable_h. destruct (h_val h) eqn:V; try exact I. exact (H h s Hin V).
Qed.

Lemma stable_hs_update name f hs :
  stable_hs hs ->
  (forall h, get_header name hs = Some h -> stable_h {| h_name := h_name h; h_val := f (h_val h) |}) ->
  stable_hs (update_header name f hs).
Proof.
  unfold stable_hs. rewrite !Forall_forall. intros S H x I.
  destruct (in_update_header _ _ _ _ I) as [J|(h & G & ->)]; [exact (S x J)|exact (H h G)].
Qed.

Lemma stable_hs_remove name hs : stable_hs hs -> stable_hs (remove_header name hs).
Proof.
  unfold stable_hs. rewrite !Forall_forall. intros S x I. exact (S x (in_remove_header _ _ _ I)).
Qed.

Lemma stable_hs_insert n h hs : stable_h h -> stable_hs hs -> stable_hs (insert_at n h hs).
Proof.
  unfold stable_hs. rewrite !Forall_forall. intros Sh S x I. apply in_insert_at in I.
  destruct I as [->|I]; [exact Sh|exact (S x I)].
Qed.

(* a function on header lists that keeps stable and the view *)
Definition hs_frame (g : list header -> list header) : Prop :=
  forall hs, stable_hs hs -> stable_hs (g hs) /\ view_hs (g hs) = view_hs hs.
(* a function on messages that does *)
Definition frame_f (f : message -> message) : Prop :=
  forall m, stable m -> stable (f m) /\ view (f m) = view m.
(* an M-computation that does *)
Definition preserves {A} (x : M A) : Prop :=
  forall m, stable m -> let '(m', _) := x m in stable m' /\ view m' = view m.


Lemma frame_f_with_headers g : hs_frame g -> frame_f (fun m => with_headers m (g (m_headers m))).
Proof.
  intros H m S. destruct (H (m_headers m) S) as [S' V]. split; [exact S'|].
  apply view_with_headers_eq. exact V.
Qed.

Lemma frame_f_id : frame_f (fun m => m).
Proof. intros m S. split; [exact S|reflexivity]. Qed.
Lemma frame_f_comp f g : frame_f f -> frame_f g -> frame_f (fun m => g (f m)).
Proof.
  intros F G m S. destruct (F m S) as [S1 V1]. destruct (G (f m) S1) as [S2 V2].
  split; [exact S2|congruence].
Qed.

Lemma hs_frame_update_routing name v :
  typed v = true -> (forall n, same_header n name = true -> routing_name n = true) ->
  hs_frame (update_header name (fun _ => v)).
Proof.
  intros T R hs S. split.
  - apply stable_hs_update; [exact S|]. intros h _. apply stable_h_typed. exact T.
  - apply view_hs_update. intros h G. left. apply R. exact (proj2 (get_header_in _ _ _ G)).
Qed.

Lemma hs_frame_remove_routing name :
  (forall n, same_header n name = true -> routing_name n = true) -> hs_frame (remove_header name).
Proof.
  intros R hs S. split; [apply stable_hs_remove; exact S|].
  apply view_hs_remove. intros h G. apply R. exact (proj2 (get_header_in _ _ _ G)).
Qed.

Lemma hs_frame_insert_routing (pos : list header -> nat) h :
  typed (h_val h) = true -> routing_name (h_name h) = true ->
  hs_frame (fun hs => insert_at (pos hs) h hs).
Proof.
  intros T R hs S. split.
  - apply stable_hs_insert; [|exact S]. destruct h as [n v]. apply stable_h_typed. exact T.
  - apply view_hs_insert. exact R.
Qed.

Lemma frame_set_val_routing name v :
  typed v = true -> (forall n, same_header n name = true -> routing_name n = true) ->
  frame_f (set_val name v).
Proof.
  intros T R. exact (frame_f_with_headers _ (hs_frame_update_routing name v T R)).
Qed.

Lemma frame_remove_header_routing name :
  (forall n, same_header n name = true -> routing_name n = true) ->
  frame_f (fun m => with_headers m (remove_header name (m_headers m))).
Proof. intros R. exact (frame_f_with_headers _ (hs_frame_remove_routing name R)). Qed.

(* ForEachViaParam *)
Lemma decode_all_vias_frame hs :
  view_hs (fst (decode_all_vias hs)) = view_hs hs /\
  (stable_hs hs -> stable_hs (fst (decode_all_vias hs))).
Proof.
  induction hs as [|h r [IHv IHs]]; [split; [reflexivity|intros H; exact H]|].
  simpl. destruct (decode_all_vias r) as [r' vs] eqn:D. simpl in IHv, IHs.
  assert (Keep : view_hs (h :: r') = view_hs (h :: r) /\ (stable_hs (h :: r) -> stable_hs (h :: r'))).
  { split; [rewrite !view_hs_cons, IHv; reflexivity|].
    intros S. inversion S; subst. constructor; [assumption|apply IHs; assumption]. }
  destruct (same_header (h_name h) (s2b "Via")) eqn:N; [|exact Keep].
  destruct (h_val h) as [s|l| | | | |] eqn:V; try exact Keep.
  destruct (parse_via s) as [l| |]; try exact Keep.
  simpl. split.
  - rewrite !view_hs_cons. simpl. rewrite (routing_via _ N). exact IHv.
  - intros S. inversion S; subst. constructor; [apply stable_h_typed; reflexivity|apply IHs; assumption].
Qed.

(* every run of [x] leaves a message related to the one it started from *)
Definition mpres (R : message -> message -> Prop) {A} (x : M A) : Prop := forall m, R m (fst (x m)).

Lemma fst_mtry {A} (x : M A) m : fst (mtry x m) = fst (x m).
Proof. unfold mtry. destruct (x m) as [m1 r]. destruct r; reflexivity. Qed.

Section Mpres.
  Variable R : message -> message -> Prop.
  Hypothesis R_refl : forall m, R m m.
  Hypothesis R_trans : forall a b c, R a b -> R b c -> R a c.

  (* any computation that only reads the message *)
  Lemma mpres_read {A} (g : message -> res A) : mpres R (fun m => (m, g m)).
  Proof. intros m. apply R_refl. Qed.
  Lemma mpres_mret {A} (a : A) : mpres R (mret a).
  Proof. apply mpres_read. Qed.
  Lemma mpres_merr {A} : mpres R (@merr A).
  Proof. apply mpres_read. Qed.
  Lemma mpres_mpanic {A} : mpres R (@mpanic A).
  Proof. apply mpres_read. Qed.
  Lemma mpres_mlift {A} (r : res A) : mpres R (mlift r).
  Proof. apply mpres_read. Qed.
  Lemma mpres_mget : mpres R mget.
  Proof. apply mpres_read. Qed.
  (* the continuation may use what the first run returned and left behind *)
  Lemma mpres_mbind_run {A B} (x : M A) (f : A -> M B) :
    mpres R x -> (forall m m1 a, x m = (m1, Ok a) -> R m1 (fst (f a m1))) -> mpres R (mbind x f).
  Proof.
    intros Px Pf m. unfold mbind. specialize (Px m). specialize (Pf m). destruct (x m) as [m1 r].
    destruct r as [a| |]; [|exact Px|exact Px]. exact (R_trans _ _ _ Px (Pf m1 a eq_refl)).
  Qed.
  Lemma mpres_mbind {A B} (x : M A) (f : A -> M B) :
    mpres R x -> (forall a, mpres R (f a)) -> mpres R (mbind x f).
  Proof. intros Px Pf. apply mpres_mbind_run; [exact Px|]. intros m m1 a _. apply Pf. Qed.
  Lemma mpres_mtry {A} (x : M A) : mpres R x -> mpres R (mtry x).
  Proof. intros Px m. rewrite fst_mtry. apply Px. Qed.
End Mpres.

(* the generic lazy getter, by cases on the first header with that name:
   either nothing is written, and an answer comes from a value that was decoded already; or that
   header is raw text that parses, and the decoded value is stored in place *)
Lemma typed_get_cases {A} name proj parse (inj : A -> hval) m :
  (exists r, typed_get name proj parse inj m = (m, r) /\
     forall a, r = Ok a -> exists h, get_header name (m_headers m) = Some h /\ proj (h_val h) = Some a) \/
  (exists h s a, get_header name (m_headers m) = Some h /\ h_val h = HRaw s /\ parse s = Ok a /\
     typed_get name proj parse inj m = (set_val name (inj a) m, Ok a)).
Proof.
  unfold typed_get. destruct (get_header name (m_headers m)) as [h|]; [|left; eexists; split; [reflexivity|discriminate]].
  destruct (proj (h_val h)) as [a|] eqn:P.
  - left. eexists. split; [reflexivity|]. intros a' E. inversion E; subst a'. exists h. split; [reflexivity|exact P].
  - destruct (h_val h) as [s| | | | | |] eqn:V; try (left; eexists; split; [reflexivity|discriminate]).
    destruct (parse s) as [a| |] eqn:Ps; try (left; eexists; split; [reflexivity|discriminate]).
    right. exists h, s, a. repeat split; assumption.
Qed.

Lemma get_header_set_val name v m h :
  get_header name (m_headers m) = Some h ->
  get_header name (m_headers (set_val name v m)) = Some {| h_name := h_name h; h_val := v |}.
Proof. intros G. unfold set_val. simpl. rewrite get_header_update, G. reflexivity. Qed.

(* after a successful read the first header of that name holds the answer *)
Lemma typed_get_ok {A} name proj parse (inj : A -> hval) m m' a :
  typed_get name proj parse inj m = (m', Ok a) ->
  (forall a, proj (inj a) = Some a) ->
  exists h, get_header name (m_headers m') = Some h /\ proj (h_val h) = Some a.
Proof.
  intros E PI. destruct (typed_get_cases name proj parse inj m) as [(r & E1 & H)|(h & s & a' & G & _ & _ & E1)];
    rewrite E1 in E; inversion E; subst.
  - apply H. reflexivity.
  - eexists. split; [exact (get_header_set_val _ _ _ _ G)|apply PI].
Qed.

(* ... for GetVia and GetRoute: it holds the decoded list *)
Lemma s_get_via_holds m m1 l : s_get_via m = (m1, Ok l) ->
  exists h, get_header (s2b "Via") (m_headers m1) = Some h /\ h_val h = HVia l.
Proof.
  intros G. destruct (typed_get_ok _ _ _ _ _ _ _ G (fun _ => eq_refl)) as (h & G1 & V). exists h. split; [exact G1|].
  destruct (h_val h); inversion V; reflexivity.
Qed.
Lemma s_get_route_holds m m1 l : s_get_route m = (m1, Ok l) ->
  exists h, get_header (s2b "Route") (m_headers m1) = Some h /\ h_val h = HRoute l.
Proof.
  intros G. destruct (typed_get_ok _ _ _ _ _ _ _ G (fun _ => eq_refl)) as (h & G1 & V). exists h. split; [exact G1|].
  destruct (h_val h); inversion V; reflexivity.
Qed.

(* the first header named [n], raw text that parses, gets its decoded value *)
Definition decode_edit (R : message -> message -> Prop) {A} n (parse : bytes -> res A) (inj : A -> hval) : Prop :=
  forall m h s a, get_header n (m_headers m) = Some h -> h_val h = HRaw s -> parse s = Ok a ->
                  R m (set_val n (inj a) m).
(* the first header named [n], holding the decoded list [l], loses its first entry (PopVia, PopRoute) *)
Definition pop_edit (R : message -> message -> Prop) {A} n (inj : list A -> hval) : Prop :=
  forall m h l, get_header n (m_headers m) = Some h -> h_val h = inj l ->
    R m (match l with
         | _ :: (_ :: _) as rest => set_val n (inj rest) m
         | _ => with_headers m (remove_header n (m_headers m))
         end).
(* the first entry of the first Via header, already decoded, is replaced (SetReceived) *)
Definition top_via_edit (R : message -> message -> Prop) : Prop :=
  forall m h v v' rest, get_header (s2b "Via") (m_headers m) = Some h -> h_val h = HVia (v :: rest) ->
    v_name v' = v_name v -> v_version v' = v_version v -> v_transport v' = v_transport v ->
    v_host v' = v_host v -> v_port v' = v_port v ->
    R m (set_val (s2b "Via") (HVia (v' :: rest)) m).

(* what a reading stage of the proxy may do to a message: decode a header in place, decode all
   Via headers.  (Popping an entry and stamping the top Via entry are asked for by the lemmas of
   the stages that do it.)  [T] says which header names the relation lets a stage touch; each
   lemma below asks for the names its stage touches. *)
Record edits_in (T : bytes -> Prop) (R : message -> message -> Prop) : Prop := {
  ed_refl : forall m, R m m;
  ed_trans : forall a b c, R a b -> R b c -> R a c;
  ed_via : T (s2b "Via") -> decode_edit R (s2b "Via") parse_via HVia;
  ed_route : T (s2b "Route") -> decode_edit R (s2b "Route") parse_route HRoute;
  ed_from : T (s2b "From") -> decode_edit R (s2b "From") parse_fromto HFrom;
  ed_to : T (s2b "To") -> decode_edit R (s2b "To") parse_fromto HTo;
  ed_cseq : T (s2b "CSeq") -> decode_edit R (s2b "CSeq") parse_cseq HCSeq;
  ed_all_vias : T (s2b "Via") -> forall m, R m (with_headers m (fst (decode_all_vias (m_headers m))))
}.
Arguments ed_refl {T R}.
Arguments ed_trans {T R}.
Arguments ed_via {T R}.
Arguments ed_route {T R}.
Arguments ed_from {T R}.
Arguments ed_to {T R}.
Arguments ed_cseq {T R}.
Arguments ed_all_vias {T R}.
(* a transitive relation that contains one with the edits has them too *)
Lemma edits_in_incl T (R R' : message -> message -> Prop) :
  edits_in T R -> (forall m m', R m m' -> R' m m') ->
  (forall m1 m2 m3, R' m1 m2 -> R' m2 m3 -> R' m1 m3) -> edits_in T R'.
Proof.
  intros E In Tr. split; [intros m; apply In, (ed_refl E)|exact Tr|..]; intros t.
  - intros m h s a G V P. exact (In _ _ (ed_via E t m h s a G V P)).
  - intros m h s a G V P. exact (In _ _ (ed_route E t m h s a G V P)).
  - intros m h s a G V P. exact (In _ _ (ed_from E t m h s a G V P)).
  - intros m h s a G V P. exact (In _ _ (ed_to E t m h s a G V P)).
  - intros m h s a G V P. exact (In _ _ (ed_cseq E t m h s a G V P)).
  - intros m. exact (In _ _ (ed_all_vias E t m)).
Qed.
(* the set of all names, for a relation that lets a stage touch any header *)
Definition any_name (n : bytes) : Prop := True.

Section Getters.
  Variable T : bytes -> Prop.
  Variable R : message -> message -> Prop.
  Hypothesis E : edits_in T R.
  Let R_refl := ed_refl E.
  Let R_trans := ed_trans E.

  Lemma mpres_typed_get {A} name proj parse (inj : A -> hval) :
    decode_edit R name parse inj -> mpres R (typed_get name proj parse inj).
  Proof.
    intros D m. destruct (typed_get_cases name proj parse inj m) as [(r & E1 & _)|(h & s & a & G & V & P & E1)];
      rewrite E1; [apply R_refl|exact (D m h s a G V P)].
  Qed.

  Lemma mpres_s_get_via : T (s2b "Via") -> mpres R s_get_via.
  Proof. intros TV. apply mpres_typed_get, (ed_via E TV). Qed.
  Lemma mpres_s_get_route : T (s2b "Route") -> mpres R s_get_route.
  Proof. intros TR. apply mpres_typed_get, (ed_route E TR). Qed.
  Lemma mpres_s_get_from : T (s2b "From") -> mpres R s_get_from.
  Proof. intros TF. apply mpres_typed_get, (ed_from E TF). Qed.
  Lemma mpres_s_get_to : T (s2b "To") -> mpres R s_get_to.
  Proof. intros TT. apply mpres_typed_get, (ed_to E TT). Qed.
  Lemma mpres_s_get_cseq : T (s2b "CSeq") -> mpres R s_get_cseq.
  Proof. intros TC. apply mpres_typed_get, (ed_cseq E TC). Qed.

  Lemma mpres_s_get_raw name : mpres R (s_get_raw name).
  Proof. apply mpres_read, R_refl. Qed.
  Lemma mpres_s_get_expires d : mpres R (s_get_expires d).
  Proof. apply (mpres_read R R_refl (fun m => Ok (get_expires m d))). Qed.

  Lemma mpres_s_get_method : T (s2b "CSeq") -> mpres R s_get_method.
  Proof.
    intros TC m. unfold s_get_method. destruct (m_start m); [apply R_refl|].
    apply (mpres_mbind R R_trans); [exact (mpres_s_get_cseq TC)|]. intros c. apply mpres_mret, R_refl.
  Qed.

  Lemma mpres_s_top_via : T (s2b "Via") -> mpres R s_top_via.
  Proof.
    intros TV. apply (mpres_mbind R R_trans); [exact (mpres_s_get_via TV)|].
    intros [|v r]; [apply mpres_merr|apply mpres_mret]; apply R_refl.
  Qed.

  Lemma mpres_s_client_transaction : T (s2b "Via") -> T (s2b "CSeq") -> mpres R s_client_transaction.
  Proof.
    intros TV TC. apply (mpres_mbind R R_trans); [exact (mpres_s_get_cseq TC)|]. intros c.
    apply (mpres_mbind R R_trans); [exact (mpres_s_top_via TV)|]. intros v.
    apply (mpres_mbind R R_trans); [apply mpres_mlift, R_refl|]. intros b. apply mpres_mret, R_refl.
  Qed.

  Lemma mpres_s_get_dialog : T (s2b "From") -> T (s2b "To") -> mpres R s_get_dialog.
  Proof.
    intros TF TT. apply (mpres_mbind R R_trans); [apply mpres_s_get_raw|]. intros cid.
    apply (mpres_mbind R R_trans); [exact (mpres_s_get_from TF)|]. intros f.
    apply (mpres_mbind R R_trans); [apply mpres_mlift, R_refl|]. intros ftag.
    apply (mpres_mbind R R_trans); [exact (mpres_s_get_to TT)|]. intros t.
    apply (mpres_mbind R R_trans); [apply mpres_mlift, R_refl|]. intros ttag. apply mpres_mret, R_refl.
  Qed.

  Lemma mpres_s_all_via_params : T (s2b "Via") -> mpres R s_all_via_params.
  Proof.
    intros TV m. unfold s_all_via_params. pose proof (ed_all_vias E TV m) as H.
    destruct (decode_all_vias (m_headers m)) as [hs vs]. exact H.
  Qed.

  (* the edits that only some relations contain *)
  Lemma mpres_s_pop_route : T (s2b "Route") -> pop_edit R (s2b "Route") HRoute -> mpres R s_pop_route.
  Proof.
    intros TR PR. apply (mpres_mbind_run R R_trans); [exact (mpres_s_get_route TR)|]. intros m m1 l G.
    destruct (s_get_route_holds _ _ _ G) as (h & G1 & V').
    pose proof (PR m1 h l G1 V') as P. destruct l as [|a [|b r]]; exact P.
  Qed.

  Lemma mpres_s_pop_via : T (s2b "Via") -> pop_edit R (s2b "Via") HVia -> mpres R s_pop_via.
  Proof.
    intros TV PV. apply (mpres_mbind_run R R_trans); [exact (mpres_s_get_via TV)|]. intros m m1 l G.
    destruct (s_get_via_holds _ _ _ G) as (h & G1 & V').
    pose proof (PV m1 h l G1 V') as P. destruct l as [|a [|b r]]; exact P.
  Qed.

  Lemma mpres_s_set_received peer port : T (s2b "Via") -> top_via_edit R -> mpres R (s_set_received peer port).
  Proof.
    intros TV TE. apply (mpres_mbind_run R R_trans); [exact (mpres_s_get_via TV)|]. intros m m1 l G.
    destruct (s_get_via_holds _ _ _ G) as (h & G1 & V').
    destruct l as [|v rest]; [apply R_refl|]. simpl.
    apply (TE m1 h v _ rest G1 V'); destruct (kv_has _ _); reflexivity.
  Qed.
End Getters.

(* [frame_f f] is [forall m, pres_rel m (f m)] by definition; [preserves x] is [mpres pres_rel x] *)
Definition pres_rel (m m' : message) : Prop := stable m -> stable m' /\ view m' = view m.

Lemma preserves_mpres {A} (x : M A) : preserves x <-> mpres pres_rel x.
Proof.
  split; intros H m S; specialize (H m S); destruct (x m) as [m' r]; exact H.
Qed.

Lemma pres_rel_refl m : pres_rel m m.
Proof. intros S. split; [exact S|reflexivity]. Qed.
Lemma pres_rel_trans a b c : pres_rel a b -> pres_rel b c -> pres_rel a c.
Proof.
  intros F G S. destruct (F S) as [S1 V1]. destruct (G S1) as [S2 V2]. split; [exact S2|congruence].
Qed.

(* a decoded value stored in place: either the header is a routing header, or (on a stable
   message) the stored value prints to the raw text it was decoded from *)
Lemma pres_rel_decode {A} name parse (inj : A -> hval) :
  (forall a, typed (inj a) = true) ->
  (forall h s a, stable_h h -> same_header (h_name h) name = true -> h_val h = HRaw s -> parse s = Ok a ->
                 routing_name (h_name h) = true \/ hval_print (inj a) = s) ->
  decode_edit pres_rel name parse inj.
Proof.
  intros T K m h s a G V P S. destruct (get_header_in _ _ _ G) as [I N].
  assert (Sh : stable_h h) by (unfold stable, stable_hs in S; rewrite Forall_forall in S; exact (S h I)).
  split.
  - unfold set_val, stable. simpl. apply stable_hs_update; [exact S|].
    intros h0 _. apply stable_h_typed, T.
  - unfold set_val. apply view_with_headers_eq. apply view_hs_update.
    intros h0 G0. rewrite G in G0. inversion G0; subst h0. rewrite V. simpl.
    exact (K h s a Sh N V P).
Qed.

Lemma pres_rel_decode_routing {A} name parse (inj : A -> hval) :
  (forall a, typed (inj a) = true) -> (forall n, same_header n name = true -> routing_name n = true) ->
  decode_edit pres_rel name parse inj.
Proof. intros T Rn. apply pres_rel_decode; [exact T|]. intros h s a _ N _ _. left. exact (Rn _ N). Qed.

Lemma pres_rel_pop {A} name (inj : list A -> hval) :
  (forall l, typed (inj l) = true) -> (forall n, same_header n name = true -> routing_name n = true) ->
  pop_edit pres_rel name inj.
Proof.
  intros T Rn m h l _ _.
  destruct l as [|a [|b r]].
  - exact (frame_remove_header_routing name Rn m).
  - exact (frame_remove_header_routing name Rn m).
  - exact (frame_set_val_routing name _ (T _) Rn m).
Qed.

Lemma pres_rel_top_via : top_via_edit pres_rel.
Proof.
  intros m h v v' rest _ _ _ _ _ _ _. exact (frame_set_val_routing _ (HVia (v' :: rest)) eq_refl routing_via m).
Qed.

Lemma pres_edits : edits_in any_name pres_rel.
Proof.
  split; try intros _.
  - exact pres_rel_refl.
  - exact pres_rel_trans.
  - apply pres_rel_decode_routing; [reflexivity|exact routing_via].
  - apply pres_rel_decode_routing; [reflexivity|exact routing_route].
  - apply pres_rel_decode; [reflexivity|]. intros h s a Sh N V P. right. simpl.
    unfold stable_h in Sh. rewrite V in Sh. exact (proj1 Sh (or_introl N) a P).
  - apply pres_rel_decode; [reflexivity|]. intros h s a Sh N V P. right. simpl.
    unfold stable_h in Sh. rewrite V in Sh. exact (proj1 Sh (or_intror N) a P).
  - apply pres_rel_decode; [reflexivity|]. intros h s a Sh N V P. right. simpl.
    unfold stable_h in Sh. rewrite V in Sh. exact (proj2 Sh N a P).
  - intros m S. destruct (decode_all_vias_frame (m_headers m)) as [V St].
    split; [exact (St S)|apply view_with_headers_eq; exact V].
Qed.

Lemma preserves_mpanic {A} : preserves (@mpanic A).
Proof. apply preserves_mpres, mpres_mpanic, pres_rel_refl. Qed.
Lemma preserves_mget : preserves mget.
Proof. apply preserves_mpres, mpres_mget, pres_rel_refl. Qed.
Lemma preserves_ext {A} (x y : M A) : (forall m, x m = y m) -> preserves y -> preserves x.
Proof. intros E P m S. rewrite E. exact (P m S). Qed.

Lemma preserves_typed_get {A} name (proj : hval -> option A) parse inj :
  (forall a, typed (inj a) = true) ->
  (forall h s a, stable_h h -> same_header (h_name h) name = true -> h_val h = HRaw s -> parse s = Ok a ->
                 routing_name (h_name h) = true \/ hval_print (inj a) = s) ->
  preserves (typed_get name proj parse inj).
Proof.
  intros T K. apply preserves_mpres, (mpres_typed_get _ _ pres_edits), pres_rel_decode; assumption.
Qed.

Lemma preserves_s_all_via_params : preserves s_all_via_params.
Proof. apply preserves_mpres, (mpres_s_all_via_params _ _ pres_edits); exact I. Qed.
Lemma preserves_s_get_dialog : preserves s_get_dialog.
Proof. apply preserves_mpres, (mpres_s_get_dialog _ _ pres_edits); exact I. Qed.

Lemma frame_add_via v : frame_f (add_via v).
Proof.
  unfold add_via.
  apply (frame_f_with_headers
           (fun hs => insert_at (match find_header_pos (s2b "Via") hs with Some i => i | None => O end)
                                {| h_name := s2b "Via"; h_val := HVia [v] |} hs)).
  apply hs_frame_insert_routing; [reflexivity|]. apply routing_via, same_header_refl.
Qed.

Lemma frame_add_record_route r : frame_f (add_record_route r).
Proof.
  unfold add_record_route.
  apply (frame_f_with_headers
           (fun hs => insert_at (find_record_route_pos hs)
                                {| h_name := s2b "Record-Route"; h_val := HRecRoute [r] |} hs)).
  apply hs_frame_insert_routing; [reflexivity|]. apply routing_record_route, same_header_refl.
Qed.

Print Assumptions preserves_typed_get.
Print Assumptions preserves_s_get_dialog.
Print Assumptions preserves_s_all_via_params.
Print Assumptions frame_add_record_route.
