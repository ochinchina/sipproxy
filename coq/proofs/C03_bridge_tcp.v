(* C03_bridge_tcp.v — the judge bridge of C03 (C03_bridge.C03_judge_bridge_any) for a request read on an ACCEPTED
   TCP connection ([EvTcpData cid data]).  The receiving transport is the listener's KTcpListen transport (lc_addr,
   lc_tcp): the own Route entry and a Request-URI addressed to the service carry the TCP port, and the judge compares
   with [listener_port lc true].  A connection is first filed for the responses (C06.pm_conn), so what enters
   HandleMessage is named through pm_conn (stamped_msg .. would_send_c, choice_c); filing touches tcp keys of the
   transport table only, so C02.udp_slot_ok, C02.tcp_slot_ok and the pool survive it.  New premises: [cn_from cn] is
   the listener's TCP transport and the judge's record lies below SpecProxy.dial_mark (on a connection the proxy
   dialled cn_from has port 0 and the judge takes no Route entry for its own: t3_dialled_not_own); [cn_open cn = true]
   (on a closed connection the model emits nothing, the judge answers 3 when a hop is prescribed); one message in
   the chunk.  [pools_agree] is the half of C03_bridge.agree the proof uses; C03_bridge.agree_step_udp has no
   counterpart here.  The runs t3_* use a listener whose TCP port differs from its UDP port. *)
From Coq Require Import List Ascii String ZArith NArith Bool Arith Lia.
From Model Require Import Bytes BytesLemmas Wire Uri Hdr Message Msg Rx Glob StaticRoute RoundRobin Pins
     Proxy RunProxy SpecProxy SpecC14.
From Model.proofs Require Import C14_uri C14_hdr MsgLemmas C06 C01 C13 C03 C13_bridge C03_bridge.
From Model.proofs Require C07 C02 Pipeline.
Import ListNotations.
Open Scope list_scope.


Theorem choose_agree_gen : forall c lc tcp from data jin m rest q,
  t_addr from = lc_addr lc -> t_port from = listener_port lc tcp ->
  j_read data = Some jin -> parse_message data = Ok (m, rest) -> j_request jin = Some q ->
  route_domain_in (RS m) -> to_domain m -> ruri_domain jin -> routes_ok c ->
  is_request m = true /\ hop_rel c (j_choose c lc tcp q) (effective_hop c from m).
Proof. exact choose_agree_at. Qed.

(* the message after learning and stamping (what pm_conn receives) *)
Definition stamped_msg (peer : bytes) (pp : Z) (from : stransport) (rs : bool) (m0 : message) (x : ctx) : message :=
  let m1 := fst (pm_learn peer from m0 x) in
  if (is_request m1 && rs)%bool then fst (s_set_received peer pp m1) else m1.
(* the proxy object after the connection has been filed for the responses ([x_p x] for a datagram) *)
Definition conn_p (e : env) (tcp : option nat) (peer : bytes) (pp : Z) (from : stransport) (rs : bool)
           (m0 : message) (x : ctx) : pstate :=
  match snd (pm_conn e tcp (stamped_msg peer pp from rs m0 x) x) with Ok p1 => p1 | _ => x_p x end.
(* the message that enters HandleMessage, the state it is processed in, the message after the route steps *)
Definition pre_msg_c (e : env) (tcp : option nat) (peer : bytes) (pp : Z) (from : stransport) (rs : bool)
           (m0 : message) (x : ctx) : message :=
  fst (mtry (try_remove_top_route (e_cfg e) from) (fst (pm_conn e tcp (stamped_msg peer pp from rs m0 x) x))).
Definition ctx1_c (e : env) (tcp : option nat) (peer : bytes) (pp : Z) (from : stransport) (rs : bool)
           (m0 : message) (x : ctx) : ctx :=
  {| x_learned := learned_after peer from m0 x; x_p := conn_p e tcp peer pp from rs m0 x; x_conns := x_conns x;
     x_world := x_world x; x_outs := x_outs x |}.
Definition routed_msg_c (e : env) (tcp : option nat) (peer : bytes) (pp : Z) (from : stransport) (rs : bool)
           (m0 : message) (x : ctx) : message :=
  fst (next_request_hop (c_keep_next_hop (e_cfg e)) (route_table_of (e_cfg e)) (pre_msg_c e tcp peer pp from rs m0 x)).

(* the connection stage cannot fail when the message is processed *)
Lemma conn_p_ok e tcp peer pp from rs m0 x x' :
  process_message e peer pp from rs tcp m0 x = Ok x' ->
  snd (Pipeline.stage_conn e tcp (stamped_msg peer pp from rs m0 x) (x_p x)) = Ok (conn_p e tcp peer pp from rs m0 x).
Proof.
  rewrite Pipeline.process_message_reach. unfold Pipeline.reach, conn_p. rewrite pm_conn_stage.
  unfold stamped_msg, Pipeline.stage_stamp. rewrite pm_learn_stage.
  destruct (Pipeline.stage_learn peer from m0 x) as [m1 l1]. cbn [fst].
  destruct (Pipeline.stage_conn e tcp _ (x_p x)) as [m3 [p1| |]]; [reflexivity|discriminate..].
Qed.

(* C03_bridge.choice_udp for any [tcp]: C03_choice with the proxy object and the relayed message named *)
Lemma choice_c e tcp peer pp from rs m0 x x' :
  is_request m0 = true -> process_message e peer pp from rs tcp m0 x = Ok x' ->
  hop_goal e (ctx1_c e tcp peer pp from rs m0 x) (routed_msg_c e tcp peer pp from rs m0 x)
           (effective_hop (e_cfg e) from m0) x'.
Proof.
  intros R H. pose proof (conn_p_ok _ _ _ _ _ _ _ _ _ H) as CP.
  destruct (C03.request_routed _ _ _ _ _ _ _ _ _ R H) as (p1 & SC & _ & _ & _ & _ & ->).
  injection (eq_trans (eq_sym SC) CP) as ->.
  unfold routed_msg_c, pre_msg_c. rewrite pm_conn_stage.
  exact (hop_run_goal e _ _ _ (effective_hop_not_out _ _ _)).
Qed.

(* the message the model serialises for the request (C03_bridge.would_send for any [tcp]) *)
Definition would_send_c (e : env) (tcp : option nat) (peer : bytes) (pp : Z) (from : stransport) (rs : bool)
           (m0 : message) (x : ctx) : message :=
  let m1 := routed_msg_c e tcp peer pp from rs m0 x in
  match effective_hop (e_cfg e) from m0 with
  | HopAddr host _ _ => C07.sent_msg (decorate e (learned_after peer from m0 x) host m1)
  | HopBackend => match first_transport (e_lc e) with
                  | Some t0 => backend_message e t0 (conn_p e tcp peer pp from rs m0 x) m1
                  | None => m1 end
  | _ => m1
  end.

Lemma tcp_key_neq k host port tid :
  has_prefix (s2b "tcp://") k = false -> k = full_addr (s2b "tcp") host port tid -> False.
Proof. intros H E. subst k. rewrite C02.tcp_key_prefix in H. discriminate H. Qed.

(* the slot [k] does not hold a connection (cleanExpiredTransport only drops expired connections) *)
Definition no_conn_at (k : bytes) (p : pstate) : Prop :=
  match alookup k (ps_table p) with Some f => forall c ex, fo_pri f <> Some (PConn c ex) | None => True end.

Lemma clean_lookup_same now p k : no_conn_at k p ->
  alookup k (ps_table (clean_expired now p)) = alookup k (ps_table p).
Proof.
  unfold no_conn_at. destruct (alookup k (ps_table p)) as [f|] eqn:E; intros H.
  - apply C02.clean_lookup_keep; assumption.
  - apply C02.clean_lookup_none. exact E.
Qed.

Lemma get_transport_tcp_lookup now host port tid p k :
  has_prefix (s2b "tcp://") k = false -> no_conn_at k p ->
  alookup k (ps_table (fst (get_transport now (s2b "tcp") host port tid p))) = alookup k (ps_table p).
Proof.
  intros Hk Hn. pose proof (clean_lookup_same now p k Hn) as C.
  assert (N1 : k <> full_addr (s2b "tcp") host port tid) by (intros E; exact (tcp_key_neq _ _ _ _ Hk E)).
  assert (N0 : k <> full_addr (s2b "tcp") host port []) by (intros E; exact (tcp_key_neq _ _ _ _ Hk E)).
  assert (TL : to_lower (s2b "tcp") = s2b "tcp") by reflexivity.
  unfold get_transport. cbv zeta. rewrite TL.
  change (negb (supported_proto (s2b "tcp"))) with false. cbv iota.
  destruct (alookup (full_addr (s2b "tcp") host port tid) (ps_table (clean_expired now p))); [exact C|].
  change (beq (s2b "tcp") (s2b "udp")) with false. cbv iota.
  destruct (alookup (full_addr (s2b "tcp") host port []) (ps_table (clean_expired now p)));
    cbn [fst ps_table with_table with_clients].
  - rewrite (alookup_aset_other _ _ _ _ N1). exact C.
  - rewrite (alookup_aset_other _ _ _ _ N1), (alookup_aset_other _ _ _ _ N0). exact C.
Qed.


(* filing the connection (handleRawMessage on a TCP request) touches tcp keys only *)
Lemma stage_conn_lookup e tcp m2 p p1 k :
  snd (Pipeline.stage_conn e tcp m2 p) = Ok p1 -> has_prefix (s2b "tcp://") k = false -> no_conn_at k p ->
  alookup k (ps_table p1) = alookup k (ps_table p).
Proof.
  intros H Hk Hn. revert H.
  apply (Pipeline.stage_conn_inv (fun q => alookup k (ps_table q) = alookup k (ps_table p))); [| |reflexivity].
  - intros host port t. apply get_transport_tcp_lookup; assumption.
  - intros host port t key c ex GK. rewrite Pipeline.set_primary_other; [apply get_transport_tcp_lookup; assumption|].
    destruct (get_transport _ _ _ _ _ _) as [p' rk] eqn:G. cbn [snd] in GK. subst rk.
    intros E. rewrite (C02.get_transport_key _ _ _ _ _ _ _ _ G) in E. exact (tcp_key_neq _ _ _ _ Hk E).
Qed.

Lemma stage_conn_udp_slot e tcp m2 p p1 ip port :
  snd (Pipeline.stage_conn e tcp m2 p) = Ok p1 -> C02.udp_slot_ok ip port p -> C02.udp_slot_ok ip port p1.
Proof.
  intros H S. unfold C02.udp_slot_ok in *.
  rewrite (stage_conn_lookup e tcp m2 p p1 (C02.udp_key ip port) H); [exact S|exact (C02.udp_key_not_tcp ip port [])|].
  unfold no_conn_at. destruct (alookup (C02.udp_key ip port) (ps_table p)) as [f|]; [|exact I].
  intros c ex. destruct S as [S|S]; rewrite S; discriminate.
Qed.

Lemma stage_conn_tcp_slot e tcp m2 p p1 :
  snd (Pipeline.stage_conn e tcp m2 p) = Ok p1 -> C02.tcp_slot_ok p -> C02.tcp_slot_ok p1.
Proof.
  intros H H0. revert H. apply (Pipeline.stage_conn_inv C02.tcp_slot_ok); [| |exact H0].
  - intros host port t. apply C02.tso_get_transport, H0.
  - intros host port t key c ex _. apply C02.tso_set_primary; [apply C02.tso_get_transport, H0|].
    intros _. apply C02.pnu_conn.
Qed.

(* THE BRIDGE, process_message level, for a request read on the accepted connection [cn] (the model is run
   with the peer, the transport and the received-support flag of the record and with [Some (cn_id cn)]); [pre]
   is what process_message appends.  Same hypotheses as C03_judge_bridge_udp, on the state BEFORE the message
   (the connection is filed in the transport table before the request is routed: part C carries the table
   conditions over), plus H_conn and H_from; the port hypothesis is weaker (see the head of the file).
   (cn_li cn = li, cn_id cn = cid, trim_left rest = [] and single_message are not needed at this level,
   nothing is needed about the received-support flag.) *)
Theorem C03_judge_bridge_tcp_msg :
  forall pc stj cid li lc cn data closed jin m rest e x x' l pre,
  nth_opt (c_listens (pc_cfg pc)) li = Some lc -> e_cfg e = pc_cfg pc -> e_lc e = lc ->
  find (fun y => Nat.eqb (fst y) cid) (js_conns stj) = Some (cid, (li, cn_peer cn, cn_peer_port cn)) ->
  (li < dial_mark)%nat ->
  cn_from cn = {| t_kind := KTcpListen; t_addr := lc_addr lc; t_port := lc_tcp lc |} ->
  j_read data = Some jin -> parse_message data = Ok (m, rest) ->
  route_domain_in (RS m) -> to_domain m -> ruri_domain jin ->
  hosts_ok (pc_cfg pc) -> routes_ok (pc_cfg pc) -> (0 < lc_udp lc \/ 0 < lc_tcp lc)%Z ->
  fx_udp_via_listener (e_fx e) = true -> fx_stale_pin (e_fx e) = true ->
  nth_opt (js_backends stj) li = Some l -> pool_agree l (x_p x) ->
  Forall (backend_ok (pc_udp_endpoints pc)) l ->
  (forall ip port, C02.udp_slot_ok ip port (x_p x)) -> C02.tcp_slot_ok (x_p x) ->
  fits_datagram (write_message (would_send_c e (Some (cn_id cn)) (cn_peer cn) (cn_peer_port cn) (cn_from cn)
                                  (cn_received_support cn) m x)) = true ->
  process_message e (cn_peer cn) (cn_peer_port cn) (cn_from cn) (cn_received_support cn) (Some (cn_id cn)) m x = Ok x' ->
  x_outs x' = x_outs x ++ pre ->
  (forall q ip port, j_request jin = Some q -> j_choose (pc_cfg pc) lc true q = HHop (JTcp ip port) ->
     msg_count pre = 0%nat -> dest_ok pc stj (JTcp ip port) [] = true) ->
  judge_C03_event pc stj (EvTcpData cid data)
    (map labelled (filter (visible (pc_udp_endpoints pc)) pre)) closed = 0%nat.
Proof.
  intros pc stj cid li lc cn data closed jin m rest e x x' l pre
         N He Hlc Fd HMk Hcf J P Dom DT DR HO RO Hport Hfx1 Hfx2 Nl PA BO Hslot Htso Hfit H EO Htcp.
  set (from := {| t_kind := KTcpListen; t_addr := lc_addr lc; t_port := lc_tcp lc |}) in Hcf. rewrite Hcf in H, Hfit.
  pose proof (conn_p_ok _ _ _ _ _ _ _ _ _ H) as CP.
  destruct (C03_judge_bridge_any pc stj (EvTcpData cid data)
              {| ji_li := li; ji_tcp := true; ji_conn := cid; ji_src := cn_peer cn; ji_sport := cn_peer_port cn;
                 ji_data := data |} lc closed jin m rest e
              (cn_peer cn) (cn_peer_port cn) from (cn_received_support cn) (Some (cn_id cn)) x x'
              (ctx1_c e (Some (cn_id cn)) (cn_peer cn) (cn_peer_port cn) from (cn_received_support cn) m x)
              (routed_msg_c e (Some (cn_id cn)) (cn_peer cn) (cn_peer_port cn) from (cn_received_support cn) m x) l
              (C07_bridge.j_input_accepted stj cid li _ _ data Fd HMk)
              (C07_bridge.ji_dialled_accepted stj cid li _ _ data Fd HMk)
              N He Hlc eq_refl eq_refl J P Dom DT DR HO RO Hport Hfx1 Hfx2 Nl BO H
              (fun R => choice_c e _ _ _ _ _ m x x' R H) eq_refl
              (pool_agree_same _ _ _ (same_rr_pool _ _ (stage_conn_same_rr _ _ _ _ _ CP)) PA)
              (fun ip port => stage_conn_udp_slot _ _ _ _ _ ip port CP (Hslot ip port))
              (stage_conn_tcp_slot _ _ _ _ _ CP Htso) Hfit) as (pre' & O & _ & K).
  rewrite O in EO. apply app_inv_head in EO. subst pre'. apply K, Htcp.
Qed.

(* ---- one step of the proxy ---- *)
(* the half of C03_bridge.agree the bridge uses: the judge's backend lists against the pools *)
Definition pools_agree (stj : jstate) (st : state) : Prop :=
  forall li p, nth_p (st_proxies st) li = Some p ->
    exists l, nth_opt (js_backends stj) li = Some l /\ pool_agree l p.
Lemma agree_pools stj st : agree stj st -> pools_agree stj st.
Proof. intros [A _]. exact A. Qed.

Definition step_would_send_tcp (fx : fixes) (c : cfg) (now : Z) (br : bytes) (st : state) (lc : listen_cfg)
           (cn : conn) (p : pstate) (m : message) : message :=
  let e := mk_env fx c (item_rs_of (fx_wiring fx)) (cn_li cn) lc now br in
  would_send_c e (Some (cn_id cn)) (cn_peer cn) (cn_peer_port cn) (cn_from cn) (cn_received_support cn) m
    {| x_learned := st_learned st; x_p := p; x_conns := st_conns st; x_world := st_world st; x_outs := [] |}.

(* THE BRIDGE for one step of the whole proxy on a chunk read on connection [cid]: [outs] is what RunProxy
   prints for the event; [cn] is the model's record of the connection (open, accepted). *)
Theorem C03_judge_bridge_tcp_step :
  forall pc stj fx now br st st' outs cid li lc cn p data closed jin m rest,
  nth_opt (c_listens (pc_cfg pc)) li = Some lc ->
  find (fun y => Nat.eqb (cn_id y) cid) (st_conns st) = Some cn ->
  find (fun y => Nat.eqb (fst y) cid) (js_conns stj) = Some (cid, (li, cn_peer cn, cn_peer_port cn)) ->
  (li < dial_mark)%nat ->
  cn_li cn = li -> cn_open cn = true ->
  cn_from cn = {| t_kind := KTcpListen; t_addr := lc_addr lc; t_port := lc_tcp lc |} ->
  j_read data = Some jin -> parse_message data = Ok (m, rest) -> trim_left rest = [] ->
  route_domain_in (RS m) -> to_domain m -> ruri_domain jin ->
  hosts_ok (pc_cfg pc) -> routes_ok (pc_cfg pc) -> (0 < lc_udp lc \/ 0 < lc_tcp lc)%Z ->
  fx_udp_via_listener fx = true -> fx_stale_pin fx = true ->
  pools_agree stj st -> nth_p (st_proxies st) li = Some p ->
  (forall l, nth_opt (js_backends stj) li = Some l -> Forall (backend_ok (pc_udp_endpoints pc)) l) ->
  (forall ip port, C02.udp_slot_ok ip port p) -> C02.tcp_slot_ok p ->
  fits_datagram (write_message (step_would_send_tcp fx (pc_cfg pc) now br st lc cn p m)) = true ->
  proxy_step fx (pc_cfg pc) now br st (EvTcpData cid data) = Ok (st', outs) ->
  (forall q ip port, j_request jin = Some q -> j_choose (pc_cfg pc) lc true q = HHop (JTcp ip port) ->
     msg_count outs = 0%nat -> dest_ok pc stj (JTcp ip port) [] = true) ->
  judge_C03_event pc stj (EvTcpData cid data)
    (map labelled (filter (visible (pc_udp_endpoints pc)) outs)) closed = 0%nat.
Proof.
  intros pc stj fx now br st st' outs cid li lc cn p data closed jin m rest
         N Fc Fd HMk Hli Hop Hcf J P Hr Dom DT DR HO RO Hport Hfx1 Hfx2 AG Np BO Hslot Htso Hfit H Htcp.
  subst li.
  destruct (AG (cn_li cn) p Np) as (l & Nl & PA).
  destruct (Pipeline.proxy_step_tcp_single _ _ _ _ _ _ _ _ _ _ _ _ _ _ Fc Hop N Np P Hr H) as (x' & PM & _ & ->).
  exact (C03_judge_bridge_tcp_msg pc stj cid (cn_li cn) lc cn data closed jin m rest
           (Pipeline.listener_env fx (pc_cfg pc) now br (cn_li cn) lc) (Pipeline.start_ctx st p) x' l (x_outs x')
           N eq_refl eq_refl Fd HMk Hcf J P Dom DT DR HO RO Hport Hfx1 Hfx2 Nl PA (BO l Nl) Hslot Htso Hfit PM
           eq_refl Htcp).
Qed.

(* ... with conditions on the input, the configuration and the two states only, when the hop the judge reads
   in the request is not a TCP destination *)
Corollary C03_judge_bridge_tcp_step_no_tcp :
  forall pc stj fx now br st st' outs cid li lc cn p data closed jin m rest,
  nth_opt (c_listens (pc_cfg pc)) li = Some lc ->
  find (fun y => Nat.eqb (cn_id y) cid) (st_conns st) = Some cn ->
  find (fun y => Nat.eqb (fst y) cid) (js_conns stj) = Some (cid, (li, cn_peer cn, cn_peer_port cn)) ->
  (li < dial_mark)%nat ->
  cn_li cn = li -> cn_open cn = true ->
  cn_from cn = {| t_kind := KTcpListen; t_addr := lc_addr lc; t_port := lc_tcp lc |} ->
  j_read data = Some jin -> parse_message data = Ok (m, rest) -> trim_left rest = [] ->
  route_domain_in (RS m) -> to_domain m -> ruri_domain jin ->
  hosts_ok (pc_cfg pc) -> routes_ok (pc_cfg pc) -> (0 < lc_udp lc \/ 0 < lc_tcp lc)%Z ->
  fx_udp_via_listener fx = true -> fx_stale_pin fx = true ->
  pools_agree stj st -> nth_p (st_proxies st) li = Some p ->
  (forall l, nth_opt (js_backends stj) li = Some l -> Forall (backend_ok (pc_udp_endpoints pc)) l) ->
  (forall ip port, C02.udp_slot_ok ip port p) -> C02.tcp_slot_ok p ->
  fits_datagram (write_message (step_would_send_tcp fx (pc_cfg pc) now br st lc cn p m)) = true ->
  proxy_step fx (pc_cfg pc) now br st (EvTcpData cid data) = Ok (st', outs) ->
  (forall q ip port, j_request jin = Some q -> j_choose (pc_cfg pc) lc true q <> HHop (JTcp ip port)) ->
  judge_C03_event pc stj (EvTcpData cid data)
    (map labelled (filter (visible (pc_udp_endpoints pc)) outs)) closed = 0%nat.
Proof.
  intros pc stj fx now br st st' outs cid li lc cn p data closed jin m rest
         N Fc Fd HMk Hli Hop Hcf J P Hr Dom DT DR HO RO Hport Hfx1 Hfx2 AG Np BO Hslot Htso Hfit H NT.
  apply (C03_judge_bridge_tcp_step pc stj fx now br st st' outs cid li lc cn p data closed jin m rest
           N Fc Fd HMk Hli Hop Hcf J P Hr Dom DT DR HO RO Hport Hfx1 Hfx2 AG Np BO Hslot Htso Hfit H).
  intros q ip port Q JC _. exfalso. exact (NT q ip port Q JC).
Qed.

(* a decidable sufficient condition for the two table conditions: every key is a tcp key and no entry holds
   a UDP client (true after EvTcpAccept on a fresh proxy: one entry, the accepted connection) *)
Definition slots_b (p : pstate) : bool :=
  forallb (fun kv => has_prefix (s2b "tcp://") (fst kv) &&
                     match fo_pri (snd kv) with Some (PUdp _ _) | Some (PUdpVia _ _) => false | _ => true end)
          (ps_table p).
Lemma slots_b_sound p : slots_b p = true -> (forall ip port, C02.udp_slot_ok ip port p) /\ C02.tcp_slot_ok p.
Proof.
  unfold slots_b. intros H. rewrite forallb_forall in H. split.
  - intros ip port. unfold C02.udp_slot_ok.
    assert (Q : has_prefix (s2b "tcp://") (C02.udp_key ip port) = false) by exact (C02.udp_key_not_tcp ip port []).
    destruct (alookup (C02.udp_key ip port) (ps_table p)) as [f|] eqn:E; [|exact I].
    apply alookup_in in E. specialize (H _ E). cbn [fst] in H. rewrite Q in H. discriminate H.
  - intros k f HI _ ip port. specialize (H _ HI). cbn [fst snd] in H.
    apply andb_true_iff in H. destruct H as [_ H].
    destruct (fo_pri f) as [[a b|a b|c ex]|]; try discriminate H; split; discriminate.
Qed.

(* the configuration of proofs/C01.v with a listener whose TCP port (5062) differs from its UDP port
   (5060); the driver owns sockets at the peer 10.0.0.9:5070 and at the backend 10.0.0.2:5080; the peer
   10.0.0.7:5080 accepts connections.  A peer connects from 10.0.0.9:40000, then sends one request
   (two Via headers, a body, a keep-alive CR LF behind it) on the connection. *)
Definition t3_lc : listen_cfg :=
  {| lc_addr := s2b "10.0.0.1"; lc_udp := 5060; lc_tcp := 5062; lc_backends := [s2b "10.0.0.2:5080"];
     lc_dynamic := false; lc_no_received := false; lc_def_route := false; lc_must_rr := true |}.
Definition t3_cfg : cfg :=
  {| c_name := c_name C01.ex_cfg; c_keep_next_hop := false; c_dialog_timeout := 3600;
     c_routes := c_routes C01.ex_cfg; c_hosts := []; c_listens := [t3_lc] |}.
Definition t3_pc : proxy_case :=
  {| pc_cfg := t3_cfg; pc_tcp_listeners := [(s2b "10.0.0.7", 5080%Z)];
     pc_udp_endpoints := [(s2b "10.0.0.9", 5070%Z); (s2b "10.0.0.2", 5080%Z)]; pc_events := []; pc_waits := [] |}.
Definition t3_st0 : state := init_state t3_cfg 0 [(s2b "10.0.0.7", 5080%Z)].
Definition t3_accept : event := EvTcpAccept 0 (s2b "10.0.0.9") 40000%Z.
(* model state and judge bookkeeping after the accept *)
Definition t3_st1 : state :=
  match proxy_step all_fixed t3_cfg 500 (branch_of 0) t3_st0 t3_accept with Ok (s, _) => s | _ => t3_st0 end.
Definition t3_js1 : jstate := js_step_c (js_init t3_cfg) t3_accept [] [].
Definition t3_cn : conn :=
  {| cn_id := 0; cn_li := 0; cn_open := true; cn_peer := s2b "10.0.0.9"; cn_peer_port := 40000;
     cn_from := {| t_kind := KTcpListen; t_addr := lc_addr t3_lc; t_port := lc_tcp t3_lc |};
     cn_received_support := true |}.
Definition t3_p1 : pstate :=
  match nth_p (st_proxies t3_st1) 0 with Some p => p | None => init_pstate t3_cfg 0 t3_lc end.
Definition t3_step (d : bytes) : res (state * list output) :=
  proxy_step all_fixed (pc_cfg t3_pc) 1000 (branch_of 1) t3_st1 (EvTcpData 0 d).
Definition t3_outs (d : bytes) : list output := match t3_step d with Ok (_, o) => o | _ => [] end.
Definition t3_tail : bytes :=
  s2b "Via: SIP/2.0/TCP 10.0.0.9:5070;branch=z9hG4bKabc;rport" ++ crlf ++
  s2b "Via: SIP/2.0/UDP 10.0.0.8:5071;branch=z9hG4bK0" ++ crlf ++
  s2b "From: <sip:alice@a.example.com>;tag=1" ++ crlf ++
  s2b "To: <sip:svc@example.com>" ++ crlf ++
  s2b "Call-ID: call-1@host" ++ crlf ++
  s2b "CSeq: 7 INVITE" ++ crlf ++
  s2b "Content-Length: 3" ++ crlf ++ crlf ++ s2b "abc" ++ crlf.

Example t3_accept_ok : proxy_step all_fixed t3_cfg 500 (branch_of 0) t3_st0 t3_accept = Ok (t3_st1, []).
Proof. vm_compute. reflexivity. Qed.
Example t3_hyp_model_conn : find (fun y => Nat.eqb (cn_id y) 0) (st_conns t3_st1) = Some t3_cn.
Proof. vm_compute. reflexivity. Qed.
Example t3_hyp_judge_conn :
  find (fun y => Nat.eqb (fst y) 0) (js_conns t3_js1) = Some (0%nat, (0%nat, cn_peer t3_cn, cn_peer_port t3_cn)).
Proof. vm_compute. reflexivity. Qed.
Example t3_hyp_proxy : nth_p (st_proxies t3_st1) 0 = Some t3_p1.
Proof. vm_compute. reflexivity. Qed.
Example t3_hyp_slots : (forall ip port, C02.udp_slot_ok ip port t3_p1) /\ C02.tcp_slot_ok t3_p1.
Proof. apply slots_b_sound. vm_compute. reflexivity. Qed.
(* the accepted connection is in the table (the conditions are not about an empty table) *)
Example t3_table_keys : map fst (ps_table t3_p1) = [s2b "tcp://10.0.0.9:40000"].
Proof. vm_compute. reflexivity. Qed.

Lemma t3_pools : pools_agree t3_js1 t3_st1.
Proof.
  intros li p Np.
  assert (SP : st_proxies t3_st1 = [t3_p1]) by (vm_compute; reflexivity).
  rewrite SP in Np. destruct li as [|li]; [|destruct li; discriminate Np]. injection Np as <-.
  exists [s2b "10.0.0.2:5080"]. split; [vm_compute; reflexivity|].
  apply (pool_agree_one _ 0%nat); vm_compute; reflexivity.
Qed.

(* the step theorem on the case: a chunk whose input conditions are decided by request_read (a keep-alive CR LF
   behind the message) and whose outputs go to [ds] *)
Lemma t3_bridge d routes to au jh ds :
  request_read t3_cfg t3_lc true (step_would_send_tcp all_fixed t3_cfg 1000 (branch_of 1) t3_st1 t3_lc t3_cn t3_p1)
    d crlf routes to au = Some jh ->
  dests_of (t3_step d) = Some ds ->
  (forall ip port, jh <> HHop (JTcp ip port)) \/ msg_count (map (fun x => (x, [])) ds) = 1%nat ->
  map (fun o => fst (labelled o)) (t3_outs d) = map label_of ds /\
  option_map (j_choose t3_cfg t3_lc true) (j_request (jin_of d)) = Some jh /\
  judge_C03_event t3_pc t3_js1 (EvTcpData 0 d)
    (map labelled (filter (visible (pc_udp_endpoints t3_pc)) (t3_outs d))) [] = 0%nat.
Proof.
  intros RR E NT. destruct (request_read_sound _ _ _ _ _ _ _ _ _ _ RR) as (J & P & Dom & DT & DR & Hfit & JH).
  unfold t3_outs. destruct (t3_step d) as [[s o]| |] eqn:Hrun; try discriminate E.
  injection E as <-. split; [apply labels_fst|]. split; [exact JH|]. rewrite <- msg_count_fst in NT. unfold t3_step in Hrun.
  refine (C03_judge_bridge_tcp_step t3_pc t3_js1 all_fixed 1000%Z (branch_of 1) t3_st1 s o
            0%nat 0%nat t3_lc t3_cn t3_p1 d [] (jin_of d) (parsed d) crlf
            eq_refl t3_hyp_model_conn t3_hyp_judge_conn C07_bridge.zero_below_mark eq_refl eq_refl eq_refl J P eq_refl Dom DT DR _ _ _
            eq_refl eq_refl t3_pools t3_hyp_proxy _ (proj1 t3_hyp_slots) (proj2 t3_hyp_slots) Hfit Hrun _).
  - intros n ip A. discriminate A.
  - apply routes_ok_b_sound. vm_compute. reflexivity.
  - left. unfold t3_lc. cbn [lc_udp]. lia.
  - intros l E.
    assert (B : js_backends t3_js1 = [[s2b "10.0.0.2:5080"]]) by (vm_compute; reflexivity).
    rewrite B in E. injection E as <-. constructor; [|constructor].
    exists (s2b "10.0.0.2"), 5080%Z. split; [vm_compute; reflexivity|]. split; vm_compute; reflexivity.
  - intros q ip port Q JC C0. destruct NT as [NT|C1]; [|rewrite C1 in C0; discriminate C0].
    rewrite Q in JH. injection JH as <-. destruct (NT ip port JC).
Qed.

(* 1. Route: own entry = the listener's address and its TCP port 5062, next hop 10.0.0.9:5070 (udp), one
      more entry *)
Definition t3_routes : list a_relem :=
  [b13_elem "" "10.0.0.1" (Some 5062%Z); b13_elem "" "10.0.0.9" (Some 5070%Z); b13_elem """Far"" " "far.example.com" None].
Definition t3_req_route : bytes :=
  s2b "INVITE sip:bob@elsewhere.example SIP/2.0" ++ crlf ++
  s2b "Route: <sip:10.0.0.1:5062;lr>,<sip:10.0.0.9:5070;lr>,""Far"" <sip:far.example.com;lr>" ++ crlf ++ t3_tail.
Example t3_two_vias :
  List.length (filter (fun h => is_via (h_name h)) (m_headers (parsed t3_req_route))) = 2%nat.
Proof. vm_compute. reflexivity. Qed.
Example t3_route_accepted :
  map (fun o => fst (labelled o)) (t3_outs t3_req_route) = [s2b "udp:10.0.0.9:5070"] /\
  option_map (j_choose t3_cfg t3_lc true) (j_request (jin_of t3_req_route)) = Some (HHop (JUdp (s2b "10.0.0.9") 5070%Z)) /\
  judge_C03_event t3_pc t3_js1 (EvTcpData 0 t3_req_route)
    (map labelled (filter (visible (pc_udp_endpoints t3_pc)) (t3_outs t3_req_route))) [] = 0%nat.
Proof.
  apply (t3_bridge t3_req_route t3_routes b3_to (b3_uri "bob" "elsewhere.example")
           (HHop (JUdp (s2b "10.0.0.9") 5070%Z)) [DUdp (s2b "10.0.0.9") 5070%Z]).
  - vm_compute. reflexivity.
  - vm_compute. reflexivity.
  - left. discriminate.
Qed.

(* 2. no Route, no static route for the To host, the Request-URI names the service: a backend *)
Definition t3_req_svc : bytes := s2b "INVITE sip:bob@example.com SIP/2.0" ++ crlf ++ t3_tail.
Example t3_backend_accepted :
  map (fun o => fst (labelled o)) (t3_outs t3_req_svc) = [s2b "udp:10.0.0.2:5080"] /\
  option_map (j_choose t3_cfg t3_lc true) (j_request (jin_of t3_req_svc)) = Some HBackend /\
  judge_C03_event t3_pc t3_js1 (EvTcpData 0 t3_req_svc)
    (map labelled (filter (visible (pc_udp_endpoints t3_pc)) (t3_outs t3_req_svc))) [] = 0%nat.
Proof.
  apply (t3_bridge t3_req_svc [] b3_to (b3_uri "bob" "example.com") HBackend [DUdp (s2b "10.0.0.2") 5080%Z]).
  - vm_compute. reflexivity.
  - vm_compute. reflexivity.
  - left. discriminate.
Qed.

(* 3. the Request-URI is the listener's address and its TCP port: addressed to the listener, a backend *)
Definition t3_self (port : Z) : a_addr :=
  AASip {| au_secure := false; au_user := None; au_host := s2b "10.0.0.1"; au_port := Some port;
           au_params := []; au_headers := [] |}.
Definition t3_req_self : bytes := s2b "INVITE sip:10.0.0.1:5062 SIP/2.0" ++ crlf ++ t3_tail.
Example t3_self_accepted :
  map (fun o => fst (labelled o)) (t3_outs t3_req_self) = [s2b "udp:10.0.0.2:5080"] /\
  option_map (j_choose t3_cfg t3_lc true) (j_request (jin_of t3_req_self)) = Some HBackend /\
  judge_C03_event t3_pc t3_js1 (EvTcpData 0 t3_req_self)
    (map labelled (filter (visible (pc_udp_endpoints t3_pc)) (t3_outs t3_req_self))) [] = 0%nat.
Proof.
  apply (t3_bridge t3_req_self [] b3_to (t3_self 5062) HBackend [DUdp (s2b "10.0.0.2") 5080%Z]).
  - vm_compute. reflexivity.
  - vm_compute. reflexivity.
  - left. discriminate.
Qed.

(* 4. Route: own entry, then a next hop with transport=tcp at a peer that accepts connections: the proxy
      dials (connection 1: connection 0 is the accepted one) and writes on the new connection *)
Definition t3_tcp_routes : list a_relem := [b13_elem "" "10.0.0.1" (Some 5062%Z); b3_tcp_elem].
Definition t3_req_tcp : bytes :=
  s2b "INVITE sip:bob@elsewhere.example SIP/2.0" ++ crlf ++
  s2b "Route: <sip:10.0.0.1:5062;lr>,<sip:10.0.0.7:5080;transport=tcp;lr>" ++ crlf ++ t3_tail.
Example t3_tcp_accepted :
  map (fun o => fst (labelled o)) (t3_outs t3_req_tcp) = [s2b "dial:10.0.0.7:5080"; s2b "conn:1"] /\
  judge_C03_event t3_pc t3_js1 (EvTcpData 0 t3_req_tcp)
    (map labelled (filter (visible (pc_udp_endpoints t3_pc)) (t3_outs t3_req_tcp))) [] = 0%nat.
Proof.
  refine ((fun A => conj (proj1 A) (proj2 (proj2 A)))
            (t3_bridge t3_req_tcp t3_tcp_routes b3_to (b3_uri "bob" "elsewhere.example")
               (HHop (JTcp (s2b "10.0.0.7") 5080%Z)) [DDial (s2b "10.0.0.7") 5080%Z 1%nat; DConn 1%nat] _ _ _)).
  - vm_compute. reflexivity.
  - vm_compute. reflexivity.
  - right. reflexivity.
Qed.

(* SENSITIVITY 1: wrong outputs.  For the request of run 1 (next hop 10.0.0.9:5070): the same judge, same
   bookkeeping, same event answers 2 when the message shows up at the backend instead, 3 when nothing is
   observed, 1 when it shows up twice; for the request of run 2 (backend) it answers 2 when the message
   goes to the peer and 3 when nothing is observed. *)
Example t3_wrong_rejected :
  judge_C03_event t3_pc t3_js1 (EvTcpData 0 t3_req_route) [(s2b "udp:10.0.0.2:5080", t3_req_route)] [] = 2%nat /\
  judge_C03_event t3_pc t3_js1 (EvTcpData 0 t3_req_route) [] [] = 3%nat /\
  judge_C03_event t3_pc t3_js1 (EvTcpData 0 t3_req_route)
    [(s2b "udp:10.0.0.9:5070", t3_req_route); (s2b "udp:10.0.0.9:5070", t3_req_route)] [] = 1%nat /\
  judge_C03_event t3_pc t3_js1 (EvTcpData 0 t3_req_svc) [(s2b "udp:10.0.0.9:5070", t3_req_svc)] [] = 2%nat /\
  judge_C03_event t3_pc t3_js1 (EvTcpData 0 t3_req_svc) [] [] = 3%nat.
Proof. repeat match goal with |- _ /\ _ => split end; vm_compute; reflexivity. Qed.
(* without the judge's record of the connection there is no verdict (H_conn is not idle) *)
Example t3_unknown_conn :
  judge_C03_event t3_pc (js_init t3_cfg) (EvTcpData 0 t3_req_route) [] [] = 0%nat.
Proof. vm_compute. reflexivity. Qed.

(* SENSITIVITY 2: on a connection the port that counts is the TCP port.
   (a) first Route entry naming the UDP port 5060: NOT own on the connection; model and judge take it for
       the next hop (a datagram to 10.0.0.1:5060, where the driver has no socket: nothing observed,
       accepted); the outputs of run 1 (own entry popped, relayed to 10.0.0.9:5070) are rejected with 2.
   (b) Request-URI 10.0.0.1:5060: not the listener on the connection, not the service name: model and judge
       drop it; a relay to the backend is rejected with 2. *)
Definition t3_req_route_udp : bytes :=
  s2b "INVITE sip:bob@elsewhere.example SIP/2.0" ++ crlf ++
  s2b "Route: <sip:10.0.0.1:5060;lr>,<sip:10.0.0.9:5070;lr>,""Far"" <sip:far.example.com;lr>" ++ crlf ++ t3_tail.
Definition t3_req_self_udp : bytes := s2b "INVITE sip:10.0.0.1:5060 SIP/2.0" ++ crlf ++ t3_tail.
Example t3_port_matters :
  map (fun o => fst (labelled o)) (t3_outs t3_req_route_udp) = [s2b "udp:10.0.0.1:5060"] /\
  option_map (j_choose t3_cfg t3_lc true) (j_request (jin_of t3_req_route_udp))
    = Some (HHop (JUdp (s2b "10.0.0.1") 5060%Z)) /\
  judge_C03_event t3_pc t3_js1 (EvTcpData 0 t3_req_route_udp)
    (map labelled (filter (visible (pc_udp_endpoints t3_pc)) (t3_outs t3_req_route_udp))) [] = 0%nat /\
  judge_C03_event t3_pc t3_js1 (EvTcpData 0 t3_req_route_udp)
    (map labelled (filter (visible (pc_udp_endpoints t3_pc)) (t3_outs t3_req_route))) [] = 2%nat /\
  t3_outs t3_req_self_udp = [] /\
  option_map (j_choose t3_cfg t3_lc true) (j_request (jin_of t3_req_self_udp)) = Some HDrop /\
  judge_C03_event t3_pc t3_js1 (EvTcpData 0 t3_req_self_udp) [] [] = 0%nat /\
  judge_C03_event t3_pc t3_js1 (EvTcpData 0 t3_req_self_udp)
    (map labelled (filter (visible (pc_udp_endpoints t3_pc)) (t3_outs t3_req_self))) [] = 2%nat.
Proof. repeat match goal with |- _ /\ _ => split end; vm_compute; reflexivity. Qed.

(* SENSITIVITY 3: DIALLED vs ACCEPTED connections.  A request whose first Route entry names the listener's
   address and its TCP port, then 10.0.0.9:5070.
   (a) it arrives on a connection THE PROXY DIALLED (connection 0 of a fresh proxy, opened at event 0 towards the
       TCP next hop 10.0.0.7:5080 of a datagram): that connection is read by its own transport (listener
       address, port 0 in the model / an OS-chosen port in the code), so the entry is NOT the proxy's own; it is
       the next hop: a datagram to 10.0.0.1:5062, where the driver owns no socket: nothing is observed.  The
       judge, whose bookkeeping filed connection 0 with the mark (conn_dialled), reads the same hop and accepts
       (the judge that did not tell dialled from accepted connections answered 3 here: last conjunct of (c)).
       The Route set relayed is the one the judge of C13 expects as well.
   (b) the same bytes on the ACCEPTED connection 0 of t3_st1: the entry is own, popped; relayed to
       10.0.0.9:5070; verdict 0.
   (c) the two bookkeepings do not accept each other's run: 2 (relayed although ... elsewhere) and 3. *)
Definition t3_req_own2 : bytes :=
  s2b "INVITE sip:bob@elsewhere.example SIP/2.0" ++ crlf ++
  s2b "Route: <sip:10.0.0.1:5062;lr>,<sip:10.0.0.9:5070;lr>" ++ crlf ++ t3_tail.
Definition t3d_run (st : state) (n : nat) (ev : event) : state * list output :=
  match proxy_step all_fixed t3_cfg 1000 (branch_of n) st ev with Ok r => r | _ => (st, []) end.
Definition t3d_shown (outs : list output) : list (bytes * bytes) :=
  map labelled (filter (visible (pc_udp_endpoints t3_pc)) outs).
Definition t3d_ev0 : event := EvUdp 0 (s2b "10.0.0.9") 5070%Z b3_req_tcp.
Definition t3d_st1 : state := fst (t3d_run t3_st0 0 t3d_ev0).
Definition t3d_outs0 : list output := snd (t3d_run t3_st0 0 t3d_ev0).
Definition t3d_js1 : jstate := js_step_c (js_init t3_cfg) t3d_ev0 (t3d_shown t3d_outs0) [].
Definition t3d_ev1 : event := EvTcpData 0 t3_req_own2.
Definition t3d_st2 : state := fst (t3d_run t3d_st1 1 t3d_ev1).
Definition t3d_outs1 : list output := snd (t3d_run t3d_st1 1 t3d_ev1).
(* the three steps of the example, each evaluated once *)
Definition t3d_r0 : state * list output := Eval vm_compute in t3d_run t3_st0 0 t3d_ev0.
Lemma t3d_step0 : proxy_step all_fixed t3_cfg 1000 (branch_of 0) t3_st0 t3d_ev0 = Ok t3d_r0.
Proof. vm_compute. reflexivity. Qed.
Definition t3d_r1 : state * list output := Eval vm_compute in t3d_run (fst t3d_r0) 1 t3d_ev1.
Lemma t3d_step1 : proxy_step all_fixed t3_cfg 1000 (branch_of 1) (fst t3d_r0) t3d_ev1 = Ok t3d_r1.
Proof. vm_compute. reflexivity. Qed.
Definition t3_own2_r : state * list output := Eval vm_compute in t3d_run t3_st1 1 t3d_ev1.
Lemma t3_own2_run : proxy_step all_fixed t3_cfg 1000 (branch_of 1) t3_st1 (EvTcpData 0 t3_req_own2) = Ok t3_own2_r.
Proof. vm_compute. reflexivity. Qed.
Example t3_dialled_not_own :
  (* (a) *)
  proxy_step all_fixed t3_cfg 1000 (branch_of 0) t3_st0 t3d_ev0 = Ok (t3d_st1, t3d_outs0) /\
  proxy_step all_fixed t3_cfg 1000 (branch_of 1) t3d_st1 t3d_ev1 = Ok (t3d_st2, t3d_outs1) /\
  map (fun o => fst (labelled o)) t3d_outs0 = [s2b "dial:10.0.0.7:5080"; s2b "conn:0"] /\
  judge_C03_event t3_pc (js_init t3_cfg) t3d_ev0 (t3d_shown t3d_outs0) [] = 0%nat /\
  js_conns t3d_js1 = [(0%nat, (dial_mark, s2b "10.0.0.7", 5080%Z))] /\ conn_dialled t3d_js1 0 = true /\
  map (fun o => fst (labelled o)) t3d_outs1 = [s2b "udp:10.0.0.1:5062"] /\ t3d_shown t3d_outs1 = [] /\
  judge_C03_event t3_pc t3d_js1 t3d_ev1 (t3d_shown t3d_outs1) [] = 0%nat /\
  map (fun o => option_map (fun om => j_flat is_route (jm_headers om)) (j_read (snd o))) t3d_outs1
    = [Some [s2b "<sip:10.0.0.9:5070;lr>"]] /\
  judge_C13_event t3_pc t3d_js1 t3d_ev1 (map labelled t3d_outs1) [] = 0%nat /\
  (* (b) *)
  map (fun o => fst (labelled o)) (t3_outs t3_req_own2) = [s2b "udp:10.0.0.9:5070"] /\
  conn_dialled t3_js1 0 = false /\
  judge_C03_event t3_pc t3_js1 t3d_ev1 (t3d_shown (t3_outs t3_req_own2)) [] = 0%nat /\
  (* (c) *)
  judge_C03_event t3_pc t3d_js1 t3d_ev1 (t3d_shown (t3_outs t3_req_own2)) [] = 2%nat /\
  judge_C03_event t3_pc t3_js1 t3d_ev1 (t3d_shown t3d_outs1) [] = 3%nat.
Proof.
  (* each of the three steps is run once; the conjuncts are read off the results *)
  pose proof t3d_step0 as E0. pose proof t3d_step1 as E1. pose proof t3_own2_run as E2.
  unfold t3d_st2, t3d_outs1, t3d_js1, t3d_st1, t3d_outs0, t3_outs, t3_step, t3d_run. cbn [pc_cfg t3_pc].
  rewrite E0, E1, E2.
  repeat match goal with |- _ /\ _ => split end; vm_compute; reflexivity.
Qed.

Print Assumptions choice_c.
Print Assumptions choose_agree_gen.
Print Assumptions C03_judge_bridge_tcp_msg.
Print Assumptions C03_judge_bridge_tcp_step.
Print Assumptions C03_judge_bridge_tcp_step_no_tcp.
Print Assumptions t3_route_accepted.
Print Assumptions t3_backend_accepted.
Print Assumptions t3_self_accepted.
Print Assumptions t3_tcp_accepted.
Print Assumptions t3_dialled_not_own.
