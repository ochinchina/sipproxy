(* C11 — TCP framing depends on the bytes, not on the segmentation.

   Layer 1: every operation of the concrete bufio reader (Bufio.v) returns what a function of
            (alpha st, window size) says, and leaves a state whose abstraction is the function's
            remainder: the segmentation only decides how many fills it takes.
   Layer 2: the concatenation of ReadLine fragments does not depend on the window size either
            (pushed-back CR included): readLine = Message.read_line on alpha.
   Layer 3: ParseMessage and the per-connection loop over the concrete reader = Message.parse_message
            / parse_stream over the concatenated bytes.
   Then, on the specification side alone: parse_stream returns exactly the messages of an encoded
   sequence (C11_exact); with Layer 3, so does the concrete reader over any segmentation of it. *)
From Coq Require Import List Ascii String ZArith Bool Arith Lia.
From Model Require Import Bytes BytesLemmas Message Bufio.
From Model.proofs Require Import NoPanic.
Import ListNotations.
Local Open Scope nat_scope.

Lemma unsnoc_app l c : unsnoc (l ++ [c]) = Some (l, c).
Proof.
  induction l as [|x l IH]; cbn; [reflexivity|]. rewrite IH. reflexivity.
Qed.
Lemma unsnoc_cases l : l = [] \/ exists i z, l = i ++ [z] /\ unsnoc l = Some (i, z).
Proof.
  induction l as [|x l IH]; [left; reflexivity|]. right.
  destruct IH as [->|(i & z & -> & E)].
  - exists [], x. split; reflexivity.
  - exists (x :: i), z. cbn [unsnoc]. rewrite E. split; reflexivity.
Qed.

Lemma strip_cr_snoc x c : strip_cr (x ++ [c]) = if Ascii.eqb c CR then x else x ++ [c].
Proof.
  unfold strip_cr. rewrite rev_unit. destruct (Ascii.eqb c CR); [apply rev_involutive|reflexivity].
Qed.
Lemma strip_cr_nil : strip_cr [] = [].
Proof. reflexivity. Qed.
Lemma strip_cr_app_ne x y : y <> [] -> strip_cr (x ++ y) = x ++ strip_cr y.
Proof.
  intros Hy. destruct (unsnoc_cases y) as [->|(i & z & -> & _)]; [contradiction|].
  rewrite app_assoc, !strip_cr_snoc. destruct (Ascii.eqb z CR); [reflexivity|symmetry; apply app_assoc].
Qed.
Lemma strip_cr_no_cr x : (forall i z, x = i ++ [z] -> z <> CR) -> strip_cr x = x.
Proof.
  intros H. destruct (unsnoc_cases x) as [->|(i & z & -> & _)]; [reflexivity|].
  rewrite strip_cr_snoc. destruct (Ascii.eqb_spec z CR) as [E|E]; [|reflexivity].
  exfalso. exact (H i z eq_refl E).
Qed.

Lemma drop_eol_lf x : drop_eol (x ++ [LF]) = strip_cr x.
Proof.
  unfold drop_eol. rewrite unsnoc_app. rewrite Ascii.eqb_refl.
  destruct (unsnoc_cases x) as [->|(i & z & -> & E)]; [reflexivity|].
  rewrite E, strip_cr_snoc. reflexivity.
Qed.
Lemma drop_eol_no_lf x : ~ In LF x -> drop_eol x = x.
Proof.
  intros H. unfold drop_eol. destruct (unsnoc_cases x) as [->|(i & z & -> & E)]; [reflexivity|].
  rewrite E. destruct (Ascii.eqb_spec z LF) as [->|_]; [|reflexivity].
  exfalso. apply H. apply in_or_app. right. left. reflexivity.
Qed.

Lemma index_byte_app_none c x y :
  index_byte c x = None ->
  index_byte c (x ++ y) = match index_byte c y with Some j => Some (List.length x + j) | None => None end.
Proof.
  induction x as [|a x IH]; intros H; cbn in *.
  - destruct (index_byte c y); reflexivity.
  - destruct (Ascii.eqb a c); [discriminate|].
    destruct (index_byte c x) as [m|]; [discriminate|]. rewrite (IH eq_refl).
    destruct (index_byte c y); reflexivity.
Qed.

Definition nonempty (c : bytes) : Prop := c <> [].
Definition wf (st : rd) : Prop :=
  16 <= rd_size st /\
  List.length (rd_pre st) + List.length (rd_live st) + List.length (rd_suf st) = rd_size st /\
  Forall nonempty (rd_chunks st) /\
  (rd_err st = true -> rd_chunks st = [] /\ List.length (rd_pre st) + List.length (rd_live st) < rd_size st).

(* what every operation leaves behind: a well-formed state [st'] of the same reader (same window)
   that will still deliver [rest] *)
Definition leaves (st st' : rd) (rest : bytes) : Prop :=
  alpha st' = rest /\ wf st' /\ rd_size st' = rd_size st.

Lemma leaves_refl st : wf st -> leaves st st (alpha st).
Proof. intros H. split; [reflexivity|]. split; [exact H|reflexivity]. Qed.
Lemma leaves_trans {st st1 st2 r1 r2} : leaves st st1 r1 -> leaves st1 st2 r2 -> leaves st st2 r2.
Proof.
  intros (_ & _ & H1) (Ha & Hwf & H2). split; [exact Ha|]. split; [exact Hwf|]. rewrite H2. exact H1.
Qed.

Lemma wf_live_le st : wf st -> List.length (rd_live st) <= rd_size st.
Proof. intros (_ & H & _). lia. Qed.

Lemma new_reader_wf n cs : Forall nonempty cs -> wf (new_reader n cs).
Proof.
  intros H. unfold wf, new_reader, bufio_size. cbn. rewrite repeat_length.
  repeat split; try lia; try exact H; discriminate.
Qed.
Lemma new_reader_alpha n cs : alpha (new_reader n cs) = List.concat cs.
Proof. reflexivity. Qed.

Lemma consume_leaves k st : wf st -> k <= List.length (rd_live st) ->
  leaves st (consume k st) (skipn k (alpha st)).
Proof.
  intros (Hsz & Hlen & Hne & Herr) Hk. split; [|split; [|reflexivity]].
  - unfold alpha. cbn. rewrite skipn_app. replace (k - List.length (rd_live st)) with 0 by lia. reflexivity.
  - unfold wf. cbn. rewrite app_length, firstn_length, skipn_length.
    split; [exact Hsz|]. split; [lia|]. split; [exact Hne|].
    intros He. destruct (Herr He) as (Hcs & Hlt). split; [exact Hcs|lia].
Qed.
Lemma alpha_firstn k st : k <= List.length (rd_live st) -> firstn k (alpha st) = firstn k (rd_live st).
Proof.
  intros Hk. unfold alpha. rewrite firstn_app. replace (k - List.length (rd_live st)) with 0 by lia.
  apply app_nil_r.
Qed.
Lemma clear_err_leaves st0 st rest : leaves st0 st rest -> leaves st0 (clear_err st) rest.
Proof.
  intros (Ha & (Hsz & Hlen & Hne & _) & Hs). split; [exact Ha|]. split; [|exact Hs].
  split; [exact Hsz|]. split; [exact Hlen|]. split; [exact Hne|]. discriminate.
Qed.
(* b.r--, directly after the byte [c] was consumed *)
Lemma unread_leaves st p c : wf st -> rd_pre st = p ++ [c] ->
  exists st2, unread1 st = Ok st2 /\ unread_byte st = Ok st2 /\ leaves st st2 (c :: alpha st).
Proof.
  intros (Hsz & Hlen & Hne & Herr) Hp. unfold unread1, unread_byte. rewrite Hp, unsnoc_app.
  eexists. split; [reflexivity|]. split; [reflexivity|]. split; [reflexivity|]. split; [|reflexivity].
  rewrite Hp, app_length in Hlen, Herr. unfold wf. cbn in *.
  split; [exact Hsz|]. split; [lia|]. split; [exact Hne|].
  intros He. destruct (Herr He) as (Hcs & Hlt). split; [exact Hcs|lia].
Qed.
Lemma under_read_spec space cs d e cs' :
  Forall nonempty cs -> 0 < space -> under_read space cs = (d, e, cs') ->
  d ++ List.concat cs' = List.concat cs /\ List.length d <= space /\ Forall nonempty cs' /\
  if e then d = [] /\ cs' = []
  else d <> [] /\ (List.length cs' < List.length cs \/ List.length d = space).
Proof.
  intros Hne Hs H. destruct cs as [|c r]; cbn in H.
  - injection H as <- <- <-. cbn. repeat split; [lia|constructor].
  - inversion Hne as [|? ? Hc Hr]; subst.
    assert (Hd : firstn space c <> []).
    { destruct c; [contradiction|]. destruct space; [lia|discriminate]. }
    pose proof (firstn_skipn space c) as Hcat. pose proof (firstn_length space c) as Hfl.
    pose proof (skipn_length space c) as Hsk.
    destruct (skipn space c) as [|y c'] eqn:Es; injection H as <- <- <-; cbn [List.concat List.length] in *.
    + rewrite app_nil_r in Hcat. rewrite Hcat. repeat split; try assumption; [lia|]. left. cbn. lia.
    + rewrite app_assoc, Hcat. repeat split; try assumption; [lia|constructor; [discriminate|exact Hr]|].
      right. lia.
Qed.

Lemma fill_spec st :
  wf st -> rd_err st = false -> List.length (rd_live st) < rd_size st ->
  exists st', fill st = Ok st' /\ leaves st st' (alpha st) /\
    ((rd_err st' = true /\ rd_live st' = rd_live st) \/
     (rd_err st' = false /\ List.length (rd_live st) < List.length (rd_live st') /\
      (List.length (rd_chunks st') < List.length (rd_chunks st) \/ List.length (rd_live st') = rd_size st))).
Proof.
  intros (Hsz & Hlen & Hne & Herr) He Hlt. unfold fill.
  remember (skipn (List.length (rd_live st)) (image st)) as room eqn:Er.
  assert (Hroom : List.length room = rd_size st - List.length (rd_live st)).
  { rewrite Er. unfold image. rewrite skipn_length, !app_length. lia. }
  clear Er. destruct room as [|x room'] eqn:Er; [cbn in Hroom; lia|]. rewrite <- Er in *. clear Er x room'.
  destruct (under_read (List.length room) (rd_chunks st)) as [[d e] cs'] eqn:Eu.
  assert (Hpos : 0 < List.length room) by lia.
  destruct (under_read_spec _ _ _ _ _ Hne Hpos Eu) as (Hcat & Hdl & Hne' & Hcase).
  eexists. split; [reflexivity|]. rewrite He. cbn [orb]. split.
  - split; [|split; [|reflexivity]].
    + unfold alpha; cbn. rewrite <- app_assoc, Hcat. reflexivity.
    + unfold wf; cbn. rewrite app_length, skipn_length. split; [exact Hsz|]. split; [lia|].
      split; [exact Hne'|]. intros ->. destruct Hcase as (-> & ->). split; [reflexivity|cbn; lia].
  - cbn. rewrite app_length. destruct e.
    + left. destruct Hcase as (-> & _). split; [reflexivity|apply app_nil_r].
    + right. destruct Hcase as (Hd & Hprog). split; [reflexivity|]. destruct d; [contradiction|]. cbn in *.
      split; [lia|]. destruct Hprog as [Hp|Hp]; [left; exact Hp|right; lia].
Qed.

(* what ReadSlice returns, as a function of the remaining stream and the window size only *)
Definition slice_spec (size : nat) (a : bytes) : bytes * rs_status * bytes :=
  match index_byte LF (firstn size a) with
  | Some i => (firstn (S i) a, RsOk, skipn (S i) a)
  | None => if Nat.leb size (List.length a) then (firstn size a, RsFull, skipn size a) else (a, RsEof, [])
  end.

Lemma slice_spec_near size a i : index_byte LF a = Some i -> i < size ->
  slice_spec size a = (firstn (S i) a, RsOk, skipn (S i) a).
Proof.
  intros H Hi. unfold slice_spec. rewrite (index_byte_firstn_some _ _ _ _ H Hi). reflexivity.
Qed.
Lemma slice_spec_far size a : index_byte LF (firstn size a) = None -> size <= List.length a ->
  slice_spec size a = (firstn size a, RsFull, skipn size a).
Proof.
  intros H Hs. unfold slice_spec. rewrite H, (proj2 (Nat.leb_le _ _) Hs). reflexivity.
Qed.
Lemma slice_spec_eof size a : index_byte LF a = None -> List.length a < size ->
  slice_spec size a = (a, RsEof, []).
Proof.
  intros H Hs. unfold slice_spec. rewrite firstn_all2 by lia. rewrite H, (proj2 (Nat.leb_gt _ _) Hs). reflexivity.
Qed.

Lemma read_slice_f_unfold fuel st :
  read_slice_f fuel st =
  match index_byte LF (rd_live st) with
  | Some i => Ok (firstn (S i) (rd_live st), RsOk, consume (S i) st)
  | None =>
      if rd_err st then Ok (rd_live st, RsEof, clear_err (consume (List.length (rd_live st)) st))
      else if Nat.leb (rd_size st) (List.length (rd_live st))
      then Ok (rd_live st, RsFull, consume (List.length (rd_live st)) st)
      else match fuel with
           | O => Err
           | S f => match fill st with Ok st' => read_slice_f f st' | Err => Err | Panic => Panic end
           end
  end.
Proof. destruct fuel; reflexivity. Qed.

(* ReadSlice returns without filling *)
Definition ready (st : rd) : Prop :=
  index_byte LF (rd_live st) <> None \/ rd_err st = true \/ rd_size st <= List.length (rd_live st).

Lemma read_slice_ready fuel st line status rest : wf st -> ready st ->
  slice_spec (rd_size st) (alpha st) = (line, status, rest) ->
  exists st', read_slice_f fuel st = Ok (line, status, st') /\ leaves st st' rest /\
    (status = RsFull -> rd_live st' = [] /\ rd_pre st' = line /\ rd_err st' = false).
Proof.
  intros Hwf Hr Hspec. rewrite read_slice_f_unfold. pose proof (wf_live_le st Hwf) as Hle.
  destruct (index_byte LF (rd_live st)) as [i|] eqn:Ei.
  - destruct (index_byte_some _ _ _ Ei) as (_ & _ & Hil).
    assert (Ea : index_byte LF (alpha st) = Some i) by (apply index_byte_app_some; exact Ei).
    rewrite (slice_spec_near _ _ i Ea), alpha_firstn in Hspec by lia.
    injection Hspec as <- <- <-. eexists. split; [reflexivity|]. split; [|discriminate].
    apply consume_leaves; [exact Hwf|lia].
  - pose proof (consume_leaves _ st Hwf (Nat.le_refl _)) as Hc.
    destruct (rd_err st) eqn:Ee.
    + destruct Hwf as (_ & _ & _ & Herr). destruct (Herr Ee) as (Hcs & Hlt).
      assert (Ha : alpha st = rd_live st) by (unfold alpha; rewrite Hcs; apply app_nil_r).
      rewrite Ha, skipn_all in Hc. rewrite Ha, (slice_spec_eof _ _ Ei) in Hspec by lia.
      injection Hspec as <- <- <-. eexists. split; [reflexivity|]. split; [|discriminate].
      apply clear_err_leaves. exact Hc.
    + destruct Hr as [Hr|[Hr|Hr]]; [contradiction|congruence|].
      rewrite (proj2 (Nat.leb_le _ _) Hr).
      assert (Hf : firstn (rd_size st) (alpha st) = rd_live st).
      { rewrite alpha_firstn by lia. apply firstn_all2. lia. }
      rewrite slice_spec_far, Hf in Hspec; [|rewrite Hf; exact Ei|unfold alpha; rewrite app_length; lia].
      replace (rd_size st) with (List.length (rd_live st)) in Hspec by lia.
      injection Hspec as <- <- <-. eexists. split; [reflexivity|]. split; [exact Hc|].
      intros _. cbn. rewrite skipn_all, firstn_all. destruct Hwf as (_ & Hlen & _).
      destruct (rd_pre st); [repeat split; exact Ee|cbn in Hlen; lia].
Qed.

Lemma ready_or_fill st : ready st \/
  index_byte LF (rd_live st) = None /\ rd_err st = false /\ List.length (rd_live st) < rd_size st.
Proof.
  unfold ready. destruct (index_byte LF (rd_live st)); [left; left; discriminate|].
  destruct (rd_err st); [left; right; left; reflexivity|].
  destruct (Nat.le_gt_cases (rd_size st) (List.length (rd_live st))) as [H|H]; [left; right; right; exact H|].
  right. split; [reflexivity|]. split; [reflexivity|exact H].
Qed.

Lemma read_slice_f_abs : forall fuel st line status rest,
  wf st -> (List.length (rd_chunks st) < fuel \/ ready st) ->
  slice_spec (rd_size st) (alpha st) = (line, status, rest) ->
  exists st', read_slice_f fuel st = Ok (line, status, st') /\ leaves st st' rest /\
    (status = RsFull -> rd_live st' = [] /\ rd_pre st' = line /\ rd_err st' = false).
Proof.
  induction fuel as [|f IH]; intros st line status rest Hwf Hfuel Hspec.
  all: destruct (ready_or_fill st) as [Hr|(Ei & Ee & El)]; [exact (read_slice_ready _ _ _ _ _ Hwf Hr Hspec)|].
  all: assert (Hf : List.length (rd_chunks st) < _)
         by (destruct Hfuel as [Hf|[Hr|[Hr|Hr]]]; [exact Hf|congruence|congruence|lia]).
  - lia.
  - (* one more fill: it uses up a segment, or fills the window, or meets the end of the stream *)
    rewrite read_slice_f_unfold, Ei, Ee, (proj2 (Nat.leb_gt _ _) El).
    destruct (fill_spec st Hwf Ee El) as (st1 & -> & L1 & Hcase).
    pose proof L1 as (Ha1 & Hwf1 & Hs1). rewrite <- Hs1, <- Ha1 in Hspec.
    destruct (IH st1 line status rest Hwf1) as (st' & Hrs & L' & Hfull); [|exact Hspec|].
    + destruct Hcase as [(He1 & _)|(_ & _ & [Hc|Hc])];
        [right; right; left; exact He1|left; lia|right; right; right; lia].
    + exists st'. split; [exact Hrs|]. split; [exact (leaves_trans L1 L')|exact Hfull].
Qed.

Lemma read_slice_leaves st line status rest : wf st ->
  slice_spec (rd_size st) (alpha st) = (line, status, rest) ->
  exists st', read_slice st = Ok (line, status, st') /\ leaves st st' rest /\
    (status = RsFull -> rd_live st' = [] /\ rd_pre st' = line /\ rd_err st' = false).
Proof. intros Hwf. apply read_slice_f_abs; [exact Hwf|]. left. apply Nat.lt_succ_diag_r. Qed.

Theorem read_slice_abs st line status rest : wf st ->
  slice_spec (rd_size st) (alpha st) = (line, status, rest) ->
  exists st', read_slice st = Ok (line, status, st') /\
    alpha st' = rest /\ wf st' /\ rd_size st' = rd_size st /\
    (status = RsFull -> rd_live st' = [] /\ rd_pre st' = line /\ rd_err st' = false).
Proof.
  intros Hwf Hspec.
  destruct (read_slice_leaves st _ _ _ Hwf Hspec) as (st' & Hrs & (Ha & Hwf' & Hs) & Hfull).
  exists st'. split; [exact Hrs|]. split; [exact Ha|]. split; [exact Hwf'|]. split; [exact Hs|exact Hfull].
Qed.

(* what ReadLine returns (fragment, isPrefix) and what remains, as a function of the remaining
   stream and the window size only *)
Definition frag_spec (size : nat) (a : bytes) : option (bytes * bool) * bytes :=
  match slice_spec size a with
  | (line, RsFull, rest) =>
      match unsnoc line with
      | Some (i, c) => if Ascii.eqb c CR then (Some (i, true), CR :: rest) else (Some (line, true), rest)
      | None => (Some (line, true), rest)
      end
  | (line, _, rest) => match line with [] => (None, rest) | _ => (Some (drop_eol line, false), rest) end
  end.

Lemma read_line_b_abs st o rest : wf st -> frag_spec (rd_size st) (alpha st) = (o, rest) ->
  exists st', read_line_b st = Ok (o, st') /\ leaves st st' rest.
Proof.
  intros Hwf Hspec. unfold frag_spec in Hspec. unfold read_line_b.
  destruct (slice_spec (rd_size st) (alpha st)) as [[line status] rest0] eqn:Es.
  destruct (read_slice_leaves st _ _ _ Hwf Es) as (st1 & -> & L1 & Hfull).
  destruct status.
  1, 2: destruct line; injection Hspec as <- <-; exists st1; exact (conj eq_refl L1).
  destruct (Hfull eq_refl) as (_ & Hp & _).
  destruct (unsnoc_cases line) as [->|(i & c & -> & Eu)].
  - injection Hspec as <- <-. exists st1. split; [reflexivity|exact L1].
  - rewrite Eu in Hspec |- *. destruct (Ascii.eqb_spec c CR) as [Hc|Hc]; injection Hspec as <- <-.
    + subst c. pose proof L1 as (Ha1 & Hwf1 & _).
      destruct (unread_leaves st1 i CR Hwf1 Hp) as (st2 & -> & _ & L2). rewrite Ha1 in L2.
      exists st2. split; [reflexivity|exact (leaves_trans L1 L2)].
    + exists st1. split; [reflexivity|exact L1].
Qed.

Lemma frag_near size a i : index_byte LF a = Some i -> i < size ->
  frag_spec size a = (Some (strip_cr (firstn i a), false), skipn (S i) a).
Proof.
  intros H Hi. unfold frag_spec. rewrite (slice_spec_near _ _ _ H Hi).
  rewrite (index_byte_firstn_S _ _ _ H), drop_eol_lf.
  destruct (firstn i a ++ [LF]) eqn:E; [destruct (firstn i a); discriminate|reflexivity].
Qed.

Lemma frag_eof size a : index_byte LF a = None -> List.length a < size ->
  frag_spec size a = (match a with [] => None | _ => Some (a, false) end, []).
Proof.
  intros H Hs. unfold frag_spec. rewrite (slice_spec_eof _ _ H Hs).
  destruct a; [reflexivity|]. rewrite drop_eol_no_lf; [reflexivity|]. apply index_byte_none. exact H.
Qed.

(* a full window without LF: the fragment is the window, or the window less a final CR which
   stays in the stream *)
Lemma frag_far size a : 2 <= size -> index_byte LF (firstn size a) = None -> size <= List.length a ->
  exists k, frag_spec size a = (Some (firstn k a, true), skipn k a) /\ 1 <= k <= size /\
    ((k = size /\ forall i z, firstn k a = i ++ [z] -> z <> CR) \/
     (k = size - 1 /\ exists r, skipn k a = CR :: r)).
Proof.
  intros H2 H Hs. unfold frag_spec. rewrite (slice_spec_far _ _ H Hs).
  destruct size as [|n]; [lia|]. destruct (firstn_S_last n a Hs) as (z & E & Ez).
  rewrite E, unsnoc_app. replace (S n - 1) with n by lia.
  destruct (Ascii.eqb_spec z CR) as [->|Hz].
  - exists n. rewrite Ez. split; [reflexivity|]. split; [lia|].
    right. split; [reflexivity|]. exists (skipn (S n) a). reflexivity.
  - exists (S n). rewrite E. split; [reflexivity|]. split; [lia|]. left. split; [reflexivity|].
    intros i' z' E'. apply app_inj_tail in E'. destruct E' as (_ & <-). exact Hz.
Qed.

Lemma strip_combine size a i k : 16 <= size -> size <= i ->
  ((k = size /\ forall i z, firstn k a = i ++ [z] -> z <> CR) \/
   (k = size - 1 /\ exists r, skipn k a = CR :: r)) ->
  firstn k a ++ strip_cr (firstn (i - k) (skipn k a)) = strip_cr (firstn i a).
Proof.
  intros Hsz Hi Hcase.
  replace i with (k + (i - k)) at 2 by lia. rewrite firstn_add.
  destruct Hcase as [(-> & Hlast)|(-> & r & Hr)].
  - destruct (firstn (i - size) (skipn size a)) as [|y l] eqn:Ey.
    + change (strip_cr []) with (@nil ascii). rewrite !app_nil_r. symmetry. apply strip_cr_no_cr. exact Hlast.
    + symmetry. apply strip_cr_app_ne. discriminate.
  - symmetry. apply strip_cr_app_ne. rewrite Hr.
    replace (i - (size - 1)) with (S (i - size)) by lia. discriminate.
Qed.

(* one round of readLine's loop, the rest of the loop being [k] *)
Definition line_loop (k : rd -> bytes -> res (option bytes * rd)) (st : rd) (acc : bytes)
  : res (option bytes * rd) :=
  match read_line_b st with
  | Ok (None, st1) => Ok (None, st1)
  | Ok (Some (b, true), st1) => k st1 (acc ++ b)
  | Ok (Some (b, false), st1) => Ok (Some (acc ++ b), st1)
  | Err => Err
  | Panic => Panic
  end.

(* readLine over the concrete reader is Message.read_line over the remaining bytes: the line
   does not depend on the window size nor on the segmentation.  (When the stream ends without
   LF the concrete reader may report the error one call earlier; ParseMessage fails either way.) *)
Definition line_res (st : rd) (acc : bytes) (c : res (option bytes * rd)) : Prop :=
  match index_byte LF (alpha st) with
  | Some i => exists st', c = Ok (Some (acc ++ strip_cr (firstn i (alpha st))), st') /\
                          leaves st st' (skipn (S i) (alpha st))
  | None => (exists st', c = Ok (None, st')) \/
            (alpha st <> [] /\ exists st', c = Ok (Some (acc ++ alpha st), st') /\ leaves st st' [])
  end.

Lemma line_loop_res k st acc : wf st ->
  (forall st1 acc1, wf st1 -> rd_size st1 = rd_size st -> List.length (alpha st1) < List.length (alpha st) ->
     line_res st1 acc1 (k st1 acc1)) ->
  line_res st acc (line_loop k st acc).
Proof.
  intros Hwf Hk. pose proof Hwf as (Hsz & _). unfold line_res, line_loop.
  destruct (index_byte LF (alpha st)) as [i|] eqn:Ei.
  - destruct (Nat.lt_ge_cases i (rd_size st)) as [Hi|Hi].
    + destruct (read_line_b_abs st _ _ Hwf (frag_near _ _ _ Ei Hi)) as (st1 & -> & L1).
      exists st1. split; [reflexivity|exact L1].
    + destruct (index_byte_some _ _ _ Ei) as (_ & _ & Hl).
      destruct (frag_far (rd_size st) (alpha st)) as (n & Hfr & Hn & Hcase);
        [lia|exact (index_byte_firstn_none _ _ _ _ Ei Hi)|lia|].
      destruct (read_line_b_abs st _ _ Hwf Hfr) as (st1 & -> & L1). pose proof L1 as (Ha1 & Hwf1 & Hs1).
      specialize (Hk st1 (acc ++ firstn n (alpha st)) Hwf1 Hs1). unfold line_res in Hk.
      assert (Hni : n <= i) by lia.
      rewrite Ha1, (index_byte_skipn _ _ _ _ Ei Hni), skipn_length in Hk.
      destruct Hk as (st' & -> & L'); [lia|]. exists st'.
      rewrite <- app_assoc, (strip_combine _ _ _ _ Hsz Hi Hcase). split; [reflexivity|].
      rewrite <- skipn_add in L'. replace (n + S (i - n)) with (S i) in L' by lia.
      exact (leaves_trans L1 L').
  - destruct (Nat.lt_ge_cases (List.length (alpha st)) (rd_size st)) as [Hi|Hi].
    + destruct (read_line_b_abs st _ _ Hwf (frag_eof _ _ Ei Hi)) as (st1 & -> & L1).
      destruct (alpha st) as [|x a]; [left; exists st1; reflexivity|].
      right. split; [discriminate|]. exists st1. split; [reflexivity|exact L1].
    + destruct (frag_far (rd_size st) (alpha st)) as (n & Hfr & Hn & _);
        [lia|exact (index_byte_firstn_absent _ _ _ Ei)|lia|].
      destruct (read_line_b_abs st _ _ Hwf Hfr) as (st1 & -> & L1). pose proof L1 as (Ha1 & Hwf1 & Hs1).
      specialize (Hk st1 (acc ++ firstn n (alpha st)) Hwf1 Hs1). unfold line_res in Hk.
      rewrite Ha1, (index_byte_skipn_none _ _ _ Ei), skipn_length in Hk.
      destruct Hk as [(st' & ->)|(_ & st' & -> & L')]; [lia|left; exists st'; reflexivity|].
      right. split; [intros E; rewrite E in Hi; cbn in Hi; lia|]. exists st'.
      rewrite <- app_assoc, firstn_skipn. split; [reflexivity|exact (leaves_trans L1 L')].
Qed.

Lemma read_line_more_res : forall fuel st acc, wf st -> List.length (alpha st) < fuel ->
  line_res st acc (read_line_more fuel st acc).
Proof.
  induction fuel as [|f IH]; intros st acc Hwf Hf; [lia|].
  apply (line_loop_res (read_line_more f)); [exact Hwf|].
  intros st1 acc1 Hwf1 _ Hlt. apply IH; [exact Hwf1|lia].
Qed.

Theorem read_line_c_abs st : wf st ->
  match index_byte LF (alpha st) with
  | Some i => exists st', read_line_c st = Ok (Some (strip_cr (firstn i (alpha st))), st') /\
                          alpha st' = skipn (S i) (alpha st) /\ wf st' /\ rd_size st' = rd_size st
  | None => (exists st', read_line_c st = Ok (None, st')) \/
            (alpha st <> [] /\ exists st', read_line_c st = Ok (Some (alpha st), st') /\
                                          alpha st' = [] /\ wf st' /\ rd_size st' = rd_size st)
  end.
Proof.
  intros Hwf.
  apply (line_loop_res (fun st1 l => read_line_more (S (List.length (alpha st1))) st1 l) st []); [exact Hwf|].
  intros st1 acc1 Hwf1 _ _. apply read_line_more_res; [exact Hwf1|]. apply Nat.lt_succ_diag_r.
Qed.

Lemma read_byte_f_unfold fuel st :
  read_byte_f fuel st =
  match rd_live st with
  | c :: _ => Ok (Some c, consume 1 st)
  | [] => if rd_err st then Ok (None, clear_err st)
          else match fuel with
               | O => Err
               | S f => match fill st with Ok st' => read_byte_f f st' | Err => Err | Panic => Panic end
               end
  end.
Proof. destruct fuel; reflexivity. Qed.

Lemma read_byte_ready fuel st : wf st -> rd_live st <> [] \/ rd_err st = true ->
  exists st', read_byte_f fuel st = Ok (hd_error (alpha st), st') /\ leaves st st' (tl (alpha st)) /\
    (forall c r, alpha st = c :: r -> exists st2, unread_byte st' = Ok st2 /\ leaves st st2 (alpha st)).
Proof.
  intros Hwf Hr. rewrite read_byte_f_unfold. destruct (rd_live st) as [|c l] eqn:El.
  - destruct Hr as [Hr|He]; [contradiction|]. rewrite He.
    pose proof Hwf as (_ & _ & _ & Herr). destruct (Herr He) as (Hcs & _).
    assert (Ha : alpha st = []) by (unfold alpha; rewrite El, Hcs; reflexivity).
    pose proof (clear_err_leaves _ _ _ (leaves_refl st Hwf)) as L. rewrite Ha in *.
    eexists. split; [reflexivity|]. split; [exact L|]. intros; discriminate.
  - assert (Ha : alpha st = c :: l ++ List.concat (rd_chunks st)) by (unfold alpha; rewrite El; reflexivity).
    assert (L1 : leaves st (consume 1 st) (tl (alpha st))).
    { apply (consume_leaves 1 st Hwf). rewrite El. cbn. lia. }
    destruct (unread_leaves (consume 1 st) (rd_pre st) c) as (st2 & _ & Hu & L2);
      [exact (proj1 (proj2 L1))|cbn; rewrite El; reflexivity|].
    rewrite (proj1 L1) in L2. rewrite Ha in *. eexists. split; [reflexivity|]. split; [exact L1|].
    intros c' r' _. exists st2. split; [exact Hu|exact (leaves_trans L1 L2)].
Qed.

Lemma read_byte_abs st : wf st ->
  exists st', read_byte st = Ok (hd_error (alpha st), st') /\ leaves st st' (tl (alpha st)) /\
    (forall c r, alpha st = c :: r -> exists st2, unread_byte st' = Ok st2 /\ leaves st st2 (alpha st)).
Proof.
  intros Hwf. unfold read_byte.
  destruct (rd_live st) as [|c l] eqn:El; [|apply read_byte_ready; [exact Hwf|left; rewrite El; discriminate]].
  destruct (rd_err st) eqn:Ee; [apply read_byte_ready; [exact Hwf|right; exact Ee]|].
  rewrite read_byte_f_unfold, El, Ee.
  assert (Hlt : List.length (rd_live st) < rd_size st) by (rewrite El; destruct Hwf as (Hsz & _); cbn; lia).
  destruct (fill_spec st Hwf Ee Hlt) as (st1 & -> & L1 & Hcase).
  pose proof L1 as (Ha1 & Hwf1 & _).
  destruct (read_byte_ready 1 st1 Hwf1) as (st' & -> & L' & Hun).
  { destruct Hcase as [(He1 & _)|(_ & Hgrow & _)]; [right; exact He1|left].
    rewrite El in Hgrow. destruct (rd_live st1); [cbn in Hgrow; lia|discriminate]. }
  rewrite Ha1 in *. exists st'. split; [reflexivity|]. split; [exact (leaves_trans L1 L')|].
  intros c r E. destruct (Hun c r E) as (st2 & Hu & L2).
  exists st2. split; [exact Hu|exact (leaves_trans L1 L2)].
Qed.

Lemma skip_ws_f_abs : forall fuel st, wf st -> List.length (alpha st) < fuel ->
  exists st', skip_ws_f fuel st = Ok st' /\ leaves st st' (trim_left (alpha st)).
Proof.
  induction fuel as [|f IH]; intros st Hwf Hf; [lia|].
  cbn [skip_ws_f]. destruct (read_byte_abs st Hwf) as (st1 & -> & L1 & Hun).
  destruct (alpha st) as [|c r] eqn:Ea; cbn [hd_error tl trim_left] in *.
  - exists st1. split; [reflexivity|exact L1].
  - destruct (is_space c).
    + pose proof L1 as (Ha1 & Hwf1 & _). destruct (IH st1 Hwf1) as (st' & -> & L'); [rewrite Ha1; cbn in Hf; lia|].
      rewrite Ha1 in L'. exists st'. split; [reflexivity|exact (leaves_trans L1 L')].
    + destruct (Hun c r eq_refl) as (st2 & -> & L2). exists st2. split; [reflexivity|exact L2].
Qed.
Lemma skip_ws_abs st : wf st -> exists st', skip_ws st = Ok st' /\ leaves st st' (trim_left (alpha st)).
Proof. intros H. apply skip_ws_f_abs; [exact H|]. apply Nat.lt_succ_diag_r. Qed.

Lemma read_b_abs n st : wf st -> 0 < n ->
  exists d e st' rest, read_b n st = Ok (d, e, st') /\ leaves st st' rest /\ alpha st = d ++ rest /\
    List.length d <= n /\ if e then d = [] /\ rest = [] else d <> [].
Proof.
  intros Hwf Hn. pose proof Hwf as (Hsz & Hlen & Hne & Herr).
  unfold read_b. destruct n as [|n']; [lia|]. set (n := S n') in *.
  destruct (rd_live st) as [|c l] eqn:El.
  - assert (Ha : alpha st = List.concat (rd_chunks st)) by (unfold alpha; rewrite El; reflexivity).
    destruct (rd_err st) eqn:Ee.
    + destruct (Herr eq_refl) as (Hcs & _). rewrite Hcs in Ha.
      exists [], true, (clear_err st), []. split; [reflexivity|]. rewrite <- Ha at 1.
      split; [exact (clear_err_leaves _ _ _ (leaves_refl st Hwf))|]. repeat split; [exact Ha|cbn; lia].
    + destruct (Nat.leb (rd_size st) n).
      * destruct (under_read n (rd_chunks st)) as [[d e] cs'] eqn:Eu.
        destruct (under_read_spec _ _ _ _ _ Hne Hn Eu) as (Hcat & Hdl & Hne' & Hcase).
        exists d, e, (mkrd (rd_size st) (rd_pre st) [] (rd_suf st) false cs'), (List.concat cs').
        split; [reflexivity|]. split; [|split; [rewrite Ha, Hcat; reflexivity|split; [exact Hdl|]]].
        -- split; [reflexivity|]. split; [|reflexivity].
           split; [exact Hsz|]. split; [exact Hlen|]. split; [exact Hne'|discriminate].
        -- destruct e; [|exact (proj1 Hcase)]. destruct Hcase as (-> & ->). split; reflexivity.
      * assert (Himg : List.length (image st) = rd_size st).
        { unfold image. rewrite El, !app_length. cbn in *. lia. }
        destruct (under_read (List.length (image st)) (rd_chunks st)) as [[d e] cs'] eqn:Eu.
        assert (Hpos : 0 < List.length (image st)) by lia.
        destruct (under_read_spec _ _ _ _ _ Hne Hpos Eu) as (Hcat & Hdl & Hne' & Hcase).
        destruct d as [|x d'].
        -- destruct e; [destruct Hcase as (_ & ->)|destruct Hcase as (Hd & _); contradiction].
           exists [], true, (mkrd (rd_size st) [] [] (image st) false []), []. split; [reflexivity|].
           split; [|repeat split; [rewrite Ha, <- Hcat; reflexivity|cbn; lia]].
           split; [reflexivity|]. split; [|reflexivity].
           split; [exact Hsz|]. split; [exact Himg|]. split; [constructor|discriminate].
        -- set (d := x :: d') in *. set (k := Nat.min n (List.length d)).
           eexists (firstn k d), false, _, (skipn k d ++ List.concat cs'). split; [reflexivity|].
           split; [|split; [rewrite Ha, <- Hcat, app_assoc, firstn_skipn; reflexivity|]].
           ++ split; [reflexivity|]. split; [|reflexivity]. unfold wf. cbn [rd_size rd_pre rd_live rd_suf rd_err rd_chunks].
              rewrite firstn_length, !skipn_length.
              split; [exact Hsz|]. split; [lia|]. split; [exact Hne'|].
              intros ->. destruct Hcase as (Hd & _). discriminate.
           ++ rewrite firstn_length. split; [lia|]. unfold k, d, n. cbn. discriminate.
  - set (k := Nat.min n (List.length (rd_live st))). rewrite <- El.
    assert (Hk : k <= List.length (rd_live st)) by lia.
    exists (firstn k (rd_live st)), false, (consume k st), (skipn k (alpha st)). split; [reflexivity|].
    split; [exact (consume_leaves k st Hwf Hk)|]. rewrite <- (alpha_firstn k st Hk), firstn_skipn, firstn_length.
    split; [reflexivity|]. split; [lia|]. rewrite alpha_firstn by exact Hk. unfold k, n. rewrite El. cbn. discriminate.
Qed.

Lemma read_full_f_abs : forall fuel st want acc, wf st -> want < fuel ->
  if Nat.leb want (List.length (alpha st))
  then exists st', read_full_f fuel st want acc = Ok (Some (acc ++ firstn want (alpha st)), st') /\
                   leaves st st' (skipn want (alpha st))
  else exists st', read_full_f fuel st want acc = Ok (None, st').
Proof.
  induction fuel as [|f IH]; intros st want acc Hwf Hf; [lia|].
  destruct want as [|w].
  - exists st. cbn. rewrite app_nil_r. split; [reflexivity|exact (leaves_refl st Hwf)].
  - cbn [read_full_f].
    destruct (read_b_abs (S w) st Hwf (Nat.lt_0_succ w)) as (d & e & st1 & rest & -> & L1 & Ha & Hdl & Hcase).
    rewrite Ha, app_length. destruct e.
    + destruct Hcase as (-> & ->). exists st1. reflexivity.
    + pose proof L1 as (Ha1 & Hwf1 & _).
      assert (Hw : S w - List.length d < f) by (destruct d; [contradiction|cbn; lia]).
      specialize (IH st1 (S w - List.length d) (acc ++ d) Hwf1 Hw). rewrite Ha1 in IH.
      destruct (Nat.leb_spec (S w) (List.length d + List.length rest)) as [Hle|Hgt];
        destruct (Nat.leb_spec (S w - List.length d) (List.length rest)) as [Hle'|Hgt']; try lia.
      * destruct IH as (st' & -> & L'). exists st'. rewrite <- app_assoc in *.
        rewrite firstn_app, skipn_app, (firstn_all2 d), (skipn_all2 d) by exact Hdl.
        split; [reflexivity|exact (leaves_trans L1 L')].
      * exact IH.
Qed.
Lemma read_full_abs st want : wf st ->
  if Nat.leb want (List.length (alpha st))
  then exists st', read_full st want = Ok (Some (firstn want (alpha st)), st') /\
                   leaves st st' (skipn want (alpha st))
  else exists st', read_full st want = Ok (None, st').
Proof. intros H. exact (read_full_f_abs (S want) st want [] H (Nat.lt_succ_diag_r _)). Qed.

(* readBody's buffer: [h] bytes received, capacity [cap], [alloc] bytes requested from make so far *)
Definition body_inv (n cap h alloc : Z) : Prop :=
  (h = 0 /\ alloc = cap /\ cap <= body_step)%Z \/
  (h = cap /\ alloc <= 2 * cap)%Z \/
  (h = cap /\ cap = n /\ alloc <= 3 * n)%Z.

(* one round of readBody: the capacity doubles (at most up to n) only when the buffer is full of
   received bytes; the first capacity is min(n, 64 KiB) *)
Lemma body_round n cap h alloc :
  let grow := (h =? cap)%Z in
  let cap' := if grow then Z.min n (2 * cap) else cap in
  let alloc' := if grow then (alloc + cap')%Z else alloc in
  (0 < cap <= n)%Z -> (0 <= h <= cap)%Z -> (h < n)%Z -> (2 * h <= make_limit)%Z -> body_inv n cap h alloc ->
  (h < cap' <= n)%Z /\ (grow && negb (make_ok cap'))%bool = false /\
  body_inv n cap' cap' alloc' /\ (alloc' <= 4 * h + body_step)%Z.
Proof.
  intros grow cap' alloc' Hcap Hh Hn Hlim Hinv. unfold body_inv, make_ok, body_step in *. subst grow cap' alloc'.
  destruct (Z.eqb_spec h cap) as [->|Hne]; cbn [andb negb].
  - rewrite (proj2 (Z.leb_le _ _)) by lia. cbn [negb]. lia.
  - lia.
Qed.

Lemma read_body_f_abs : forall fuel st n cap have alloc,
  wf st -> List.length (alpha st) < fuel ->
  (0 < cap <= n)%Z -> (Z.of_nat (List.length have) <= cap)%Z ->
  (2 * (Z.of_nat (List.length have) + Z.of_nat (List.length (alpha st))) <= make_limit)%Z ->
  body_inv n cap (Z.of_nat (List.length have)) alloc ->
  if (n <=? Z.of_nat (List.length have) + Z.of_nat (List.length (alpha st)))%Z
  then exists st' a, read_body_f fuel st n cap have alloc =
                       (Ok (Some (have ++ firstn (Z.to_nat n - List.length have) (alpha st)), st'), a) /\
                     leaves st st' (skipn (Z.to_nat n - List.length have) (alpha st)) /\ (a <= 3 * n)%Z
  else exists st' a, read_body_f fuel st n cap have alloc = (Ok (None, st'), a) /\
         (a <= 4 * (Z.of_nat (List.length have) + Z.of_nat (List.length (alpha st))) + body_step)%Z.
Proof.
  induction fuel as [|f IH]; intros st n cap have alloc Hwf Hf Hcap Hhc Hlim Hinv; [lia|].
  cbn [read_body_f]. destruct (Z.leb_spec n (Z.of_nat (List.length have))) as [Hdone|Hmore].
  - rewrite (proj2 (Z.leb_le _ _)) by lia. exists st, alloc.
    replace (Z.to_nat n - List.length have) with 0 by lia. cbn [firstn skipn]. rewrite app_nil_r.
    split; [reflexivity|]. split; [exact (leaves_refl st Hwf)|]. unfold body_inv in Hinv. lia.
  - destruct (body_round n cap (Z.of_nat (List.length have)) alloc) as (Hcap' & -> & Hinv' & Hfail);
      [exact Hcap|lia|exact Hmore|lia|exact Hinv|].
    set (cap' := if (Z.of_nat (List.length have) =? cap)%Z then Z.min n (2 * cap) else cap) in *.
    set (alloc' := if (Z.of_nat (List.length have) =? cap)%Z then (alloc + cap')%Z else alloc) in *.
    clearbody alloc' cap'. set (w := Z.to_nat (cap' - Z.of_nat (List.length have))).
    pose proof (read_full_abs st w Hwf) as Hrf.
    destruct (Nat.leb_spec w (List.length (alpha st))) as [Hw|Hw].
    + destruct Hrf as (st1 & -> & L1). pose proof L1 as (Ha1 & Hwf1 & _).
      assert (Hl1 : List.length (alpha st1) = List.length (alpha st) - w) by (rewrite Ha1; apply skipn_length).
      assert (Hd : List.length (have ++ firstn w (alpha st)) = List.length have + w)
        by (rewrite app_length, firstn_length; lia).
      specialize (IH st1 n cap' (have ++ firstn w (alpha st)) alloc' Hwf1). rewrite Hd, Hl1, Ha1 in IH.
      replace (Z.of_nat (List.length have + w)) with cap' in IH by lia.
      replace (cap' + Z.of_nat (List.length (alpha st) - w))%Z
        with (Z.of_nat (List.length have) + Z.of_nat (List.length (alpha st)))%Z in IH by lia.
      assert (H1 : List.length (alpha st) - w < f) by lia. assert (H2 : (0 < cap' <= n)%Z) by lia.
      specialize (IH H1 H2 (Z.le_refl _) Hlim Hinv').
      destruct (n <=? Z.of_nat (List.length have) + Z.of_nat (List.length (alpha st)))%Z eqn:En.
      * apply Z.leb_le in En. destruct IH as (st' & a & -> & L' & Ha). exists st', a.
        rewrite <- app_assoc, <- firstn_add, <- skipn_add in *.
        replace (w + (Z.to_nat n - (List.length have + w))) with (Z.to_nat n - List.length have) in * by lia.
        split; [reflexivity|]. split; [exact (leaves_trans L1 L')|exact Ha].
      * exact IH.
    + destruct Hrf as (st1 & ->). rewrite (proj2 (Z.leb_gt _ _)) by lia. exists st1, alloc'.
      split; [reflexivity|lia].
Qed.

(* the body reader: the first n bytes of the stream, or an error when fewer remain; bytes
   requested from make: at most 3n on success, at most 4 x (what was there) + 64 KiB on failure *)
Theorem read_body_abs st n : wf st -> (0 <= n)%Z ->
  (2 * Z.of_nat (List.length (alpha st)) <= make_limit)%Z ->
  if (n <=? Z.of_nat (List.length (alpha st)))%Z
  then exists st' a, read_body_c st n = (Ok (Some (firstn (Z.to_nat n) (alpha st)), st'), a) /\
                     leaves st st' (skipn (Z.to_nat n) (alpha st)) /\ (a <= 3 * n)%Z
  else exists st' a, read_body_c st n = (Ok (None, st'), a) /\
                     (a <= 4 * Z.of_nat (List.length (alpha st)) + body_step)%Z.
Proof.
  intros Hwf Hn Hlim. unfold read_body_c.
  destruct (Z.eq_dec n 0) as [->|Hn0].
  - rewrite (proj2 (Z.leb_le _ _)) by lia. exists st, 0%Z. cbn.
    split; [reflexivity|]. split; [exact (leaves_refl st Hwf)|lia].
  - pose proof (read_body_f_abs (S (List.length (alpha st))) st n (Z.min n body_step) [] (Z.min n body_step) Hwf) as H.
    cbn [List.length app] in H. rewrite Z.add_0_l, Nat.sub_0_r in H.
    apply H; unfold body_inv, body_step; lia.
Qed.

Lemma rv_rev {A} (l : list A) : rv l = rev l.
Proof. unfold rv. symmetry. apply rev_alt. Qed.
Lemma parse_header_line_c_eq line : parse_header_line_c line = parse_header_line line.
Proof.
  unfold parse_header_line_c, parse_header_line, trim_space_go, trim_right_go.
  destruct (index_byte ":"%char line); [|reflexivity]. rewrite !rv_rev. reflexivity.
Qed.
Lemma parse_header_line_cases l : parse_header_line l = Err \/ exists h, parse_header_line l = Ok h.
Proof.
  unfold parse_header_line. destruct (index_byte ":"%char l); [right; eexists; reflexivity|left; reflexivity].
Qed.

Lemma read_line_some s i : index_byte LF s = Some i ->
  read_line s = Some (strip_cr (firstn i s), skipn (S i) s).
Proof.
  intros H. unfold read_line. rewrite H. destruct s; [discriminate|reflexivity].
Qed.
Lemma read_line_none s : index_byte LF s = None ->
  read_line s = match s with [] => None | _ => Some (s, []) end.
Proof. intros H. unfold read_line. rewrite H. destruct s; reflexivity. Qed.

Lemma parse_headers_nil f acc : parse_headers f [] acc = Err.
Proof. destruct f; reflexivity. Qed.
Lemma parse_headers_nolf fuel s acc : index_byte LF s = None -> parse_headers fuel s acc = Err.
Proof.
  intros H. destruct fuel as [|f]; [reflexivity|]. cbn [parse_headers]. rewrite (read_line_none _ H).
  destruct s as [|x a]; [reflexivity|].
  destruct (parse_header_line_cases (x :: a)) as [E|(h & E)]; rewrite E; [reflexivity|apply parse_headers_nil].
Qed.

Definition eol (crlf : bool) : bytes := if crlf then [CR; LF] else [LF].

Lemma parse_headers_shape : forall fuel s acc hs rest,
  parse_headers fuel s acc = Ok (hs, rest) -> exists pre b, LF :: s = pre ++ LF :: eol b ++ rest.
Proof.
  induction fuel as [|f IH]; intros s acc hs rest H; [discriminate|].
  destruct (index_byte LF s) as [i|] eqn:Ei; [|rewrite (parse_headers_nolf _ _ _ Ei) in H; discriminate].
  cbn [parse_headers] in H. rewrite (read_line_some _ _ Ei) in H.
  destruct (index_byte_some _ _ _ Ei) as (Hs & _ & _).
  destruct (strip_cr (firstn i s)) as [|c line] eqn:El.
  - injection H as _ <-. exists [].
    destruct (unsnoc_cases (firstn i s)) as [E|(x & z & E & _)].
    + exists false. rewrite Hs at 1. rewrite E. reflexivity.
    + rewrite E, strip_cr_snoc in El. destruct (Ascii.eqb_spec z CR) as [Hz|Hz]; [|destruct x; discriminate].
      subst x z. exists true. rewrite Hs at 1. rewrite E. reflexivity.
  - destruct (parse_header_line (c :: line)) as [h| |]; cbn [rbind] in H; try discriminate.
    destruct (IH _ _ _ _ H) as (pre & b & E). exists (LF :: firstn i s ++ pre), b.
    rewrite Hs at 1. cbn [app]. rewrite <- app_assoc, E. reflexivity.
Qed.

Lemma parse_headers_rest_le : forall fuel s acc hs rest,
  parse_headers fuel s acc = Ok (hs, rest) -> List.length rest <= List.length s.
Proof.
  intros fuel s acc hs rest H. destruct (parse_headers_shape _ _ _ _ _ H) as (pre & b & E).
  apply (f_equal (@List.length _)) in E. rewrite !app_length in E. cbn [List.length] in E.
  rewrite app_length in E. lia.
Qed.

Lemma parse_headers_c_abs : forall fuel st acc, wf st ->
  match parse_headers fuel (alpha st) acc with
  | Ok (hs, rest) => exists st', parse_headers_c read_line_c fuel st acc = Ok (hs, st') /\ leaves st st' rest
  | _ => parse_headers_c read_line_c fuel st acc = Err
  end.
Proof.
  induction fuel as [|f IH]; intros st acc Hwf; [reflexivity|].
  pose proof (read_line_c_abs st Hwf) as Hrl.
  destruct (index_byte LF (alpha st)) as [i|] eqn:Ei.
  - cbn [parse_headers parse_headers_c]. destruct Hrl as (st1 & -> & L1). rewrite (read_line_some _ _ Ei).
    destruct (strip_cr (firstn i (alpha st))) as [|c line].
    + exists st1. rewrite rv_rev. split; [reflexivity|exact L1].
    + rewrite parse_header_line_c_eq.
      destruct (parse_header_line_cases (c :: line)) as [E|(h & E)]; rewrite E; cbn [rbind]; [reflexivity|].
      pose proof L1 as (Ha1 & Hwf1 & _). specialize (IH st1 (h :: acc) Hwf1). rewrite Ha1 in IH.
      destruct (parse_headers f (skipn (S i) (alpha st)) (h :: acc)) as [[hs rest]| |]; try exact IH.
      destruct IH as (st' & -> & L'). exists st'. split; [reflexivity|exact (leaves_trans L1 L')].
  - rewrite (parse_headers_nolf _ _ _ Ei). cbn [parse_headers_c].
    destruct Hrl as [(st1 & ->)|(Hne & st1 & -> & Ha1 & Hwf1 & _)]; [reflexivity|].
    destruct (alpha st) as [|x a]; [contradiction|]. rewrite parse_header_line_c_eq.
    destruct (parse_header_line_cases (x :: a)) as [E|(h & E)]; rewrite E; [reflexivity|].
    specialize (IH st1 (h :: acc) Hwf1). rewrite Ha1, parse_headers_nil in IH. exact IH.
Qed.

(* the specification parser never panics *)
Lemma parse_start_line_no_panic l : parse_start_line l <> Panic.
Proof.
  unfold parse_start_line, parse_status_line, parse_request_line.
  destruct (has_prefix (s2b "SIP/") l).
  - destruct (fields_go l) as [|v [|c [|x r]]]; try discriminate. destruct (atoi c); discriminate.
  - destruct (fields_go l) as [|m [|u [|v [|x r]]]]; try discriminate.
    apply rbind_no_panic; [apply parse_addr_spec_no_panic|discriminate].
Qed.
Lemma get_header_int_no_panic n m : get_header_int n m <> Panic.
Proof.
  unfold get_header_int, get_raw. destruct (get_header n (m_headers m)) as [h|]; cbn; [|discriminate].
  destruct (h_val h); cbn; try discriminate. destruct (atoi s); discriminate.
Qed.
Lemma parse_headers_no_panic : forall f s acc, parse_headers f s acc <> Panic.
Proof.
  induction f as [|f IH]; intros s acc; cbn; [discriminate|].
  destruct (read_line s) as [[[|c line] r]|]; try discriminate.
  apply rbind_no_panic; [|intros h; apply IH].
  destruct (parse_header_line_cases (c :: line)) as [E|(h & E)]; rewrite E; discriminate.
Qed.

Lemma parse_message_no_panic s : parse_message s <> Panic.
Proof.
  unfold parse_message.
  destruct (read_line (trim_left s)) as [[[|c l0] rest]|]; try discriminate.
  apply rbind_no_panic; [apply parse_start_line_no_panic|intros sl].
  apply rbind_no_panic; [apply parse_headers_no_panic|intros [hs rest1]].
  apply rbind_no_panic; [apply get_header_int_no_panic|intros cl].
  destruct (Z.ltb cl 0); [discriminate|]. destruct (Z.ltb _ cl); discriminate.
Qed.
Lemma parse_message_nolf s m rest : index_byte LF (trim_left s) = None -> parse_message s <> Ok (m, rest).
Proof.
  intros H. unfold parse_message. rewrite (read_line_none _ H).
  destruct (trim_left s) as [|x a]; [discriminate|].
  destruct (parse_start_line (x :: a)); discriminate.
Qed.

(* ParseMessage over the concrete reader against the specification parser; a panic of the
   specification is excluded separately (parse_message_no_panic) *)
Definition pm_res (st : rd) (r : res (message * bytes)) (c : res (message * rd) * Z) : Prop :=
  match r with
  | Ok (m, rest) => exists st' a, c = (Ok (m, st'), a) /\ leaves st st' rest /\
                      List.length rest < List.length (alpha st) /\
                      (a <= 4 * (Z.of_nat (List.length (alpha st)) - Z.of_nat (List.length rest)))%Z
  | Err => exists a, c = (Err, a) /\ (a <= 4 * Z.of_nat (List.length (alpha st)) + body_step)%Z
  | Panic => True
  end.

Lemma pm_res_err st r c : (forall m rest, r <> Ok (m, rest)) -> c = (Err, 0%Z) -> pm_res st r c.
Proof.
  intros Hr ->. destruct r as [[m rest]| |]; [exfalso; exact (Hr m rest eq_refl)| |exact I].
  exists 0%Z. split; [reflexivity|unfold body_step; lia].
Qed.

Theorem parse_message_c_abs st : wf st ->
  (2 * Z.of_nat (List.length (alpha st)) <= make_limit)%Z ->
  pm_res st (parse_message (alpha st)) (parse_message_ca st).
Proof.
  intros Hwf Hlim.
  assert (E0 : pm_res st Err (Err, 0%Z)) by (apply pm_res_err; [discriminate|reflexivity]).
  unfold parse_message_ca, parse_message_g.
  destruct (skip_ws_abs st Hwf) as (st0 & -> & L0). pose proof L0 as (Ha0 & Hwf0 & _). cbn [bindz].
  pose proof (trim_left_length (alpha st)) as Htl.
  pose proof (read_line_c_abs st0 Hwf0) as Hrl. rewrite Ha0 in Hrl.
  destruct (index_byte LF (trim_left (alpha st))) as [i|] eqn:Ei.
  - unfold parse_message. rewrite (read_line_some _ _ Ei).
    destruct Hrl as (st1 & -> & L1). pose proof L1 as (Ha1 & Hwf1 & _). cbn [bindz].
    destruct (index_byte_some _ _ _ Ei) as (_ & _ & Hil).
    set (rest := skipn (S i) (trim_left (alpha st))) in *.
    assert (Hrest : List.length rest < List.length (alpha st)) by (unfold rest; rewrite skipn_length; lia).
    destruct (strip_cr (firstn i (trim_left (alpha st)))) as [|c l0]; [exact E0|].
    destruct (parse_start_line (c :: l0)) as [sl| |]; cbn [rbind bindz]; [|exact E0|exact I].
    pose proof (parse_headers_c_abs (S (List.length rest)) st1 [] Hwf1) as Hph. rewrite Ha1 in Hph |- *.
    destruct (parse_headers (S (List.length rest)) rest []) as [[hs rest1]| |] eqn:Eph; cbn [rbind];
      [|rewrite Hph; exact E0|exact I].
    destruct Hph as (st2 & -> & L2). pose proof L2 as (Ha2 & Hwf2 & _). cbn [bindz].
    pose proof (parse_headers_rest_le _ _ _ _ _ Eph) as Hr1.
    destruct (get_header_int (s2b "Content-Length") {| m_start := sl; m_headers := hs; m_body := [] |})
      as [cl| |]; cbn [rbind bindz]; [|exact E0|exact I].
    destruct (Z.ltb_spec cl 0) as [Hneg|Hneg]; [exact E0|].
    assert (Hlim2 : (2 * Z.of_nat (List.length (alpha st2)) <= make_limit)%Z) by (rewrite Ha2; lia).
    pose proof (read_body_abs st2 cl Hwf2 Hneg Hlim2) as Hrb. rewrite Ha2 in Hrb.
    destruct (Z.ltb_spec (Z.of_nat (List.length rest1)) cl) as [Hshort|Hfits].
    + rewrite (proj2 (Z.leb_gt _ _) Hshort) in Hrb. destruct Hrb as (st3 & a & -> & Hb).
      exists a. split; [reflexivity|lia].
    + rewrite (proj2 (Z.leb_le _ _) Hfits) in Hrb. destruct Hrb as (st3 & a & -> & L3 & Hb).
      exists st3, a. split; [reflexivity|]. rewrite skipn_length.
      split; [exact (leaves_trans L0 (leaves_trans L1 (leaves_trans L2 L3)))|lia].
  - apply pm_res_err; [intros m r; exact (parse_message_nolf _ m r Ei)|].
    destruct Hrl as [(st1 & ->)|(Hne & st1 & -> & Ha1 & Hwf1 & _)]; cbn [bindz]; [reflexivity|].
    destruct (trim_left (alpha st)) as [|x a]; [contradiction|].
    destruct (parse_start_line (x :: a)) eqn:Esl; cbn [bindz];
      [|reflexivity|exfalso; exact (parse_start_line_no_panic _ Esl)].
    pose proof (parse_headers_c_abs (S (List.length (alpha st1))) st1 [] Hwf1) as Hph.
    rewrite Ha1, parse_headers_nil in Hph. rewrite Ha1, Hph. reflexivity.
Qed.

Lemma parse_conn_f_abs : forall fuel st, wf st ->
  (2 * Z.of_nat (List.length (alpha st)) <= make_limit)%Z ->
  fst (fst (parse_conn_f parse_message_ca fuel st)) = parse_stream fuel (alpha st) /\
  snd (fst (parse_conn_f parse_message_ca fuel st)) <> EndPanic /\
  (List.length (alpha st) < fuel -> snd (fst (parse_conn_f parse_message_ca fuel st)) = EndErr) /\
  (snd (parse_conn_f parse_message_ca fuel st) <= 4 * Z.of_nat (List.length (alpha st)) + body_step)%Z.
Proof.
  induction fuel as [|f IH]; intros st Hwf Hlim.
  - cbn [parse_conn_f parse_stream fst snd]. split; [reflexivity|]. split; [discriminate|]. split; [lia|]. unfold body_step. lia.
  - cbn [parse_conn_f parse_stream].
    pose proof (parse_message_c_abs st Hwf Hlim) as Hpm.
    destruct (parse_message (alpha st)) as [[m rest]| |] eqn:E.
    + destruct Hpm as (st' & a & -> & (Hal & Hwf' & _) & Hlt & Ha).
      assert (Hlim' : (2 * Z.of_nat (List.length (alpha st')) <= make_limit)%Z) by (rewrite Hal; lia).
      destruct (IH st' Hwf' Hlim') as (H1 & H2 & H3 & H4).
      destruct (parse_conn_f parse_message_ca f st') as [[ms e] a'].
      cbn [fst snd] in *. rewrite Hal in *.
      split; [f_equal; exact H1|]. split; [exact H2|]. split; [intros Hf; apply H3; lia|lia].
    + destruct Hpm as (a & -> & Ha). cbn [fst snd]. split; [reflexivity|]. split; [discriminate|]. split; [reflexivity|exact Ha].
    + exfalso. exact (parse_message_no_panic _ E).
Qed.

Lemma parse_conn_full_abs size cs : Forall nonempty cs ->
  (2 * Z.of_nat (List.length (List.concat cs)) <= make_limit)%Z ->
  parse_conn size cs = parse_stream (S (List.length (List.concat cs))) (List.concat cs) /\
  snd (fst (parse_conn_full size cs)) = EndErr /\
  (snd (parse_conn_full size cs) <= 4 * Z.of_nat (List.length (List.concat cs)) + body_step)%Z.
Proof.
  intros Hne Hlim.
  destruct (parse_conn_f_abs (S (List.length (List.concat cs))) (new_reader size cs) (new_reader_wf size cs Hne) Hlim)
    as (H1 & _ & H3 & H4).
  split; [exact H1|]. split; [exact (H3 (Nat.lt_succ_diag_r _))|exact H4].
Qed.

(* C11: the concrete reader over ANY segmentation of the stream, with ANY window size, extracts
   exactly what the specification parser extracts from the concatenated bytes *)
Theorem C11_framing : forall size cs, Forall nonempty cs ->
  (2 * Z.of_nat (List.length (List.concat cs)) <= make_limit)%Z ->
  parse_conn size cs = parse_stream (S (List.length (List.concat cs))) (List.concat cs).
Proof. intros size cs Hne Hlim. exact (proj1 (parse_conn_full_abs size cs Hne Hlim)). Qed.
Corollary C11_segmentation_independent : forall size1 size2 cs1 cs2,
  Forall nonempty cs1 -> Forall nonempty cs2 -> List.concat cs1 = List.concat cs2 ->
  (2 * Z.of_nat (List.length (List.concat cs1)) <= make_limit)%Z ->
  parse_conn size1 cs1 = parse_conn size2 cs2.
Proof.
  intros s1 s2 cs1 cs2 H1 H2 He Hlim. rewrite (C11_framing s1 cs1 H1 Hlim).
  rewrite He in Hlim. rewrite (C11_framing s2 cs2 H2 Hlim), He. reflexivity.
Qed.

(* the UDP parse step: what is decoded depends on the first n bytes of the buffer only *)
Lemma one_chunk_nonempty b : Forall nonempty (one_chunk b).
Proof. destruct b; cbn; [constructor|]. constructor; [discriminate|constructor]. Qed.
Lemma one_chunk_concat b : List.concat (one_chunk b) = b.
Proof. destruct b; cbn; [reflexivity|]. rewrite app_nil_r. reflexivity. Qed.

Theorem udp_parse_abs : forall buf n,
  (2 * Z.of_nat (List.length (firstn n buf)) <= make_limit)%Z ->
  udp_parse buf n = parse_bytes (firstn n buf) /\
  (snd (udp_parse_a buf n) <= 4 * Z.of_nat (List.length (firstn n buf)) + 65536)%Z.
Proof.
  intros buf n Hlim. unfold udp_parse, udp_parse_a, parse_bytes.
  set (st := new_reader n (one_chunk (firstn n buf))).
  assert (Hwf : wf st) by (apply new_reader_wf, one_chunk_nonempty).
  assert (Ha : alpha st = firstn n buf) by (unfold st; rewrite new_reader_alpha; apply one_chunk_concat).
  pose proof (parse_message_c_abs st Hwf) as Hpm. rewrite Ha in Hpm. specialize (Hpm Hlim).
  destruct (parse_message (firstn n buf)) as [[m rest]| |] eqn:E.
  - destruct Hpm as (st' & a & -> & _ & Hlt & Hb). rewrite Ha in Hb. cbn [fst snd res_fst]. split; [reflexivity|lia].
  - destruct Hpm as (a & -> & Hb). rewrite Ha in Hb. cbn [fst snd res_fst]. split; [reflexivity|exact Hb].
  - exfalso. exact (parse_message_no_panic _ E).
Qed.

Lemma get_header_int_body n sl hs b1 b2 :
  get_header_int n {| m_start := sl; m_headers := hs; m_body := b1 |} =
  get_header_int n {| m_start := sl; m_headers := hs; m_body := b2 |}.
Proof. reflexivity. Qed.

(* a message is accepted only if its header section is closed by an empty line and the declared
   body lies entirely within the bytes given *)
Theorem parse_message_accepts_complete : forall d m rest,
  parse_message d = Ok (m, rest) ->
  exists hdr, d = hdr ++ m_body m ++ rest /\
    (exists h0, hdr = h0 ++ [LF; LF] \/ hdr = h0 ++ [LF; CR; LF]) /\
    get_header_int (s2b "Content-Length") m = Ok (Z.of_nat (List.length (m_body m))).
Proof.
  intros d m rest H.
  destruct (index_byte LF (trim_left d)) as [i|] eqn:Ei; [|exfalso; exact (parse_message_nolf _ _ _ Ei H)].
  unfold parse_message in H. rewrite (read_line_some _ _ Ei) in H.
  destruct (trim_left_suffix d) as (w & Hw). destruct (index_byte_some _ _ _ Ei) as (Hs & _ & _).
  destruct (strip_cr (firstn i (trim_left d))) as [|c l0]; [discriminate|].
  destruct (parse_start_line (c :: l0)) as [sl| |]; cbn [rbind] in H; try discriminate.
  destruct (parse_headers _ (skipn (S i) (trim_left d)) []) as [[hs rest1]| |] eqn:Eph; cbn [rbind] in H; try discriminate.
  destruct (get_header_int (s2b "Content-Length") {| m_start := sl; m_headers := hs; m_body := [] |}) as [cl| |] eqn:Ecl;
    cbn [rbind] in H; try discriminate.
  destruct (Z.ltb_spec cl 0) as [|Hneg]; [discriminate|].
  destruct (Z.ltb_spec (Z.of_nat (List.length rest1)) cl) as [|Hfits]; [discriminate|].
  injection H as <- <-. cbn [m_body].
  destruct (parse_headers_shape _ _ _ _ _ Eph) as (pre & b & Hshape).
  exists ((w ++ firstn i (trim_left d)) ++ pre ++ LF :: eol b). split; [|split].
  - rewrite firstn_skipn, <- !app_assoc. cbn [app]. rewrite <- Hshape, <- Hs. exact Hw.
  - exists ((w ++ firstn i (trim_left d)) ++ pre). destruct b; [right|left]; rewrite <- !app_assoc; reflexivity.
  - rewrite (get_header_int_body _ _ _ _ []), Ecl, firstn_length. f_equal. lia.
Qed.

Definition line_of (r : res (option bytes * rd)) : option bytes :=
  match r with Ok (Some l, _) => Some l | _ => None end.
Definition legacy_stream : bytes := s2b "SIP/2.0 404 Not Found" ++ [LF] ++ s2b "l: 0" ++ [LF; LF].
Fixpoint chop (k fuel : nat) (s : bytes) : list bytes :=
  match fuel with
  | O => []
  | S f => match s with [] => [] | _ => firstn k s :: chop k f (skipn k s) end
  end.

(* readLine as found: a line longer than the window (21 bytes, window 16) comes back overwritten,
   and differently for two segmentations of the same bytes; the repaired readLine returns the
   line for both *)
Theorem C11_legacy_refuted :
  exists size cs1 cs2, List.concat cs1 = List.concat cs2 /\ Forall nonempty cs1 /\ Forall nonempty cs2 /\
    line_of (read_line_legacy (new_reader size cs1)) <> line_of (read_line_legacy (new_reader size cs2)) /\
    line_of (read_line_legacy (new_reader size cs1)) <> Some (s2b "SIP/2.0 404 Not Found") /\
    line_of (read_line_c (new_reader size cs1)) = Some (s2b "SIP/2.0 404 Not Found") /\
    line_of (read_line_c (new_reader size cs2)) = Some (s2b "SIP/2.0 404 Not Found").
Proof.
  exists 16, [legacy_stream], (chop 1 100 legacy_stream).
  split; [vm_compute; reflexivity|].
  split; [repeat constructor; discriminate|].
  split; [vm_compute; repeat constructor; discriminate|].
  split; [vm_compute; discriminate|].
  split; [vm_compute; discriminate|].
  split; vm_compute; reflexivity.
Qed.

(* the same through the real window of the TCP path: a 5000-byte header line, window 4096; the
   code as found delivers a message with a garbled header, the specification (and the repaired
   code, by C11_framing) the message that was sent *)
Definition long_stream : bytes :=
  s2b "INVITE sip:a@h SIP/2.0" ++ [CR; LF] ++ s2b "X: " ++ repeat "v"%char 5000 ++ [CR; LF] ++
  s2b "Content-Length: 0" ++ [CR; LF; CR; LF].
Definition name_lengths (ms : list message) : list (list nat) :=
  map (fun m => map (fun h => List.length (h_name h)) (m_headers m)) ms.
Lemma names_refute (l r s : list message) (x y : list (list nat)) :
  name_lengths l = x -> name_lengths r = y -> x <> y -> r = s ->
  l <> s /\ r = s /\ List.length s = List.length y.
Proof.
  intros L R N F. subst s. split; [|split; [reflexivity|]].
  - intros E. apply N. rewrite <- L, <- R, E. reflexivity.
  - rewrite <- R. unfold name_lengths. rewrite map_length. reflexivity.
Qed.
Theorem C11_legacy_refuted_4096 :
  fst (fst (parse_conn_legacy_full 4096 [long_stream])) <>
    parse_stream (S (List.length long_stream)) long_stream /\
  parse_conn 4096 [long_stream] = parse_stream (S (List.length long_stream)) long_stream /\
  List.length (parse_stream (S (List.length long_stream)) long_stream) = 1.
Proof.
  (* the specification parser reverses every line to strip it (quadratic): it is not run on the
     5 KB stream; the repaired reader, which C11_framing proves equal to it, is, and only the
     lengths of the header names are compared *)
  assert (F : parse_conn 4096 [long_stream] = parse_stream (S (List.length long_stream)) long_stream).
  { pose proof (C11_framing 4096 [long_stream]) as F. cbn [List.concat] in F. rewrite app_nil_r in F.
    apply F; [repeat constructor; discriminate|vm_compute; discriminate]. }
  assert (L : name_lengths (fst (fst (parse_conn_legacy_full 4096 [long_stream]))) = [[923; 14]])
    by (vm_compute; reflexivity).
  assert (R : name_lengths (parse_conn 4096 [long_stream]) = [[1; 14]]) by (vm_compute; reflexivity).
  assert (N : [[923; 14]] <> [[1; 14]]) by discriminate.
  exact (names_refute _ _ _ _ _ L R N F).
Qed.

(* non-vacuity of C11_framing: a stream of two messages in 7-byte segments through a 16-byte window *)
Example C11_framing_ex :
  let s := legacy_stream ++ [CR; LF] ++ legacy_stream in
  Forall nonempty (chop 7 100 s) /\ List.concat (chop 7 100 s) = s /\
  List.length (parse_conn 16 (chop 7 100 s)) = 2.
Proof.
  cbv zeta. split; [vm_compute; repeat constructor; discriminate|]. split; vm_compute; reflexivity.
Qed.

(* C11 exactness: the specification parser returns exactly the encoded messages *)

Record raw_header := { rh_name : bytes; rh_lpad : bytes; rh_value : bytes; rh_rpad : bytes; rh_crlf : bool }.
Record raw_msg := { rm_lead : bytes; rm_line : bytes; rm_line_crlf : bool; rm_headers : list raw_header;
                    rm_blank_crlf : bool; rm_body : bytes }.
Definition encode_header (h : raw_header) : bytes :=
  rh_name h ++ ":"%char :: rh_lpad h ++ rh_value h ++ rh_rpad h ++ eol (rh_crlf h).
Definition encode_msg (m : raw_msg) : bytes :=
  rm_lead m ++ rm_line m ++ eol (rm_line_crlf m) ++ flat_map encode_header (rm_headers m) ++
  eol (rm_blank_crlf m) ++ rm_body m.
Definition encode_all (ms : list raw_msg) : bytes := flat_map encode_msg ms.
Definition start_of (m : raw_msg) : start_line :=
  match parse_start_line (rm_line m) with Ok sl => sl | _ => SResp [] 0%Z [] end.
Definition expected (m : raw_msg) : message :=
  {| m_start := start_of m;
     m_headers := map (fun h => {| h_name := rh_name h; h_val := HRaw (rh_value h) |}) (rm_headers m);
     m_body := rm_body m |}.
Definition is_pad (c : ascii) : Prop := c = " "%char \/ c = ascii_of_nat 9.
Definition no_eol (s : bytes) : Prop := ~ In CR s /\ ~ In LF s.
Definition wf_header (h : raw_header) : Prop :=
  no_eol (rh_name h) /\ ~ In ":"%char (rh_name h) /\
  Forall is_pad (rh_lpad h) /\ Forall is_pad (rh_rpad h) /\
  no_eol (rh_value h) /\ trim_space_go (rh_value h) = rh_value h.   (* no surrounding Unicode white space *)
Definition wf_msg (m : raw_msg) : Prop :=
  Forall (fun c => is_space c = true) (rm_lead m) /\
  (exists c r, rm_line m = c :: r /\ is_space c = false) /\ no_eol (rm_line m) /\
  is_ok (parse_start_line (rm_line m)) = true /\
  Forall wf_header (rm_headers m) /\
  get_header_int (s2b "Content-Length") (expected m) = Ok (Z.of_nat (List.length (rm_body m))).

(* ex_ in the names from here to C11_exact stands for "exactness" (what the encoder wrote is read
   back exactly); the ex_ declarations after it are examples *)
Lemma ex_pads_blank pad : Forall is_pad pad -> Forall (fun c => is_space c = true) pad.
Proof. apply Forall_impl. intros c [->| ->]; reflexivity. Qed.

Lemma ex_trim_left_fix s : List.length (trim_left s) = List.length s ->
  s = [] \/ exists c r, s = c :: r /\ is_space c = false.
Proof.
  destruct s as [|c r]; [left; reflexivity|]. cbn [trim_left].
  destruct (is_space c) eqn:E; intros H.
  - pose proof (trim_left_length r) as HL. cbn [List.length] in H. lia.
  - right. exists c, r. split; [reflexivity|exact E].
Qed.

Lemma ex_trim_space_fix v : trim_space v = v ->
  (v = [] \/ exists c r, v = c :: r /\ is_space c = false) /\ trim_right v = v.
Proof.
  intros H.
  assert (HL : List.length (trim_left v) = List.length v).
  { pose proof (trim_left_length v) as H1.
    pose proof (trim_left_length (rev (trim_left v))) as H2.
    rewrite rev_length in H2.
    assert (H3 : List.length (trim_space v) = List.length v) by (rewrite H; reflexivity).
    unfold trim_space, trim_right in H3. rewrite rev_length in H3. lia. }
  pose proof (ex_trim_left_fix v HL) as HF. split; [exact HF|].
  assert (HT : trim_left v = v).
  { destruct HF as [HF|[c [r [HF Hc]]]]; subst v; [reflexivity|].
    apply trim_left_nonblank. exact Hc. }
  unfold trim_space in H. rewrite HT in H. exact H.
Qed.

Lemma ex_read_line_lf l rest : ~ In LF l -> read_line (l ++ LF :: rest) = Some (strip_cr l, rest).
Proof.
  intros H. rewrite (read_line_some _ _ (index_byte_app_notin _ _ _ H)).
  rewrite firstn_length_app, skipn_S_length_app. reflexivity.
Qed.

Lemma ex_read_line_eol l b rest : ~ In LF l -> ~ In CR l ->
  read_line (l ++ eol b ++ rest) = Some (l, rest).
Proof.
  intros HL HC. destruct b; cbn [eol app].
  - change (l ++ CR :: LF :: rest) with (l ++ [CR] ++ LF :: rest).
    rewrite app_assoc. rewrite ex_read_line_lf.
    + rewrite strip_cr_snoc, Ascii.eqb_refl. reflexivity.
    + intros HI. apply in_app_or in HI. destruct HI as [HI|[HI|[]]]; [exact (HL HI)|discriminate HI].
  - rewrite ex_read_line_lf by exact HL. rewrite strip_cr_no_cr; [reflexivity|].
    intros i z -> Hz. apply HC. apply in_or_app. right. left. exact Hz.
Qed.

Definition ex_hline (h : raw_header) : bytes :=
  rh_name h ++ ":"%char :: rh_lpad h ++ rh_value h ++ rh_rpad h.
Definition ex_conv (h : raw_header) : header := {| h_name := rh_name h; h_val := HRaw (rh_value h) |}.

Lemma ex_encode_header_eq h : encode_header h = ex_hline h ++ eol (rh_crlf h).
Proof.
  unfold encode_header, ex_hline. rewrite <- app_assoc. cbn [app].
  rewrite <- !app_assoc. reflexivity.
Qed.

Lemma ex_hline_notin c h :
  c <> ":"%char -> ~ is_pad c -> ~ In c (rh_name h) -> ~ In c (rh_value h) ->
  Forall is_pad (rh_lpad h) -> Forall is_pad (rh_rpad h) -> ~ In c (ex_hline h).
Proof.
  intros Hc Hp Hn Hv Hl Hr HI. unfold ex_hline in HI.
  rewrite Forall_forall in Hl, Hr.
  apply in_app_or in HI. destruct HI as [HI|[HI|HI]]; [exact (Hn HI)|exact (Hc (eq_sym HI))|].
  apply in_app_or in HI. destruct HI as [HI|HI]; [exact (Hp (Hl _ HI))|].
  apply in_app_or in HI. destruct HI as [HI|HI]; [exact (Hv HI)|exact (Hp (Hr _ HI))].
Qed.

Lemma ex_hline_no_eol h : wf_header h -> ~ In LF (ex_hline h) /\ ~ In CR (ex_hline h).
Proof.
  intros [[HnC HnL] [_ [Hl [Hr [[HvC HvL] _]]]]].
  split; apply ex_hline_notin; try assumption; try discriminate;
    intros [HP|HP]; discriminate HP.
Qed.

Lemma ex_hline_nonempty h : ex_hline h <> [].
Proof. unfold ex_hline. destruct (rh_name h); discriminate. Qed.

Lemma ex_parse_header_line h : wf_header h -> parse_header_line (ex_hline h) = Ok (ex_conv h).
Proof.
  intros [_ [Hcol [Hl [Hr [_ Hv]]]]]. unfold parse_header_line, ex_hline.
  rewrite index_byte_app_notin by exact Hcol.
  rewrite firstn_length_app, skipn_S_length_app.
  rewrite trim_space_go_pads by (try apply ex_pads_blank; assumption). reflexivity.
Qed.

Lemma ex_flat_len hs : List.length hs <= List.length (flat_map encode_header hs).
Proof.
  induction hs as [|h hs IH]; cbn [flat_map List.length]; [lia|].
  rewrite app_length. rewrite ex_encode_header_eq, app_length.
  assert (0 < List.length (eol (rh_crlf h))) by (destruct (rh_crlf h); cbn; lia). lia.
Qed.

Lemma ex_parse_headers hs : Forall wf_header hs -> forall fuel acc b rest,
  List.length hs < fuel ->
  parse_headers fuel (flat_map encode_header hs ++ eol b ++ rest) acc =
  Ok (rev acc ++ map ex_conv hs, rest).
Proof.
  intros H. induction H as [|h hs Hh Hhs IH]; intros fuel acc b rest Hf.
  - destruct fuel as [|f]; [cbn [List.length] in Hf; lia|].
    cbn [flat_map app parse_headers map].
    pose proof (ex_read_line_eol [] b rest) as HR. cbn [app] in HR.
    rewrite HR by (intros HI; exact HI). rewrite app_nil_r. reflexivity.
  - destruct fuel as [|f]; [lia|]. cbn [List.length] in Hf.
    cbn [flat_map parse_headers map]. rewrite <- app_assoc.
    rewrite ex_encode_header_eq. rewrite <- app_assoc.
    destruct (ex_hline_no_eol h Hh) as [HL HC].
    rewrite ex_read_line_eol by assumption.
    pose proof (ex_hline_nonempty h) as HN.
    destruct (ex_hline h) as [|x l] eqn:E; [contradiction|]. rewrite <- E.
    rewrite ex_parse_header_line by exact Hh. cbn [rbind].
    rewrite IH by lia. cbn [rev]. rewrite <- app_assoc. reflexivity.
Qed.

Lemma ex_parse_message_unfold s l0 rest :
  read_line (trim_left s) = Some (l0, rest) -> l0 <> [] ->
  parse_message s =
  (let! st := parse_start_line l0 in
   let! (hs, rest1) := parse_headers (S (List.length rest)) rest [] in
   let m := {| m_start := st; m_headers := hs; m_body := [] |} in
   let! cl := get_header_int (s2b "Content-Length") m in
   if Z.ltb cl 0 then Err
   else if Z.ltb (Z.of_nat (List.length rest1)) cl then Err
   else let n := Z.to_nat cl in
        Ok ({| m_start := st; m_headers := hs; m_body := firstn n rest1 |}, skipn n rest1)).
Proof.
  intros H Hn. unfold parse_message. rewrite H.
  destruct l0 as [|c r]; [contradiction|reflexivity].
Qed.

Lemma parse_message_encoded : forall m rest, wf_msg m ->
  parse_message (encode_msg m ++ rest) = Ok (expected m, rest).
Proof.
  intros m rest [Hlead [[c [r [Hline Hc]]] [[HlC HlL] [Hok [Hhs Hcl]]]]].
  assert (Hread : read_line (trim_left (encode_msg m ++ rest)) =
                  Some (rm_line m, flat_map encode_header (rm_headers m) ++
                                   eol (rm_blank_crlf m) ++ rm_body m ++ rest)).
  { unfold encode_msg. rewrite <- !app_assoc.
    rewrite trim_left_blank by exact Hlead.
    assert (HT : forall x, trim_left (rm_line m ++ x) = rm_line m ++ x).
    { intros x. rewrite Hline. cbn [app]. apply trim_left_nonblank. exact Hc. }
    rewrite HT. apply ex_read_line_eol; assumption. }
  rewrite (ex_parse_message_unfold _ _ _ Hread) by (rewrite Hline; discriminate).
  assert (Hst : parse_start_line (rm_line m) = Ok (start_of m)).
  { unfold start_of. destruct (parse_start_line (rm_line m)); [reflexivity|discriminate Hok|discriminate Hok]. }
  rewrite Hst. cbn [rbind].
  rewrite (ex_parse_headers _ Hhs).
  2:{ pose proof (ex_flat_len (rm_headers m)) as HL. rewrite app_length. lia. }
  cbn [rbind rev app]. cbv zeta.
  unfold expected in Hcl. fold ex_conv in Hcl.
  rewrite (get_header_int_body _ _ _ (rm_body m) []) in Hcl. rewrite Hcl. cbn [rbind].
  rewrite (proj2 (Z.ltb_ge _ _)) by lia.
  rewrite (proj2 (Z.ltb_ge _ _)) by (rewrite app_length; lia).
  rewrite Nat2Z.id. rewrite firstn_length_app, skipn_length_app. reflexivity.
Qed.

Lemma ex_encode_msg_len m : wf_msg m -> 0 < List.length (encode_msg m).
Proof.
  intros [_ [[c [r [Hline _]]] _]]. unfold encode_msg.
  rewrite app_length, app_length, Hline. cbn [List.length]. lia.
Qed.

Lemma ex_encode_all_len ms : Forall wf_msg ms -> List.length ms <= List.length (encode_all ms).
Proof.
  intros H. induction H as [|m ms Hm Hms IH]; cbn [encode_all flat_map List.length]; [lia|].
  rewrite app_length. pose proof (ex_encode_msg_len m Hm) as HL. fold (encode_all ms). lia.
Qed.

Lemma ex_parse_stream_tail fuel tail :
  Forall (fun c => is_space c = true) tail -> parse_stream fuel tail = [].
Proof.
  intros H. destruct fuel as [|f]; [reflexivity|]. cbn [parse_stream].
  unfold parse_message. rewrite trim_left_all_blank by exact H. reflexivity.
Qed.

Lemma ex_parse_stream_gen ms : Forall wf_msg ms -> forall fuel tail,
  Forall (fun c => is_space c = true) tail -> List.length ms < fuel ->
  parse_stream fuel (encode_all ms ++ tail) = map expected ms.
Proof.
  intros H. induction H as [|m ms Hm Hms IH]; intros fuel tail Ht Hf.
  - cbn [encode_all flat_map app map]. apply ex_parse_stream_tail. exact Ht.
  - destruct fuel as [|f]; [lia|]. cbn [List.length] in Hf.
    cbn [encode_all flat_map parse_stream map]. rewrite <- app_assoc.
    rewrite parse_message_encoded by exact Hm. fold (encode_all ms).
    rewrite IH by (try exact Ht; lia). reflexivity.
Qed.

Theorem C11_exact : forall ms tail,
  Forall wf_msg ms -> Forall (fun c => is_space c = true) tail ->
  parse_stream (S (List.length (encode_all ms ++ tail))) (encode_all ms ++ tail) = map expected ms.
Proof.
  intros ms tail Hms Ht. apply ex_parse_stream_gen; [exact Hms|exact Ht|].
  pose proof (ex_encode_all_len ms Hms) as HL. rewrite app_length. lia.
Qed.

(* non-vacuity: a request (CRLF ends, compact `l: 4`, a body containing CR LF) and a
   response (LF ends, empty body) preceded by a keep-alive CRLF *)
Definition ex_req : raw_msg :=
  {| rm_lead := [];
     rm_line := s2b "INVITE sip:bob@example.com SIP/2.0";
     rm_line_crlf := true;
     rm_headers :=
       [ {| rh_name := s2b "Call-ID"; rh_lpad := s2b " "; rh_value := s2b "a84b4c76e66710";
            rh_rpad := []; rh_crlf := true |};
         {| rh_name := s2b "l"; rh_lpad := s2b " "; rh_value := s2b "4";
            rh_rpad := [" "%char; ascii_of_nat 9]; rh_crlf := true |} ];
     rm_blank_crlf := true;
     rm_body := ["a"%char; CR; LF; "b"%char] |}.
Definition ex_resp : raw_msg :=
  {| rm_lead := [CR; LF];
     rm_line := s2b "SIP/2.0 200 OK";
     rm_line_crlf := false;
     rm_headers :=
       [ {| rh_name := s2b "Content-Length"; rh_lpad := []; rh_value := s2b "0";
            rh_rpad := []; rh_crlf := false |} ];
     rm_blank_crlf := false;
     rm_body := [] |}.

Ltac ex_notin := apply index_byte_none; vm_compute; reflexivity.
Ltac ex_pads := repeat (constructor; [first [left; reflexivity | right; reflexivity]|]); try constructor.
Ltac ex_wf_header :=
  split; [split; ex_notin|];
  split; [ex_notin|];
  split; [ex_pads|];
  split; [ex_pads|];
  split; [split; ex_notin|];
  vm_compute; reflexivity.

Example ex_two_wf : Forall wf_msg [ex_req; ex_resp].
Proof.
  constructor; [|constructor; [|constructor]].
  - split; [constructor|].
    split; [eexists; eexists; split; [vm_compute; reflexivity|reflexivity]|].
    split; [split; ex_notin|].
    split; [vm_compute; reflexivity|].
    split; [|vm_compute; reflexivity].
    constructor; [ex_wf_header|]. constructor; [ex_wf_header|]. constructor.
  - split; [repeat constructor|].
    split; [eexists; eexists; split; [vm_compute; reflexivity|reflexivity]|].
    split; [split; ex_notin|].
    split; [vm_compute; reflexivity|].
    split; [|vm_compute; reflexivity].
    constructor; [ex_wf_header|]. constructor.
Qed.

Example ex_two_parsed :
  parse_stream (S (List.length (encode_all [ex_req; ex_resp] ++ [CR; LF])))
               (encode_all [ex_req; ex_resp] ++ [CR; LF]) = map expected [ex_req; ex_resp].
Proof. apply C11_exact; [exact ex_two_wf|repeat constructor]. Qed.

Example ex_two_is_request_response :
  map is_request (map expected [ex_req; ex_resp]) = [true; false] /\
  map m_body (map expected [ex_req; ex_resp]) = [["a"%char; CR; LF; "b"%char]; []].
Proof. split; vm_compute; reflexivity. Qed.

Print Assumptions parse_message_encoded.

(* both together: the real reader model over any segmentation of any well-formed sequence *)
Theorem C11_exact_segmented : forall size cs ms tail,
  Forall wf_msg ms -> Forall (fun c => is_space c = true) tail ->
  Forall nonempty cs -> List.concat cs = encode_all ms ++ tail ->
  (2 * Z.of_nat (List.length (List.concat cs)) <= make_limit)%Z ->
  parse_conn size cs = map expected ms.
Proof.
  intros size cs ms tail Hms Htail Hne Hcat Hlim.
  rewrite (C11_framing size cs Hne Hlim), Hcat. apply C11_exact; assumption.
Qed.

Print Assumptions read_slice_abs.
Print Assumptions C11_framing.
Print Assumptions C11_exact_segmented.
Print Assumptions C11_legacy_refuted.
Print Assumptions udp_parse_abs.
