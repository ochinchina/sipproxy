(* proofs/C06_bridge.v — JUDGE BRIDGE for property C06 (one fresh top Via naming the transport the request
   leaves through, new branch, directly above the received Via headers; own Record-Route entry ahead of the
   others iff one is present or must-record-route is set).

   The executable judge [SpecProxy.judge_C06_event] reads raw bytes with its own minimal reader and predicts,
   from the text of the request alone, WHICH listener identity (if any) the proxy must put on top: it
   re-computes the hop choice (j_choose: Route / static route by To / service match by Request-URI) and looks
   the next-hop host up in its own learned table (js_learned, updated by j_learn).  This file proves that it
   ACCEPTS (returns 0) what the MODEL emits for a message that arrived on one of its listeners: the general
   statements speak of the judge's record [i : jin] of the input (not a dialled connection) and of the transport
   [listener_transport lc (ji_tcp i)]; the datagram theorems are their instances at [jin_udp ..], those for an
   accepted connection (proofs/C06_bridge_tcp.v) at [jin_tcp ..].

   Model side: every byte-carrying output is write_message mo with mo [good] (C07_bridge), with the Via view of
   C07_pipeline, own entry pushed or not, and the Record-Route HEADERS (own header ahead of the received ones,
   untouched), according to C03.effective_hop and the learned table (C06_outputs_g).  Judge side: one such output
   is accepted (c06_check_ok) when the identity the judge expects is the one the model uses (ident_agree_g), which
   holds on the grammar domain (hop_agree_g, j_learn_agree_g). *)
From Coq Require Import List Ascii String ZArith NArith Bool Arith Lia.
From Model Require Import Bytes BytesLemmas Wire Uri Hdr Message Msg Rx Glob StaticRoute RoundRobin Pins
     Proxy RunProxy SpecProxy SpecC14.
From Model.proofs Require Import C14_uri C14_hdr MsgLemmas Pipeline MsgStages C06 C01 C13 C03.
From Model.proofs Require C07 C14_via C07_bridge C13_bridge C03_bridge.
Import ListNotations.
Open Scope list_scope.
Module B7 := C07_bridge.
Module B13 := C13_bridge.

Notation RRn := (s2b "Record-Route") (only parsing).

Definition must_of (e : env) : bool := pa_must_rr (wire_proxy (e_lc e)).

(* what the proxy makes of [m1] when it inserts itself for transport [t] *)
Lemma pushed_desc e t m1 :
  B7.t_ok (e_branch e) t -> B7.good m1 ->
  let mo := px_add_record_route (must_of e) t (px_add_via e t m1) in
  B7.good mo /\ m_start mo = m_start m1 /\ m_body mo = m_body m1 /\
  C07.via_hdrs mo = Some [C07.own_via (e_branch e) t] :: C07.via_hdrs m1 /\
  sel RRn (m_headers mo) =
    (if (has_header RRn m1 || must_of e)%bool
     then own_rr_header t :: sel RRn (m_headers m1) else sel RRn (m_headers m1)).
Proof.
  intros Ht G mo.
  destruct (B7.pushed_sb e (must_of e) t m1) as [Sa Sb].
  split; [apply B7.good_pushed; assumption|]. split; [exact Sa|]. split; [exact Sb|].
  split; [apply C07.pushed_view|].
  destruct (C06_via_pushed e t m1) as (_ & _ & _ & _ & _ & Fr).
  assert (FR : frame RRn m1 (px_add_via e t m1)) by (apply Fr; reflexivity).
  pose proof (C06_rr_policy (must_of e) t (px_add_via e t m1)) as P.
  rewrite (has_header_frame _ _ _ FR) in P.
  subst mo. destruct (has_header RRn m1 || must_of e)%bool.
  - destruct P as (_ & _ & _ & S & _). rewrite S. f_equal. exact (proj1 FR).
  - rewrite P. exact (proj1 FR).
Qed.

(* [mo] against the received request [m]: good, same start line and body, the Via view of C07_pipeline
   beneath the own entry of [t] (if any), the Record-Route headers of [m] beneath the own header (by policy) *)
Definition relayed6 (br : bytes) (must rs : bool) (src : bytes) (sport : Z) (m : message)
           (t : option stransport) (mo : message) : Prop :=
  B7.good mo /\ m_start mo = m_start m /\ m_body mo = m_body m /\
  match t with
  | Some t =>
      C07.via_hdrs mo = Some [C07.own_via br t] :: C07.stamp_hdrs rs src sport (C07.via_hdrs m) /\
      sel RRn (m_headers mo) =
        (if (has_header RRn m || must)%bool then own_rr_header t :: sel RRn (m_headers m) else sel RRn (m_headers m))
  | None =>
      C07.via_hdrs mo = C07.stamp_hdrs rs src sport (C07.via_hdrs m) /\
      sel RRn (m_headers mo) = sel RRn (m_headers m)
  end.

Lemma relayed6_frame br must rs src sport m t m1 m2 :
  relayed6 br must rs src sport m t m1 -> B7.good m2 -> C07.veq m1 m2 -> frame RRn m1 m2 ->
  relayed6 br must rs src sport m t m2.
Proof.
  intros (_ & S & B & K) G (Va & Vb & Vc) (Fa & _).
  split; [exact G|]. split; [congruence|]. split; [congruence|].
  destruct t as [t|]; destruct K as (K1 & K2); split; congruence.
Qed.

Lemma relayed6_push e rs src sport m m1 t :
  relayed6 (e_branch e) (must_of e) rs src sport m None m1 -> B7.t_ok (e_branch e) t ->
  relayed6 (e_branch e) (must_of e) rs src sport m (Some t)
           (px_add_record_route (must_of e) t (px_add_via e t m1)).
Proof.
  intros (G & S & B & K1 & K2) Ht.
  destruct (pushed_desc e t m1 Ht G) as (G' & S' & B' & V' & R').
  split; [exact G'|]. split; [congruence|]. split; [congruence|]. split; [rewrite V', K1; reflexivity|].
  rewrite R', K2. rewrite !has_header_sel, K2. reflexivity.
Qed.

(* sendMessage of the routed request, decorated when the hop host is learned *)
Lemma sm_branch e host port tr rs src sport m m1 x :
  relayed6 (e_branch e) (must_of e) rs src sport m None m1 -> B7.learned_ok (e_branch e) (x_learned x) ->
  exists extra,
    x_outs (fst (send_message e host port tr (decorate e (x_learned x) host m1) x)) = x_outs x ++ extra /\
    forall o, In o extra -> is_msg o = true ->
      exists mo, snd o = write_message mo /\
                 relayed6 (e_branch e) (must_of e) rs src sport m (alookup host (x_learned x)) mo.
Proof.
  intros Rl HL.
  destruct (send_message_one_msg e host port tr (decorate e (x_learned x) host m1) x)
    as (Sm & _ & extra & O & (_ & Fo) & _).
  exists extra. split; [exact O|]. intros o Io Mo. rewrite Forall_forall in Fo.
  eexists. split; [exact (Fo o Io Mo)|]. rewrite Sm.
  assert (RD : relayed6 (e_branch e) (must_of e) rs src sport m (alookup host (x_learned x))
                        (decorate e (x_learned x) host m1)).
  { unfold decorate. destruct (alookup host (x_learned x)) as [t|] eqn:A; [|exact Rl].
    apply relayed6_push; [exact Rl|exact (HL _ _ A)]. }
  eapply relayed6_frame; [exact RD| | |].
  - apply (B7.gpres_mtry _ B7.gpres_s_client_transaction). exact (proj1 RD).
  - apply (mpres_mtry C07.veq _ (mpres_s_client_transaction _ C07.veq C07.veq_edits I I)).
  - apply (mframe_try _ _ (mframe_client_transaction _ dj_RR_Via dj_RR_CSeq) _).
Qed.

(* sendToBackend *)
Lemma bk_branch e rs src sport m m1 x :
  relayed6 (e_branch e) (must_of e) rs src sport m None m1 ->
  (forall t0, first_transport (e_lc e) = Some t0 -> B7.t_ok (e_branch e) t0) ->
  exists extra, x_outs (fst (send_to_backend e m1 x)) = x_outs x ++ extra /\
    forall o, In o extra -> is_msg o = true ->
      exists mo, snd o = write_message mo /\
        exists t0, first_transport (e_lc e) = Some t0 /\
                   relayed6 (e_branch e) (must_of e) rs src sport m (Some t0) mo.
Proof.
  intros Rl HF. destruct (send_to_backend_shape e m1 x) as (_ & extra & O & D). exists extra. split; [exact O|].
  destruct D as [->|(t0 & a & d & FT & _ & -> & _)]; [intros o []|].
  intros o [<-|[]] _. eexists. split; [reflexivity|]. exists t0. split; [exact FT|].
  unfold backend_message. apply relayed6_push; [|exact (HF t0 FT)].
  eapply relayed6_frame; [exact Rl| | |].
  - exact (mpres_find_backend_by_dialog _ _ B7.good_edits e (x_p x) I I I m1 (proj1 Rl)).
  - apply (mpres_find_backend_by_dialog _ C07.veq C07.veq_edits _ _ I I I).
  - apply (mframe_find_backend_by_dialog _ dj_RR_CSeq dj_RR_From dj_RR_To).
Qed.

(* stamping rewrites the top Via entry only *)
Lemma stamp_view peer pp rs m0 m1 :
  is_request m0 = true -> C07.veq m0 m1 -> B7.good m1 -> B7.src_ok peer ->
  let m2 := stage_stamp peer pp rs m1 in
  B7.good m2 /\ m_start m2 = m_start m0 /\ m_body m2 = m_body m0 /\
  C07.via_hdrs m2 = C07.stamp_hdrs rs peer pp (C07.via_hdrs m0) /\
  forall nm, disjoint_names nm (s2b "Via") -> frame nm m1 m2.
Proof.
  intros R V1 G1 Hs. cbv zeta. unfold stage_stamp. rewrite (C07.veq_is_request _ _ V1), R. cbn [andb].
  destruct V1 as (A & B & C). destruct rs.
  - destruct (C07.s_set_received_view peer pp m1) as (S1 & S2 & S3).
    split; [apply B7.gpres_s_set_received; assumption|]. rewrite S1, S2, S3, A, B, C.
    split; [reflexivity|]. split; [reflexivity|]. split; [reflexivity|].
    intros nm DV. apply (mframe_set_received nm DV).
  - split; [exact G1|]. split; [exact A|]. split; [exact B|]. split; [exact C|]. intros nm _. apply frame_refl.
Qed.

(* A REQUEST UP TO HandleMessage, whatever it arrived on ([tcp]: the connection, remembered for the responses;
   that stage decodes Via and CSeq in place and may change the proxy object) *)
Lemma pm_request6 e peer pp from rs tcp m0 x x' :
  is_request m0 = true -> B7.good m0 -> B7.src_ok peer -> B7.t_ok (e_branch e) from ->
  B7.learned_ok (e_branch e) (x_learned x) ->
  process_message e peer pp from rs tcp m0 x = Ok x' ->
  exists m4 p1,
    (forall nm, disjoint_names nm (s2b "Via") -> disjoint_names nm (s2b "Route") ->
                disjoint_names nm (s2b "CSeq") -> frame nm m0 m4) /\
    relayed6 (e_branch e) (must_of e) rs peer pp m0 None m4 /\
    route_view m4 = drop_own (e_cfg e) from (route_view m0) /\
    B7.learned_ok (e_branch e) (learned_after peer from m0 x) /\
    is_request m4 = true /\
    x' = fst (handle_message e from m4 (ctx_with x (learned_after peer from m0 x) p1)).
Proof.
  intros R G0 Hs Hf HL EP.
  destruct (B7.request_reach _ _ _ _ _ _ _ _ _ R EP) as (m1 & m3 & p1 & E1 & E2 & Q1 & Q4 & ->).
  rewrite (stage_learn_learned peer from m0 x).
  pose proof (all_learned_after (B7.t_ok (e_branch e)) peer from m0 x Hf HL) as HL1.
  destruct (stamp_view peer pp rs m0 m1 R (E1 _ _ C07.veq_edits (B7.all_any _)) (E1 _ _ B7.good_edits (B7.all_any _) G0) Hs)
    as (G2 & S2 & B2 & V2 & F2).
  set (m2 := stage_stamp peer pp rs m1) in *. set (m4 := stage_route e from m3) in *.
  pose proof (B7.edited_route e from m3) as E4. fold m4 in E4.
  destruct (C07.veq_trans _ _ _ (E2 _ _ C07.veq_edits (B7.all_any _)) (E4 _ _ C07.veq_edits C07.veq_pop_route (B7.all_any _)))
    as (A4 & B4 & C4).
  pose proof (E4 _ _ B7.good_edits B7.good_pop_route (B7.all_any _) (E2 _ _ B7.good_edits (B7.all_any _) G2)) as G4.
  assert (F03 : forall nm, disjoint_names nm (s2b "Via") -> disjoint_names nm (s2b "CSeq") -> frame nm m0 m3).
  { intros nm DV DC. eapply frame_trans; [exact (E1 _ _ (frame_edits nm) (Forall_cons _ DV (Forall_nil _)))|].
    eapply frame_trans; [exact (F2 nm DV)|].
    exact (E2 _ _ (frame_edits nm) (Forall_cons _ DV (Forall_cons _ DC (Forall_nil _)))). }
  assert (F04 : forall nm, disjoint_names nm (s2b "Via") -> disjoint_names nm (s2b "Route") ->
                           disjoint_names nm (s2b "CSeq") -> frame nm m0 m4).
  { intros nm DV DR DC. eapply frame_trans; [exact (F03 nm DV DC)|].
    exact (E4 _ _ (frame_edits nm) (frame_pop_route nm DR) (Forall_cons _ DR (Forall_nil _))). }
  exists m4, p1. split; [exact F04|]. split.
  { split; [exact G4|]. split; [congruence|]. split; [congruence|]. split; [congruence|].
    exact (proj1 (F04 _ dj_RR_Via dj_RR_Route dj_RR_CSeq)). }
  split.
  { unfold m4, stage_route. rewrite try_remove_top_route_pops_iff_own.
    rewrite (route_view_frame m0 m3 (F03 _ dj_Route_Via dj_Route_CSeq)). reflexivity. }
  split; [exact HL1|]. split; [exact Q4|reflexivity].
Qed.

(* what a hop prescribes for an output *)
Definition post6 (e : env) (rs : bool) (src : bytes) (sport : Z) (m0 : message) (L : learned) (h : hop)
           (mo : message) : Prop :=
  match h with
  | HopAddr host _ _ => relayed6 (e_branch e) (must_of e) rs src sport m0 (alookup host L) mo
  | HopBackend => exists t0, first_transport (e_lc e) = Some t0 /\
                             relayed6 (e_branch e) (must_of e) rs src sport m0 (Some t0) mo
  | _ => False
  end.

(* (The lemmas with suffix _g are general in the receiving transport: a datagram or a connection.  The
   UDP statements of this file and those of C06_bridge_tcp.v are their instances.)
   MODEL SIDE.  For EVERY request, whatever it arrived on: each byte-carrying output is the serialisation of a
   [good] message that is the received one with the sender entry stamped, and with the proxy's Via / Record-Route
   of the transport the next-hop host was learned through (sendMessage), of the listener's first transport
   (sendToBackend) *)
Theorem C06_outputs_g : forall e peer pp from rs tcp m0 x x',
  is_request m0 = true -> B7.good m0 -> B7.src_ok peer -> B7.t_ok (e_branch e) from ->
  B7.learned_ok (e_branch e) (x_learned x) ->
  (forall t0, first_transport (e_lc e) = Some t0 -> B7.t_ok (e_branch e) t0) ->
  process_message e peer pp from rs tcp m0 x = Ok x' ->
  exists extra, x_outs x' = x_outs x ++ extra /\
    forall o, In o extra -> is_msg o = true ->
      exists mo, snd o = write_message mo /\
                 post6 e rs peer pp m0 (learned_after peer from m0 x) (effective_hop (e_cfg e) from m0) mo.
Proof.
  intros e peer pp from rs tcp m0 x x' R G0 Hs Hf HL HF H.
  destruct (pm_request6 _ _ _ _ _ _ _ _ _ R G0 Hs Hf HL H) as (m4 & p1 & F & Rl4 & V4 & HL1 & R4 & ->).
  rewrite (request_dispatch e from m0 m4 _ R4 V4 (F _ dj_To_Via dj_To_Route dj_To_CSeq)). cbv zeta.
  set (keep := c_keep_next_hop (e_cfg e)). set (rt := route_table_of (e_cfg e)).
  set (L1 := learned_after peer from m0 x) in *. set (x1 := ctx_with x L1 p1).
  assert (Rl1 : relayed6 (e_branch e) (must_of e) rs peer pp m0 None (fst (next_request_hop keep rt m4))).
  { apply (relayed6_frame _ _ _ _ _ _ _ _ _ Rl4).
    - exact (mpres_next_request_hop _ _ B7.good_edits keep rt I I B7.good_pop_route m4 (proj1 Rl4)).
    - apply (mpres_next_request_hop _ C07.veq C07.veq_edits _ _ I I C07.veq_pop_route).
    - exact (frame_next_request_hop RRn keep rt m4 dj_RR_Route dj_RR_To). }
  assert (NIL : exists extra, x_outs x1 = x_outs x ++ extra /\
            forall o, In o extra -> is_msg o = true -> exists mo : message, snd o = write_message mo /\ False).
  { exists []. split; [symmetry; apply app_nil_r|]. intros o []. }
  destruct (effective_hop (e_cfg e) from m0) as [host port tr| | |]; cbn [post6 fst].
  - exact (sm_branch e host port tr rs peer pp m0 _ x1 Rl1 HL1).
  - exact (bk_branch e rs peer pp m0 _ x1 Rl1 HF).
  - exact NIL.
  - exact NIL.
Qed.

(* the host the judge looks up in its learned table *)
Definition c06_host (c : cfg) (lc : listen_cfg) (tcp : bool) (q : jreq) : option bytes :=
  let remaining := match jq_routes q with e :: r => if j_own c lc tcp e then r else e :: r | [] => [] end in
  match remaining with
  | e :: _ => Some (ju_host (j_entry_uri e))
  | [] => match jq_to q with
          | Some t => match find_route (route_table_of c) (ju_host (j_entry_uri t)) with
                      | Some it => Some (ri_host it) | None => None end
          | None => None end
  end.
(* which listener identity, if any, the judge wants on top *)
Definition c06_ident (c : cfg) (lc : listen_cfg) (tcp : bool) (q : jreq) (learned : list (bytes * (nat * bool)))
  : option (bytes * bytes * Z) :=
  match j_choose c lc tcp q with
  | HBackend => Some (first_of lc)
  | HHop _ =>
      match c06_host c lc tcp q with
      | Some h => match alookup h learned with
                  | Some (li', tcp') => jident_of c li' tcp'
                  | None => None end
      | None => None
      end
  | _ => None
  end.
(* the must-Record-Route flag the judge expects; it is the listener's, whatever the hop (c06_must_eq) *)
Definition c06_must (lc : listen_cfg) (hop : jhop) : bool :=
  match hop with HBackend => lc_must_rr lc | _ => lc_must_rr lc end.
Lemma c06_must_eq lc hop : c06_must lc hop = lc_must_rr lc.
Proof. destruct hop; reflexivity. Qed.

(* the judge's verdict on one output *)
Definition c06_check (br : bytes) (ident : option (bytes * bytes * Z)) (must : bool) (ivs : list jvia)
           (in_rr : list bytes) (o : bytes * bytes) : nat :=
  match j_read (snd o) with
  | Some om =>
      match opt_all (map j_via (j_flat_via (jm_headers om))) with
      | Some ovs =>
          let out_rr := j_flat is_rr (jm_headers om) in
          match ident with
          | Some (proto, addr, port) =>
              match ovs with
              | top :: rest =>
                  if negb (beq (jv_transport top) proto && beq (jv_host top) addr &&
                           match jv_port top with
                           | Some p => negb (Z.eqb port 0) && Z.eqb p port
                           | None => Z.eqb port 0 end &&
                           Nat.eqb (List.length rest) (List.length ivs) &&
                           forallb (fun '(a, b) => beq (jv_host a) (jv_host b) && beq (jv_proto a) (jv_proto b))
                                   (combine rest ivs))%bool then 1%nat
                  else if negb (match j_get (s2b "branch") (jv_params top) with
                                | Some b => beq b br | None => false end) then 3%nat
                  else
                    let own_rr := if Z.eqb port 0 then s2b "<sip:" ++ addr ++ s2b ";lr>"
                                  else s2b "<sip:" ++ addr ++ ":"%char :: itoa port ++ s2b ";lr>" in
                    let want_rr := if (match in_rr with [] => false | _ => true end || must)%bool
                                   then own_rr :: in_rr else in_rr in
                    if (Nat.eqb (List.length out_rr) (List.length want_rr) &&
                        forallb (fun '(a, b) => beq a b) (combine out_rr want_rr))%bool then O else 2%nat
              | [] => 1%nat
              end
          | None =>
              if negb (Nat.eqb (List.length ovs) (List.length ivs)) then 1%nat
              else if (Nat.eqb (List.length out_rr) (List.length in_rr) &&
                       forallb (fun '(a, b) => beq a b) (combine out_rr in_rr))%bool then O else 2%nat
          end
      | None => 1%nat
      end
  | None => O
  end.

Definition jin_udp (li : nat) (src : bytes) (sport : Z) (data : bytes) : jin :=
  {| ji_li := li; ji_tcp := false; ji_conn := 0; ji_src := src; ji_sport := sport; ji_data := data |}.
Definition jin_tcp (li cid : nat) (ip : bytes) (port : Z) (data : bytes) : jin :=
  {| ji_li := li; ji_tcp := true; ji_conn := cid; ji_src := ip; ji_sport := port; ji_data := data |}.

(* the judge on an input that did not arrive on a connection the proxy had dialled, spelled with the names above:
   the body of SpecProxy.judge_C06_event after [j_input] (judge_C06_verdict holds by computation) *)
Definition c06_verdict (pc : proxy_case) (st : jstate) (i : jin) (outs : list (bytes * bytes)) : nat :=
  match j_read (ji_data i), nth_opt (c_listens (pc_cfg pc)) (ji_li i) with
  | Some m, Some lc =>
      if (negb (j_is_response m) && jm_has_cl m && (negb (ji_tcp i) || single_message m))%bool then
        match j_request m, opt_all (map j_via (j_flat_via (jm_headers m))) with
        | Some q, Some ivs =>
            if match j_choose (pc_cfg pc) lc (ji_tcp i) q with HOut => true | _ => false end then O else
            first_nonzero
              (map (c06_check (branch_of (js_event st))
                              (c06_ident (pc_cfg pc) lc (ji_tcp i) q (j_learn st i m))
                              (c06_must lc (j_choose (pc_cfg pc) lc (ji_tcp i) q)) ivs (j_flat is_rr (jm_headers m)))
                   (msgs_of outs))
        | _, _ => O
        end
      else O
  | _, _ => O
  end.
Lemma judge_C06_verdict pc st ev i outs closed : j_input st ev = Some i -> ji_dialled st i = false ->
  judge_C06_event pc st ev outs closed = c06_verdict pc st i outs.
Proof. intros I D. unfold judge_C06_event. rewrite I. cbv zeta. rewrite D. reflexivity. Qed.

Lemma judge_C06_nil pc st ev closed : judge_C06_event pc st ev [] closed = 0%nat.
Proof.
  unfold judge_C06_event. cbv zeta.
  destruct (j_input st ev) as [i|]; [|reflexivity].
  destruct (j_read (ji_data i)) as [jm|]; [|reflexivity].
  destruct (nth_opt (c_listens (pc_cfg pc)) (ji_li i)) as [lc|]; [|reflexivity].
  destruct (_ && _)%bool; [|reflexivity].
  destruct (j_request jm) as [q|]; [|reflexivity].
  destruct (opt_all _); [|reflexivity].
  destruct (j_choose_d _ _ _ _ _); reflexivity.
Qed.

Lemma dj_RR_CL : disjoint_names RRn (s2b "Content-Length").
Proof. apply disjoint_of_bool; reflexivity. Qed.

(* an output of the model, read by the judge *)
Lemma c06_read mo : B7.good mo -> start_ok (start_line_print (m_start mo)) ->
  (Z.of_nat (List.length (m_body mo)) <= int_max)%Z ->
  exists om, j_read (write_message mo) = Some om /\
    opt_all (map j_via (j_flat_via (jm_headers om))) = Some (map B7.jv_of (C07.flat_view (C07.via_hdrs mo))) /\
    j_flat is_rr (jm_headers om) = B13.tview (sel RRn (m_headers mo)).
Proof.
  intros G S B. eexists.
  split; [apply C01_single_content_length_read; [apply B7.good_line_safe; exact G|exact S|exact B]|].
  cbn [jm_headers]. split.
  - rewrite (B7.via_read _ (B7.emitted_good _ G)), B7.emitted_view. reflexivity.
  - unfold j_flat. rewrite (B7.j_entries_sel _ is_rr RRn _ same_header_rr), (B7.sel_emitted _ _ dj_RR_CL). reflexivity.
Qed.

(* the Via stack beneath the pushed entry: same hosts, same protocols *)
Definition hp_eq (p : jvia * jvia) : bool :=
  let '(a, b) := p in (beq (jv_host a) (jv_host b) && beq (jv_proto a) (jv_proto b))%bool.
Lemma hp_all_refl l : forallb (fun '(a, b) => beq (jv_host a) (jv_host b) && beq (jv_proto a) (jv_proto b))%bool
                              (combine l l) = true.
Proof. induction l as [|a l IH]; [reflexivity|]. cbn [combine forallb]. rewrite !beq_refl, IH. reflexivity. Qed.

Lemma stamp_compat (rs : bool) src sport vh :
  B7.allsome vh ->
  let ovs := map B7.jv_of (C07.flat_view (C07.stamp_hdrs rs src sport vh)) in
  let ivs := map B7.jv_of (C07.flat_view vh) in
  List.length ovs = List.length ivs /\
  forallb (fun '(a, b) => beq (jv_host a) (jv_host b) && beq (jv_proto a) (jv_proto b))%bool (combine ovs ivs) = true.
Proof.
  intros F. cbv zeta. rewrite (B7.flat_stamp rs src sport vh F).
  destruct (C07.flat_view vh) as [|v t]; [split; reflexivity|].
  cbn [map List.length combine forallb]. split; [reflexivity|]. rewrite hp_all_refl, andb_true_r.
  destruct rs; [|rewrite !beq_refl; reflexivity].
  unfold B7.jv_of. cbn [jv_host jv_proto C07.stamp v_name v_version v_transport v_host]. rewrite !beq_refl. reflexivity.
Qed.

(* the proxy's own Record-Route header, read by the judge *)
Definition own_rr_text (addr : bytes) (port : Z) : bytes :=
  s2b "<sip:" ++ addr ++ ":"%char :: itoa port ++ s2b ";lr>".

Lemma own_rr_hT t : safe1 (t_addr t) = true -> t_port t <> 0%Z ->
  B13.hT (own_rr_header t) = [own_rr_text (t_addr t) (t_port t)].
Proof.
  intros Ha P. unfold B13.hT, B7.hentries, own_rr_header. cbn [h_val hval_print]. rewrite (own_record_route_text t P).
  fold (own_rr_text (t_addr t) (t_port t)). set (X := own_rr_text (t_addr t) (t_port t)).
  apply safe1_parts in Ha. destruct Ha as [_ Ha].
  assert (NC : ~ In ","%char X).
  { unfold X, own_rr_text. intros I. apply in_app_or in I. destruct I as [I|I]; [vm_compute in I; intuition discriminate|].
    apply in_app_or in I. destruct I as [I|[I|I]]; [exact (safe_no_comma _ Ha I)|discriminate I|].
    apply in_app_or in I. destruct I as [I|I]; [exact (C14_via.itoa_no_comma _ I)|vm_compute in I; intuition discriminate]. }
  assert (T : trim_space_go X = X).
  { apply B7.trim_fix_iff. split.
    - unfold X, own_rr_text. change (s2b "<sip:") with ("<"%char :: s2b "sip:"). cbn [app].
      apply B7.lclean_ascii_start; reflexivity.
    - replace X with ((s2b "<sip:" ++ t_addr t ++ ":"%char :: itoa (t_port t)) ++ s2b ";lr>")
        by (unfold X, own_rr_text; rewrite <- !app_assoc; reflexivity).
      apply B7.rclean_tail_clean; [discriminate|reflexivity]. }
  rewrite trim_space_go_sp by reflexivity. rewrite T.
  change X with (join_byte ","%char [X]) at 1. rewrite split_join; [|discriminate|constructor; [exact NC|constructor]].
  cbn [map]. rewrite T. reflexivity.
Qed.

Lemma hT_nonnil h : B13.hT h <> [].
Proof.
  unfold B13.hT, B7.hentries. pose proof (split_byte_nonempty ","%char (trim_space_go (" "%char :: hval_print (h_val h)))) as N.
  destruct (split_byte _ _); [contradiction|discriminate].
Qed.
Lemma tview_nonnil_iff hs : match B13.tview hs with [] => false | _ => true end = match hs with [] => false | _ => true end.
Proof.
  destruct hs as [|h r]; [reflexivity|]. unfold B13.tview. cbn [flat_map].
  pose proof (hT_nonnil h) as N. destruct (B13.hT h); [contradiction|reflexivity].
Qed.

(* ONE OUTPUT ACCEPTED.  [mo] relates to the request [m] as the model prescribes for the transport [t]
   (None: the proxy does not insert itself); the judge expects the identity of [t] and the branch [br] *)
Lemma c06_check_ok br must rs src sport m t mo (o : bytes * bytes) :
  B7.good m -> start_ok (start_line_print (m_start m)) -> (Z.of_nat (List.length (m_body m)) <= int_max)%Z ->
  relayed6 br must rs src sport m t mo -> snd o = write_message mo ->
  (forall t', t = Some t' -> safe1 (t_addr t') = true /\ t_port t' <> 0%Z) ->
  c06_check br (option_map (fun t => (t_proto t, t_addr t, t_port t)) t) must
            (map B7.jv_of (C07.flat_view (C07.via_hdrs m))) (B13.tview (sel RRn (m_headers m))) o = O.
Proof.
  intros G So Bd (G' & S' & B' & K) Eo Ht. unfold c06_check. rewrite Eo.
  destruct (c06_read mo G') as (om & -> & Ev & Er); [rewrite S'; exact So|rewrite B'; exact Bd|].
  rewrite Ev, Er. cbv zeta.
  destruct (stamp_compat rs src sport _ (B7.good_allsome m G)) as (LE & HP). cbv zeta in LE, HP.
  destruct t as [t|]; cbn [option_map]; destruct K as (K1 & K2); rewrite K1, K2.
  - destruct (Ht t eq_refl) as (Ha & Pn).
    rewrite B7.flat_view_cons. cbn [app map].
    assert (TOP : B7.jv_of (C07.own_via br t) =
                  {| jv_proto := s2b "SIP" ++ "/"%char :: s2b "2.0" ++ "/"%char :: t_proto t;
                     jv_transport := t_proto t; jv_host := t_addr t;
                     jv_port := if Z.eqb (t_port t) 0 then None else Some (t_port t);
                     jv_params := [(s2b "branch", br)] |}) by reflexivity.
    rewrite TOP. cbn [jv_transport jv_host jv_port jv_params].
    replace (Z.eqb (t_port t) 0) with false by (symmetry; apply Z.eqb_neq; exact Pn).
    cbv beta iota. rewrite !beq_refl, Z.eqb_refl, LE, Nat.eqb_refl, HP. cbn [andb negb].
    assert (JB : j_get (s2b "branch") [(s2b "branch", br)] = Some br) by reflexivity.
    rewrite JB. cbv beta iota. rewrite beq_refl. cbn [negb].
    rewrite tview_nonnil_iff, has_header_sel. fold (own_rr_text (t_addr t) (t_port t)).
    destruct (match sel RRn (m_headers m) with [] => false | _ :: _ => true end || must)%bool.
    + assert (TV : B13.tview (own_rr_header t :: sel RRn (m_headers m)) =
                   own_rr_text (t_addr t) (t_port t) :: B13.tview (sel RRn (m_headers m))).
      { unfold B13.tview. cbn [flat_map]. rewrite (own_rr_hT t Ha Pn). reflexivity. }
      rewrite TV, Nat.eqb_refl, B13.combine_beq_refl. reflexivity.
    + rewrite Nat.eqb_refl, B13.combine_beq_refl. reflexivity.
  - rewrite LE, Nat.eqb_refl. cbn [negb]. rewrite Nat.eqb_refl, B13.combine_beq_refl. reflexivity.
Qed.

Definition tr3 (t : stransport) : bytes * bytes * Z := (t_proto t, t_addr t, t_port t).

(* the judge's table (host -> listen entry, TCP?) names, through the configuration, the transport the model
   has learned for the host; same domain.  (jident_of: an entry with SpecProxy.dial_mark, filed for a host learned
   over a connection the proxy dialled, names that connection's port-less transport.) *)
Definition agree_learned (c : cfg) (js : list (bytes * (nat * bool))) (l : learned) : Prop :=
  forall h, match alookup h js, alookup h l with
            | Some (li', tcp'), Some t => jident_of c li' tcp' = Some (tr3 t)
            | None, None => True
            | _, _ => False
            end.

Lemma agree_learn1 c js l h li tcp t :
  agree_learned c js l -> jident_of c li tcp = Some (tr3 t) ->
  agree_learned c (aset h (li, tcp) js) (learn h t l).
Proof.
  intros A J k. rewrite learn_lookup. destruct (beq k h) eqn:E.
  - apply beq_eq in E. subst k. rewrite alookup_aset_same. specialize (A h).
    destruct (alookup h js) as [[li' tcp']|]; destruct (alookup h l) as [old|]; try contradiction; cbv beta iota.
    + destruct (same_transport old t) eqn:S; [|exact J].
      unfold same_transport in S. apply andb_true_iff in S. destruct S as [S S3].
      apply andb_true_iff in S. destruct S as [S1 S2]. apply beq_eq in S1, S2. apply Z.eqb_eq in S3.
      rewrite J. unfold tr3. rewrite S1, S2, S3. reflexivity.
    + exact J.
  - apply beq_neq in E. rewrite alookup_aset_other by exact E. exact (A k).
Qed.

Lemma hosts_agree ents : forall vs, opt_all (map j_via ents) = Some vs ->
  flat_map (fun e => match j_via e with Some v => [jv_host v] | None => [] end) ents = map jv_host vs.
Proof.
  induction ents as [|e r IH]; intros vs H; cbn [map opt_all] in H.
  - injection H as <-. reflexivity.
  - destruct (j_via e) as [v|] eqn:E; [|discriminate H].
    destruct (opt_all (map j_via r)) as [x|]; [|discriminate H]. injection H as <-.
    cbn [flat_map map]. rewrite E. cbn [app]. f_equal. apply IH. reflexivity.
Qed.

Lemma all_vias_flat m : all_vias (m_headers m) = C07.flat_view (C07.via_hdrs m).
Proof. rewrite <- decode_all_vias_snd. apply C07.flat_vias_decode. Qed.

(* the transport a message that arrived on a listener of [lc] (a datagram, an accepted connection) carries *)
Definition listener_transport (lc : listen_cfg) (tcp : bool) : stransport :=
  {| t_kind := if tcp then KTcpListen else KUdp; t_addr := lc_addr lc; t_port := listener_port lc tcp |}.
(* ... is what the judge's (listen entry, TCP?) stands for, unless the entry carries the mark *)
Lemma jident_listener c li lc tcp : (tcp = true -> (li < dial_mark)%nat) -> nth_opt (c_listens c) li = Some lc ->
  jident_of c li tcp = Some (tr3 (listener_transport lc tcp)).
Proof.
  intros M N. unfold jident_of, jtrans_of. rewrite N. destruct tcp; [|reflexivity].
  rewrite (proj2 (Nat.leb_gt dial_mark li) (M eq_refl)). reflexivity.
Qed.

(* the judge's j_learn and the model's learning keep the tables in agreement: the source and the Via hosts are
   learned with the listener the message arrived on *)
Lemma j_learn_agree_g c stj i from jin m x :
  ji_dialled stj i = false -> jident_of c (ji_li i) (ji_tcp i) = Some (tr3 from) ->
  agree_learned c (js_learned stj) (x_learned x) ->
  j_is_response jin = false -> is_request m = true -> amem (ji_src i) (ps_backends (x_p x)) = false ->
  opt_all (map j_via (j_flat_via (jm_headers jin))) = Some (map B7.jv_of (C07.flat_view (C07.via_hdrs m))) ->
  agree_learned c (j_learn stj i jin) (learned_after (ji_src i) from m x).
Proof.
  intros D JI A Rj Rm NB EV. unfold j_learn, learned_after. rewrite Rj, Rm, NB, D. cbn [andb negb].
  rewrite (hosts_agree _ _ EV), map_map, all_vias_flat.
  change (map (fun x0 : via_param => jv_host (B7.jv_of x0))) with (map v_host).
  exact (fold_left_sim (agree_learned c) (fun _ _ => True) _ _
           (fun js l h _ A' _ => conj (agree_learn1 c js l h _ _ from A' JI) I) _ _ _ A I).
Qed.

(* learned transports print as readable own entries *)
Definition lrn_ok (l : learned) : Prop :=
  forall h t, alookup h l = Some t -> safe1 (t_addr t) = true /\ (1 <= t_port t <= 65535)%Z.
Lemma lrn_ok_after src from m x : safe1 (t_addr from) = true -> (1 <= t_port from <= 65535)%Z ->
  lrn_ok (x_learned x) -> lrn_ok (learned_after src from m x).
Proof. intros Ha Hp. exact (all_learned_after _ src from m x (conj Ha Hp)). Qed.
Lemma lrn_learned_ok br l : B7.branch_ok br -> lrn_ok l -> B7.learned_ok br l.
Proof. intros Hb Hl h t A. destruct (Hl h t A) as [A1 A2]. apply B7.t_ok_intro; [exact A1|lia|exact Hb]. Qed.

(* the listener's first transport (the one sendToBackend inserts) prints as a readable own entry with a port *)
Lemma first_transport_ok br lc t0 :
  B7.branch_ok br -> safe1 (lc_addr lc) = true -> (0 <= lc_udp lc <= 65535)%Z -> (0 <= lc_tcp lc <= 65535)%Z ->
  first_transport lc = Some t0 -> B7.t_ok br t0 /\ safe1 (t_addr t0) = true /\ t_port t0 <> 0%Z.
Proof.
  intros Hbr Ha Hu Ht E0. unfold first_transport in E0.
  destruct (Z.ltb 0 (lc_udp lc)) eqn:Lu; [|destruct (Z.ltb 0 (lc_tcp lc)) eqn:Lt; [|discriminate E0]];
    injection E0 as <-; apply Z.ltb_lt in Lu || apply Z.ltb_lt in Lt.
  - split; [apply B7.t_ok_intro; [exact Ha|exact Hu|exact Hbr]|]. split; [exact Ha|]. cbn [t_port]. lia.
  - split; [apply B7.t_ok_intro; [exact Ha|exact Ht|exact Hbr]|]. split; [exact Ha|]. cbn [t_port]. lia.
Qed.

(* the identity the MODEL puts on top: None = nothing is sent; Some None = relayed without own entry *)
Definition model_ident (c : cfg) (lc : listen_cfg) (from : stransport) (m : message) (L : learned)
  : option (option (bytes * bytes * Z)) :=
  match effective_hop c from m with
  | HopAddr host _ _ => Some (option_map tr3 (alookup host L))
  | HopBackend => match first_transport lc with Some t0 => Some (Some (tr3 t0)) | None => None end
  | _ => None
  end.
(* ... is the one the JUDGE expects (when the request is in the judge's domain); [tcp]: the judge's flag *)
Definition ident_agree_g (tcp : bool) (c : cfg) (lc : listen_cfg) (q : jreq) (LJ : list (bytes * (nat * bool)))
           (from : stransport) (m : message) (L : learned) : Prop :=
  match j_choose c lc tcp q with
  | HOut => True
  | _ => match model_ident c lc from m L with Some i => c06_ident c lc tcp q LJ = i | None => True end
  end.
Lemma labelled_snd o : is_msg o = true -> snd (B13.labelled o) = snd o.
Proof. destruct o as [[ip p|c|ip p c] b]; [reflexivity|reflexivity|discriminate]. Qed.

(* the Request-URI is written in the C14 grammar *)
(* ... and strings.Fields (the proxy) splits the request line like the judge's ASCII split: no
   UTF-8 encoding of a Unicode white-space rune inside it ([no_usp (jm_start jin) = true] is
   sufficient, BytesLemmas.fields_go_no_usp; [wf_addr] allows bytes >= 128 in the Request-URI) *)
Definition ruri_domain (jin : jmsg) : Prop :=
  fields_go (jm_start jin) = fields (jm_start jin) /\
  forall q, j_request jin = Some q -> exists a, wf_addr a = true /\ jq_ruri q = rp_addr a.

(* the (first) To header value is written in the C14 grammar *)
Definition to_domain (m : message) : Prop :=
  forall h, get_header (s2b "To") (m_headers m) = Some h ->
    exists f, wf_fromto f = true /\ h_val h = HRaw (rp_fromto f).

(* the two domains as C03_bridge spells them *)
Lemma to_domain_c03 m : to_domain m -> C03_bridge.to_domain m.
Proof.
  intros TD. unfold C03_bridge.to_domain. destruct (get_header (s2b "To") (m_headers m)) as [h|] eqn:G; [|exact I].
  exact (TD h G).
Qed.
Lemma ruri_domain_c03 jin q : j_request jin = Some q -> ruri_domain jin -> C03_bridge.ruri_domain jin.
Proof.
  intros Q (FG & RD). split; [exact FG|]. intros meth u ver F. destruct (RD q Q) as (a & W & E).
  exists a. split; [exact W|]. rewrite <- E. unfold j_request in Q. rewrite F in Q.
  destruct (j_is_response jin); [discriminate Q|]. injection Q as <-. reflexivity.
Qed.

(* the judge's hop [jh] and host against the model's hop [mh] *)
Definition hop_rel (jh : jhop) (host : option bytes) (mh : hop) : Prop :=
  match jh with
  | HOut => True
  | HDrop => mh = HopNone
  | HBackend => mh = HopBackend
  | HHop _ => exists h p t, mh = HopAddr h p t /\ host = Some h
  end.

(* the host the judge of C06 looks up is the host of the hop the judge of C03 reads (C03_bridge.j_hop) *)
Lemma c06_host_hop c lc tcp q host port tr :
  C03_bridge.j_hop c lc tcp q = Some (HopAddr host port tr) -> c06_host c lc tcp q = Some host.
Proof.
  unfold C03_bridge.j_hop, c06_host.
  destruct (match jq_routes q with e :: r => if j_own c lc tcp e then r else e :: r | [] => [] end) as [|e r]; cbv zeta.
  - destruct (jq_to q) as [t|]; [|destruct (j_service_match c lc tcp (jq_ruri q)); discriminate].
    destruct (ju_sip (j_entry_uri t)); [|destruct (j_service_match c lc tcp (jq_ruri q)); discriminate].
    destruct (find_route _ _) as [it|]; [|destruct (j_service_match c lc tcp (jq_ruri q)); discriminate].
    intros H. injection H as <- _ _. reflexivity.
  - destruct (ju_sip (j_entry_uri e)); [|discriminate]. intros H. injection H as <- _ _. reflexivity.
Qed.

(* HOP AGREEMENT.  On the grammar domain (Route entries of the first two Route headers, the first To header,
   the Request-URI written in the C14 grammar) the hop the judge computes from the TEXT (j_choose) and the
   host it looks up in its learned table are the hop the model takes (C03.effective_hop) and its host:
   C03_bridge.hop_read_eq, read for this judge.  [tcp] is the judge's flag: [from] carries the listener's
   address and the port the judge uses; [HR], [PS] are what the two readers of the input have in common *)
Theorem hop_agree_g tcp c lc from jin m q :
  t_addr from = lc_addr lc -> t_port from = listener_port lc tcp ->
  Forall2 B13.hrel2 (jm_headers jin) (m_headers m) -> parse_start_line (jm_start jin) = Ok (m_start m) ->
  j_request jin = Some q ->
  B13.route_domain_in (B13.RS m) -> to_domain m -> ruri_domain jin ->
  hop_rel (j_choose c lc tcp q) (c06_host c lc tcp q) (effective_hop c from m).
Proof.
  intros Ha Hp HR PS Q Dom TD RD.
  pose proof (C03_bridge.hop_read_eq c lc tcp from jin m q Ha Hp HR PS Q Dom (to_domain_c03 m TD) (ruri_domain_c03 jin q Q RD))
    as HE.
  rewrite C03_bridge.j_choose_hop.
  destruct (C03_bridge.j_hop c lc tcp q) as [[host port tr| | |]|] eqn:E; cbn [C03_bridge.jhop_of hop_rel];
    [|exact (HE _ eq_refl)|exact (HE _ eq_refl)|exact I|exact I].
  exists host, port, tr. split; [exact (HE _ eq_refl)|exact (c06_host_hop c lc tcp q host port tr E)].
Qed.

Lemma first_of_agree lc : match first_transport lc with Some t0 => first_of lc = tr3 t0 | None => True end.
Proof.
  unfold first_transport, first_of. destruct (Z.ltb 0 (lc_udp lc)); [reflexivity|].
  destruct (Z.ltb 0 (lc_tcp lc)); [reflexivity|exact I].
Qed.

Lemma ident_agree_of_g tcp c lc q LJ from m L :
  hop_rel (j_choose c lc tcp q) (c06_host c lc tcp q) (effective_hop c from m) ->
  agree_learned c LJ L -> ident_agree_g tcp c lc q LJ from m L.
Proof.
  intros HR AG. unfold ident_agree_g, model_ident, c06_ident.
  destruct (j_choose c lc tcp q); cbn [hop_rel] in HR; [exact I| | |].
  - rewrite HR. exact I.
  - destruct HR as (h & p & t & -> & ->). specialize (AG h).
    destruct (alookup h LJ) as [[li' tcp']|]; destruct (alookup h L) as [t0|]; try contradiction;
      [exact AG|reflexivity].
  - rewrite HR. pose proof (first_of_agree lc) as FA.
    destruct (first_transport lc) as [t0|]; [rewrite FA; reflexivity|exact I].
Qed.

Lemma j_request_not_response jin q : j_request jin = Some q -> j_is_response jin = false.
Proof. unfold j_request. destruct (j_is_response jin); [discriminate|reflexivity]. Qed.

(* one message that arrived on a listener of [lc]: in a datagram ([i] = jin_udp ..) or on an accepted
   connection ([i] = jin_tcp ..; [ji_dialled] is false for it and its listen entry carries no mark) *)
Section OneMessage.
  Variables (pc : proxy_case) (stj : jstate) (i : jin) (lc : listen_cfg) (jin : jmsg) (m : message) (rest : bytes).
  Hypothesis N : nth_opt (c_listens (pc_cfg pc)) (ji_li i) = Some lc.
  Hypothesis J : j_read (ji_data i) = Some jin.
  Hypothesis P : parse_message (ji_data i) = Ok (m, rest).
  Hypothesis HV : B7.via_domain m.

  Variables (e : env) (rs : bool) (tcp : option nat) (x x' : ctx) (pre : list output).
  Hypothesis He : e_cfg e = pc_cfg pc.
  Hypothesis Hlc : e_lc e = lc.
  Hypothesis Hbe : e_branch e = branch_of (js_event stj).
  Hypothesis Hsrc : B7.src_ok (ji_src i).
  Hypothesis Hbr : B7.branch_ok (e_branch e).
  Hypothesis Ha : safe1 (lc_addr lc) = true.
  Hypothesis Hu : (0 <= lc_udp lc <= 65535)%Z.
  Hypothesis Ht : (0 <= lc_tcp lc <= 65535)%Z.
  Hypothesis HLn : lrn_ok (x_learned x).
  Hypothesis EO : x_outs x' = x_outs x ++ pre.

  (* the model side: every message the model emits passes the judge's check against the listener identity the
     model used ([model_ident]: the learned transport of the hop host, or the first transport for the pool) *)
  Lemma outputs_checked from idj vis :
    safe1 (t_addr from) = true -> (1 <= t_port from <= 65535)%Z -> j_is_response jin = false ->
    process_message e (ji_src i) (ji_sport i) from rs tcp m x = Ok x' ->
    match model_ident (pc_cfg pc) lc from m (learned_after (ji_src i) from m x) with Some i => idj = i | None => True end ->
    first_nonzero
      (map (c06_check (branch_of (js_event stj)) idj (lc_must_rr lc)
                      (map B7.jv_of (C07.flat_view (C07.via_hdrs m))) (B13.tview (sel RRn (m_headers m))))
           (msgs_of (map B13.labelled (filter vis pre)))) = 0%nat.
  Proof.
    intros Hfa Hfp Rj EP MI.
    destruct (B7.domain_read _ _ _ _ J P HV) as (G0 & _ & Hq & Hst & Bd & _). rewrite Rj in Hq.
    set (src := ji_src i) in *. set (L1 := learned_after src from m x) in *.
    assert (Hfrom : B7.t_ok (e_branch e) from) by (apply B7.t_ok_intro; [exact Hfa|clear - Hfp; lia|exact Hbr]).
    assert (HL : B7.learned_ok (e_branch e) (x_learned x)) by (apply lrn_learned_ok; assumption).
    assert (HL1 : lrn_ok L1) by (apply lrn_ok_after; assumption).
    pose proof (fun t0 => first_transport_ok (e_branch e) lc t0 Hbr Ha Hu Ht) as HF2.
    assert (HF : forall t0, first_transport (e_lc e) = Some t0 -> B7.t_ok (e_branch e) t0).
    { intros t0 E0. rewrite Hlc in E0. exact (proj1 (HF2 t0 E0)). }
    destruct (C06_outputs_g e src (ji_sport i) from rs tcp m x x' Hq G0 Hsrc Hfrom HL HF EP) as (extra & E1 & W).
    rewrite E1 in EO. apply app_inv_head in EO. subst extra.
    apply B13.checked_labelled. intros o Io Mo.
    destruct (W o Io Mo) as (mo & Bo & Po). rewrite He in Po. fold L1 in Po.
    unfold post6 in Po. unfold model_ident in MI.
    assert (MU : must_of e = lc_must_rr lc) by (unfold must_of, wire_proxy; cbn [pa_must_rr]; rewrite Hlc; reflexivity).
    rewrite MU, Hbe in Po. rewrite <- (labelled_snd o Mo) in Bo.
    destruct (effective_hop (pc_cfg pc) from m) as [host port tr| | |]; try contradiction.
    - subst idj. apply (c06_check_ok _ _ rs src (ji_sport i) m (alookup host L1) mo _ G0 Hst Bd Po Bo).
      intros t' A. destruct (HL1 _ _ A) as [A1 A2]. split; [exact A1|]. clear - A2. lia.
    - destruct Po as (t0 & F0 & Po). rewrite Hlc in F0. rewrite F0 in MI. subst idj.
      apply (c06_check_ok _ _ rs src (ji_sport i) m (Some t0) mo _ G0 Hst Bd Po Bo).
      intros t' A. injection A as <-. exact (proj2 (HF2 t0 F0)).
  Qed.

  (* PARTIAL FORM: reason codes 1 (Via stack), 2 (Record-Route stack) and 3 (branch) never arise for what the model
     emits, PROVIDED the listener identity the judge expects is the one the model uses ([ident_agree_g]: same hop
     choice, same learned transport for the hop host).  [from] is the transport the model hands to
     process_message; only [ident_agree_g] ties it to the judge's record [i]. *)
  Theorem C06_judge_bridge_partial_g from :
    safe1 (t_addr from) = true -> (1 <= t_port from <= 65535)%Z ->
    (forall q, j_request jin = Some q ->
       ident_agree_g (ji_tcp i) (pc_cfg pc) lc q (j_learn stj i jin) from m (learned_after (ji_src i) from m x)) ->
    process_message e (ji_src i) (ji_sport i) from rs tcp m x = Ok x' ->
    forall vis, c06_verdict pc stj i (map B13.labelled (filter vis pre)) = 0%nat.
  Proof.
    intros Hfa Hfp IA EP vis.
    unfold c06_verdict. rewrite J, N.
    destruct (negb (j_is_response jin) && jm_has_cl jin && (negb (ji_tcp i) || single_message jin))%bool eqn:Cond;
      [|reflexivity].
    destruct (j_request jin) as [q|] eqn:Q; [|reflexivity].
    destruct (B7.domain_read _ _ _ _ J P HV) as (_ & EH & _ & _ & _ & EV).
    rewrite EV, EH, c06_must_eq. unfold j_flat. rewrite (B7.j_entries_sel _ is_rr RRn _ same_header_rr).
    specialize (IA q eq_refl). unfold ident_agree_g in IA.
    pose proof (fun idj => outputs_checked from idj vis Hfa Hfp (j_request_not_response _ _ Q) EP) as MAIN.
    destruct (j_choose (pc_cfg pc) lc (ji_tcp i) q); [reflexivity|exact (MAIN _ IA)|exact (MAIN _ IA)|exact (MAIN _ IA)].
  Qed.

  (* THE BRIDGE, process_message level.  Conditions on the input / the state before the event only:
       agree_learned            the judge's learned table names the transports of the model's table
       amem src backends = false the sender is not a key of the backend table (keys are "ip:port" texts, the
                                sender a bare IP: the model learns from every such request, as j_learn does)
       B7.via_domain m          Via header values in the C14 grammar
       B13.route_domain_in      the first two Route headers in the C14 grammar (no leading blank)
       to_domain m              the first To header value in the C14 grammar
       ruri_domain jin          the Request-URI in the C14 grammar
       B7.src_ok, B7.branch_ok, safe1 (lc_addr lc), port ranges (the port of the receiving transport >= 1), lrn_ok:
                                the proxy's own Via / Record-Route entries are readable lines and carry a port
     Record-Route header VALUES need no grammar: the judge compares their text, which the model relays untouched. *)
  Hypothesis D : ji_dialled stj i = false.
  Hypothesis M : ji_tcp i = true -> (ji_li i < dial_mark)%nat.
  Hypothesis AG : agree_learned (pc_cfg pc) (js_learned stj) (x_learned x).
  Hypothesis NB : amem (ji_src i) (ps_backends (x_p x)) = false.
  Hypothesis EP : process_message e (ji_src i) (ji_sport i) (listener_transport lc (ji_tcp i)) rs tcp m x = Ok x'.

  Theorem C06_judge_bridge_msg_g :
    B13.route_domain_in (B13.RS m) -> to_domain m -> ruri_domain jin -> (1 <= listener_port lc (ji_tcp i))%Z ->
    forall vis, c06_verdict pc stj i (map B13.labelled (filter vis pre)) = 0%nat.
  Proof.
    intros Dom TD RD H1.
    assert (Hp : (1 <= t_port (listener_transport lc (ji_tcp i)) <= 65535)%Z)
      by (clear - Hu Ht H1; revert H1; unfold listener_transport, listener_port; cbn [t_port]; destruct (ji_tcp i); lia).
    apply (C06_judge_bridge_partial_g (listener_transport lc (ji_tcp i)) Ha Hp); [|exact EP].
    intros q Q. destruct (B7.domain_read _ _ _ _ J P HV) as (_ & _ & Hq & _ & _ & EV).
    pose proof (j_request_not_response _ _ Q) as Rj. rewrite Rj in Hq.
    apply ident_agree_of_g.
    - exact (hop_agree_g (ji_tcp i) (pc_cfg pc) lc (listener_transport lc (ji_tcp i)) jin m q eq_refl eq_refl
               (B13.read_headers_agree _ _ _ _ J P) (proj1 (proj2 (C01.input_read _ _ _ _ J P))) Q Dom TD RD).
    - exact (j_learn_agree_g (pc_cfg pc) stj i _ jin m x D (jident_listener _ _ _ _ M N) AG Rj Hq NB EV).
  Qed.

  (* one message keeps the agreement of the learned tables *)
  Lemma agree_msg_g : agree_learned (pc_cfg pc) (j_learn stj i jin) (x_learned x').
  Proof.
    rewrite (C06_learning _ _ _ _ _ _ _ _ _ EP).
    destruct (B7.domain_read _ _ _ _ J P HV) as (_ & _ & Hq & _ & _ & EV).
    destruct (j_is_response jin) eqn:Rj; cbn [negb] in Hq.
    - unfold j_learn. rewrite Hq, Rj. exact AG.
    - exact (j_learn_agree_g (pc_cfg pc) stj i _ jin m x D (jident_listener _ _ _ _ M N) AG Rj Hq NB EV).
  Qed.
End OneMessage.

Theorem C06_judge_bridge_udp :
  forall pc stj li lc src sport data closed jin m rest e rs x x' pre,
  nth_opt (c_listens (pc_cfg pc)) li = Some lc -> e_cfg e = pc_cfg pc -> e_lc e = lc ->
  e_branch e = branch_of (js_event stj) ->
  j_read data = Some jin -> parse_message data = Ok (m, rest) ->
  agree_learned (pc_cfg pc) (js_learned stj) (x_learned x) ->
  amem src (ps_backends (x_p x)) = false ->
  B7.via_domain m -> B13.route_domain_in (B13.RS m) -> to_domain m -> ruri_domain jin ->
  B7.src_ok src -> B7.branch_ok (e_branch e) ->
  safe1 (lc_addr lc) = true -> (1 <= lc_udp lc <= 65535)%Z -> (0 <= lc_tcp lc <= 65535)%Z ->
  lrn_ok (x_learned x) ->
  process_message e src sport (B13.udp_transport lc) rs None m x = Ok x' ->
  x_outs x' = x_outs x ++ pre ->
  forall vis, judge_C06_event pc stj (EvUdp li src sport data) (map B13.labelled (filter vis pre)) closed = 0%nat.
Proof.
  intros pc stj li lc src sport data closed jin m rest e rs x x' pre
         N He Hlc Hbe J P AG NB HV Dom TD RD Hsrc Hbr Ha Hu Ht HLn EP EO vis.
  rewrite (judge_C06_verdict pc stj (EvUdp li src sport data) (jin_udp li src sport data) _ closed eq_refl eq_refl).
  refine (C06_judge_bridge_msg_g pc stj (jin_udp li src sport data) lc jin m rest N J P HV e rs None x x' pre
            He Hlc Hbe Hsrc Hbr Ha _ Ht HLn EO eq_refl _ AG NB EP Dom TD RD (proj1 Hu) vis).
  - clear - Hu. lia.
  - discriminate.
Qed.

(* ... and for one step of the whole proxy on a datagram, as the run judges it: the branch handed to the step
   is the stand-in the judge expects (branch_of of the event index it has counted); [outs] is what RunProxy
   prints for the event (through [labelled] = e_output; [vis] = the destinations the driver observes) *)
Corollary C06_judge_bridge_step :
  forall pc stj fx now br st st' outs li lc src sport data closed jin m rest,
  nth_opt (c_listens (pc_cfg pc)) li = Some lc ->
  j_read data = Some jin -> parse_message data = Ok (m, rest) ->
  br = branch_of (js_event stj) ->
  agree_learned (pc_cfg pc) (js_learned stj) (st_learned st) ->
  (forall p, nth_p (st_proxies st) li = Some p -> amem src (ps_backends p) = false) ->
  B7.via_domain m -> B13.route_domain_in (B13.RS m) -> to_domain m -> ruri_domain jin ->
  B7.src_ok src -> B7.branch_ok br ->
  safe1 (lc_addr lc) = true -> (1 <= lc_udp lc <= 65535)%Z -> (0 <= lc_tcp lc <= 65535)%Z ->
  lrn_ok (st_learned st) ->
  proxy_step fx (pc_cfg pc) now br st (EvUdp li src sport data) = Ok (st', outs) ->
  forall vis, judge_C06_event pc stj (EvUdp li src sport data) (map B13.labelled (filter vis outs)) closed = 0%nat.
Proof.
  intros pc stj fx now br st st' outs li lc src sport data closed jin m rest
         N J P Hbe AG NB HV Dom TD RD Hsrc Hbr Ha Hu Ht HLn H vis.
  apply proxy_step_udp_inv in H.
  destruct H as [(_ & ->)|(lc' & m' & rest' & p & x' & N' & P' & NP & PM & _ & ->)]; [apply judge_C06_nil|].
  rewrite N in N'. injection N' as <-. rewrite P in P'. injection P' as <- <-.
  exact (C06_judge_bridge_udp pc stj li lc src sport data closed jin m rest (listener_env fx (pc_cfg pc) now br li lc) _
           (start_ctx st p) x' (x_outs x')
           N eq_refl eq_refl Hbe J P AG (NB p NP) HV Dom TD RD Hsrc Hbr Ha Hu Ht HLn PM eq_refl vis).
Qed.

Lemma js_learned_step stj ev i jin outs closed : j_input stj ev = Some i -> j_read (ji_data i) = Some jin ->
  js_learned (js_step_c stj ev outs closed) = j_learn stj i jin.
Proof.
  intros I J. destruct ev; try discriminate I; unfold js_step_c, js_step; cbn [js_learned]; rewrite I, J; reflexivity.
Qed.

(* ... and the readability of what is learned *)
Lemma lrn_ok_msg e peer pp from rs tcp m x x' :
  safe1 (t_addr from) = true -> (1 <= t_port from <= 65535)%Z -> lrn_ok (x_learned x) ->
  process_message e peer pp from rs tcp m x = Ok x' -> lrn_ok (x_learned x').
Proof. intros Ha Hp HL PM. rewrite (C06_learning _ _ _ _ _ _ _ _ _ PM). exact (lrn_ok_after peer from m x Ha Hp HL). Qed.

(* THE AGREEMENT IS KEPT by a datagram: the judge's bookkeeping after the event (js_step_c: j_learn) against the
   model's learned table after the step (learn).  [outs'] / [closed] are whatever was observed: the learned
   table of the judge does not depend on them. *)
Theorem C06_agree_step :
  forall pc stj fx now br st st' outs li lc src sport data jin m rest outs' closed,
  nth_opt (c_listens (pc_cfg pc)) li = Some lc ->
  j_read data = Some jin -> parse_message data = Ok (m, rest) ->
  agree_learned (pc_cfg pc) (js_learned stj) (st_learned st) ->
  (exists p, nth_p (st_proxies st) li = Some p /\ amem src (ps_backends p) = false) ->
  B7.via_domain m ->
  proxy_step fx (pc_cfg pc) now br st (EvUdp li src sport data) = Ok (st', outs) ->
  agree_learned (pc_cfg pc) (js_learned (js_step_c stj (EvUdp li src sport data) outs' closed)) (st_learned st').
Proof.
  intros pc stj fx now br st st' outs li lc src sport data jin m rest outs' closed N J P AG (p & NP & NB) HV H.
  rewrite (js_learned_step stj (EvUdp li src sport data) (jin_udp li src sport data) jin outs' closed eq_refl J).
  destruct (proxy_step_udp_single _ _ _ _ _ _ _ _ _ _ _ _ _ _ _ N P NP H) as (x' & PM & -> & _).
  refine (agree_msg_g pc stj (jin_udp li src sport data) lc jin m rest N J P HV _ _ None (start_ctx st p) x' eq_refl _
            AG NB PM).
  discriminate.
Qed.

(* the readability invariant of the learned table is kept as well *)
Theorem C06_lrn_ok_step :
  forall fx c now br st st' outs li lc src sport data,
  nth_opt (c_listens c) li = Some lc -> safe1 (lc_addr lc) = true -> (1 <= lc_udp lc <= 65535)%Z ->
  lrn_ok (st_learned st) ->
  proxy_step fx c now br st (EvUdp li src sport data) = Ok (st', outs) -> lrn_ok (st_learned st').
Proof.
  intros fx c now br st st' outs li lc src sport data N Ha Hu HL H. apply proxy_step_udp_inv in H.
  destruct H as [(-> & _)|(lc' & m & rest & p & x' & N' & _ & _ & PM & -> & _)]; [exact HL|].
  rewrite N in N'. injection N' as <-. exact (lrn_ok_msg _ _ _ (udp_transport lc) _ _ _ (start_ctx st p) x' Ha Hu HL PM).
Qed.

(* the run of C13_bridge: a request from 10.0.0.9:5070 whose Route names the receiving listener, then
   10.0.0.9:5070 (the sender itself: learned from this very request, through the UDP listener), then one more;
   must-record-route is on.  The proxy puts its own Via on top and its own Record-Route in front. *)
(* An example names the state and the outputs of a step by [match]es over the step with a default: then the step
   equation needs no more evaluation than that the step succeeds. *)
Lemma ok_eta {A} (r : res A) (d : A) : is_ok r = true -> r = Ok (match r with Ok y => y | _ => d end).
Proof. destruct r; [reflexivity|discriminate|discriminate]. Qed.
Lemma ok_pair_eta {A B} (r : res (A * B)) (a0 : A) (b0 : B) : is_ok r = true ->
  r = Ok (match r with Ok (a, _) => a | _ => a0 end, match r with Ok (_, b) => b | _ => b0 end).
Proof. destruct r as [[a b]| |]; [reflexivity|discriminate|discriminate]. Qed.

Module C06_bridge_example.
Definition ex_jin : jmsg :=
  match j_read B13.b13_req with Some j => j | None => Build_jmsg [] [] [] [] false 0 None end.
Example ex_read : j_read B13.b13_req = Some ex_jin.
Proof. vm_compute. reflexivity. Qed.

Example ex_out_via :
  map (fun o => option_map (fun om => map (fun e => option_map jv_host (j_via e)) (j_flat_via (jm_headers om)))
                           (j_read (snd o))) B13.b13_outs
  = [Some [Some (s2b "10.0.0.1"); Some (s2b "10.0.0.9")]].
Proof. vm_compute. reflexivity. Qed.
Example ex_out_rr :
  map (fun o => option_map (fun om => j_flat is_rr (jm_headers om)) (j_read (snd o))) B13.b13_outs
  = [Some [s2b "<sip:10.0.0.1:5060;lr>"]].
Proof. vm_compute. reflexivity. Qed.

Definition ex_to : a_fromto :=
  {| af_addr := AFName {| an_display := [];
                          an_addr := AASip {| au_secure := false; au_user := Some (s2b "svc", None);
                                              au_host := s2b "example.com"; au_port := None;
                                              au_params := []; au_headers := [] |} |};
     af_params := [] |}.
Definition ex_ruri : a_addr :=
  AASip {| au_secure := false; au_user := Some (s2b "bob", None); au_host := s2b "elsewhere.example";
           au_port := None; au_params := []; au_headers := [] |}.

Example ex_hyp_to : to_domain (parsed B13.b13_req).
Proof.
  intros h GT. vm_compute in GT. injection GT as <-. exists ex_to. split; vm_compute; reflexivity.
Qed.
Example ex_hyp_ruri : ruri_domain ex_jin.
Proof.
  split; [vm_compute; reflexivity|].
  intros q Q. vm_compute in Q. injection Q as <-. exists ex_ruri. split; vm_compute; reflexivity.
Qed.

(* the step of B13.b13_run, spelled as the step theorems mention it *)
Definition ex_st1 : state := match B13.b13_run with Ok (s, _) => s | _ => C01.ex_st end.
Lemma ex_step_ok :
  proxy_step all_fixed (pc_cfg B13.b13_pc) 1000 (branch_of 0) C01.ex_st (EvUdp 0 (s2b "10.0.0.9") 5070%Z B13.b13_req)
  = Ok (ex_st1, B13.b13_outs).
Proof.
  unfold ex_st1, B13.b13_outs, B13.b13_run, B13.b13_ev. apply ok_pair_eta. vm_compute. reflexivity.
Qed.
Lemma ex_hyp_via : B7.via_domain (parsed B13.b13_req).
Proof. apply B7.via_domain_b_sound. vm_compute. reflexivity. Qed.
Lemma ex_hyp_agree : agree_learned (pc_cfg B13.b13_pc) (js_learned (js_init C01.ex_cfg)) (st_learned C01.ex_st).
Proof. intros h. exact I. Qed.

(* every hypothesis of the step theorem holds of the run: the judge accepts, by the theorem *)
Example C06_bridge_ex :
  forall vis, judge_C06_event B13.b13_pc (js_init C01.ex_cfg) B13.b13_ev
                (map B13.labelled (filter vis B13.b13_outs)) [] = 0%nat.
Proof.
  refine (C06_judge_bridge_step B13.b13_pc (js_init C01.ex_cfg) all_fixed 1000%Z (branch_of 0) C01.ex_st ex_st1 B13.b13_outs
           0%nat C01.ex_lc (s2b "10.0.0.9") 5070%Z B13.b13_req [] ex_jin (parsed B13.b13_req) []
           B13.b13_hyp_listener ex_read B13.b13_hyp_parse eq_refl ex_hyp_agree _ ex_hyp_via B13.b13_hyp_routes
           ex_hyp_to ex_hyp_ruri _ _ _ _ _ _ ex_step_ok).
  - intros p NP. vm_compute in NP. injection NP as <-. vm_compute. reflexivity.
  - split; vm_compute; reflexivity.
  - split; vm_compute; reflexivity.
  - vm_compute. reflexivity.
  - unfold C01.ex_lc. cbn [lc_udp]. lia.
  - unfold C01.ex_lc. cbn [lc_tcp]. lia.
  - intros h t A. discriminate A.
Qed.

(* the agreement of the learned tables after the event, by the theorem; the tables are not empty any more *)
Example C06_agree_ex :
  match B13.b13_run with
  | Ok (st', _) =>
      agree_learned C01.ex_cfg (js_learned (js_step_c (js_init C01.ex_cfg) B13.b13_ev [] [])) (st_learned st') /\
      st_learned st' = [(s2b "10.0.0.9", B13.udp_transport C01.ex_lc)]
  | _ => False
  end.
Proof.
  assert (E : B13.b13_run = Ok (ex_st1, B13.b13_outs)) by exact ex_step_ok.
  rewrite E. split; [|vm_compute; reflexivity].
  refine (C06_agree_step B13.b13_pc (js_init C01.ex_cfg) all_fixed 1000%Z (branch_of 0) C01.ex_st ex_st1 B13.b13_outs
            0%nat C01.ex_lc (s2b "10.0.0.9") 5070%Z B13.b13_req ex_jin (parsed B13.b13_req) [] [] []
            B13.b13_hyp_listener ex_read B13.b13_hyp_parse ex_hyp_agree _ ex_hyp_via ex_step_ok).
  eexists. split; vm_compute; reflexivity.
Qed.

(* the judge does look: the same request relayed as it came (no own Via) is rejected *)
Example C06_bridge_ex_sensitive :
  judge_C06_event B13.b13_pc (js_init C01.ex_cfg) B13.b13_ev [(s2b "udp:10.0.0.9:5070", B13.b13_req)] [] <> 0%nat.
Proof. vm_compute. discriminate. Qed.
End C06_bridge_example.

Print Assumptions c06_check_ok.
Print Assumptions C06_judge_bridge_udp.
Print Assumptions C06_judge_bridge_step.
Print Assumptions C06_agree_step.
Print Assumptions C06_lrn_ok_step.
Print Assumptions C06_bridge_example.C06_bridge_ex.
Print Assumptions C06_bridge_example.C06_agree_ex.
