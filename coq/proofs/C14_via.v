(* proofs/C14_via.v — property C14 for the Via and CSeq headers.
   For EVERY abstract value of the domain of SpecC14.v (any number >= 1 of Via entries, any
   sent-protocol tokens, optional port, any number of parameters, valueless or not):
     - decoding the reference text yields exactly the embedded abstract value,
     - encoding the embedded value yields the reference text byte for byte
       (a sent-by without port stays without port),
     - the accessors (GetPort default, branch / received / rport) report what the text denotes,
     - the whole observation made by the correspondence run (Codec.codec_obs) equals
       SpecC14.expected_obs.
   Characters, parameters and the passage from one entry to a list come from proofs/C14_uri.v.
   No axioms, no admits. *)
From Coq Require Import List Ascii String ZArith NArith Bool Lia.
From Model.proofs Require Import C14_uri.
From Model Require Import Bytes BytesLemmas Uri Hdr Wire SpecC14 Codec.
Import ListNotations.
Open Scope Z_scope.
Open Scope list_scope.

Lemma safe_no_semi s : safe s = true -> ~ In ";"%char s.
Proof. apply C14_uri.safe_no_semi. Qed.
Lemma safe_no_comma s : safe s = true -> ~ In ","%char s.
Proof. apply C14_uri.safe_no_comma. Qed.
Lemma safe_no_blank s : safe s = true -> ~ In " "%char s.
Proof. apply safe_no_space. Qed.
Lemma val_ok_no_semi s : val_ok s = true -> ~ In ";"%char s.
Proof. apply forallb_notin. reflexivity. Qed.
Lemma val_ok_no_comma s : val_ok s = true -> ~ In ","%char s.
Proof. apply val_no_comma. Qed.

(* no white space at all *)
Definition nospace (s : bytes) : Prop := forall c, In c s -> is_space c = false.

Lemma nospace_eq : nospace = no_space.
Proof. reflexivity. Qed.

Lemma safe_nospace s : safe s = true -> nospace s.
Proof. apply forallb_nospace, cls_nospace. Qed.

Lemma nospace_app a b : nospace a -> nospace b -> nospace (a ++ b).
Proof.
  intros Ha Hb c Hc. apply in_app_or in Hc. destruct Hc as [Hc|Hc]; [apply Ha|apply Hb]; exact Hc.
Qed.

Lemma nospace_cons x a : is_space x = false -> nospace a -> nospace (x :: a).
Proof. intros Hx Ha c [Hc|Hc]; [subst c; exact Hx|apply Ha; exact Hc]. Qed.

Lemma itoa_nospace z : nospace (itoa z).
Proof. exact (itoa_no_space z). Qed.

Lemma itoa_no_semi z : ~ In ";"%char (itoa z).
Proof. apply itoa_notin; [reflexivity|discriminate]. Qed.
Lemma itoa_no_comma z : ~ In ","%char (itoa z).
Proof. apply itoa_notin; [reflexivity|discriminate]. Qed.

Lemma atoi_itoa_port z : (1 <=? z) && (z <=? 65535) = true -> atoi (itoa z) = Some z.
Proof. intros H. apply atoi_itoa. unfold int_min, int_max. lia. Qed.

Lemma atoi_itoa_seq z : (0 <=? z) && (z <=? 4294967295) = true -> atoi (itoa z) = Some z.
Proof. intros H. apply atoi_itoa. unfold int_min, int_max. lia. Qed.

(* the same for strings.Fields proper, when neither word contains a Unicode-space sequence
   (the ASCII blank between them cannot be part of one) *)
Lemma fields_go_two a b : a <> [] -> b <> [] -> nospace a -> nospace b ->
  no_usp a = true -> no_usp b = true ->
  fields_go (a ++ " "%char :: b) = [a; b].
Proof.
  intros Ha Hb Na Nb Ua Ub. rewrite fields_go_two_words by assumption. apply fields_two; assumption.
Qed.

Lemma itoa_no_usp z : no_usp (itoa z) = true.
Proof. apply no_usp_ascii_F, itoa_ascii. Qed.

Definition embed_param (p : a_param) : kv :=
  {| k_key := ap_key p; k_val := match ap_val p with Some v => v | None => [] end |}.

(* strings.Split(head ++ ";p1;p2...", ";") = head, p1, p2 ... *)
Lemma split_semi_params ps : forall head, ~ In ";"%char head -> forallb wf_param ps = true ->
  split_byte ";"%char (head ++ rp_params ps) = head :: map rp_param ps.
Proof.
  intros head Hh H. apply split_flat; [exact Hh|].
  apply (forallb_Forall_wf wf_param); [apply rp_param_no_semi|exact H].
Qed.

Definition embed_via (v : a_via) : via_param :=
  {| v_name := av_name v; v_version := av_version v; v_transport := av_transport v;
     v_host := av_host v; v_port := match av_port v with Some z => z | None => 0 end;
     v_params := map embed_param (av_params v) |}.

Definition via_proto (v : a_via) : bytes :=
  av_name v ++ "/"%char :: av_version v ++ "/"%char :: av_transport v.
Definition via_sentby (v : a_via) : bytes := av_host v ++ rp_port (av_port v).
Definition via_head (v : a_via) : bytes := via_proto v ++ " "%char :: via_sentby v.

Lemma rp_via1_shape v : rp_via1 v = via_head v ++ rp_params (av_params v).
Proof.
  unfold rp_via1, via_head, via_proto, via_sentby.
  repeat (rewrite <- app_assoc; cbn [app]). reflexivity.
Qed.

(* the embedded entry, with the port and the parameters in the terms of proofs/C14_uri.v *)
Lemma embed_via_eq v :
  embed_via v = {| v_name := av_name v; v_version := av_version v; v_transport := av_transport v;
                   v_host := av_host v; v_port := emb_port (av_port v);
                   v_params := map C14_uri.embed_param (av_params v) |}.
Proof. reflexivity. Qed.

Lemma wf_via_shape_inv v : wf_via_shape v = true ->
  safe1 (av_name v) = true /\ safe1 (av_version v) = true /\ safe1 (av_transport v) = true /\
  safe1 (av_host v) = true /\ wf_port (av_port v) = true /\ forallb wf_param (av_params v) = true.
Proof.
  unfold wf_via_shape, noslash. intros H. do 5 (apply andb_prop in H; destruct H as [H ?]).
  repeat split; assumption.
Qed.

(* [wf_via] = the token shape + no Unicode-space sequence inside the four tokens that
   strings.Fields sees *)
Lemma wf_via_weaken v : wf_via v = true -> wf_via_shape v = true.
Proof. unfold wf_via. intros H. apply andb_true_iff in H. exact (proj1 H). Qed.
Lemma wf_via_no_usp v : wf_via v = true ->
  no_usp (av_name v) = true /\ no_usp (av_version v) = true /\ no_usp (av_transport v) = true /\
  no_usp (av_host v) = true.
Proof.
  unfold wf_via, via_no_usp. intros H. apply andb_prop in H. destruct H as [_ H].
  do 3 (apply andb_prop in H; destruct H as [H ?]). repeat split; assumption.
Qed.
Lemma forallb_wf_via_weaken l : forallb wf_via l = true -> forallb wf_via_shape l = true.
Proof. apply forallb_impl, wf_via_weaken. Qed.

Lemma rp_port_nospace p : nospace (rp_port p).
Proof.
  destruct p as [z|]; [|intros c []]. cbn [rp_port].
  apply nospace_cons; [reflexivity|apply itoa_nospace].
Qed.

(* the part before the parameters contains none of the separators d that are excluded from
   [safe] and differ from the three punctuation marks the reference printer inserts *)
Lemma via_head_notin d v :
  safe_char d = false -> d <> "/"%char -> d <> " "%char -> d <> ":"%char ->
  wf_via_shape v = true -> ~ In d (via_head v).
Proof.
  intros Hs H1 H2 H3 H. apply wf_via_shape_inv in H. destruct H as (Hn & Hv & Ht & Hh & _ & _).
  apply safe1_parts in Hn, Hv, Ht, Hh. unfold via_head, via_proto, via_sentby.
  apply notin_app; [apply notin_app; [apply (safe_notin d _ Hs), Hn|]|].
  - apply notin_cons; [congruence|]. apply notin_app; [apply (safe_notin d _ Hs), Hv|].
    apply notin_cons; [congruence|apply (safe_notin d _ Hs), Ht].
  - apply notin_cons; [congruence|].
    apply notin_app; [apply (safe_notin d _ Hs), Hh|apply rp_port_notin; assumption].
Qed.

Lemma via_head_no_semi v : wf_via_shape v = true -> ~ In ";"%char (via_head v).
Proof. apply via_head_notin; try discriminate; reflexivity. Qed.

Lemma rp_via1_no_comma v : wf_via_shape v = true -> ~ In ","%char (rp_via1 v).
Proof.
  intros H. rewrite rp_via1_shape. apply notin_app.
  - revert H. apply via_head_notin; try discriminate; reflexivity.
  - apply rp_params_notin; [reflexivity|apply (wf_via_shape_inv v H)].
Qed.

Lemma via_proto_split v : wf_via_shape v = true ->
  split_byte "/"%char (via_proto v) = [av_name v; av_version v; av_transport v].
Proof.
  intros H. apply wf_via_shape_inv in H. destruct H as (Hn & Hv & Ht & _).
  apply safe1_parts in Hn, Hv, Ht. destruct Hn as [_ Hn], Hv as [_ Hv], Ht as [_ Ht].
  unfold via_proto.
  rewrite split_byte_app by (apply safe_no_slash; exact Hn).
  rewrite split_byte_app by (apply safe_no_slash; exact Hv).
  rewrite split_byte_single by (apply safe_no_slash; exact Ht). reflexivity.
Qed.

Lemma via_sentby_split v : wf_via_shape v = true ->
  split_byte ":"%char (via_sentby v) =
  match av_port v with Some z => [av_host v; itoa z] | None => [av_host v] end.
Proof.
  intros H. apply wf_via_shape_inv in H. destruct H as (_ & _ & _ & Hh & _).
  apply safe1_parts in Hh. destruct Hh as [_ Hh]. apply safe_no_colon in Hh.
  unfold via_sentby. destruct (av_port v) as [z|]; cbn [rp_port].
  - rewrite split_byte_app by exact Hh.
    rewrite split_byte_single by apply itoa_no_colon. reflexivity.
  - rewrite app_nil_r. apply split_byte_single. exact Hh.
Qed.

Lemma via_head_words v : wf_via_shape v = true ->
  via_proto v <> [] /\ via_sentby v <> [] /\ nospace (via_proto v) /\ nospace (via_sentby v).
Proof.
  intros H. apply wf_via_shape_inv in H. destruct H as (Hn & Hv & Ht & Hh & _).
  apply safe1_parts in Hn, Hv, Ht, Hh.
  destruct Hn as [Nn Hn], Hv as [_ Hv], Ht as [_ Ht], Hh as [Nh Hh].
  split; [|split; [|split]].
  - unfold via_proto. destruct (av_name v); [contradiction|discriminate].
  - unfold via_sentby. destruct (av_host v); [contradiction|discriminate].
  - unfold via_proto.
    apply nospace_app; [apply safe_nospace; exact Hn|].
    apply nospace_cons; [reflexivity|].
    apply nospace_app; [apply safe_nospace; exact Hv|].
    apply nospace_cons; [reflexivity|apply safe_nospace; exact Ht].
  - unfold via_sentby. apply nospace_app; [apply safe_nospace; exact Hh|apply rp_port_nospace].
Qed.

(* the ASCII split (what the judges use) *)
Lemma via_head_fields v : wf_via_shape v = true -> fields (via_head v) = [via_proto v; via_sentby v].
Proof.
  intros H. destruct (via_head_words v H) as (A & B & C & D). unfold via_head. apply fields_two; assumption.
Qed.

Lemma rp_port_ascii p : forallb is_ascii (rp_port p) = true.
Proof.
  destruct p as [z|]; [|reflexivity]. cbn [rp_port forallb]. apply andb_true_iff. split; [reflexivity|].
  apply forallb_forall. intros c Hc. pose proof (itoa_ascii z) as F. rewrite Forall_forall in F. exact (F c Hc).
Qed.

(* strings.Fields (what parseViaParam uses) *)
Lemma via_head_fields_go v : wf_via v = true -> fields_go (via_head v) = [via_proto v; via_sentby v].
Proof.
  intros H. destruct (via_head_words v (wf_via_weaken v H)) as (A & B & C & D).
  destruct (wf_via_no_usp v H) as (Un & Uv & Ut & Uh).
  unfold via_head. apply fields_go_two; try assumption.
  - unfold via_proto. apply no_usp_app_ascii; [exact Un|reflexivity|].
    apply no_usp_app_ascii; [exact Uv|reflexivity|exact Ut].
  - unfold via_sentby. apply no_usp_app_ascii_r; [exact Uh|apply rp_port_ascii].
Qed.

Theorem parse_via_param_rp v : wf_via v = true -> parse_via_param (rp_via1 v) = Ok (embed_via v).
Proof.
  intros H. pose proof (wf_via_weaken v H) as Hs.
  pose proof (wf_via_shape_inv v Hs) as (_ & _ & _ & _ & Hport & Hps).
  unfold parse_via_param. rewrite rp_via1_shape.
  rewrite split_semi_params by (try apply via_head_no_semi; assumption).
  rewrite via_head_fields_go by exact H.
  rewrite via_proto_split by exact Hs.
  rewrite via_sentby_split by exact Hs.
  rewrite map_kv_split_params by exact Hps.
  rewrite embed_via_eq. destruct (av_port v) as [z|].
  - cbn [wf_port] in Hport. rewrite atoi_itoa_port by exact Hport. reflexivity.
  - reflexivity.
Qed.

(* byte-identical: no default port is added *)
Lemma via_param_print_eq v :
  via_param_print v =
  v_name v ++ "/"%char :: v_version v ++ "/"%char :: v_transport v ++ " "%char ::
  print_hostport (v_host v) (v_port v) ++ print_params ";"%char (v_params v).
Proof. reflexivity. Qed.

Theorem via_param_print_embed v : wf_via_shape v = true -> via_param_print (embed_via v) = rp_via1 v.
Proof.
  intros H. pose proof (wf_via_shape_inv v H) as (_ & _ & _ & _ & Hport & Hps).
  rewrite via_param_print_eq, embed_via_eq. cbn [v_name v_version v_transport v_host v_port v_params].
  rewrite print_hostport_ok, print_params_ok by assumption.
  unfold rp_via1. rewrite <- app_assoc. reflexivity.
Qed.

Corollary via_get_port_embed v : wf_via_shape v = true ->
  via_get_port (embed_via v) =
  match av_port v with
  | Some z => z
  | None => if beq (av_transport v) (s2b "TLS") then 5061 else 5060
  end.
Proof.
  intros H. pose proof (wf_via_shape_inv v H) as (_ & _ & _ & _ & Hport & _).
  unfold via_get_port, embed_via. cbn [v_port v_transport].
  destruct (av_port v) as [z|]; [|reflexivity]. rewrite (wf_port_nonzero z Hport). reflexivity.
Qed.

Corollary via_get_branch_embed v : via_get_branch (embed_via v) = a_get (s2b "branch") (av_params v).
Proof. apply kv_get_embed. Qed.
Corollary via_get_received_embed v : via_get_received (embed_via v) = a_get (s2b "received") (av_params v).
Proof. apply kv_get_embed. Qed.
Corollary via_get_rport_embed v : via_get_rport (embed_via v) =
  match a_get (s2b "rport") (av_params v) with Some r => atoi r | None => None end.
Proof. unfold via_get_rport. rewrite embed_via_eq. cbn [v_params]. rewrite kv_get_embed. reflexivity. Qed.

Theorem obs_via_param_embed v : wf_via_shape v = true -> obs_via_param (embed_via v) = x_via1 v.
Proof.
  intros H. unfold obs_via_param, x_via1, x_opt.
  rewrite via_get_port_embed, via_get_branch_embed, via_get_received_embed, via_get_rport_embed by exact H.
  rewrite embed_via_eq. cbn [v_name v_version v_transport v_host v_port v_params].
  rewrite e_kvs_embed. reflexivity.
Qed.

Lemma via1_exact :
  exact_codec parse_via_param via_param_print obs_via_param (fun v => wf_via v = true) rp_via1 x_via1 embed_via.
Proof.
  split; [exact parse_via_param_rp|].
  split; intros v H; [apply via_param_print_embed|apply obs_via_param_embed]; apply wf_via_weaken, H.
Qed.

Lemma via_list l : forallb wf_via l = true ->
  (l <> [] -> parse_via (rp_via l) = Ok (map embed_via l)) /\
  via_print (map embed_via l) = rp_via l /\
  e_list obs_via_param (map embed_via l) = e_list x_via1 l.
Proof.
  intros H. apply (exact_list via1_exact).
  - intros v Hv. apply rp_via1_no_comma, wf_via_weaken, Hv.
  - intros v. apply forallb_In, H.
Qed.

Theorem parse_via_rp l : l <> [] -> forallb wf_via l = true ->
  parse_via (rp_via l) = Ok (map embed_via l).
Proof. intros NE H. exact (proj1 (via_list l H) NE). Qed.

Theorem via_print_embed l : forallb wf_via l = true -> via_print (map embed_via l) = rp_via l.
Proof. intros H. exact (proj1 (proj2 (via_list l H))). Qed.

Theorem obs_via_embed l : forallb wf_via l = true ->
  e_list obs_via_param (map embed_via l) = e_list x_via1 l.
Proof. intros H. exact (proj2 (proj2 (via_list l H))). Qed.

Lemma via_exact :
  exact_codec parse_via via_print (e_list obs_via_param) (fun l => l <> [] /\ forallb wf_via l = true)
              rp_via (e_list x_via1) (map embed_via).
Proof.
  split; [intros l [NE H]; apply parse_via_rp; assumption|].
  split; intros l [_ H]; [apply via_print_embed, H|apply obs_via_embed, H].
Qed.

(* print (parse text) = text and the re-encoding is stable *)
Theorem via_roundtrip l : l <> [] -> forallb wf_via l = true ->
  exists a, parse_via (rp_via l) = Ok a /\ via_print a = rp_via l /\
            parse_via (via_print a) = Ok a.
Proof. intros NE H. exact (exact_roundtrip via_exact l (conj NE H)). Qed.

Theorem C14_via l : l <> [] -> forallb wf_via l = true ->
  codec_obs parse_via via_print (e_list obs_via_param) (rp_via l) =
  expected_obs (rp_via l) (e_list x_via1 l).
Proof. intros NE H. exact (exact_obs via_exact l (conj NE H)). Qed.

Corollary C14_via_judge l : l <> [] -> forallb wf_via l = true ->
  judge_C14 (expected_obs (rp_via l) (e_list x_via1 l))
            (codec_obs parse_via via_print (e_list obs_via_param) (rp_via l)) = true.
Proof. intros NE H. exact (exact_judge via_exact l (conj NE H)). Qed.

Definition embed_cseq (c : a_cseq) : cseq := {| cs_seq := ac_seq c; cs_method := ac_method c |}.

Lemma wf_cseq_inv c : wf_cseq c = true ->
  (0 <=? ac_seq c) && (ac_seq c <=? 4294967295) = true /\ ac_method c <> [] /\ safe (ac_method c) = true /\
  no_usp (ac_method c) = true.
Proof.
  unfold wf_cseq. intros H. do 2 (apply andb_prop in H; destruct H as [H ?]).
  apply safe1_parts in H1. repeat split; (assumption || apply H1).
Qed.

(* the ASCII split (what the judges use) *)
Lemma rp_cseq_fields c : wf_cseq c = true -> fields (rp_cseq c) = [itoa (ac_seq c); ac_method c].
Proof.
  intros H. apply wf_cseq_inv in H. destruct H as (_ & Hm & Hs & _).
  unfold rp_cseq. apply fields_two.
  - apply itoa_nonempty.
  - exact Hm.
  - apply itoa_nospace.
  - apply safe_nospace. exact Hs.
Qed.
(* strings.Fields (what ParseCSeq uses) *)
Lemma rp_cseq_fields_go c : wf_cseq c = true -> fields_go (rp_cseq c) = [itoa (ac_seq c); ac_method c].
Proof.
  intros H. unfold rp_cseq. rewrite fields_go_two_words; [apply rp_cseq_fields, H|apply itoa_no_usp|].
  apply (wf_cseq_inv c H).
Qed.

Theorem parse_cseq_rp c : wf_cseq c = true -> parse_cseq (rp_cseq c) = Ok (embed_cseq c).
Proof.
  intros H. unfold parse_cseq. rewrite rp_cseq_fields_go by exact H.
  apply wf_cseq_inv in H. destruct H as (Hz & _).
  rewrite atoi_itoa_seq by exact Hz. reflexivity.
Qed.

(* holds for every abstract value, well-formed or not *)
Theorem cseq_print_embed c : cseq_print (embed_cseq c) = rp_cseq c.
Proof. reflexivity. Qed.

Theorem obs_cseq_embed c : obs_cseq (embed_cseq c) = x_cseq c.
Proof. reflexivity. Qed.

Lemma cseq_exact :
  exact_codec parse_cseq cseq_print obs_cseq (fun c => wf_cseq c = true) rp_cseq x_cseq embed_cseq.
Proof. exact (conj parse_cseq_rp (conj (fun c _ => cseq_print_embed c) (fun c _ => obs_cseq_embed c))). Qed.

Theorem cseq_roundtrip c : wf_cseq c = true ->
  exists a, parse_cseq (rp_cseq c) = Ok a /\ cseq_print a = rp_cseq c /\
            parse_cseq (cseq_print a) = Ok a.
Proof. apply (exact_roundtrip cseq_exact). Qed.

Theorem C14_cseq c : wf_cseq c = true ->
  codec_obs parse_cseq cseq_print obs_cseq (rp_cseq c) = expected_obs (rp_cseq c) (x_cseq c).
Proof. apply (exact_obs cseq_exact). Qed.

(* the pre-fix encoder adds ":5060" to a sent-by that had no port: the text changes *)
Example via_legacy_adds_port :
  let t := s2b "SIP/2.0/UDP host;branch=x" in
  match parse_via_param t with
  | Ok v => via_param_print_legacy v = s2b "SIP/2.0/UDP host:5060;branch=x" /\
            via_param_print_legacy v <> t /\
            via_param_print v = t
  | _ => False
  end.
Proof. vm_compute. repeat split. discriminate. Qed.

(* the same witness stated over the domain: a well-formed abstract Via on which the legacy
   encoder is not byte-identical *)
Example via_legacy_not_lossless :
  exists v, wf_via v = true /\ via_param_print_legacy (embed_via v) <> rp_via1 v.
Proof.
  exists {| av_name := s2b "SIP"; av_version := s2b "2.0"; av_transport := s2b "UDP";
            av_host := s2b "host"; av_port := None;
            av_params := [{| ap_key := s2b "branch"; ap_val := Some (s2b "x") |}] |}.
  split; [reflexivity|]. vm_compute. discriminate.
Qed.

Definition ex_via_a : a_via :=
  {| av_name := s2b "SIP"; av_version := s2b "2.0"; av_transport := s2b "TLS";
     av_host := s2b "proxy-1.example.org"; av_port := None;
     av_params := [ {| ap_key := s2b "branch"; ap_val := Some (s2b "z9hG4bK%7e=a:b/c@d") |};
                    {| ap_key := s2b "rport"; ap_val := None |};
                    {| ap_key := s2b "x%41"; ap_val := Some (s2b "50%25") |} ] |}.
Definition ex_via_b : a_via :=
  {| av_name := s2b "SIP"; av_version := s2b "2.0"; av_transport := s2b "UDP";
     av_host := s2b "10.0.0.7"; av_port := Some 5080;
     av_params := [ {| ap_key := s2b "received"; ap_val := Some (s2b "192.0.2.4") |};
                    {| ap_key := s2b "rport"; ap_val := Some (s2b "40123") |};
                    {| ap_key := s2b "branch"; ap_val := Some (s2b "z9hG4bKnashds8") |};
                    {| ap_key := s2b "lr"; ap_val := None |} ] |}.
Definition ex_vias : list a_via := [ex_via_a; ex_via_b].

Example ex_vias_wf : ex_vias <> [] /\ forallb wf_via ex_vias = true.
Proof. split; [discriminate|reflexivity]. Qed.

Example ex_vias_text : rp_via ex_vias =
  s2b "SIP/2.0/TLS proxy-1.example.org;branch=z9hG4bK%7e=a:b/c@d;rport;x%41=50%25,SIP/2.0/UDP 10.0.0.7:5080;received=192.0.2.4;rport=40123;branch=z9hG4bKnashds8;lr".
Proof. vm_compute. reflexivity. Qed.

Example ex_vias_decode : parse_via (rp_via ex_vias) = Ok (map embed_via ex_vias).
Proof. vm_compute. reflexivity. Qed.

Example ex_vias_encode : via_print (map embed_via ex_vias) = rp_via ex_vias.
Proof. vm_compute. reflexivity. Qed.

Example ex_vias_obs :
  codec_obs parse_via via_print (e_list obs_via_param) (rp_via ex_vias) =
  expected_obs (rp_via ex_vias) (e_list x_via1 ex_vias).
Proof. vm_compute. reflexivity. Qed.

(* what the accessors report on the example: default port 5061 for TLS, explicit 5080,
   valueless rport -> none, rport=40123 -> 40123 *)
Example ex_vias_accessors :
  map via_get_port (map embed_via ex_vias) = [5061; 5080] /\
  map via_get_rport (map embed_via ex_vias) = [None; Some 40123] /\
  map via_get_received (map embed_via ex_vias) = [None; Some (s2b "192.0.2.4")] /\
  map via_get_branch (map embed_via ex_vias) = [Some (s2b "z9hG4bK%7e=a:b/c@d"); Some (s2b "z9hG4bKnashds8")].
Proof. vm_compute. repeat split. Qed.

(* the same instance obtained from the general theorem (hypotheses are satisfiable) *)
Example ex_vias_by_theorem :
  codec_obs parse_via via_print (e_list obs_via_param) (rp_via ex_vias) =
  expected_obs (rp_via ex_vias) (e_list x_via1 ex_vias).
Proof. apply C14_via; [discriminate|vm_compute; reflexivity]. Qed.

Definition ex_cseq : a_cseq := {| ac_seq := 4294967295; ac_method := s2b "INVITE" |}.
Example ex_cseq_wf : wf_cseq ex_cseq = true.
Proof. reflexivity. Qed.
Example ex_cseq_obs :
  rp_cseq ex_cseq = s2b "4294967295 INVITE" /\
  parse_cseq (rp_cseq ex_cseq) = Ok (embed_cseq ex_cseq) /\
  codec_obs parse_cseq cseq_print obs_cseq (rp_cseq ex_cseq) =
  expected_obs (rp_cseq ex_cseq) (x_cseq ex_cseq).
Proof. vm_compute. repeat split. Qed.
Example ex_cseq_zero : wf_cseq {| ac_seq := 0; ac_method := s2b "ACK" |} = true /\
  parse_cseq (s2b "0 ACK") = Ok {| cs_seq := 0; cs_method := s2b "ACK" |}.
Proof. vm_compute. repeat split. Qed.

(* the hypothesis l <> [] is necessary: the empty list prints as "" which does not decode *)
Example via_empty_rejected : parse_via (rp_via []) = Err.
Proof. reflexivity. Qed.

(* the Unicode-space conjuncts of wf_via / wf_cseq are necessary: a host / a method that passes
   [safe1] but contains U+00A0 (C2 A0) is split by strings.Fields, and the decoder rejects the
   reference text *)
Definition ex_via_nbsp : a_via :=
  {| av_name := s2b "SIP"; av_version := s2b "2.0"; av_transport := s2b "UDP";
     av_host := s2b "a" ++ [ascii_of_nat 194; ascii_of_nat 160] ++ s2b "b"; av_port := None; av_params := [] |}.
Example via_usp_necessary :
  wf_via_shape ex_via_nbsp = true /\ wf_via ex_via_nbsp = false /\ parse_via (rp_via [ex_via_nbsp]) = Err.
Proof. vm_compute. repeat split. Qed.
Example cseq_usp_necessary :
  let c := {| ac_seq := 1; ac_method := s2b "A" ++ [ascii_of_nat 194; ascii_of_nat 160] ++ s2b "B" |} in
  safe1 (ac_method c) = true /\ wf_cseq c = false /\ parse_cseq (rp_cseq c) = Err.
Proof. vm_compute. repeat split. Qed.

Print Assumptions parse_via_param_rp.
Print Assumptions via_param_print_embed.
Print Assumptions obs_via_param_embed.
Print Assumptions parse_via_rp.
Print Assumptions via_print_embed.
Print Assumptions obs_via_embed.
Print Assumptions via_roundtrip.
Print Assumptions C14_via.
Print Assumptions C14_via_judge.
Print Assumptions parse_cseq_rp.
Print Assumptions cseq_print_embed.
Print Assumptions obs_cseq_embed.
Print Assumptions cseq_roundtrip.
Print Assumptions C14_cseq.
