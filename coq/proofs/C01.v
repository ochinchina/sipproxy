(* proofs/C01.v — property C01: relaying leaves everything the proxy does not own untouched.

   For EVERY message, configuration, state, listener, repair-flag value (no size bounds):
     - every byte string the proxy emits while handling a decoded message m is
       [write_message m'] for some m' with the same NON-ROUTING VIEW as m (start line text,
       (name, printed value) list of all headers other than Via / Route / Record-Route /
       Content-Length with multiplicity and order, body), on every path (backend, Route,
       static route, response by Via; UDP and TCP)            [C01_relay_preserves, C01_proxy_step_*]
     - write_message emits exactly one Content-Length, after all other headers
                                                              [C01_single_content_length*]
     - the executable judge of SpecProxy.v accepts every such output   [C01_judge_bridge*]
   under the hypothesis [stable m] (raw From / To / CSeq values are fixed points of
   decode-then-encode), which holds on the C14 grammar domain and is visibly necessary
   (CSeq "0001 INVITE" is re-encoded "1 INVITE").
   No axioms, no admits. *)
From Coq Require Import List Ascii String ZArith NArith Bool Lia.
From Model Require Import Bytes BytesLemmas Uri Hdr Message Msg Rx Glob StaticRoute RoundRobin Pins
     Proxy RunProxy SpecProxy SpecC14.
From Model.proofs Require Import C14_uri C14_hdr C14_via MsgLemmas Pipeline MsgStages.
Import ListNotations.
Open Scope list_scope.

#[local] Arguments same_header : simpl never.
#[local] Arguments s2b : simpl never.

(* Whatever process_message sends for a received message m is ONE message m', written out once or
   not at all, that the stages have derived from m.  For every relation R the stages stay inside:
   the reading stages (MsgStages), SetReceived, PopVia, and the proxy's own Via and Record-Route
   put on top. *)
Section Relay.
  Variable R : message -> message -> Prop.
  Hypothesis E : edits_in any_name R.
  Hypothesis R_received : forall peer port, mpres R (s_set_received peer port).
  Hypothesis R_pop_via : mpres R s_pop_via.
  Hypothesis R_pop_route : pop_edit R (s2b "Route") HRoute.
  Hypothesis R_add_via : forall v m, R m (add_via v m).
  Hypothesis R_add_rr : forall r m, R m (add_record_route r m).

  Definition relayed (m : message) (x x' : ctx) : Prop :=
    exists m' extra, R m m' /\ x_outs x' = x_outs x ++ extra /\ send_shape (write_message m') extra.

  Lemma relayed_none m x x' : x_outs x' = x_outs x -> relayed m x x'.
  Proof.
    intros O. exists m, []. rewrite app_nil_r. split; [apply (ed_refl E)|split; [exact O|constructor]].
  Qed.
  Lemma relayed_from m m1 x x' : R m m1 -> relayed m1 x x' -> relayed m x x'.
  Proof.
    intros A (m' & extra & B & O & S). exists m', extra. split; [exact (ed_trans E _ _ _ A B)|split; assumption].
  Qed.
  Lemma relayed_outs m x x0 x' : x_outs x0 = x_outs x -> relayed m x0 x' -> relayed m x x'.
  Proof. intros O (m' & extra & B & O' & S). exists m', extra. rewrite <- O. auto. Qed.

  Lemma decorate_rel e must t m : R m (px_add_record_route must t (px_add_via e t m)).
  Proof.
    apply (ed_trans E) with (px_add_via e t m); [apply R_add_via|].
    unfold px_add_record_route. destruct (_ && _)%bool; [apply (ed_refl E)|apply R_add_rr].
  Qed.

  Lemma send_message_relayed e host port tr m x : relayed m x (fst (send_message e host port tr m x)).
  Proof.
    destruct (send_message_shape e host port tr m x) as (Em & _ & extra & O & S & _).
    exists (snd (send_message e host port tr m x)), extra. split; [|split; assumption].
    rewrite Em. apply mpres_mtry, (mpres_s_client_transaction _ _ E); exact I.
  Qed.

  Lemma send_to_backend_relayed e m x : relayed m x (fst (send_to_backend e m x)).
  Proof.
    destruct (send_to_backend_msg e m x) as (_ & _ & _ & extra & O & [->|(t0 & _ & _ & S)]).
    - apply relayed_none. rewrite O. apply app_nil_r.
    - exists (backend_msg e t0 (x_p x) m), extra. split; [|split; assumption]. unfold backend_msg.
      exact (ed_trans E _ _ _ (mpres_find_backend_by_dialog _ _ E e (x_p x) I I I m) (decorate_rel e _ t0 _)).
  Qed.

  Lemma handle_message_relayed e from m x : relayed m x (fst (handle_message e from m x)).
  Proof.
    destruct (is_request m) eqn:Q.
    - rewrite (handle_message_request _ _ _ _ Q).
      pose proof (mpres_next_request_hop _ _ E (c_keep_next_hop (e_cfg e)) (route_table_of (e_cfg e)) I I R_pop_route m) as A.
      destruct (next_request_hop _ _ m) as [m1 r]. cbn [fst] in A. apply (relayed_from _ m1 _ _ A).
      unfold dispatch. destruct r as [[[host port] tr]| |];
        [|destruct (is_my_message _ from m1); [apply send_to_backend_relayed|apply relayed_none; reflexivity]..].
      apply relayed_from with (stage_decorate e (x_learned x) host m1); [|apply send_message_relayed].
      unfold stage_decorate. destruct (alookup host (x_learned x)); [apply decorate_rel|apply (ed_refl E)].
    - rewrite (handle_message_response_msg _ _ _ _ Q).
      apply (relayed_from _ _ _ _ (response_msg_edits _ _ E I I I I e (x_p x) m R_pop_via)). unfold respond.
      destruct (response_hop m) as [[[[host port] tr]|]| |]; try (apply relayed_none; reflexivity).
      apply relayed_outs with (ctx_with x (x_learned x) (snd (response_msg e (x_p x) m)));
        [reflexivity|apply send_message_relayed].
  Qed.

  Theorem relay_rel e peer port from rs tcp m x x' :
    process_message e peer port from rs tcp m x = Ok x' -> relayed m x x'.
  Proof.
    rewrite process_message_reach. destruct (reach e peer port from rs tcp m x) as [[m5 x1]| |] eqn:Rc; try discriminate.
    intros H. injection H as <-.
    apply relayed_from with m5; [exact (reach_edits _ _ E I I I I I R_pop_route _ _ _ _ _ _ _ _ _ _ (R_received _ _) Rc)|].
    apply relayed_outs with x1; [rewrite (reach_ctx _ _ _ _ _ _ _ _ _ _ Rc); reflexivity|apply handle_message_relayed].
  Qed.
End Relay.

(* an output of the proxy is acceptable for the received message m *)
Definition good (m : message) (d : dest) (b : bytes) : Prop :=
  match d with
  | DDial _ _ _ => b = []
  | _ => exists m', b = write_message m' /\ view m' = view m
  end.

Lemma send_shape_good m m' outs :
  send_shape (write_message m') outs -> view m' = view m -> forall d b, In (d, b) outs -> good m d b.
Proof.
  intros S V d b In1. assert (W : good m (DConn 0) (write_message m')) by (exists m'; auto).
  destruct S; cbn [In] in In1; repeat (destruct In1 as [In1|In1]; [injection In1 as <- <-|]);
    first [contradiction|reflexivity|exact W].
Qed.

(* the relay theorem at [pres_rel]: stable messages stay stable and keep their view
   (MsgLemmas.[preserves x] says the same of one computation: it is [mpres pres_rel x]) *)
Lemma relay_view e peer port from rs tcp m x x' :
  process_message e peer port from rs tcp m x = Ok x' ->
  exists pre, x_outs x' = x_outs x ++ pre /\ (stable m -> forall d b, In (d, b) pre -> good m d b).
Proof.
  intros H.
  destruct (relay_rel pres_rel pres_edits
              (fun peer port => mpres_s_set_received _ _ pres_edits peer port I pres_rel_top_via)
              (mpres_s_pop_via _ _ pres_edits I (pres_rel_pop (s2b "Via") HVia (fun _ => eq_refl) routing_via))
              (pres_rel_pop (s2b "Route") HRoute (fun _ => eq_refl) routing_route) frame_add_via frame_add_record_route
              _ _ _ _ _ _ _ _ _ H) as (m' & pre & Rm & O & Sh).
  exists pre. split; [exact O|]. intros S. exact (send_shape_good m m' pre Sh (proj2 (Rm S))).
Qed.

Theorem C01_relay_preserves :
  forall e peer peer_port from rs tcp m x x',
    stable m ->
    process_message e peer peer_port from rs tcp m x = Ok x' ->
    exists pre, x_outs x' = x_outs x ++ pre /\
      forall d b, In (d, b) pre ->
        match d with
        | DDial _ _ _ => b = []
        | _ => exists m', b = write_message m' /\ view m' = view m
        end.
Proof.
  intros e peer peer_port from rs tcp m x x' S H.
  destruct (relay_view _ _ _ _ _ _ _ _ _ H) as (pre & O & G). exists pre. split; [exact O|exact (G S)].
Qed.

(* UDP: every output of the event whose datagram decodes to m *)
Theorem C01_proxy_step_udp :
  forall fx c now branch st li src sport data m rest st' outs,
    parse_message data = Ok (m, rest) -> stable m ->
    proxy_step fx c now branch st (EvUdp li src sport data) = Ok (st', outs) ->
    forall d b, In (d, b) outs -> good m d b.
Proof.
  intros fx c now branch st li src sport data m rest st' outs P S H d b In1.
  apply proxy_step_udp_inv in H.
  destruct H as [(_ & ->)|(lc & m0 & rest0 & p & x' & _ & P0 & _ & PM & _ & ->)]; [contradiction|].
  rewrite P in P0. injection P0 as <- _.
  destruct (relay_view _ _ _ _ _ _ _ _ _ PM) as (pre & O & G).
  rewrite O in In1. exact (G S d b In1).
Qed.

Lemma Forall2_concat_in {A C} (Q : A -> list C -> Prop) (l : list A) (oss : list (list C)) (c : C) :
  Forall2 Q l oss -> In c (List.concat oss) -> exists a os, In a l /\ Q a os /\ In c os.
Proof.
  induction 1 as [|a os l oss Qa F IH]; cbn [List.concat]; [contradiction|]. intros In1.
  apply in_app_iff in In1. destruct In1 as [In1|In1]; [exists a, os; split; [left; reflexivity|auto]|].
  destruct (IH In1) as (a' & os' & Ia & Qa' & Ic). exists a', os'. split; [right; exact Ia|auto].
Qed.

(* TCP: a chunk may contain several messages; each output comes from one of them *)
Theorem C01_proxy_step_tcp :
  forall fx c now branch st cid data st' outs,
    (forall m, In m (parse_stream (S (List.length data)) data) -> stable m) ->
    proxy_step fx c now branch st (EvTcpData cid data) = Ok (st', outs) ->
    forall d b, In (d, b) outs ->
      exists m, In m (parse_stream (S (List.length data)) data) /\ good m d b.
Proof.
  intros fx c now branch st cid data st' outs St H d b In1.
  apply proxy_step_tcp_inv in H.
  destruct H as [(_ & ->)|(cn & lc & p & x' & _ & _ & _ & _ & _ & TM & _ & ->)]; [contradiction|].
  apply (tcp_messages_outs (fun m os => stable m -> forall d b, In (d, b) os -> good m d b)) in TM;
    [|intros m x y PM; exact (relay_view _ _ _ _ _ _ _ _ _ PM)].
  destruct TM as (oss & O & F). rewrite O in In1.
  destruct (Forall2_concat_in _ _ _ _ F In1) as (m & os & Im & G & Io).
  assert (Is : In m (parse_stream (S (List.length data)) data)).
  { rewrite <- (firstn_skipn (List.length oss)). apply in_or_app. left. exact Im. }
  exists m. split; [exact Is|exact (G (St m Is) d b Io)].
Qed.

(* the raw From / To / CSeq values are reference renderings of well-formed abstract values *)
Definition c14_domain_h (h : header) : Prop :=
  match h_val h with
  | HRaw s =>
      ((same_header (h_name h) (s2b "From") = true \/ same_header (h_name h) (s2b "To") = true) ->
       exists f, wf_fromto f = true /\ s = rp_fromto f) /\
      (same_header (h_name h) (s2b "CSeq") = true -> exists c, wf_cseq c = true /\ s = rp_cseq c)
  | _ => True
  end.

Theorem stable_on_c14_domain m : Forall c14_domain_h (m_headers m) -> stable m.
Proof.
  unfold stable, stable_hs. apply Forall_impl. intros h D.
  unfold c14_domain_h in D. unfold stable_h. destruct (h_val h); auto.
  destruct D as [D1 D2]. split.
  - intros N f P. destruct (D1 N) as (af & W & ->). rewrite (parse_fromto_rp af W) in P.
    inversion P; subst. apply fromto_print_embed. exact W.
  - intros N c P. destruct (D2 N) as (ac & W & ->). rewrite (parse_cseq_rp ac W) in P.
    inversion P; subst. apply cseq_print_embed.
Qed.

(* executable check of [stable] (used for the concrete examples) *)
Definition stable_hb (h : header) : bool :=
  match h_val h with
  | HRaw s =>
      (if (same_header (h_name h) (s2b "From") || same_header (h_name h) (s2b "To"))%bool
       then match parse_fromto s with Ok f => beq (fromto_print f) s | _ => true end else true) &&
      (if same_header (h_name h) (s2b "CSeq")
       then match parse_cseq s with Ok c => beq (cseq_print c) s | _ => true end else true)
  | _ => true
  end.
Definition stable_b (m : message) : bool := forallb stable_hb (m_headers m).

Lemma stable_b_sound m : stable_b m = true -> stable m.
Proof.
  unfold stable_b, stable, stable_hs. rewrite forallb_forall, Forall_forall. intros H h I.
  specialize (H h I). unfold stable_hb in H. unfold stable_h. destruct (h_val h); auto.
  apply andb_true_iff in H. destruct H as [H1 H2]. split.
  - intros N f P. assert (N' : (same_header (h_name h) (s2b "From") || same_header (h_name h) (s2b "To"))%bool = true)
      by (destruct N as [N|N]; rewrite N; [reflexivity|apply orb_true_r]).
    rewrite N', P in H1. apply beq_eq. exact H1.
  - intros N c P. rewrite N, P in H2. apply beq_eq. exact H2.
Qed.

(* OUTSIDE the domain the hypothesis fails and so does the conclusion: a CSeq number with
   leading zeros is decoded (GetClientTransaction on every relayed message) and re-encoded %d *)
Definition ex_unstable : message :=
  {| m_start := SReq (s2b "INVITE") (AAbs (s2b "tel:+1")) (s2b "SIP/2.0");
     m_headers := [{| h_name := s2b "CSeq"; h_val := HRaw (s2b "0001 INVITE") |}];
     m_body := [] |}.
Example C01_stable_necessary :
  parse_cseq (s2b "0001 INVITE") = Ok {| cs_seq := 1; cs_method := s2b "INVITE" |} /\
  cseq_print {| cs_seq := 1; cs_method := s2b "INVITE" |} = s2b "1 INVITE" /\
  ~ stable ex_unstable /\
  view (fst (s_get_cseq ex_unstable)) <> view ex_unstable /\
  view_hs (m_headers (fst (s_get_cseq ex_unstable))) = [(s2b "CSeq", s2b "1 INVITE")].
Proof.
  assert (P : parse_cseq (s2b "0001 INVITE") = Ok {| cs_seq := 1; cs_method := s2b "INVITE" |})
    by (vm_compute; reflexivity).
  split; [exact P|]. split; [vm_compute; reflexivity|]. split; [|split].
  - intros S. inversion S as [|h r Sh Sr]; subst. unfold stable_h in Sh. simpl in Sh.
    destruct Sh as [_ Sh]. specialize (Sh (same_header_refl _) _ P). vm_compute in Sh. discriminate Sh.
  - vm_compute. intros E. discriminate E.
  - vm_compute. reflexivity.
Qed.

Definition is_cl_h (h : header) : bool := same_header (h_name h) (s2b "Content-Length").
Definition cl_header (m : message) : header :=
  {| h_name := s2b "Content-Length"; h_val := HRaw (itoa (Z.of_nat (List.length (m_body m)))) |}.
(* the header fields write_message emits, in order *)
Definition emitted_headers (m : message) : list header :=
  filter (fun h => negb (is_cl_h h)) (m_headers m) ++ [cl_header m].

(* write_message m = start line, the received headers that are not a Content-Length (any
   spelling: full, compact "l", any case) in their order, then ONE Content-Length with the
   number of body bytes, the empty line, the body *)
Theorem C01_single_content_length m :
  write_message m =
    start_line_print (m_start m) ++ crlf ++ flat_map header_print (emitted_headers m) ++ crlf ++ m_body m
  /\ emitted_headers m = filter (fun h => negb (is_cl_h h)) (m_headers m) ++ [cl_header m]
  /\ Forall (fun h => is_cl_h h = false) (filter (fun h => negb (is_cl_h h)) (m_headers m))
  /\ is_cl_h (cl_header m) = true
  /\ header_print (cl_header m) =
       s2b "Content-Length: " ++ itoa (Z.of_nat (List.length (m_body m))) ++ crlf
  /\ List.length (filter is_cl_h (emitted_headers m)) = 1%nat.
Proof.
  assert (F : Forall (fun h => is_cl_h h = false) (filter (fun h => negb (is_cl_h h)) (m_headers m))).
  { apply Forall_forall. intros h I. apply filter_In in I. destruct I as [_ I].
    apply negb_true_iff. exact I. }
  assert (C : is_cl_h (cl_header m) = true) by apply same_header_refl.
  assert (P : header_print (cl_header m) =
               s2b "Content-Length: " ++ itoa (Z.of_nat (List.length (m_body m))) ++ crlf).
  { unfold header_print. cbn [cl_header h_name h_val hval_print].
    change (s2b "Content-Length: ") with (s2b "Content-Length" ++ s2b ": ").
    rewrite <- !app_assoc. reflexivity. }
  repeat split; try assumption.
  - unfold write_message, emitted_headers. rewrite flat_map_app. cbn [flat_map]. rewrite app_nil_r, P.
    rewrite <- !app_assoc. reflexivity.
  - unfold emitted_headers. rewrite filter_app. cbn [filter]. rewrite C.
    assert (E : filter is_cl_h (filter (fun h => negb (is_cl_h h)) (m_headers m)) = []).
    { induction F as [|h r Hh Hr IH]; [reflexivity|]. cbn [filter]. rewrite Hh. exact IH. }
    rewrite E. reflexivity.
Qed.

(* encodeHeader compared header.name == "Content-Length" (exact spelling only) *)
Definition write_message_legacy (m : message) : bytes :=
  start_line_print (m_start m) ++ crlf ++
  flat_map header_print (filter (fun h => negb (beq (h_name h) (s2b "Content-Length"))) (m_headers m)) ++
  s2b "Content-Length: " ++ itoa (Z.of_nat (List.length (m_body m))) ++ crlf ++ crlf ++ m_body m.

Definition parsed (b : bytes) : message :=
  match parse_message b with
  | Ok (m, _) => m
  | _ => {| m_start := SResp [] 0 []; m_headers := []; m_body := [] |}
  end.
(* the verdict of the executable judge on (input bytes, output bytes); None = unreadable *)
Definition judge_bytes (i o : bytes) : option nat :=
  match j_read i, j_read o with Some ji, Some jo => Some (judge_C01_pair ji jo) | _, _ => None end.

(* the hypotheses of the theorems on a concrete input, with one evaluation of parse_message and one
   of j_read *)
Lemma input_hypotheses b dom :
  match parse_message b with Ok (m, []) => stable_b m | _ => false end = true ->
  option_map in_domain_C01 (j_read b) = Some dom ->
  parse_message b = Ok (parsed b, []) /\ stable (parsed b) /\
  option_map in_domain_C01 (j_read b) = Some dom.
Proof.
  unfold parsed. destruct (parse_message b) as [[m [|c r]]| |]; try discriminate. intros S D.
  split; [reflexivity|split; [apply stable_b_sound; exact S|exact D]].
Qed.

Definition ex_legacy_input : bytes :=
  s2b "INVITE sip:svc@example.com SIP/2.0" ++ crlf ++ s2b "l: 3" ++ crlf ++ crlf ++ s2b "abc".

(* a request with the compact header "l: 3": the pre-fix encoder emits it AND its own
   Content-Length (two fields; the judge answers 5), the repaired one emits exactly one *)
Theorem C01_legacy_refuted :
  parse_message ex_legacy_input = Ok (parsed ex_legacy_input, []) /\
  option_map in_domain_C01 (j_read ex_legacy_input) = Some true /\
  stable (parsed ex_legacy_input) /\
  write_message_legacy (parsed ex_legacy_input) =
    s2b "INVITE sip:svc@example.com SIP/2.0" ++ crlf ++ s2b "l: 3" ++ crlf ++
    s2b "Content-Length: 3" ++ crlf ++ crlf ++ s2b "abc" /\
  option_map jm_cl_count (j_read (write_message_legacy (parsed ex_legacy_input))) = Some 2%nat /\
  judge_bytes ex_legacy_input (write_message_legacy (parsed ex_legacy_input)) = Some 5%nat /\
  option_map jm_cl_count (j_read (write_message (parsed ex_legacy_input))) = Some 1%nat /\
  judge_bytes ex_legacy_input (write_message (parsed ex_legacy_input)) = Some 0%nat.
Proof.
  destruct (input_hypotheses ex_legacy_input true) as (P & S & D); [vm_compute; reflexivity|vm_compute; reflexivity|].
  repeat apply conj; [exact P|exact D|exact S|..]; vm_compute; reflexivity.
Qed.

Definition ex_lc : listen_cfg :=
  {| lc_addr := s2b "10.0.0.1"; lc_udp := 5060; lc_tcp := 5060; lc_backends := [s2b "10.0.0.2:5080"];
     lc_dynamic := false; lc_no_received := false; lc_def_route := false; lc_must_rr := true |}.
Definition ex_cfg : cfg :=
  {| c_name := s2b "example.com"; c_keep_next_hop := false; c_dialog_timeout := 3600;
     c_routes := [(s2b "udp", (s2b "static.example.org", s2b "10.0.0.8:5090"))];
     c_hosts := []; c_listens := [ex_lc] |}.
(* one TCP peer accepts connections *)
Definition ex_st : state := init_state ex_cfg 0 [(s2b "10.0.0.7", 5080%Z)].

(* compact and odd-case names, a repeated extension header, '%', quotes, ';', ',', '<', '>',
   non-UTF-8 bytes, a compact Content-Length that is not the last header, a body with
   CR LF NUL *)
Definition ex_common : bytes :=
  s2b "v: SIP/2.0/UDP 10.0.0.9:5070;branch=z9hG4bKabc;rport" ++ crlf ++
  s2b "f: ""A %41 \""q\"""" <sip:alice@a.example.com;x=%25>;tag=1%sz" ++ crlf ++
  s2b "T: <sip:svc@example.com>" ++ crlf ++
  s2b "i: call-1@host" ++ crlf ++
  s2b "CSeq: 7 INVITE" ++ crlf ++
  s2b "X-eXt: a;b=""c"";%d%s,<>" ++ crlf ++
  s2b "x-ext: second, value" ++ crlf ++
  (s2b "X-Bin: " ++ [ascii_of_nat 255; ascii_of_nat 254; "a"%char; ascii_of_nat 128]) ++ crlf ++
  s2b "l: 7" ++ crlf ++
  s2b "cONTENT-tYPE: application/x" ++ crlf ++
  s2b "X-eXt: third" ++ crlf ++ crlf ++
  [ "a"%char; ascii_of_nat 13; ascii_of_nat 10; zero; "b"%char; ascii_of_nat 10; ascii_of_nat 13 ].
(* addressed to the service name: relayed to the backend *)
Definition ex_req_backend : bytes := s2b "INVITE sip:svc@example.com SIP/2.0" ++ crlf ++ ex_common.
(* carries a Route: relayed to the first route entry (over TCP: a dial, then the bytes) *)
Definition ex_req_route : bytes :=
  s2b "oPTIONS sip:bob@elsewhere.example.net;transport=tcp SIP/2.0" ++ crlf ++
  s2b "Route: <sip:10.0.0.7:5080;lr;transport=tcp>,<sip:10.0.0.6;lr>" ++ crlf ++ ex_common.
(* To host in the static route table *)
Definition ex_req_static : bytes :=
  s2b "MESSAGE sip:carol@static.example.org SIP/2.0" ++ crlf ++
  s2b "To: sip:carol@static.example.org" ++ crlf ++ ex_common.
(* a response: relayed by its second Via *)
Definition ex_resp : bytes :=
  s2b "SIP/2.0 183 Session  Progress" ++ crlf ++
  s2b "Via: SIP/2.0/UDP 10.0.0.1:5060;branch=z9hG4bKpx" ++ crlf ++ ex_common.

Definition ex_run (data : bytes) : res (state * list output) :=
  proxy_step all_fixed ex_cfg 1000 (branch_of 0) ex_st (EvUdp 0 (s2b "10.0.0.9") 5070%Z data).
Definition ex_outs (data : bytes) : list (bytes * bytes) :=
  match ex_run data with Ok (_, outs) => map (fun o => (label_of (fst o), snd o)) outs | _ => [] end.

(* hypotheses of the theorems hold on the concrete inputs ... *)
Example ex_hypotheses :
  Forall (fun b => parse_message b = Ok (parsed b, []) /\ stable (parsed b) /\
                   option_map in_domain_C01 (j_read b) = Some true)
         [ex_req_backend; ex_req_route; ex_req_static].
Proof. repeat (apply Forall_cons; [apply input_hypotheses; vm_compute; reflexivity|]). apply Forall_nil. Qed.
(* (the response has a start line with a run of blanks: parse/print normalises it, it is in the
   domain of the theorem but not of the judge) *)
Example ex_hypotheses_resp :
  parse_message ex_resp = Ok (parsed ex_resp, []) /\ stable (parsed ex_resp) /\
  option_map in_domain_C01 (j_read ex_resp) = Some false.
Proof. apply input_hypotheses; vm_compute; reflexivity. Qed.

(* ... and the conclusion is exercised: where each message goes, and what the executable
   judge says about the bytes *)
Example ex_paths :
  map fst (ex_outs ex_req_backend) = [s2b "udp:10.0.0.2:5080"] /\
  map fst (ex_outs ex_req_route) = [s2b "dial:10.0.0.7:5080"; s2b "conn:0"] /\
  map fst (ex_outs ex_req_static) = [s2b "udp:10.0.0.8:5090"] /\
  map fst (ex_outs ex_resp) = [s2b "udp:10.0.0.9:5070"] /\
  map (fun o => judge_bytes ex_req_backend (snd o)) (ex_outs ex_req_backend) = [Some 0%nat] /\
  map (fun o => judge_bytes ex_req_route (snd o)) (ex_outs ex_req_route) = [None; Some 0%nat] /\
  map (fun o => judge_bytes ex_req_static (snd o)) (ex_outs ex_req_static) = [Some 0%nat] /\
  map (fun o => view (parsed (snd o)) = view (parsed ex_resp)) (ex_outs ex_resp) = [view (parsed ex_resp) = view (parsed ex_resp)].
Proof.
  (* each run becomes an argument of the statement, so that it is evaluated once *)
  pattern (ex_outs ex_req_backend), (ex_outs ex_req_route), (ex_outs ex_req_static), (ex_outs ex_resp),
    (parsed ex_resp).
  vm_compute. repeat apply conj; reflexivity.
Qed.

(* the theorem instantiated *)
Example ex_backend_parse : parse_message ex_req_backend = Ok (parsed ex_req_backend, []).
Proof. exact (proj1 (Forall_inv ex_hypotheses)). Qed.
Example ex_backend_stable : stable (parsed ex_req_backend).
Proof. exact (proj1 (proj2 (Forall_inv ex_hypotheses))). Qed.
Example ex_backend_theorem :
  forall st' outs,
    proxy_step all_fixed ex_cfg 1000 (branch_of 0) ex_st (EvUdp 0 (s2b "10.0.0.9") 5070%Z ex_req_backend)
      = Ok (st', outs) ->
    forall d b, In (d, b) outs -> good (parsed ex_req_backend) d b.
Proof.
  intros st' outs H.
  exact (C01_proxy_step_udp _ _ _ _ _ _ _ _ _ _ _ _ _ ex_backend_parse ex_backend_stable H).
Qed.

(* the judge's header classes are the model's *)
Lemma same_header_cl n : same_header n (s2b "Content-Length") = is_cl n.
Proof. reflexivity. Qed.
Lemma same_header_via n : same_header n (s2b "Via") = is_via n.
Proof. reflexivity. Qed.
Lemma same_header_route n : same_header n (s2b "Route") = is_route n.
Proof. unfold same_header. change (get_compact (s2b "Route")) with (@None bytes). rewrite orb_false_r. reflexivity. Qed.
Lemma same_header_rr n : same_header n (s2b "Record-Route") = is_rr n.
Proof. unfold same_header. change (get_compact (s2b "Record-Route")) with (@None bytes). rewrite orb_false_r. reflexivity. Qed.
Lemma routing_name_judge n : routing_name n = routing_header n.
Proof.
  unfold routing_name, routing_header.
  rewrite same_header_via, same_header_route, same_header_rr, same_header_cl. reflexivity.
Qed.

Lemma trim_left_fix s : match s with c :: _ => is_space c = false | [] => True end -> trim_left s = s.
Proof. destruct s as [|c r]; [reflexivity|]. intros H. cbn [trim_left]. rewrite H. reflexivity. Qed.
Lemma trim_left_idem s : trim_left (trim_left s) = trim_left s.
Proof. apply trim_left_fix, trim_left_head_nonblank. Qed.
Lemma trim_space_idem s : trim_space (trim_space s) = trim_space s.
Proof.
  unfold trim_space, trim_right.
  set (a := trim_left s). set (b := trim_left (rev a)).
  assert (Hb : trim_left (rev b) = rev b).
  { apply trim_left_fix. destruct (rev b) as [|c r] eqn:Erb; [exact I|].
    destruct (trim_left_suffix (rev a)) as [w Ew]. fold b in Ew.
    assert (Ea : a = rev b ++ rev w) by (rewrite <- (rev_involutive a), Ew, rev_app_distr; reflexivity).
    rewrite Erb in Ea. pose proof (trim_left_head_nonblank s) as Hh. fold a in Hh. rewrite Ea in Hh. exact Hh. }
  rewrite Hb, rev_involutive. unfold b. rewrite trim_left_idem. reflexivity.
Qed.
Lemma trim_space_sp x : trim_space (" "%char :: x) = trim_space x.
Proof. unfold trim_space. cbn [trim_left]. change (is_space " "%char) with true. reflexivity. Qed.

Lemma j_strip_cr_snoc l : j_strip_cr (l ++ [jCR]) = l.
Proof.
  unfold j_strip_cr. rewrite rev_app_distr. change (rev [jCR]) with [jCR]. cbn [app].
  rewrite Ascii.eqb_refl. apply rev_involutive.
Qed.
Lemma j_strip_cr_cases t : j_strip_cr t = t \/ t = j_strip_cr t ++ [jCR].
Proof.
  unfold j_strip_cr. destruct (rev t) as [|x r] eqn:E.
  - left. destruct t as [|y t']; [reflexivity|].
    apply (f_equal (@List.length _)) in E. rewrite rev_length in E. discriminate E.
  - destruct (Ascii.eqb x jCR) eqn:Q; [right|left; reflexivity].
    apply Ascii.eqb_eq in Q. subst x. rewrite <- (rev_involutive t), E. reflexivity.
Qed.
Lemma j_strip_cr_in x t : In x (j_strip_cr t) -> In x t.
Proof.
  destruct (j_strip_cr_cases t) as [E|E]; [rewrite E; auto|].
  intros I. rewrite E. apply in_app_iff. left. exact I.
Qed.
Lemma j_strip_cr_head t c l : j_strip_cr t = c :: l -> exists t', t = c :: t'.
Proof.
  intros H. destruct (j_strip_cr_cases t) as [E|E].
  - exists l. rewrite <- E. exact H.
  - rewrite H in E. exists (l ++ [jCR]). exact E.
Qed.

Definition lines_text (ls : list bytes) : bytes := flat_map (fun l => l ++ crlf) ls.

Lemma j_lines_text ls : forall fuel acc rest,
  Forall (fun l => l <> [] /\ ~ In jLF l) ls -> (List.length ls < fuel)%nat ->
  j_lines fuel (lines_text ls ++ crlf ++ rest) acc = Some (rev acc ++ ls, rest).
Proof.
  induction ls as [|l ls IH]; intros fuel acc rest F L.
  - destruct fuel as [|f]; [inversion L|]. rewrite app_nil_r. reflexivity.
  - destruct fuel as [|f]; [inversion L|]. inversion F as [|? ? [Hne Hlf] F']; subst.
    assert (E : lines_text (l :: ls) ++ crlf ++ rest =
                (l ++ [jCR]) ++ jLF :: (lines_text ls ++ crlf ++ rest)).
    { unfold lines_text. cbn [flat_map]. rewrite <- !app_assoc. reflexivity. }
    rewrite E. cbn [j_lines].
    assert (N : ~ In jLF (l ++ [jCR])).
    { intros I. apply in_app_iff in I. destruct I as [I|[I|[]]]; [exact (Hlf I)|discriminate I]. }
    rewrite (index_byte_app_notin _ _ _ N), firstn_length_app, skipn_S_length_app, j_strip_cr_snoc.
    destruct l as [|c l']; [contradiction Hne; reflexivity|].
    rewrite IH; [|exact F'|cbn [List.length] in L; lia].
    cbn [rev]. rewrite <- app_assoc. reflexivity.
Qed.

Lemma lines_text_length ls : (List.length ls <= List.length (lines_text ls))%nat.
Proof.
  induction ls as [|l ls IH]; [apply le_n|]. unfold lines_text in *. cbn [flat_map List.length].
  rewrite !app_length. cbn [crlf List.length]. lia.
Qed.

Definition hline (h : header) : bytes := h_name h ++ s2b ": " ++ hval_print (h_val h).
Lemma flat_map_hline hs : flat_map header_print hs = lines_text (map hline hs).
Proof.
  induction hs as [|h r IH]; [reflexivity|]. unfold lines_text in *. cbn [map flat_map]. rewrite IH.
  unfold header_print, hline. rewrite <- !app_assoc. reflexivity.
Qed.
Lemma write_message_lines m :
  write_message m =
  lines_text (start_line_print (m_start m) :: map hline (emitted_headers m)) ++ crlf ++ m_body m.
Proof.
  rewrite (proj1 (C01_single_content_length m)), flat_map_hline.
  unfold lines_text. cbn [flat_map]. rewrite <- !app_assoc. reflexivity.
Qed.

Lemma j_header_colon n text :
  ~ In ":"%char n -> j_header (n ++ ":"%char :: text) = Some (n, trim_space_go text).
Proof.
  intros N. unfold j_header.
  rewrite (index_byte_app_notin _ _ _ N), firstn_length_app, skipn_S_length_app. reflexivity.
Qed.

(* what the judge reads for a header the model holds as (name, printed value) *)
Definition jpair (p : bytes * bytes) : bytes * bytes := (fst p, trim_space_go (" "%char :: snd p)).
Definition hpair (h : header) : bytes * bytes := (h_name h, hval_print (h_val h)).

(* raw text that TrimSpace does not change is read back as it stands *)
Lemma jpair_raw h v : h_val h = HRaw v -> trim_space_go v = v -> jpair (hpair h) = (h_name h, v).
Proof.
  intros V T. unfold jpair, hpair. rewrite V. cbn [fst snd hval_print].
  rewrite trim_space_go_sp by reflexivity. rewrite T. reflexivity.
Qed.

Lemma j_headers_hlines hs :
  Forall (fun h => ~ In ":"%char (h_name h)) hs ->
  j_headers (map hline hs) = Some (map (fun h => jpair (hpair h)) hs).
Proof.
  induction 1 as [|h r Hh Hr IH]; [reflexivity|]. cbn [map j_headers].
  unfold hline at 1. change (s2b ": " ++ ?v) with (":"%char :: " "%char :: v).
  rewrite (j_header_colon _ _ Hh), IH. reflexivity.
Qed.

(* only LF and ':' matter for the line structure (CR inside a value does not split a line) *)
Definition header_safe (h : header) : Prop :=
  ~ In ":"%char (h_name h) /\ ~ In jLF (h_name h) /\ ~ In jLF (hval_print (h_val h)).
(* [Forall header_safe (m_headers m)], written out *)
Definition line_safe (m : message) : Prop :=
  Forall (fun h => ~ In ":"%char (h_name h) /\ ~ In jLF (h_name h) /\ ~ In jLF (hval_print (h_val h)))
         (m_headers m).
Definition start_ok (sl : bytes) : Prop :=
  ~ In jLF sl /\ exists c r, sl = c :: r /\ is_space c = false.

Lemma itoa_no_lf z : ~ In jLF (itoa z).
Proof. apply itoa_notin; [reflexivity|discriminate]. Qed.
Lemma itoa_nospace z : nospace (itoa z).
Proof. exact (itoa_no_space z). Qed.

Lemma hline_line h : header_safe h -> hline h <> [] /\ ~ In jLF (hline h).
Proof.
  intros (_ & N1 & N2). unfold hline. split; [destruct (h_name h); discriminate|].
  change (s2b ": " ++ ?v) with (":"%char :: " "%char :: v). intros J. apply in_app_iff in J.
  destruct J as [J|[J|[J|J]]]; [exact (N1 J)|discriminate J|discriminate J|exact (N2 J)].
Qed.

Lemma emitted_safe m : line_safe m -> Forall header_safe (emitted_headers m).
Proof.
  intros Ls. apply Forall_app. split; [exact (incl_Forall (incl_filter _ _) Ls)|].
  constructor; [|constructor]. cbn [cl_header]. split; [|split; [|apply itoa_no_lf]];
    cbn [h_name]; intros J; vm_compute in J; intuition discriminate.
Qed.

Lemma cl_emitted m :
  filter (fun p : bytes * bytes => is_cl (fst p)) (map (fun h => jpair (hpair h)) (emitted_headers m))
  = [(s2b "Content-Length", itoa (Z.of_nat (List.length (m_body m))))].
Proof.
  unfold emitted_headers. rewrite map_app, filter_app. cbn [map filter].
  rewrite (jpair_raw (cl_header m) _ eq_refl (trim_space_go_itoa _)).
  induction (m_headers m) as [|h r IH]; [reflexivity|]. cbn [filter].
  destruct (is_cl_h h) eqn:C; cbn [negb]; [exact IH|]. cbn [map filter].
  change (is_cl (fst (jpair (hpair h)))) with (is_cl_h h). rewrite C. exact IH.
Qed.

(* the count statement of C01_single_content_length over the judge's own line splitting:
   the output is readable, has exactly one Content-Length, its value is the body length, the
   body is the body and nothing follows it *)
Theorem C01_single_content_length_read m :
  line_safe m -> start_ok (start_line_print (m_start m)) ->
  (Z.of_nat (List.length (m_body m)) <= int_max)%Z ->
  j_read (write_message m) =
    Some {| jm_start := start_line_print (m_start m);
            jm_headers := map (fun h => jpair (hpair h)) (emitted_headers m);
            jm_body := m_body m; jm_rest := [];
            jm_has_cl := true; jm_cl_count := 1;
            jm_cl_value := Some (Z.of_nat (List.length (m_body m))) |}.
Proof.
  intros Ls (Slf & c & r & Es & Ec) Hb. pose proof (emitted_safe m Ls) as Em.
  unfold j_read. rewrite write_message_lines.
  rewrite trim_left_fix by (unfold lines_text; cbn [flat_map]; rewrite Es; exact Ec).
  rewrite (j_lines_text (start_line_print (m_start m) :: map hline (emitted_headers m)) _ [] (m_body m)).
  - cbn [rev app]. rewrite j_headers_hlines by exact (Forall_impl _ (fun h H => proj1 H) Em).
    rewrite cl_emitted. cbn [snd List.length]. rewrite atoi_itoa by (unfold int_min; lia).
    rewrite Nat2Z.id, firstn_all, skipn_all. reflexivity.
  - constructor; [split; [rewrite Es; discriminate|exact Slf]|].
    apply Forall_map. exact (Forall_impl _ hline_line Em).
  - pose proof (lines_text_length (start_line_print (m_start m) :: map hline (emitted_headers m))) as L.
    apply Nat.lt_succ_r. rewrite app_length. eapply Nat.le_trans; [exact L|apply Nat.le_add_r].
Qed.

Lemma read_line_index s i :
  index_byte jLF s = Some i -> read_line s = Some (j_strip_cr (firstn i s), skipn (S i) s).
Proof.
  intros H. unfold read_line. destruct s as [|c r]; [discriminate H|].
  change LF with jLF. rewrite H. reflexivity.
Qed.

Lemma line_no_lf s i : index_byte jLF s = Some i -> ~ In jLF (j_strip_cr (firstn i s)).
Proof. intros E I. apply j_strip_cr_in in I. exact (proj1 (proj2 (index_byte_some _ _ _ E)) I). Qed.

(* both readers cut the same lines, and no line holds a line feed *)
Lemma lines_read : forall f1 s acc f2 hacc ls rest hs rest',
  j_lines f1 s acc = Some (ls, rest) -> parse_headers f2 s hacc = Ok (hs, rest') ->
  exists jl hl, ls = rev acc ++ jl /\ hs = rev hacc ++ hl /\
                Forall2 (fun line h => ~ In jLF line /\ parse_header_line line = Ok h) jl hl /\ rest = rest'.
Proof.
  induction f1 as [|f1 IH]; intros s acc f2 hacc ls rest hs rest' J P; [discriminate J|].
  destruct f2 as [|f2]; [discriminate P|]. cbn [j_lines] in J. cbn [parse_headers] in P.
  destruct (index_byte jLF s) as [i|] eqn:Ei; [|discriminate J].
  rewrite (read_line_index _ _ Ei) in P. pose proof (line_no_lf _ _ Ei) as Nlf.
  destruct (j_strip_cr (firstn i s)) as [|c l].
  - inversion J; inversion P; subst. exists [], []. rewrite !app_nil_r. repeat split; constructor.
  - destruct (parse_header_line (c :: l)) as [h| |] eqn:Ph; try discriminate P. cbn [rbind] in P.
    destruct (IH _ _ _ _ _ _ _ _ J P) as (jl & hl & E1 & E2 & F & Er).
    exists ((c :: l) :: jl), (h :: hl). cbn [rev] in E1, E2. rewrite <- app_assoc in E1, E2.
    repeat split; [exact E1|exact E2|constructor; [split; assumption|exact F]|exact Er].
Qed.

(* a header line is name, colon, text; the value kept is the text between its white space *)
Lemma parse_header_line_inv line h : parse_header_line line = Ok h ->
  exists text, line = h_name h ++ ":"%char :: text /\ ~ In ":"%char (h_name h) /\
               h_val h = HRaw (trim_space_go text).
Proof.
  unfold parse_header_line. destruct (index_byte ":"%char line) as [p|] eqn:E; [|discriminate].
  intros H. injection H as <-. destruct (index_byte_some _ _ _ E) as (Es & Nc & _).
  exists (skipn (S p) line). cbn [h_name h_val]. repeat split; assumption.
Qed.

(* what parse_message leaves in every header: raw text that TrimSpace does not change *)
Definition raw_trimmed (h : header) : Prop := exists v, h_val h = HRaw v /\ trim_space_go v = v.

(* model and judge both trim the value with strings.TrimSpace's Unicode white space (trim_space_go);
   that it is idempotent is all the two readings need to agree *)
Lemma header_line_read line h :
  ~ In jLF line -> parse_header_line line = Ok h ->
  j_header line = Some (jpair (hpair h)) /\ raw_trimmed h /\ header_safe h.
Proof.
  intros L P. destruct (parse_header_line_inv _ _ P) as (text & -> & N & V).
  rewrite (j_header_colon _ _ N), (jpair_raw _ _ V (trim_space_go_idem text)).
  split; [reflexivity|]. split; [exists (trim_space_go text); split; [exact V|apply trim_space_go_idem]|].
  unfold header_safe. rewrite V. cbn [hval_print]. split; [exact N|]. split.
  - intros I. apply L, in_or_app. left. exact I.
  - apply trim_space_go_notin. intros I. apply L, in_or_app. right. right. exact I.
Qed.

Lemma header_lines_read jl hl :
  Forall2 (fun line h => ~ In jLF line /\ parse_header_line line = Ok h) jl hl ->
  j_headers jl = Some (map (fun h => jpair (hpair h)) hl) /\ Forall raw_trimmed hl /\ Forall header_safe hl.
Proof.
  induction 1 as [|line h jl hl [L P] F (J & R & S)]; [split; [reflexivity|split; constructor]|].
  destruct (header_line_read _ _ L P) as (Jh & Rh & Sh). cbn [j_headers map]. rewrite Jh, J.
  split; [reflexivity|split; constructor; assumption].
Qed.

(* the first line: what is left of white space in front of it is gone, it ends before a line feed *)
Lemma first_line_ok s i c l :
  match s with x :: _ => is_space x = false | [] => True end ->
  index_byte jLF s = Some i -> j_strip_cr (firstn i s) = c :: l -> start_ok (c :: l).
Proof.
  intros Hh Ei El. split.
  - rewrite <- El. exact (line_no_lf _ _ Ei).
  - exists c, l. split; [reflexivity|]. destruct (j_strip_cr_head _ _ _ El) as [t' Et].
    rewrite (proj1 (index_byte_some _ _ _ Ei)), Et in Hh. exact Hh.
Qed.

(* Content-Length: the first field of that name, for both; Atoi accepts nothing beyond int64 *)
Lemma get_header_int_ok name m z : get_header_int name m = Ok z ->
  exists h v, get_header name (m_headers m) = Some h /\ h_val h = HRaw v /\ atoi v = Some z.
Proof.
  unfold get_header_int, get_raw. destruct (get_header name (m_headers m)) as [h|]; [|discriminate].
  destruct (h_val h) as [v| | | | | |] eqn:V; try discriminate. cbn [rbind].
  destruct (atoi v) as [z'|] eqn:A; [|discriminate]. intros H. injection H as <-. exists h, v. auto.
Qed.

Lemma atoi_range s z : atoi s = Some z -> (int_min <= z <= int_max)%Z.
Proof.
  unfold atoi. destruct s as [|c r]; [discriminate|]. cbv zeta.
  destruct (if (_ || _)%bool then r else c :: r); [discriminate|].
  destruct (digits_val _ 0) as [v|]; [|discriminate].
  destruct (Z.leb int_min _ && Z.leb _ int_max)%bool eqn:R; [|discriminate].
  intros H. injection H as <-. apply andb_true_iff in R. destruct R as [R1 R2].
  apply Z.leb_le in R1, R2. split; assumption.
Qed.

Lemma cl_read m cl :
  Forall raw_trimmed (m_headers m) -> get_header_int (s2b "Content-Length") m = Ok cl ->
  match filter (fun p : bytes * bytes => is_cl (fst p)) (map (fun h => jpair (hpair h)) (m_headers m)) with
  | p :: _ => atoi (snd p)
  | [] => None
  end = Some cl.
Proof.
  intros R G. destruct (get_header_int_ok _ _ _ G) as (h & v & GH & V & A). clear G.
  induction R as [|a hs (va & Va & Ta) R IH]; cbn [get_header map filter] in GH |- *; [discriminate GH|].
  rewrite (jpair_raw _ _ Va Ta). cbn [fst]. rewrite <- same_header_cl.
  destruct (same_header (h_name a) (s2b "Content-Length")); [|exact (IH GH)].
  injection GH as ->. rewrite V in Va. injection Va as <-. exact A.
Qed.

(* the two readers, each opened once *)
Lemma j_read_inv b jin : j_read b = Some jin ->
  exists hl text,
    j_lines (S (List.length (trim_left b))) (trim_left b) [] = Some (jm_start jin :: hl, text) /\
    j_headers hl = Some (jm_headers jin) /\
    jm_body jin =
      firstn match match filter (fun p : bytes * bytes => is_cl (fst p)) (jm_headers jin) with
                   | p :: _ => atoi (snd p)
                   | [] => None
                   end with Some z => Z.to_nat z | None => O end text.
Proof.
  unfold j_read. destruct (j_lines _ (trim_left b) []) as [[[|start hl] text]|]; try discriminate.
  destruct (j_headers hl) as [hs|] eqn:JH; [|discriminate]. intros H. injection H as <-.
  exists hl, text. split; [reflexivity|split; [exact JH|reflexivity]].
Qed.

Lemma parse_message_inv b m rest : parse_message b = Ok (m, rest) ->
  exists l0 r0 text cl,
    read_line (trim_left b) = Some (l0, r0) /\ l0 <> [] /\ parse_start_line l0 = Ok (m_start m) /\
    parse_headers (S (List.length r0)) r0 [] = Ok (m_headers m, text) /\
    get_header_int (s2b "Content-Length") m = Ok cl /\
    m_body m = firstn (Z.to_nat cl) text /\ rest = skipn (Z.to_nat cl) text.
Proof.
  unfold parse_message. destruct (read_line (trim_left b)) as [[[|c l] r0]|]; try discriminate.
  destruct (parse_start_line (c :: l)) as [st| |] eqn:PS; try discriminate. cbn [rbind].
  destruct (parse_headers _ r0 []) as [[hs text]| |] eqn:PH; try discriminate. cbn [rbind].
  destruct (get_header_int _ _) as [cl| |] eqn:G; try discriminate. cbn [rbind].
  destruct (Z.ltb cl 0); [discriminate|]. destruct (Z.ltb _ cl); [discriminate|].
  intros H. injection H as <- <-. exists (c :: l), r0, text, cl.
  repeat split; [discriminate|exact PS|exact PH|exact G].
Qed.

(* What the judge reads in a message the proxy accepts: the start line the proxy decodes, the
   headers the proxy holds (all raw, trimmed, one line each), the body. *)
Theorem input_read b jin m rest :
  j_read b = Some jin -> parse_message b = Ok (m, rest) ->
  start_ok (jm_start jin) /\ parse_start_line (jm_start jin) = Ok (m_start m) /\
  jm_headers jin = map (fun h => jpair (hpair h)) (m_headers m) /\
  line_safe m /\ Forall raw_trimmed (m_headers m) /\
  jm_body jin = m_body m /\ (Z.of_nat (List.length (m_body m)) <= int_max)%Z.
Proof.
  intros J P. destruct (j_read_inv _ _ J) as (hl & jtext & JL & JH & JB).
  destruct (parse_message_inv _ _ _ P) as (l0 & r0 & text & cl & RL & Ne & PS & PH & G & B & _).
  pose proof (trim_left_head_nonblank b) as Hh. set (s := trim_left b) in *. clearbody s.
  cbn [j_lines] in JL. destruct (index_byte jLF s) as [i|] eqn:Ei; [|discriminate JL].
  rewrite (read_line_index _ _ Ei) in RL. injection RL as <- <-.
  destruct (j_strip_cr (firstn i s)) as [|c l] eqn:El; [contradiction Ne; reflexivity|].
  destruct (lines_read _ _ _ _ _ _ _ _ _ JL PH) as (jl & hs & E1 & E2 & F & <-).
  cbn [rev app] in E1, E2. injection E1 as -> <-. rewrite <- E2 in F.
  destruct (header_lines_read _ _ F) as (JH' & R & S). rewrite JH' in JH. injection JH as JH.
  split; [exact (first_line_ok _ _ _ _ Hh Ei El)|]. split; [exact PS|]. split; [symmetry; exact JH|].
  split; [exact S|]. split; [exact R|].
  rewrite <- JH, (cl_read _ _ R G) in JB. split; [rewrite JB, B; reflexivity|].
  destruct (get_header_int_ok _ _ _ G) as (_ & v & _ & _ & A). apply atoi_range in A.
  rewrite B. apply Z.le_trans with (Z.of_nat (Z.to_nat cl)); [apply Nat2Z.inj_le, firstn_le_length|].
  unfold int_max in *. lia.
Qed.

(* the judge's selection of the headers the proxy does not own is the model's view *)
Lemma kept_view hs :
  filter (fun p : bytes * bytes => negb (routing_header (fst p))) (map (fun h => jpair (hpair h)) hs)
  = map jpair (view_hs hs).
Proof.
  induction hs as [|h r IH]; [reflexivity|]. rewrite view_hs_cons. cbn [map filter].
  change (fst (jpair (hpair h))) with (h_name h). rewrite <- routing_name_judge.
  destruct (routing_name (h_name h)); cbn [negb]; [exact IH|]. cbn [map]. rewrite IH. reflexivity.
Qed.

Lemma read_agree b jin m rest :
  j_read b = Some jin -> parse_message b = Ok (m, rest) ->
  start_ok (jm_start jin) /\
  filter (fun p : bytes * bytes => negb (routing_header (fst p))) (jm_headers jin)
    = map jpair (view_hs (m_headers m)) /\
  jm_body jin = m_body m /\ (Z.of_nat (List.length (m_body m)) <= int_max)%Z /\
  parse_start_line (jm_start jin) = Ok (m_start m).
Proof.
  intros J P. destruct (input_read _ _ _ _ J P) as (So & PS & EH & _ & _ & B & L).
  rewrite EH, kept_view. auto.
Qed.

Lemma hs_eqb_refl a : hs_eqb a a = true.
Proof. induction a as [|[n v] r IH]; [reflexivity|]. cbn [hs_eqb]. rewrite !beq_refl, IH. reflexivity. Qed.

Lemma view_hs_emitted m : view_hs (emitted_headers m) = view_hs (m_headers m).
Proof.
  unfold emitted_headers. rewrite view_hs_app, view_hs_cons. cbn [cl_header h_name].
  rewrite (routing_content_length _ (same_header_refl _)), app_nil_r.
  induction (m_headers m) as [|h r IH]; [reflexivity|]. cbn [filter]. rewrite view_hs_cons. unfold is_cl_h at 1.
  destruct (same_header (h_name h) (s2b "Content-Length")) eqn:E; cbn [negb].
  - rewrite (routing_content_length _ E). exact IH.
  - rewrite view_hs_cons, IH. reflexivity.
Qed.

(* The bridge.  The proxy decodes and re-encodes the start line, which is the identity only on
   the C14 grammar: hence the hypothesis [start_line_print (m_start m) = jm_start jin] (discharged
   on the grammar domain by start_line_request_roundtrip / start_line_response_roundtrip below).
   Without it the statement fails even on in_domain_C01, which only asks for a sip:/sips:/tel:/urn:
   scheme and single blanks (C01_start_line_hypothesis_necessary); with it in_domain_C01 is not
   needed. *)
Theorem C01_judge_bridge_partial b jin m rest m' :
  j_read b = Some jin -> parse_message b = Ok (m, rest) ->
  start_line_print (m_start m) = jm_start jin ->
  view m' = view m -> line_safe m' ->
  exists jo, j_read (write_message m') = Some jo /\ judge_C01_pair jin jo = 0%nat.
Proof.
  intros J P Hs V Ls. destruct (read_agree _ _ _ _ J P) as (So & K & B & L & _).
  rewrite !view_eq in V. injection V as V1 V2 V3.
  eexists. split.
  - apply C01_single_content_length_read; [exact Ls|rewrite V1, Hs; exact So|rewrite V3; exact L].
  - unfold judge_C01_pair. cbn [jm_start jm_headers jm_body jm_rest jm_cl_count jm_cl_value].
    rewrite V1, Hs, beq_refl. cbn [negb].
    unfold kept. cbn [jm_headers]. rewrite kept_view, view_hs_emitted, V2, K, hs_eqb_refl. cbn [negb].
    rewrite V3, B, beq_refl. cbn [negb]. rewrite Z.eqb_refl. reflexivity.
Qed.

(* with the outputs of the proxy: every non-dial output of an event is accepted by the judge *)
Corollary C01_judge_relay b jin m rest e peer peer_port from rs tcp x x' :
  j_read b = Some jin -> parse_message b = Ok (m, rest) ->
  start_line_print (m_start m) = jm_start jin -> stable m ->
  process_message e peer peer_port from rs tcp m x = Ok x' ->
  exists pre, x_outs x' = x_outs x ++ pre /\
    forall d o, In (d, o) pre ->
      match d with
      | DDial _ _ _ => o = []
      | _ => exists m', o = write_message m' /\
                        (line_safe m' -> exists jo, j_read o = Some jo /\ judge_C01_pair jin jo = 0%nat)
      end.
Proof.
  intros J P Hs S H. destruct (C01_relay_preserves _ _ _ _ _ _ _ _ _ S H) as (pre & E & G).
  exists pre. split; [exact E|]. intros d o I. specialize (G d o I).
  destruct d; auto; destruct G as (m' & -> & V); exists m'; (split; [reflexivity|]);
    intros Ls; exact (C01_judge_bridge_partial _ _ _ _ _ J P Hs V Ls).
Qed.

(* the start-line hypothesis is necessary: in_domain_C01 accepts "sip:h?x", whose header part
   without '=' is dropped when the Request-URI is decoded; the judge answers 2 *)
Definition ex_start_input : bytes :=
  s2b "INVITE sip:h?x SIP/2.0" ++ crlf ++ s2b "Content-Length: 0" ++ crlf ++ crlf.
Example C01_start_line_hypothesis_necessary :
  option_map in_domain_C01 (j_read ex_start_input) = Some true /\
  parse_message ex_start_input = Ok (parsed ex_start_input, []) /\
  stable (parsed ex_start_input) /\
  start_line_print (m_start (parsed ex_start_input)) = s2b "INVITE sip:h SIP/2.0" /\
  judge_bytes ex_start_input (write_message (parsed ex_start_input)) = Some 2%nat.
Proof.
  destruct (input_hypotheses ex_start_input true) as (P & S & D); [vm_compute; reflexivity|vm_compute; reflexivity|].
  repeat apply conj; [exact D|exact P|exact S|..]; vm_compute; reflexivity.
Qed.

Lemma in_domain_single_blanks jin : in_domain_C01 jin = true -> single_blanks (jm_start jin) = true.
Proof.
  unfold in_domain_C01. intros H. repeat (apply andb_true_iff in H; destruct H as [H ?]). assumption.
Qed.

(* The judge splits the start line at ASCII blanks ([fields]); the proxy uses strings.Fields
   ([fields_go]), which also splits at the UTF-8 encodings of the Unicode white-space runes and
   re-joins the words with single ASCII blanks.  The two readings must agree on the line
   (hypothesis [fields_go l0 = fields l0]; it holds whenever [no_usp l0 = true], in particular
   for an ASCII line: BytesLemmas.fields_go_no_usp / fields_go_ascii).  Without it the
   statement is false: see [C01_fields_hypothesis_necessary] below. *)
Lemma start_line_request_roundtrip l0 meth u ver a :
  single_blanks l0 = true -> fields l0 = [meth; u; ver] -> fields_go l0 = fields l0 ->
  has_prefix (s2b "SIP/") l0 = false ->
  wf_addr a = true -> u = rp_addr a ->
  exists st, parse_start_line l0 = Ok st /\ start_line_print st = l0.
Proof.
  intros Sb F G Np W ->. unfold parse_start_line, parse_request_line.
  rewrite Np, G, F, (parse_addr_spec_rp a W). cbn [rbind]. eexists. split; [reflexivity|].
  cbn [start_line_print]. rewrite (addr_spec_print_embed a W).
  unfold single_blanks in Sb. apply beq_eq in Sb. rewrite F in Sb. rewrite Sb. reflexivity.
Qed.

Lemma start_line_response_roundtrip l0 ver c r1 rs code :
  single_blanks l0 = true -> fields l0 = ver :: c :: r1 :: rs -> fields_go l0 = fields l0 ->
  has_prefix (s2b "SIP/") l0 = true ->
  atoi c = Some code -> itoa code = c ->
  exists st, parse_start_line l0 = Ok st /\ start_line_print st = l0.
Proof.
  intros Sb F G Pp A I. unfold parse_start_line, parse_status_line. rewrite Pp, G, F, A.
  eexists. split; [reflexivity|]. cbn [start_line_print]. rewrite I.
  unfold single_blanks in Sb. apply beq_eq in Sb. rewrite F in Sb. rewrite Sb.
  rewrite (join_byte_cons2 " "%char ver (c :: r1 :: rs)) by discriminate.
  rewrite (join_byte_cons2 " "%char c (r1 :: rs)) by discriminate. reflexivity.
Qed.

(* the bridge for a request of the domain: Request-URI = reference rendering of a well-formed
   abstract address (sip:, sips:, or any other scheme) *)
Theorem C01_judge_bridge_request b jin m rest m' meth u ver a :
  j_read b = Some jin -> in_domain_C01 jin = true -> parse_message b = Ok (m, rest) ->
  j_is_response jin = false -> fields (jm_start jin) = [meth; u; ver] ->
  fields_go (jm_start jin) = fields (jm_start jin) ->
  wf_addr a = true -> u = rp_addr a ->
  view m' = view m -> line_safe m' ->
  exists jo, j_read (write_message m') = Some jo /\ judge_C01_pair jin jo = 0%nat.
Proof.
  intros J D P Nr F G W U V Ls. destruct (read_agree _ _ _ _ J P) as (_ & _ & _ & _ & PS).
  destruct (start_line_request_roundtrip _ _ _ _ _ (in_domain_single_blanks _ D) F G Nr W U) as (st & E1 & E2).
  rewrite PS in E1. inversion E1; subst st.
  exact (C01_judge_bridge_partial _ _ _ _ _ J P E2 V Ls).
Qed.

(* ... and for a response whose status code is written in canonical decimal *)
Theorem C01_judge_bridge_response b jin m rest m' ver c r1 rs code :
  j_read b = Some jin -> in_domain_C01 jin = true -> parse_message b = Ok (m, rest) ->
  j_is_response jin = true -> fields (jm_start jin) = ver :: c :: r1 :: rs ->
  fields_go (jm_start jin) = fields (jm_start jin) ->
  atoi c = Some code -> itoa code = c ->
  view m' = view m -> line_safe m' ->
  exists jo, j_read (write_message m') = Some jo /\ judge_C01_pair jin jo = 0%nat.
Proof.
  intros J D P Ir F G A I V Ls. destruct (read_agree _ _ _ _ J P) as (_ & _ & _ & _ & PS).
  destruct (start_line_response_roundtrip _ _ _ _ _ _ (in_domain_single_blanks _ D) F G Ir A I) as (st & E1 & E2).
  rewrite PS in E1. inversion E1; subst st.
  exact (C01_judge_bridge_partial _ _ _ _ _ J P E2 V Ls).
Qed.

(* non-vacuity of the bridge hypotheses on the rich request *)
Definition ex_ruri : a_addr :=
  AASip {| au_secure := false; au_user := Some (s2b "svc", None); au_host := s2b "example.com";
           au_port := None; au_params := []; au_headers := [] |}.
Example ex_bridge_hypotheses :
  wf_addr ex_ruri = true /\
  option_map (fun j => fields (jm_start j)) (j_read ex_req_backend)
    = Some [s2b "INVITE"; rp_addr ex_ruri; s2b "SIP/2.0"] /\
  option_map j_is_response (j_read ex_req_backend) = Some false /\
  option_map (fun j => no_usp (jm_start j)) (j_read ex_req_backend) = Some true /\
  option_map (fun j => fields_go (jm_start j)) (j_read ex_req_backend)
    = option_map (fun j => fields (jm_start j)) (j_read ex_req_backend) /\
  option_map in_domain_C01 (j_read ex_req_backend) = Some true.
Proof. pattern (j_read ex_req_backend). vm_compute. repeat apply conj; reflexivity. Qed.

(* the hypothesis [fields_go (jm_start jin) = fields (jm_start jin)] is necessary: a reason phrase
   with U+00A0 (C2 A0) inside is one word for the judge and two words for strings.Fields; the
   proxy re-joins the words with an ASCII blank, the start line changes, the judge answers 2 *)
Definition ex_nbsp_input : bytes :=
  s2b "SIP/2.0 200 OK" ++ [ascii_of_nat 194; ascii_of_nat 160] ++ s2b "then" ++ crlf ++
  s2b "Content-Length: 0" ++ crlf ++ crlf.
Example C01_fields_hypothesis_necessary :
  option_map in_domain_C01 (j_read ex_nbsp_input) = Some true /\
  option_map (fun j => List.length (fields (jm_start j))) (j_read ex_nbsp_input) = Some 3%nat /\
  option_map (fun j => List.length (fields_go (jm_start j))) (j_read ex_nbsp_input) = Some 4%nat /\
  parse_message ex_nbsp_input = Ok (parsed ex_nbsp_input, []) /\
  start_line_print (m_start (parsed ex_nbsp_input)) = s2b "SIP/2.0 200 OK then" /\
  judge_bytes ex_nbsp_input (write_message (parsed ex_nbsp_input)) = Some 2%nat.
Proof. repeat apply conj; vm_compute; reflexivity. Qed.

Print Assumptions C01_relay_preserves.
Print Assumptions C01_proxy_step_udp.
Print Assumptions C01_proxy_step_tcp.
Print Assumptions stable_on_c14_domain.
Print Assumptions stable_b_sound.
Print Assumptions C01_stable_necessary.
Print Assumptions C01_single_content_length.
Print Assumptions C01_single_content_length_read.
Print Assumptions C01_legacy_refuted.
Print Assumptions C01_judge_bridge_partial.
Print Assumptions C01_judge_relay.
Print Assumptions C01_judge_bridge_request.
Print Assumptions C01_judge_bridge_response.
Print Assumptions C01_start_line_hypothesis_necessary.
Print Assumptions ex_backend_theorem.
