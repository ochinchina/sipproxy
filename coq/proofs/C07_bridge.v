(* proofs/C07_bridge.v — the executable judge of C07 (SpecProxy.judge_C07_event: received / rport stamping, read off the
   raw bytes) answers 0 on what the model emits for a request whose Via header values are reference renderings of
   well-formed entry lists of the C14 grammar, in any layout (C07_judge_bridge_in; the datagram theorems are instances).
   The file also holds what the other *_bridge files share: the judge's reading of a Via entry, strings.TrimSpace at the
   ends of a header value, the line invariant [good] and its preservation by every reading stage, the way of a request
   through the proxy for every relation that contains the edits ([edited], request_reach, request_sends), the judge's
   selection of header entries (hentries, j_entries_sel), and line-feed freeness of every decoded value. *)
From Coq Require Import List Ascii String ZArith NArith Bool Lia.
From Model Require Import Bytes BytesLemmas Uri Hdr Message Msg Rx Glob StaticRoute RoundRobin Pins Wire
     Proxy RunProxy SpecProxy SpecC14.
From Model.proofs Require C06 C14_uri.
From Model.proofs Require Import MsgLemmas Pipeline MsgStages C14_via C01 C07.
Import ListNotations.
Open Scope Z_scope.
Open Scope list_scope.

(* The judge's record of a connection THE PROXY DIALLED carries the listen entry with SpecProxy.dial_mark added;
   a record below the mark is one of an ACCEPTED connection: the input is read with that listen entry and is
   not "dialled" (used by all the *_bridge_tcp files) *)
Lemma unmark_small li : (li < dial_mark)%nat -> unmark li = li.
Proof. intros H. unfold unmark. apply Nat.leb_gt in H. rewrite H. reflexivity. Qed.
Lemma unmark_marked li : unmark (li + dial_mark) = li.
Proof.
  unfold unmark. assert (E : Nat.leb dial_mark (li + dial_mark) = true) by (apply Nat.leb_le; apply Nat.le_add_l).
  rewrite E. apply Nat.add_sub.
Qed.
Lemma conn_dialled_accepted st cid li ip port :
  find (fun y => Nat.eqb (fst y) cid) (js_conns st) = Some (cid, (li, ip, port)) -> (li < dial_mark)%nat ->
  conn_dialled st cid = false.
Proof. intros H M. unfold conn_dialled. rewrite H. apply Nat.leb_gt. exact M. Qed.
Lemma j_input_accepted st cid li ip port data :
  find (fun y => Nat.eqb (fst y) cid) (js_conns st) = Some (cid, (li, ip, port)) -> (li < dial_mark)%nat ->
  j_input st (EvTcpData cid data) =
  Some {| ji_li := li; ji_tcp := true; ji_conn := cid; ji_src := ip; ji_sport := port; ji_data := data |}.
Proof. intros H M. unfold j_input. rewrite H, (unmark_small li M). reflexivity. Qed.
Lemma ji_dialled_accepted st cid li ip port data :
  find (fun y => Nat.eqb (fst y) cid) (js_conns st) = Some (cid, (li, ip, port)) -> (li < dial_mark)%nat ->
  ji_dialled st {| ji_li := li; ji_tcp := true; ji_conn := cid; ji_src := ip; ji_sport := port; ji_data := data |} = false.
Proof. intros H M. unfold ji_dialled. cbn [ji_tcp ji_conn andb]. exact (conn_dialled_accepted st cid li ip port H M). Qed.
Lemma zero_below_mark : (0 < dial_mark)%nat.
Proof. apply Nat.ltb_lt. reflexivity. Qed.

Lemma in_skipn {A} (x : A) n l : In x (skipn n l) -> In x l.
Proof. intros H. rewrite <- (firstn_skipn n l). apply in_or_app. right. exact H. Qed.

Lemma in_join_byte c d l : In c (join_byte d l) -> c = d \/ exists x, In x l /\ In c x.
Proof.
  induction l as [|a r IH]; [intros []|].
  destruct r as [|b r'].
  - cbn [join_byte]. intros H. right. exists a. split; [left; reflexivity|exact H].
  - rewrite join_byte_cons2 by discriminate. intros H. apply in_app_or in H. destruct H as [H|[H|H]].
    + right. exists a. split; [left; reflexivity|exact H].
    + left. symmetry. exact H.
    + destruct (IH H) as [E|(x & I & J)]; [left; exact E|right; exists x; split; [right; exact I|exact J]].
Qed.

Definition lf_free (s : bytes) : Prop := ~ In jLF s.
Lemma lf_is_space : is_space jLF = true.
Proof. reflexivity. Qed.
Lemma nospace_lf s : nospace s -> lf_free s.
Proof. intros N I. pose proof (N _ I) as X. rewrite lf_is_space in X. discriminate X. Qed.
Lemma lf_nil : lf_free [].
Proof. intros []. Qed.
Lemma lf_app_i a b : lf_free a -> lf_free b -> lf_free (a ++ b).
Proof. intros A B I. apply in_app_or in I. destruct I as [I|I]; [exact (A I)|exact (B I)]. Qed.
Lemma lf_cons_i c a : c <> jLF -> lf_free a -> lf_free (c :: a).
Proof. intros N A [I|I]; [exact (N I)|exact (A I)]. Qed.
Lemma lf_firstn n s : lf_free s -> lf_free (firstn n s).
Proof. intros L I. exact (L (firstn_subset _ _ _ I)). Qed.
Lemma lf_skipn n s : lf_free s -> lf_free (skipn n s).
Proof. intros L I. exact (L (in_skipn _ _ _ I)). Qed.
Lemma join_byte_in c l p x : In p l -> In x p -> In x (join_byte c l).
Proof.
  induction l as [|a r IH]; [intros []|]. intros Ip Ix. destruct r as [|b r'].
  - destruct Ip as [->|[]]. exact Ix.
  - rewrite join_byte_cons2 by discriminate. apply in_or_app. destruct Ip as [->|Ip]; [left; exact Ix|].
    right. right. exact (IH Ip Ix).
Qed.
Lemma lf_join c l : c <> jLF -> Forall lf_free l -> lf_free (join_byte c l).
Proof.
  intros N F I. apply in_join_byte in I. destruct I as [E|(x & Ix & Ic)]; [exact (N (eq_sym E))|].
  rewrite Forall_forall in F. exact (F x Ix Ic).
Qed.
Lemma lf_split c s : lf_free s -> Forall lf_free (split_byte c s).
Proof.
  intros L. apply Forall_forall. intros p Ip I. apply L. rewrite <- (join_split c s).
  exact (join_byte_in c _ p _ Ip I).
Qed.

(* goals [lf_free _] are closed by [auto with lf]: a text put together from line-feed-free pieces and
   literal bytes other than the line feed *)
Create HintDb lf.
Lemma lf_itoa z : lf_free (itoa z).
Proof. exact (itoa_no_lf z). Qed.
#[local] Hint Resolve lf_nil lf_app_i lf_firstn lf_skipn lf_itoa : lf.
#[local] Hint Extern 1 (lf_free (_ :: _)) => apply lf_cons_i; [discriminate|] : lf.
#[local] Hint Extern 1 (lf_free (s2b _)) => let H := fresh in intros H; vm_compute in H; intuition discriminate : lf.

Lemma opt_all_app {A} (a b : list (option A)) :
  opt_all (a ++ b) = match opt_all a, opt_all b with Some x, Some y => Some (x ++ y) | _, _ => None end.
Proof.
  induction a as [|[x|] a IH]; cbn [app opt_all].
  - destruct (opt_all b); reflexivity.
  - rewrite IH. destruct (opt_all a); [destruct (opt_all b); reflexivity|reflexivity].
  - reflexivity.
Qed.
Lemma opt_all_map_some {A B} (f : A -> option B) (g : A -> B) l :
  (forall x, In x l -> f x = Some (g x)) -> opt_all (map f l) = Some (map g l).
Proof.
  induction l as [|a l IH]; intros H; [reflexivity|]. cbn [map opt_all].
  rewrite (H a (or_introl eq_refl)), IH by (intros x Hx; apply H; right; exact Hx). reflexivity.
Qed.
Lemma first_nonzero_zero {A} (f : A -> nat) l : (forall x, In x l -> f x = O) -> first_nonzero (map f l) = O.
Proof.
  induction l as [|a l IH]; intros H; [reflexivity|]. cbn [map first_nonzero].
  rewrite (H a (or_introl eq_refl)). apply IH. intros x Hx. apply H. right. exact Hx.
Qed.

Definition unembed_param (p : kv) : a_param :=
  {| ap_key := k_key p; ap_val := match k_val p with [] => None | _ :: _ => Some (k_val p) end |}.
Definition unembed_via (v : via_param) : a_via :=
  {| av_name := v_name v; av_version := v_version v; av_transport := v_transport v; av_host := v_host v;
     av_port := if Z.eqb (v_port v) 0 then None else Some (v_port v);
     av_params := map unembed_param (v_params v) |}.

Lemma embed_unembed_param p : embed_param (unembed_param p) = p.
Proof. destruct p as [k [|c v]]; reflexivity. Qed.

Lemma embed_unembed_via v : embed_via (unembed_via v) = v.
Proof.
  destruct v as [n ve t h p ps]. unfold embed_via, unembed_via.
  cbn [av_name av_version av_transport av_host av_port av_params v_name v_version v_transport v_host v_port v_params].
  f_equal.
  - destruct (Z.eqb_spec p 0) as [->|_]; reflexivity.
  - rewrite map_map. transitivity (map (fun x : kv => x) ps); [|apply map_id].
    apply map_ext. intros q. apply embed_unembed_param.
Qed.

Lemma unembed_embed_param p : wf_param p = true -> unembed_param (embed_param p) = p.
Proof.
  intros H. apply C14_uri.wf_param_parts in H. destruct H as (_ & _ & Hv).
  destruct p as [k [v|]]; cbn in *; [|reflexivity].
  destruct Hv as [Hv _]. destruct v as [|c v]; [exfalso; apply Hv; reflexivity|reflexivity].
Qed.

Lemma unembed_embed_via a : wf_via_shape a = true -> unembed_via (embed_via a) = a.
Proof.
  intros H. pose proof (wf_via_shape_inv a H) as (_ & _ & _ & _ & Hport & Hps).
  destruct a as [n ve t h p ps]. unfold embed_via, unembed_via.
  cbn [av_name av_version av_transport av_host av_port av_params v_name v_version v_transport v_host v_port v_params] in *.
  f_equal.
  - destruct p as [z|]; [|reflexivity]. cbn [wf_port] in Hport.
    destruct (Z.eqb_spec z 0) as [E|_]; [lia|reflexivity].
  - rewrite map_map. transitivity (map (fun x : a_param => x) ps); [|apply map_id].
    apply map_ext_in. intros q Hq. apply unembed_embed_param. rewrite forallb_forall in Hps. apply Hps. exact Hq.
Qed.

(* a concrete entry of the C14 grammar *)
Definition vp_ok (v : via_param) : bool := wf_via_shape (unembed_via v).

Lemma vp_ok_embed a : wf_via_shape a = true -> vp_ok (embed_via a) = true.
Proof. intros H. unfold vp_ok. rewrite unembed_embed_via by exact H. exact H. Qed.

Lemma vp_print_rp v : vp_ok v = true -> via_param_print v = rp_via1 (unembed_via v).
Proof.
  intros H. transitivity (via_param_print (embed_via (unembed_via v))).
  - rewrite embed_unembed_via. reflexivity.
  - apply via_param_print_embed. exact H.
Qed.

Lemma via_print_rp l : forallb vp_ok l = true -> via_print l = rp_via (map unembed_via l).
Proof.
  intros H. unfold via_print, rp_via. f_equal. rewrite map_map. apply map_ext_in. intros v Hv.
  apply vp_print_rp. rewrite forallb_forall in H. apply H. exact Hv.
Qed.

Definition a_pair (p : a_param) : bytes * bytes := (ap_key p, match ap_val p with Some v => v | None => [] end).
(* The judge reads every entry of a comma list with its LEFT end trimmed like strings.TrimSpace
   ([j_trim_via]): the protocol name it sees is the name without leading Unicode white space ([safe]
   allows bytes >= 128, so a name of the grammar may begin with, say, C2 85).  The name is compared,
   never interpreted, and it is read the same way in the received message and in the relayed one. *)
Definition via_proto_t (a : a_via) : bytes :=
  trim_left_go (av_name a) ++ "/"%char :: av_version a ++ "/"%char :: av_transport a.
Definition ja_of (a : a_via) : jvia :=
  {| jv_proto := via_proto_t a; jv_transport := av_transport a; jv_host := av_host a; jv_port := av_port a;
     jv_params := map a_pair (av_params a) |}.
Definition pair_of (p : kv) : bytes * bytes := (k_key p, k_val p).
(* ... of a concrete entry: what j_via (j_trim_via (via_param_print v)) is *)
Definition jv_of (v : via_param) : jvia :=
  {| jv_proto := trim_left_go (v_name v) ++ "/"%char :: v_version v ++ "/"%char :: v_transport v;
     jv_transport := v_transport v; jv_host := v_host v;
     jv_port := if Z.eqb (v_port v) 0 then None else Some (v_port v);
     jv_params := map pair_of (v_params v) |}.

Lemma ja_of_unembed v : ja_of (unembed_via v) = jv_of v.
Proof.
  unfold ja_of, jv_of, unembed_via, via_proto_t.
  cbn [av_name av_version av_transport av_host av_port av_params].
  f_equal. rewrite map_map. apply map_ext. intros [k [|c x]]; reflexivity.
Qed.

Lemma j_kv_rp_param p : wf_param p = true -> j_kv (rp_param p) = a_pair p.
Proof.
  intros H. apply C14_uri.wf_param_parts in H. destruct H as (_ & Hk & _).
  apply C14_uri.safe_no_eq in Hk. unfold j_kv, rp_param, a_pair.
  destruct (ap_val p) as [v|].
  - rewrite index_byte_app_notin by exact Hk.
    rewrite firstn_length_app, skipn_S_length_app. reflexivity.
  - rewrite (proj2 (index_byte_none _ _) Hk). reflexivity.
Qed.

Lemma map_j_kv_params ps : forallb wf_param ps = true -> map j_kv (map rp_param ps) = map a_pair ps.
Proof.
  intros H. rewrite map_map. apply map_ext_in. intros p Hp.
  apply j_kv_rp_param. rewrite forallb_forall in H. apply H. exact Hp.
Qed.

Lemma via_proto_text a : wf_via_shape a = true -> via_proto a <> [] /\ nospace (via_proto a).
Proof.
  intros H. apply wf_via_shape_inv in H. destruct H as (Hn & Hv & Ht & _).
  apply C14_uri.safe1_parts in Hn, Hv, Ht. destruct Hn as [Nn Hn], Hv as [_ Hv], Ht as [_ Ht].
  unfold via_proto. split.
  - destruct (av_name a); [exfalso; apply Nn; reflexivity|discriminate].
  - apply nospace_app; [apply safe_nospace; exact Hn|].
    apply nospace_cons; [reflexivity|].
    apply nospace_app; [apply safe_nospace; exact Hv|].
    apply nospace_cons; [reflexivity|apply safe_nospace; exact Ht].
Qed.
Lemma via_sentby_text a : wf_via_shape a = true -> via_sentby a <> [] /\ nospace (via_sentby a).
Proof.
  intros H. apply wf_via_shape_inv in H. destruct H as (_ & _ & _ & Hh & _).
  apply C14_uri.safe1_parts in Hh. destruct Hh as [Nh Hh]. unfold via_sentby. split.
  - destruct (av_host a); [exfalso; apply Nh; reflexivity|discriminate].
  - apply nospace_app; [apply safe_nospace; exact Hh|apply rp_port_nospace].
Qed.
Lemma rp_via1_two a :
  rp_via1 a = via_proto a ++ " "%char :: (via_sentby a ++ rp_params (av_params a)).
Proof. rewrite rp_via1_shape. unfold via_head. rewrite <- app_assoc. reflexivity. Qed.

Lemma rp_via1_parts a : wf_via_shape a = true ->
  via_proto a <> [] /\ via_sentby a ++ rp_params (av_params a) <> [] /\
  nospace (via_proto a) /\ nospace (via_sentby a ++ rp_params (av_params a)).
Proof.
  intros H. destruct (via_proto_text a H) as [P1 P2]. destruct (via_sentby_text a H) as [S1 S2].
  pose proof (wf_via_shape_inv a H) as (_ & _ & _ & _ & _ & Hps).
  split; [exact P1|]. split; [|split; [exact P2|]].
  - destruct (via_sentby a); [exfalso; apply S1; reflexivity|discriminate].
  - apply nospace_app; [exact S2|apply C14_uri.rp_params_nospace; exact Hps].
Qed.

(* an ASCII byte that is not a blank stops the left trim, whatever precedes it *)
Lemma trim_left_u_sep p2 p3 (NA : seq_nonascii p2 p3) d T : is_ascii d = true -> is_space d = false ->
  forall x, trim_left_u p2 p3 (x ++ d :: T) = trim_left_u p2 p3 x ++ d :: T.
Proof.
  intros Ad Sd x. pattern x. apply bytes_ind_len. clear x. intros x IH.
  destruct x as [|c r].
  - cbn [app trim_left_u]. rewrite Sd. destruct T as [|c2 r2]; [reflexivity|].
    rewrite (p2_ascii_l _ _ NA _ _ Ad). destruct r2 as [|c3 r3]; [reflexivity|].
    rewrite (p3_ascii_1 _ _ NA _ _ _ Ad). reflexivity.
  - cbn [app trim_left_u]. destruct (is_space c) eqn:Ec; [apply IH; cbn [List.length]; lia|].
    destruct r as [|c2 r2].
    + cbn [app]. rewrite (p2_ascii_r _ _ NA _ _ Ad). destruct T as [|c3 r3]; [reflexivity|].
      rewrite (p3_ascii_2 _ _ NA _ _ _ Ad). reflexivity.
    + cbn [app]. destruct (p2 c c2) eqn:E2; [apply IH; cbn [List.length]; lia|].
      destruct r2 as [|c3 r3].
      * cbn [app]. rewrite (p3_ascii_3 _ _ NA _ _ _ Ad). reflexivity.
      * cbn [app]. destruct (p3 c c2 c3) eqn:E3; [apply IH; cbn [List.length]; lia|]. reflexivity.
Qed.
Lemma trim_left_go_sep d T x : is_ascii d = true -> is_space d = false ->
  trim_left_go (x ++ d :: T) = trim_left_go x ++ d :: T.
Proof. intros Ad Sd. exact (trim_left_u_sep usp2 usp3 usp_nonascii d T Ad Sd x). Qed.
Lemma trim_left_go_in c s : In c (trim_left_go s) -> In c s.
Proof. intros I. destruct (trim_left_go_split s) as [w E]. rewrite E. apply in_or_app. right. exact I. Qed.
Lemma trim_left_go_idem s : trim_left_go (trim_left_go s) = trim_left_go s.
Proof. exact (trim_left_u_idem usp2 usp3 s). Qed.
Lemma jt_lead p : j_trim_via (trim_left_go p) = j_trim_via p.
Proof. unfold j_trim_via. rewrite trim_left_go_idem. reflexivity. Qed.

Lemma trim_right_fix s : match rev s with c :: _ => is_space c = false | [] => True end -> trim_right s = s.
Proof. intros H. unfold trim_right. rewrite (trim_left_fix _ H). apply rev_involutive. Qed.
Lemma rev_tail_nospace (A B : bytes) : B <> [] -> nospace B ->
  match rev (A ++ B) with c :: _ => is_space c = false | [] => True end.
Proof.
  intros NE H. rewrite rev_app_distr. destruct (rev B) as [|c t] eqn:E.
  - apply (f_equal (@rev ascii)) in E. rewrite rev_involutive in E. contradiction.
  - cbn [app]. apply H. apply in_rev. rewrite E. left. reflexivity.
Qed.

(* the text of an entry as the judge trims it: the name loses its leading Unicode white space, if
   any; nothing else changes (the text ends with a byte that is no blank) *)
Lemma jt_rp_via1 a : wf_via_shape a = true ->
  j_trim_via (rp_via1 a) = via_proto_t a ++ " "%char :: (via_sentby a ++ rp_params (av_params a)).
Proof.
  intros H. destruct (rp_via1_parts a H) as (_ & B & _ & D).
  assert (E : rp_via1 a = av_name a ++ "/"%char :: av_version a ++ "/"%char :: av_transport a ++ " "%char ::
                          (via_sentby a ++ rp_params (av_params a))).
  { unfold rp_via1, via_sentby. rewrite <- (app_assoc (av_host a)). reflexivity. }
  unfold j_trim_via. rewrite E, (trim_left_go_sep "/"%char) by reflexivity.
  assert (EY : trim_left_go (av_name a) ++ "/"%char :: av_version a ++ "/"%char :: av_transport a ++ " "%char ::
                 (via_sentby a ++ rp_params (av_params a))
               = via_proto_t a ++ " "%char :: (via_sentby a ++ rp_params (av_params a))).
  { unfold via_proto_t. repeat (rewrite <- app_assoc; cbn [app]). reflexivity. }
  rewrite EY. apply trim_right_fix.
  replace (via_proto_t a ++ " "%char :: (via_sentby a ++ rp_params (av_params a)))
    with ((via_proto_t a ++ [" "%char]) ++ (via_sentby a ++ rp_params (av_params a)))
    by (rewrite <- app_assoc; reflexivity).
  apply rev_tail_nospace; assumption.
Qed.

Lemma via_proto_t_in a c : In c (via_proto_t a) -> In c (via_proto a).
Proof.
  unfold via_proto_t, via_proto. intros I. apply in_app_or in I. apply in_or_app.
  destruct I as [I|I]; [left; exact (trim_left_go_in _ _ I)|right; exact I].
Qed.
Lemma via_head_t_in a c : In c (via_proto_t a ++ " "%char :: via_sentby a) -> In c (via_head a).
Proof.
  unfold via_head. intros I. apply in_app_or in I. apply in_or_app.
  destruct I as [I|I]; [left; exact (via_proto_t_in _ _ I)|right; exact I].
Qed.
Lemma via_proto_t_split a : wf_via_shape a = true ->
  split_byte "/"%char (via_proto_t a) = [trim_left_go (av_name a); av_version a; av_transport a].
Proof.
  intros H. apply wf_via_shape_inv in H. destruct H as (Hn & Hv & Ht & _).
  apply C14_uri.safe1_parts in Hn, Hv, Ht. destruct Hn as [_ Hn], Hv as [_ Hv], Ht as [_ Ht].
  unfold via_proto_t.
  rewrite split_byte_app by (intros I; exact (C14_uri.safe_no_slash _ Hn (trim_left_go_in _ _ I))).
  rewrite split_byte_app by (apply C14_uri.safe_no_slash; exact Hv).
  rewrite split_byte_single by (apply C14_uri.safe_no_slash; exact Ht). reflexivity.
Qed.

(* the judge's reading of the (trimmed) reference text of an abstract entry *)
Theorem j_via_rp a : wf_via_shape a = true -> j_via (j_trim_via (rp_via1 a)) = Some (ja_of a).
Proof.
  intros H. pose proof (wf_via_shape_inv a H) as (_ & _ & _ & _ & Hport & Hps).
  destruct (via_proto_text a H) as [_ P2]. destruct (via_sentby_text a H) as [S1 S2].
  rewrite (jt_rp_via1 a H).
  replace (via_proto_t a ++ " "%char :: (via_sentby a ++ rp_params (av_params a)))
    with ((via_proto_t a ++ " "%char :: via_sentby a) ++ rp_params (av_params a))
    by (rewrite <- app_assoc; reflexivity).
  unfold j_via.
  rewrite split_semi_params; [|intros I; exact (via_head_no_semi a H (via_head_t_in _ _ I))|exact Hps].
  cbv beta iota.
  rewrite (fields_two (via_proto_t a) (via_sentby a));
    [|unfold via_proto_t; destruct (trim_left_go (av_name a)); discriminate|exact S1
     |intros c I; exact (P2 c (via_proto_t_in _ _ I))|exact S2].
  cbv beta iota.
  rewrite via_proto_t_split by exact H. cbv beta iota.
  rewrite via_sentby_split by exact H.
  rewrite map_j_kv_params by exact Hps.
  unfold ja_of. destruct (av_port a) as [z|].
  - cbn [wf_port] in Hport. cbv beta iota zeta. rewrite atoi_itoa_port by exact Hport. reflexivity.
  - reflexivity.
Qed.

Lemma rp_via1_lf a : wf_via_shape a = true -> lf_free (rp_via1 a).
Proof.
  intros H. rewrite rp_via1_two. destruct (rp_via1_parts a H) as (_ & _ & C & D).
  apply nospace_lf in C, D. auto with lf.
Qed.

Lemma j_via_print v : vp_ok v = true -> j_via (j_trim_via (via_param_print v)) = Some (jv_of v).
Proof. intros H. rewrite (vp_print_rp v H), (j_via_rp _ H), ja_of_unembed. reflexivity. Qed.

Definition lclean (s : bytes) : Prop := lstuck usp2 usp3 s = true.
Definition rclean (s : bytes) : Prop := lstuck usp2r usp3r (rev s) = true.

Lemma trim_fix_iff s : trim_space_go s = s <-> lclean s /\ rclean s.
Proof.
  unfold lclean, rclean. split.
  - intros H. destruct (trim_space_go_fix_inv s H) as [HL HR]. split.
    + apply lstuck_of_fix. exact HL.
    + apply lstuck_of_fix. unfold trim_right_go, trim_left_go_r in HR.
      apply (f_equal (@rev ascii)) in HR. rewrite rev_involutive in HR. exact HR.
  - intros [HL HR]. apply trim_space_go_fix.
    + apply lstuck_fix. exact HL.
    + unfold trim_right_go, trim_left_go_r. rewrite (lstuck_fix _ _ _ HR). apply rev_involutive.
Qed.

(* what follows an ASCII separator does not matter for the left end *)
Lemma lstuck_sep p2 p3 (NA : seq_nonascii p2 p3) n d t t' :
  n <> [] -> is_ascii d = true -> lstuck p2 p3 (n ++ d :: t) = lstuck p2 p3 (n ++ d :: t').
Proof.
  intros Hn Hd. destruct n as [|c [|c2 [|c3 n']]]; [exfalso; apply Hn; reflexivity| | |reflexivity].
  - cbn [app lstuck uprefix]. rewrite (p2_ascii_r _ _ NA _ _ Hd).
    destruct t as [|x t], t' as [|y t']; cbn [orb]; rewrite ?(p3_ascii_2 _ _ NA _ _ _ Hd); reflexivity.
  - cbn [app lstuck uprefix]. rewrite (p3_ascii_3 _ _ NA _ _ _ Hd). reflexivity.
Qed.

Lemma lclean_sep n d t t' : n <> [] -> is_ascii d = true -> lclean (n ++ d :: t) -> lclean (n ++ d :: t').
Proof. unfold lclean. intros Hn Hd H. rewrite (lstuck_sep _ _ usp_nonascii n d t' t Hn Hd). exact H. Qed.

Lemma rclean_sep n d t t' : n <> [] -> is_ascii d = true -> rclean (t ++ d :: n) -> rclean (t' ++ d :: n).
Proof.
  unfold rclean. intros Hn Hd. rewrite !rev_app_distr. cbn [rev]. rewrite <- !app_assoc. cbn [app].
  intros H. rewrite (lstuck_sep _ _ uspr_nonascii (rev n) d (rev t') (rev t)); [exact H| |exact Hd].
  intros E. apply Hn. rewrite <- (rev_involutive n), E. reflexivity.
Qed.

(* the right end of a suffix is the right end of the whole *)
Lemma rclean_suffix a b : rclean (a ++ b) -> rclean b.
Proof. unfold rclean. rewrite rev_app_distr. apply lstuck_prefix. Qed.
(* a value whose right end is clean: strings.TrimSpace only works at its left end *)
Lemma rclean_trim s : rclean s -> trim_space_go s = trim_left_go s.
Proof.
  intros R. unfold trim_space_go. destruct (trim_left_go_split s) as [w E].
  rewrite E in R. apply rclean_suffix in R. unfold rclean in R.
  unfold trim_right_go, trim_left_go_r. rewrite (lstuck_fix _ _ _ R). apply rev_involutive.
Qed.
(* the judge's entries of a comma list read through TrimSpace at its left end = its entries of the
   list itself (the left end of the first entry is trimmed anyway) *)
Lemma entries_lead l : l <> [] -> Forall (fun x => ~ In ","%char x) l ->
  map j_trim_via (split_byte ","%char (trim_left_go (join_byte ","%char l))) = map j_trim_via l.
Proof.
  intros NE F. destruct l as [|p [|q r]]; [contradiction| |].
  - cbn [join_byte]. inversion F as [|? ? Hp _]; subst.
    rewrite split_byte_single by (intros I; exact (Hp (trim_left_go_in _ _ I))).
    cbn [map]. rewrite jt_lead. reflexivity.
  - rewrite join_byte_cons2 by discriminate. rewrite (trim_left_go_sep ","%char) by reflexivity.
    inversion F as [|? ? Hp Fq]; subst.
    rewrite split_byte_app by (intros I; exact (Hp (trim_left_go_in _ _ I))).
    rewrite split_join; [|discriminate|exact Fq].
    cbn [map]. rewrite jt_lead. reflexivity.
Qed.

Lemma lclean_ascii_start c r : is_ascii c = true -> is_space c = false -> lclean (c :: r).
Proof.
  intros A N. unfold lclean. cbn [lstuck]. rewrite N.
  rewrite (uprefix_head_ascii _ _ usp_nonascii); [reflexivity|exact A].
Qed.
Lemma rclean_ascii_end s c : is_ascii c = true -> is_space c = false -> rclean (s ++ [c]).
Proof.
  intros A N. unfold rclean. rewrite rev_app_distr. cbn [rev app]. cbn [lstuck]. rewrite N.
  rewrite (uprefix_head_ascii _ _ uspr_nonascii); [reflexivity|exact A].
Qed.

(* ASCII, no blank *)
Definition cleanb (s : bytes) : bool := forallb (fun c => is_ascii c && negb (is_space c)) s.
Lemma cleanb_app a b : cleanb (a ++ b) = cleanb a && cleanb b.
Proof. apply forallb_app. Qed.
Lemma cleanb_last s c : cleanb (s ++ [c]) = true -> is_ascii c = true /\ is_space c = false.
Proof.
  rewrite cleanb_app. intros H. apply andb_true_iff in H. destruct H as [_ H].
  unfold cleanb in H. cbn [forallb] in H. rewrite andb_true_r in H. apply andb_true_iff in H.
  destruct H as [A N]. apply negb_true_iff in N. split; assumption.
Qed.
Lemma rclean_tail_clean pre s : s <> [] -> cleanb s = true -> rclean (pre ++ s).
Proof.
  intros NE C. destruct (exists_last NE) as (s' & c & ->). destruct (cleanb_last _ _ C) as [A N].
  rewrite app_assoc. apply rclean_ascii_end; assumption.
Qed.
Lemma rclean_sep_clean pre d K : K <> [] -> cleanb K = true -> rclean (pre ++ d :: K).
Proof.
  intros NE C. change (pre ++ d :: K) with (pre ++ [d] ++ K). rewrite app_assoc.
  apply rclean_tail_clean; assumption.
Qed.
Lemma cleanb_itoa z : cleanb (itoa z) = true.
Proof.
  unfold cleanb. apply forallb_forall. intros c I.
  pose proof (itoa_ascii z) as A. pose proof (itoa_no_space z) as N. rewrite Forall_forall in A.
  rewrite (A c I), (N c I). reflexivity.
Qed.
Lemma ok_clean s : val_ok s = true -> forallb is_ascii s = true -> cleanb s = true.
Proof.
  unfold val_ok, cleanb. intros H1 H2. rewrite forallb_forall in *. intros c I.
  rewrite (H2 c I), (C14_uri.cls_nospace _ c (H1 c I)). reflexivity.
Qed.
Lemma kv_print_clean k v : cleanb k = true -> cleanb v = true ->
  cleanb (kv_print {| k_key := k; k_val := v |}) = true.
Proof.
  intros Hk Hv. unfold kv_print. cbn [k_key k_val]. destruct v as [|c v]; [exact Hk|].
  rewrite cleanb_app, Hk. cbn [andb].
  change ("="%char :: c :: v) with ([ "="%char ] ++ c :: v). rewrite cleanb_app, Hv. reflexivity.
Qed.
Lemma kv_print_nonnil q : k_key q <> [] -> kv_print q <> [].
Proof.
  unfold kv_print. intros H. destruct (k_val q); [exact H|].
  destruct (k_key q); [exfalso; apply H; reflexivity|discriminate].
Qed.
Lemma rclean_last_param pre d k v : k <> [] -> cleanb k = true -> cleanb v = true ->
  rclean (pre ++ d :: kv_print {| k_key := k; k_val := v |}).
Proof. intros NE Hk Hv. apply rclean_sep_clean; [apply kv_print_nonnil; exact NE|apply kv_print_clean; assumption]. Qed.

Definition vhead (v : via_param) : bytes :=
  v_name v ++ "/"%char :: v_version v ++ "/"%char :: v_transport v ++ " "%char ::
  (if Z.eqb (v_port v) 0 then v_host v else v_host v ++ ":"%char :: itoa (v_port v)).
Lemma print_vhead v : via_param_print v = vhead v ++ print_params ";"%char (v_params v).
Proof. unfold via_param_print, vhead. repeat (rewrite <- app_assoc; cbn [app]). reflexivity. Qed.
Lemma print_head_name v : exists T, via_param_print v = v_name v ++ "/"%char :: T.
Proof. unfold via_param_print. eexists. reflexivity. Qed.
Lemma print_params_snoc sep init q :
  print_params sep (init ++ [q]) = print_params sep init ++ sep :: kv_print q.
Proof. unfold print_params. rewrite flat_map_app. cbn [flat_map]. rewrite app_nil_r. reflexivity. Qed.
Lemma print_params_one sep q : print_params sep [q] = sep :: kv_print q.
Proof. unfold print_params. cbn [flat_map]. apply app_nil_r. Qed.
Lemma via_print_cons2 x r0 rs :
  via_print (x :: r0 :: rs) = via_param_print x ++ ","%char :: via_print (r0 :: rs).
Proof. unfold via_print. cbn [map]. apply join_byte_cons2. discriminate. Qed.
Lemma via_print_one x : via_print [x] = via_param_print x.
Proof. reflexivity. Qed.
Lemma via_print_head x r : exists T, via_print (x :: r) = v_name x ++ "/"%char :: T.
Proof.
  destruct (print_head_name x) as [T E]. destruct r as [|r0 rs].
  - exists T. rewrite via_print_one. exact E.
  - exists (T ++ ","%char :: via_print (r0 :: rs)). rewrite via_print_cons2, E. rewrite <- app_assoc. reflexivity.
Qed.
Lemma via_print_nonnil x r : via_print (x :: r) <> [].
Proof. destruct (via_print_head x r) as [T E]. rewrite E. destruct (v_name x); discriminate. Qed.

Definition pk_ok (q : kv) : bool := safe1 (k_key q) && val_ok (k_val q).
Lemma pk_ok_eq q : wf_param (unembed_param q) = pk_ok q.
Proof. destruct q as [k [|c v]]; reflexivity. Qed.
Lemma forallb_pk ps : forallb wf_param (map unembed_param ps) = forallb pk_ok ps.
Proof. induction ps as [|q r IH]; [reflexivity|]. cbn [map forallb]. rewrite pk_ok_eq, IH. reflexivity. Qed.

Lemma vp_ok_iff v : vp_ok v = true <->
  safe1 (v_name v) = true /\ safe1 (v_version v) = true /\ safe1 (v_transport v) = true /\
  safe1 (v_host v) = true /\ (0 <= v_port v <= 65535) /\ forallb pk_ok (v_params v) = true.
Proof.
  unfold vp_ok, wf_via_shape, noslash, unembed_via.
  cbn [av_name av_version av_transport av_host av_port av_params].
  rewrite forallb_pk, !andb_true_iff.
  assert (P : wf_port (if Z.eqb (v_port v) 0 then None else Some (v_port v)) = true <-> 0 <= v_port v <= 65535).
  { destruct (Z.eqb_spec (v_port v) 0) as [E|E]; cbn [wf_port].
    - rewrite E. split; intros _; [lia|reflexivity].
    - split; lia. }
  rewrite P. tauto.
Qed.

Lemma kv_set_pk k v l : forallb pk_ok l = true -> safe1 k = true -> val_ok v = true ->
  forallb pk_ok (kv_set k v l) = true.
Proof.
  intros H Hk Hv. induction l as [|p r IH]; cbn [kv_set forallb].
  - unfold pk_ok. cbn [k_key k_val]. rewrite Hk, Hv. reflexivity.
  - cbn [forallb] in H. apply andb_true_iff in H. destruct H as [Hp Hr].
    destruct (beq (k_key p) k); cbn [forallb].
    + rewrite Hr, andb_true_r. unfold pk_ok in *. cbn [k_key k_val]. apply andb_true_iff in Hp.
      rewrite (proj1 Hp), Hv. reflexivity.
    + rewrite Hp, (IH Hr). reflexivity.
Qed.

Lemma digit_val_char : forall c, is_digit c = true -> val_char c = true.
Proof. intros [[|] [|] [|] [|] [|] [|] [|] [|]]; vm_compute; intros H; first [reflexivity|discriminate H]. Qed.
Lemma val_ok_itoa z : val_ok (itoa z) = true.
Proof.
  unfold val_ok. apply forallb_forall. intros c I. pose proof (itoa_chars z) as F.
  rewrite Forall_forall in F. destruct (F c I) as [D| ->]; [apply digit_val_char; exact D|reflexivity].
Qed.

Lemma stamp_vp_ok peer port v : val_ok peer = true -> vp_ok v = true -> vp_ok (C07.stamp peer port v) = true.
Proof.
  intros Hs H. apply vp_ok_iff in H. apply vp_ok_iff.
  cbn [C07.stamp v_name v_version v_transport v_host v_port v_params].
  destruct H as (A & B & C & D & E & F).
  split; [exact A|]. split; [exact B|]. split; [exact C|]. split; [exact D|]. split; [exact E|].
  unfold stamp_params. destruct (kv_has _ _).
  - apply kv_set_pk; [apply kv_set_pk; [exact F|reflexivity|exact Hs]|reflexivity|apply val_ok_itoa].
  - apply kv_set_pk; [exact F|reflexivity|exact Hs].
Qed.

Lemma kv_set_last k v l : exists init q, kv_set k v l = init ++ [q] /\
  (q = {| k_key := k; k_val := v |} \/ exists init0, l = init0 ++ [q]).
Proof.
  induction l as [|p r IH]; cbn [kv_set].
  - exists [], {| k_key := k; k_val := v |}. split; [reflexivity|left; reflexivity].
  - destruct (beq (k_key p) k) eqn:E.
    + apply beq_eq in E. destruct r as [|r0 rs].
      * exists [], {| k_key := k_key p; k_val := v |}. split; [reflexivity|left; rewrite E; reflexivity].
      * destruct (@exists_last _ (r0 :: rs)) as (init & q & Eq); [discriminate|].
        exists ({| k_key := k_key p; k_val := v |} :: init), q. split; [rewrite Eq; reflexivity|].
        right. exists (p :: init). rewrite Eq. reflexivity.
    + destruct IH as (init & q & E1 & E2). exists (p :: init), q. split; [rewrite E1; reflexivity|].
      destruct E2 as [E2|(init0 & E2)]; [left; exact E2|right; exists (p :: init0); rewrite E2; reflexivity].
Qed.

Lemma stamp_last peer port ps : exists init q, stamp_params peer port ps = init ++ [q] /\
  (q = {| k_key := s2b "received"; k_val := peer |} \/ q = {| k_key := s2b "rport"; k_val := itoa port |} \/
   exists init0, ps = init0 ++ [q]).
Proof.
  unfold stamp_params.
  destruct (kv_set_last (s2b "received") peer ps) as (i1 & q1 & A1 & B1).
  destruct (kv_has _ _).
  - destruct (kv_set_last (s2b "rport") (itoa port) (kv_set (s2b "received") peer ps)) as (i2 & q2 & A2 & B2).
    exists i2, q2. split; [exact A2|]. destruct B2 as [->|(init0 & B2)]; [right; left; reflexivity|].
    rewrite A1 in B2. apply app_inj_tail in B2. destruct B2 as [_ <-].
    destruct B1 as [->|B1]; [left; reflexivity|right; right; exact B1].
  - exists i1, q1. split; [exact A1|]. destruct B1 as [->|B1]; [left; reflexivity|right; right; exact B1].
Qed.

(* the source address / the branch the judge will read back *)
Definition src_ok (s : bytes) : Prop := val_ok s = true /\ forallb is_ascii s = true.

Lemma stamp_rclean peer port v : src_ok peer -> forallb pk_ok (v_params v) = true ->
  rclean (via_param_print v) -> rclean (via_param_print (C07.stamp peer port v)).
Proof.
  intros [S1 S2] PK. rewrite !print_vhead.
  change (vhead (C07.stamp peer port v)) with (vhead v).
  cbn [C07.stamp v_params].
  destruct (stamp_last peer port (v_params v)) as (init & q & E & C). rewrite E, print_params_snoc, app_assoc.
  destruct C as [->|[->|(init0 & E0)]].
  - intros _. apply rclean_last_param; [discriminate|reflexivity|apply ok_clean; assumption].
  - intros _. apply rclean_last_param; [discriminate|reflexivity|apply cleanb_itoa].
  - rewrite E0, print_params_snoc, app_assoc. apply rclean_sep; [|reflexivity].
    apply kv_print_nonnil. rewrite E0 in PK. rewrite forallb_app in PK. apply andb_true_iff in PK.
    destruct PK as [_ PK]. cbn [forallb] in PK. rewrite andb_true_r in PK. unfold pk_ok in PK.
    apply andb_true_iff in PK. destruct PK as [PK _]. apply C14_uri.safe1_parts in PK. exact (proj1 PK).
Qed.

Definition hname_ok (n : bytes) : Prop := ~ In ":"%char n /\ ~ In jLF n.
Definition rl_ok (l : list route_param) : Prop := Forall (fun r => lf_free (route_param_print r)) l.
(* whatever a raw value decodes to (From / To, CSeq, Route) prints without a line feed *)
Definition dec_ok (s : bytes) : Prop :=
  (forall f, parse_fromto s = Ok f -> lf_free (fromto_print f)) /\
  (forall c, parse_cseq s = Ok c -> lf_free (cseq_print c)) /\
  (forall l, parse_route s = Ok l -> rl_ok l).
(* a decoded Via header: entries of the grammar, and TrimSpace leaves the RIGHT end of the printed
   value alone.  (Its left end may begin with Unicode white space once the entries in front have been
   popped: the judge trims the left end of every entry, [j_trim_via], so that does not matter.) *)
Definition vl_ok (l : list via_param) : Prop :=
  l <> [] /\ forallb vp_ok l = true /\ rclean (via_print l).

Definition good_h (h : header) : Prop :=
  hname_ok (h_name h) /\
  match h_val h with
  | HRaw s => lf_free s /\ dec_ok s /\
              (is_via_name (h_name h) = true -> exists l, parse_via s = Ok l /\ vl_ok l /\ via_print l = s)
  | HVia l => vl_ok l
  | HRoute l => is_via_name (h_name h) = false /\ rl_ok l
  | HRecRoute l => is_via_name (h_name h) = false /\ rl_ok l
  | HFrom f => is_via_name (h_name h) = false /\ lf_free (fromto_print f)
  | HTo f => is_via_name (h_name h) = false /\ lf_free (fromto_print f)
  | HCSeq c => is_via_name (h_name h) = false /\ lf_free (cseq_print c)
  end.
Definition good (m : message) : Prop := Forall good_h (m_headers m).

Lemma good_h_raw h s : good_h h -> h_val h = HRaw s ->
  hname_ok (h_name h) /\ lf_free s /\ dec_ok s /\
  (is_via_name (h_name h) = true -> exists l, parse_via s = Ok l /\ vl_ok l /\ via_print l = s).
Proof.
  intros (N & G) V. rewrite V in G. exact (conj N G).
Qed.

Lemma vl_ok_lf l : vl_ok l -> lf_free (via_print l).
Proof.
  intros (_ & OK & _). rewrite via_print_rp by exact OK. unfold rp_via. apply lf_join; [discriminate|].
  rewrite !Forall_map. apply Forall_forall. intros v Iv. rewrite forallb_forall in OK. exact (rp_via1_lf _ (OK v Iv)).
Qed.

Lemma rl_ok_lf l : rl_ok l -> lf_free (route_print l).
Proof.
  intros R. unfold route_print. apply lf_join; [discriminate|]. apply Forall_map. exact R.
Qed.

(* a Via header of a good message: its decoded entries, and its printed value *)
Lemma good_via_h h : good_h h -> is_via_name (h_name h) = true ->
  exists l, hval_vias (h_val h) = Some l /\ vl_ok l /\ hval_print (h_val h) = via_print l.
Proof.
  intros (N & G) Hn. destruct (h_val h) as [s|l|l|l|f|f|c]; cbn [hval_vias hval_print];
    try (destruct G as [F _]; rewrite Hn in F; discriminate F).
  - destruct G as (_ & _ & K). destruct (K Hn) as (l & P & OK & E). exists l. rewrite P.
    split; [reflexivity|]. split; [exact OK|symmetry; exact E].
  - exists l. split; [reflexivity|]. split; [exact G|reflexivity].
Qed.

Lemma good_line_safe m : good m -> line_safe m.
Proof.
  unfold good, line_safe. intros G. eapply Forall_impl; [|exact G]. intros h ((N1 & N2) & Gv).
  split; [exact N1|]. split; [exact N2|].
  destruct (h_val h) as [s|l|l|l|f|f|c]; cbn [hval_print].
  - exact (proj1 Gv).
  - exact (vl_ok_lf _ Gv).
  - exact (rl_ok_lf _ (proj2 Gv)).
  - exact (rl_ok_lf _ (proj2 Gv)).
  - exact (proj2 Gv).
  - exact (proj2 Gv).
  - exact (proj2 Gv).
Qed.

Lemma good_set_val name v m : good m ->
  (forall h, get_header name (m_headers m) = Some h -> good_h {| h_name := h_name h; h_val := v |}) ->
  good (set_val name v m).
Proof.
  intros G K. unfold good, set_val. cbn [m_headers with_headers]. apply Forall_forall. intros x I.
  destruct (in_update_header _ _ _ _ I) as [J|(h & E & ->)].
  - exact (proj1 (Forall_forall _ _) G x J).
  - exact (K h E).
Qed.
Lemma good_get name m h : good m -> get_header name (m_headers m) = Some h ->
  good_h h /\ same_header (h_name h) name = true.
Proof.
  intros G E. destruct (get_header_in _ _ _ E) as [I N]. split; [|exact N].
  exact (proj1 (Forall_forall _ _) G h I).
Qed.
Lemma good_remove name m : good m -> good (with_headers m (remove_header name (m_headers m))).
Proof.
  intros G. unfold good. cbn [m_headers with_headers]. apply Forall_forall. intros x I.
  exact (proj1 (Forall_forall _ _) G x (in_remove_header _ _ _ I)).
Qed.
Lemma good_insert n h m : good_h h -> good m -> good (with_headers m (insert_at n h (m_headers m))).
Proof.
  intros Gh G. unfold good. cbn [m_headers with_headers]. apply Forall_forall. intros x I.
  apply in_insert_at in I. destruct I as [->|I]; [exact Gh|exact (proj1 (Forall_forall _ _) G x I)].
Qed.

Lemma stamp_vl_ok peer port v rest : src_ok peer -> vl_ok (v :: rest) -> vl_ok (C07.stamp peer port v :: rest).
Proof.
  intros Hs (_ & OK & TR). cbn [forallb] in OK. apply andb_true_iff in OK. destruct OK as [Ov Or].
  split; [discriminate|]. split.
  - cbn [forallb]. rewrite (stamp_vp_ok peer port v (proj1 Hs) Ov), Or. reflexivity.
  - pose proof (proj1 (vp_ok_iff v) Ov) as (_ & _ & _ & _ & _ & PK).
    destruct rest as [|r0 rs].
    + rewrite via_print_one in *. apply stamp_rclean; assumption.
    + rewrite via_print_cons2 in *.
      exact (rclean_sep _ ","%char _ _ (via_print_nonnil r0 rs) eq_refl TR).
Qed.

Definition branch_ok (br : bytes) : Prop := val_ok br = true /\ forallb is_ascii br = true.
Lemma branch_ok_src_ok br : branch_ok br = src_ok br.
Proof. reflexivity. Qed.
Definition t_ok (br : bytes) (t : stransport) : Prop := vl_ok [C07.own_via br t].

Lemma t_ok_intro br t : safe1 (t_addr t) = true -> 0 <= t_port t <= 65535 -> branch_ok br -> t_ok br t.
Proof.
  intros Ha Hp [Hb1 Hb2]. unfold t_ok, vl_ok. split; [discriminate|]. split.
  - cbn [forallb]. rewrite andb_true_r. apply vp_ok_iff.
    unfold C07.own_via, via_set_param, create_via_param.
    cbn [v_name v_version v_transport v_host v_port v_params kv_set].
    split; [reflexivity|]. split; [reflexivity|]. split; [unfold t_proto; destruct (t_kind t); reflexivity|].
    split; [exact Ha|]. split; [exact Hp|].
    cbn [forallb]. unfold pk_ok. cbn [k_key k_val]. rewrite Hb1. reflexivity.
  - rewrite via_print_one. rewrite print_vhead.
    change (v_params (C07.own_via br t)) with [{| k_key := s2b "branch"; k_val := br |}].
    rewrite print_params_one. apply rclean_last_param; [discriminate|reflexivity|apply ok_clean; assumption].
Qed.

(* the transport sendToBackend inserts: the listener's UDP port if it has one, else its TCP port *)
Lemma first_transport_t_ok br lc :
  branch_ok br -> safe1 (lc_addr lc) = true -> 0 <= lc_udp lc <= 65535 -> 0 <= lc_tcp lc <= 65535 ->
  forall t0, first_transport lc = Some t0 -> t_ok br t0.
Proof.
  intros Hbr Ha Hu Ht t0 E0. unfold first_transport in E0.
  destruct (Z.ltb 0 (lc_udp lc)); [injection E0 as <-; apply t_ok_intro; assumption|].
  destruct (Z.ltb 0 (lc_tcp lc)); [injection E0 as <-; apply t_ok_intro; assumption|discriminate E0].
Qed.

Lemma t_ok_addr br t : t_ok br t -> lf_free (t_addr t).
Proof.
  intros (_ & OK & _). cbn [forallb] in OK. rewrite andb_true_r in OK.
  apply vp_ok_iff in OK. destruct OK as (_ & _ & _ & H & _).
  change (v_host (C07.own_via br t)) with (t_addr t) in H.
  apply C14_uri.safe1_parts in H. apply nospace_lf. apply safe_nospace. exact (proj2 H).
Qed.

Lemma hname_ok_via : hname_ok (s2b "Via").
Proof. split; intros H; vm_compute in H; intuition discriminate. Qed.
Lemma hname_ok_rr : hname_ok (s2b "Record-Route").
Proof. split; intros H; vm_compute in H; intuition discriminate. Qed.

Lemma good_add_via v m : vl_ok [v] -> good m -> good (add_via v m).
Proof.
  intros Hv G. unfold add_via. apply good_insert; [|exact G]. split; [exact hname_ok_via|exact Hv].
Qed.

Lemma own_rr_lf t : lf_free (t_addr t) -> lf_free (route_param_print (own_record_route t)).
Proof.
  intros Ha. change (route_param_print (own_record_route t)) with (route_print [own_record_route t]).
  destruct (Z.eq_dec (t_port t) 0) as [E|E].
  - rewrite (C06.own_record_route_text_noport t E). auto with lf.
  - rewrite (C06.own_record_route_text t E). auto 8 with lf.
Qed.

Lemma good_add_rr t m : lf_free (t_addr t) -> good m -> good (add_record_route (own_record_route t) m).
Proof.
  intros Ha G. unfold add_record_route. apply good_insert; [|exact G].
  split; [exact hname_ok_rr|]. cbn [h_val h_name]. split; [vm_compute; reflexivity|].
  constructor; [apply own_rr_lf; exact Ha|constructor].
Qed.

Lemma good_pushed e must t m : t_ok (e_branch e) t -> good m ->
  good (px_add_record_route must t (px_add_via e t m)).
Proof.
  intros Ht G.
  assert (G1 : good (px_add_via e t m)) by (unfold px_add_via; apply good_add_via; [exact Ht|exact G]).
  unfold px_add_record_route. destruct (_ && _)%bool; [exact G1|].
  apply good_add_rr; [exact (t_ok_addr _ _ Ht)|exact G1].
Qed.

Lemma pushed_sb e must t m :
  m_start (px_add_record_route must t (px_add_via e t m)) = m_start m /\
  m_body (px_add_record_route must t (px_add_via e t m)) = m_body m.
Proof.
  destruct (px_add_record_route_veq must t (px_add_via e t m)) as (A & B & _). rewrite A, B.
  split; reflexivity.
Qed.

(* [good] as a relation between the message before and after: every reading stage stays inside it *)
Definition good_rel (m m' : message) : Prop := good m -> good m'.
Definition gpres {A} (x : M A) : Prop := forall m, good m -> good (fst (x m)).

Lemma good_decode {A} name parse (inj : A -> hval) :
  (forall h s a, good_h h -> same_header (h_name h) name = true -> h_val h = HRaw s -> parse s = Ok a ->
                 good_h {| h_name := h_name h; h_val := inj a |}) ->
  decode_edit good_rel name parse inj.
Proof.
  intros K m h s a E V P G. destruct (good_get _ _ _ G E) as [Gh N].
  apply good_set_val; [exact G|]. intros h1 E1. rewrite E in E1. injection E1 as <-. exact (K h s a Gh N V P).
Qed.
(* From / To / CSeq / Route: the decoded value of a line-feed-free text prints without a line feed *)
Lemma good_decode_plain {A} name parse (inj : A -> hval) (Q : A -> Prop) : not_via name ->
  (forall s a, dec_ok s -> parse s = Ok a -> Q a) ->
  (forall n a, good_h {| h_name := n; h_val := inj a |} <-> hname_ok n /\ is_via_name n = false /\ Q a) ->
  decode_edit good_rel name parse inj.
Proof.
  intros NV D W. apply good_decode. intros h s a Gh Hn V P.
  destruct (good_h_raw h s Gh V) as (N & _ & Ds & _). apply W.
  split; [exact N|]. split; [exact (not_via_false _ _ NV Hn)|exact (D s a Ds P)].
Qed.

Lemma good_via_decoded h s l : good_h h -> is_via_name (h_name h) = true -> h_val h = HRaw s ->
  parse_via s = Ok l -> good_h {| h_name := h_name h; h_val := HVia l |}.
Proof.
  intros Gh Hn V P. destruct (good_h_raw h s Gh V) as (N & _ & _ & K). destruct (K Hn) as (l' & P' & OK & _).
  rewrite P in P'. injection P' as <-. split; [exact N|exact OK].
Qed.
Lemma good_decode_all hs : Forall good_h hs -> Forall good_h (fst (decode_all_vias hs)).
Proof.
  induction 1 as [|h r Gh Gr IH]; [constructor|]. cbn [decode_all_vias].
  destruct (decode_all_vias r) as [r' vs]. cbn [fst] in IH.
  destruct (same_header (h_name h) (s2b "Via")) eqn:E; [|cbn [fst]; constructor; assumption].
  destruct (h_val h) as [s| | | | | |] eqn:V; cbn [fst]; try (constructor; assumption).
  destruct (parse_via s) as [l| |] eqn:P; cbn [fst]; try (constructor; assumption).
  constructor; [exact (good_via_decoded h s l Gh E V P)|exact IH].
Qed.

Lemma good_edits : edits_in any_name good_rel.
Proof.
  split; try intros _.
  - intros m G. exact G.
  - intros a b c F G Ga. exact (G (F Ga)).
  - apply good_decode. intros h s a Gh Hn V P. exact (good_via_decoded h s a Gh Hn V P).
  - apply (good_decode_plain _ _ _ rl_ok nv_route); [intros s a D; exact (proj2 (proj2 D) a)|reflexivity].
  - apply (good_decode_plain _ _ _ (fun f => lf_free (fromto_print f)) nv_from); [intros s a D; exact (proj1 D a)|reflexivity].
  - apply (good_decode_plain _ _ _ (fun f => lf_free (fromto_print f)) nv_to); [intros s a D; exact (proj1 D a)|reflexivity].
  - apply (good_decode_plain _ _ _ (fun c => lf_free (cseq_print c)) nv_cseq); [intros s a D; exact (proj1 (proj2 D) a)|reflexivity].
  - intros m G. exact (good_decode_all _ G).
Qed.
Lemma good_pop_route : pop_edit good_rel (s2b "Route") HRoute.
Proof.
  intros m h l E V G. destruct (good_get _ _ _ G E) as [(N & Gv) Hn]. rewrite V in Gv.
  destruct l as [|a [|b l']]; [apply good_remove; exact G|apply good_remove; exact G|].
  apply good_set_val; [exact G|]. intros h1 E1. rewrite E in E1. injection E1 as <-.
  split; [exact N|]. split; [exact (proj1 Gv)|]. destruct Gv as [_ R]. inversion R; assumption.
Qed.

Lemma gpres_mtry {A} (x : M A) : gpres x -> gpres (mtry x).
Proof. exact (mpres_mtry good_rel x). Qed.
Lemma gpres_s_get_via : gpres s_get_via. Proof. exact (mpres_s_get_via _ _ good_edits I). Qed.
Lemma gpres_s_client_transaction : gpres s_client_transaction. Proof. exact (mpres_s_client_transaction _ _ good_edits I I). Qed.

Lemma s_get_via_ret m l : good m -> snd (s_get_via m) = Ok l -> vl_ok l.
Proof.
  intros G E. pose proof (gpres_s_get_via m G) as G1. destruct (s_get_via m) as [m1 r] eqn:Em. cbn [fst snd] in *. subst r.
  destruct (typed_get_ok _ _ _ _ _ _ _ Em (fun _ => eq_refl)) as (h & E1 & V).
  destruct (good_get _ _ _ G1 E1) as [(_ & Gv) _]. destruct (h_val h); try discriminate V. injection V as <-. exact Gv.
Qed.

Lemma gpres_s_set_received peer port : src_ok peer -> gpres (s_set_received peer port).
Proof.
  intros Hs m G. unfold s_set_received, mbind.
  pose proof (gpres_s_get_via m G) as G1. pose proof (s_get_via_ret m) as R.
  destruct (s_get_via m) as [m1 r]. cbn [fst snd] in G1, R.
  destruct r as [l| |]; cbn [fst]; try exact G1.
  specialize (R l G eq_refl).
  destruct l as [|v rest]; [exact G1|]. unfold mmodify. cbn [fst].
  rewrite stamp_eq.
  apply good_set_val; [exact G1|]. intros h E. destruct (good_get _ _ _ G1 E) as [(N & _) Hn].
  split; [exact N|]. apply stamp_vl_ok; assumption.
Qed.

(* PopVia keeps the right end of the printed value: it is the right end of the entries that stay *)
Lemma vl_ok_tl a b l : vl_ok (a :: b :: l) -> vl_ok (b :: l).
Proof.
  intros (_ & OK & TR). cbn [forallb] in OK. apply andb_true_iff in OK. destruct OK as [_ OK].
  split; [discriminate|]. split; [exact OK|].
  rewrite via_print_cons2 in TR. exact (rclean_suffix [","%char] _ (rclean_suffix _ _ TR)).
Qed.
Lemma good_pop_via : pop_edit good_rel (s2b "Via") HVia.
Proof.
  intros m h l E V G. destruct (good_get _ _ _ G E) as [(N & Gv) _]. rewrite V in Gv.
  destruct l as [|a [|b l']]; [apply good_remove; exact G|apply good_remove; exact G|].
  apply good_set_val; [exact G|]. intros h1 E1. rewrite E in E1. injection E1 as <-.
  split; [exact N|exact (vl_ok_tl _ _ _ Gv)].
Qed.

(* learned transports: each prints as a readable own entry *)
Definition learned_ok (br : bytes) (l : learned) : Prop := forall h t, alookup h l = Some t -> t_ok br t.
Lemma learned_ok_intro br l : branch_ok br ->
  (forall h t, alookup h l = Some t -> safe1 (t_addr t) = true /\ 0 <= t_port t <= 65535) -> learned_ok br l.
Proof. intros Hbr H h t A. destruct (H h t A) as [A1 A2]. apply t_ok_intro; assumption. Qed.
Lemma learned_ok_stage_learn br peer from m0 x : t_ok br from -> learned_ok br (x_learned x) ->
  learned_ok br (snd (stage_learn peer from m0 x)).
Proof.
  intros Hf HL. rewrite C06.stage_learn_learned.
  exact (C06.all_learned_after (t_ok br) peer from m0 x Hf HL).
Qed.

(* [m'] is obtained from [m] by the elementary edits of Msg.v on headers named in [ns]: every relation that
   contains those edits relates the two ([veq], [good_rel], C06.frame, ...) *)
Definition edited (ns : list bytes) (m m' : message) : Prop :=
  forall T R, edits_in T R -> Forall T ns -> R m m'.
Lemma edited_run {A} ns (x : M A) :
  (forall T R, edits_in T R -> Forall T ns -> mpres R x) -> forall m, edited ns m (fst (x m)).
Proof. intros H m T R E F. exact (H T R E F m). Qed.
(* ... by those edits and the pop of the top Route entry, which only some relations contain *)
Definition edited_pop (ns : list bytes) (m m' : message) : Prop :=
  forall T R, edits_in T R -> pop_edit R (s2b "Route") HRoute -> Forall T ns -> R m m'.
Lemma all_any ns : Forall any_name ns.
Proof. apply Forall_forall. intros n _. exact I. Qed.

Lemma edited_route e from m : edited_pop [s2b "Route"] m (stage_route e from m).
Proof.
  intros T R E PR F. unfold stage_route. rewrite fst_mtry.
  exact (mpres_try_remove_top_route T R E _ _ (Forall_inv F) PR m).
Qed.
Lemma edited_next_request_hop keep rt m : edited_pop [s2b "Route"; s2b "To"] m (fst (next_request_hop keep rt m)).
Proof.
  intros T R E PR F. exact (mpres_next_request_hop T R E keep rt (Forall_inv F) (Forall_inv (Forall_inv_tail F)) PR m).
Qed.
(* from the stamped request [m2] to the message the hop look-up leaves, [m3] being [m2] after the connection stage *)
Lemma edited_to_hop e from m2 m3 : edited [s2b "Via"; s2b "CSeq"] m2 m3 ->
  edited_pop [s2b "Via"; s2b "CSeq"; s2b "Route"; s2b "To"] m2
    (fst (next_request_hop (c_keep_next_hop (e_cfg e)) (route_table_of (e_cfg e)) (stage_route e from m3))).
Proof.
  intros E2 T R E PR F. pose proof (Forall_inv F) as TV. pose proof (Forall_inv (Forall_inv_tail F)) as TC.
  pose proof (Forall_inv_tail (Forall_inv_tail F)) as F2.
  apply (ed_trans E) with m3; [exact (E2 T R E (Forall_cons _ TV (Forall_cons _ TC (Forall_nil _))))|].
  apply (ed_trans E) with (stage_route e from m3).
  - exact (edited_route e from m3 T R E PR (Forall_cons _ (Forall_inv F2) (Forall_nil _))).
  - exact (edited_next_request_hop _ _ _ T R E PR F2).
Qed.
Lemma edited_client_transaction m : edited [s2b "Via"; s2b "CSeq"] m (fst (mtry s_client_transaction m)).
Proof.
  apply edited_run. intros T R E F. apply mpres_mtry.
  exact (mpres_s_client_transaction T R E (Forall_inv F) (Forall_inv (Forall_inv_tail F))).
Qed.
Lemma edited_find_backend e p m :
  edited [s2b "From"; s2b "To"; s2b "CSeq"] m (fst (find_backend_by_dialog e p m)).
Proof.
  apply edited_run. intros T R E F.
  exact (mpres_find_backend_by_dialog T R E e p (Forall_inv F) (Forall_inv (Forall_inv_tail F))
           (Forall_inv (Forall_inv_tail (Forall_inv_tail F)))).
Qed.

(* SetReceived, on the way of a request: the Via view is stamped, [good] is kept *)
Lemma stage_stamp_view peer pp rs m1 : is_request m1 = true ->
  m_start (stage_stamp peer pp rs m1) = m_start m1 /\ m_body (stage_stamp peer pp rs m1) = m_body m1 /\
  via_hdrs (stage_stamp peer pp rs m1) = stamp_hdrs rs peer pp (via_hdrs m1).
Proof.
  intros Q. unfold stage_stamp. rewrite Q. destruct rs; cbn [andb]; [apply s_set_received_view|repeat split].
Qed.
Lemma stage_stamp_good peer pp rs m1 : src_ok peer -> good m1 -> good (stage_stamp peer pp rs m1).
Proof.
  intros Hs G. unfold stage_stamp. destruct (_ && _)%bool; [apply gpres_s_set_received; assumption|exact G].
Qed.

Lemma stage_stamp_frame peer pp rs m1 nm : C06.disjoint_names nm (s2b "Via") ->
  C06.frame nm m1 (stage_stamp peer pp rs m1).
Proof.
  intros D. unfold stage_stamp. destruct (_ && _)%bool; [apply (C06.mframe_set_received nm D)|apply C06.frame_refl].
Qed.

(* A request reaches HandleMessage as [stage_route e from m3], where [m1] is the received message after the
   learning stage, [m3] the stamped [m1] after the connection stage; the context has the learned table of
   the learning stage and maybe another proxy object. *)
Lemma request_reach e peer pp from rs tcp m0 x x' :
  is_request m0 = true -> process_message e peer pp from rs tcp m0 x = Ok x' ->
  exists m1 m3 p1,
    edited [s2b "Via"] m0 m1 /\ edited [s2b "Via"; s2b "CSeq"] (stage_stamp peer pp rs m1) m3 /\
    is_request m1 = true /\ is_request (stage_route e from m3) = true /\
    x' = fst (handle_message e from (stage_route e from m3) (ctx_with x (snd (stage_learn peer from m0 x)) p1)).
Proof.
  intros Hq. rewrite (process_request _ _ _ _ _ _ _ _ Hq).
  destruct (request_stages e peer pp from rs tcp m0 x) as (S1 & _ & S4). cbv zeta in S1, S4.
  assert (E1 : edited [s2b "Via"] m0 (fst (stage_learn peer from m0 x))).
  { intros T R E F.
    exact (stage_learn_rel R (ed_refl E) peer from x (mpres_s_all_via_params T R E (Forall_inv F)) m0). }
  destruct (stage_learn peer from m0 x) as [m1 l1]. cbn [fst snd] in *.
  assert (E2 : edited [s2b "Via"; s2b "CSeq"] (stage_stamp peer pp rs m1)
                 (fst (stage_conn e tcp (stage_stamp peer pp rs m1) (x_p x)))).
  { intros T R E F. pose proof (Forall_inv F) as TV. pose proof (Forall_inv (Forall_inv_tail F)) as TC.
    exact (stage_conn_rel R (ed_refl E) (ed_trans E) e tcp (x_p x) (mpres_mtry R _ (mpres_next_response_hop T R E TV))
             (mpres_mtry R _ (mpres_s_client_transaction T R E TV TC)) _). }
  destruct (stage_conn e tcp (stage_stamp peer pp rs m1) (x_p x)) as [m3 [p1| |]]; try discriminate.
  cbn [fst] in *. intros H. injection H as <-. exists m1, m3, p1.
  rewrite (same_start_request _ _ S1), (same_start_request _ _ S4). repeat split; assumption.
Qed.

(* the message a request is relayed as, once the hop look-up has left [m1]: after GetClientTransaction, with
   the Via / Record-Route of the transport through which the hop host was learned on top, if it was learned;
   or, to a backend, after the dialog look-up with those of the listener's first transport on top *)
Definition relayed_form (e : env) (l : learned) (p : pstate) (m1 mo : message) : Prop :=
  (exists host, mo = fst (mtry s_client_transaction (stage_decorate e l host m1))) \/
  (exists t0, first_transport (e_lc e) = Some t0 /\ mo = C06.backend_message e t0 p m1).

(* what HandleMessage writes for a request: nothing, or that one message in one of the shapes of a send *)
Lemma request_sends e from m4 x1 : is_request m4 = true ->
  exists extra, x_outs (fst (handle_message e from m4 x1)) = x_outs x1 ++ extra /\
    (extra = [] \/
     exists mo, send_shape (write_message mo) extra /\
       relayed_form e (x_learned x1) (x_p x1)
         (fst (next_request_hop (c_keep_next_hop (e_cfg e)) (route_table_of (e_cfg e)) m4)) mo).
Proof.
  intros Q4. rewrite (handle_message_request e from m4 x1 Q4).
  destruct (next_request_hop _ _ m4) as [m1 r]. cbn [fst]. unfold dispatch.
  assert (BK : exists extra, x_outs (fst (if is_my_message (new_my_name (c_name (e_cfg e))) from m1
                                          then send_to_backend e m1 x1 else (x1, m1))) = x_outs x1 ++ extra /\
            (extra = [] \/ exists mo, send_shape (write_message mo) extra /\ relayed_form e (x_learned x1) (x_p x1) m1 mo)).
  { destruct (is_my_message _ from m1).
    2:{ exists []. rewrite app_nil_r. split; [reflexivity|left; reflexivity]. }
    destruct (C06.send_to_backend_shape e m1 x1) as (_ & extra & O & D). exists extra. split; [exact O|].
    destruct D as [->|(t0 & a & d & FT & _ & -> & BD & _)]; [left; reflexivity|right].
    eexists. split; [|right; exists t0; split; [exact FT|reflexivity]].
    unfold C06.backend_dest in BD. destruct (last_index_byte _ a); [injection BD as <-; constructor|discriminate BD]. }
  destruct r as [[[host port] tr]| |]; [|exact BK..].
  destruct (send_message_shape e host port tr (stage_decorate e (x_learned x1) host m1) x1)
    as (Sm & _ & extra & O & Sh & _).
  exists extra. split; [exact O|]. right. eexists. split; [exact Sh|]. left. exists host. exact Sm.
Qed.

Lemma send_shape_outs b extra : send_shape b extra ->
  Forall (fun o => match fst o with DDial _ _ _ => True | _ => snd o = b end) extra.
Proof. intros [|ip port|c|h p c]; repeat constructor. Qed.

(* the proxy's own Via and Record-Route pushed on a message that has the start line, body and Via view of [m1] *)
Lemma pushed_good_view e must m1 t m : t_ok (e_branch e) t -> good m -> veq m1 m ->
  let mp := px_add_record_route must t (px_add_via e t m) in
  good mp /\ m_start mp = m_start m1 /\ m_body mp = m_body m1 /\
  via_hdrs mp = Some [C07.own_via (e_branch e) t] :: via_hdrs m1.
Proof.
  intros Ht Gm (Va & Vb & Vc). cbv zeta. destruct (pushed_sb e must t m) as [Sa Sb].
  split; [apply good_pushed; assumption|]. rewrite Sa, Sb, pushed_view, Va, Vb, Vc. repeat split.
Qed.

Lemma relayed_form_good e l p m1 mo : good m1 -> learned_ok (e_branch e) l ->
  (forall t0, first_transport (e_lc e) = Some t0 -> t_ok (e_branch e) t0) ->
  relayed_form e l p m1 mo ->
  good mo /\ m_start mo = m_start m1 /\ m_body mo = m_body m1 /\
  (via_hdrs mo = via_hdrs m1 \/ exists t, via_hdrs mo = Some [C07.own_via (e_branch e) t] :: via_hdrs m1).
Proof.
  intros G HL HF. pose proof (pushed_good_view e (pa_must_rr (wire_proxy (e_lc e))) m1) as PU.
  intros [(host & ->)|(t0 & FT & ->)].
  - pose proof (edited_client_transaction (stage_decorate e l host m1)) as EC.
    destruct (EC _ _ veq_edits (all_any _)) as (Ca & Cb & Cc). rewrite Ca, Cb, Cc.
    split; [apply (EC _ _ good_edits (all_any _))|]; unfold stage_decorate; destruct (alookup host l) as [t|] eqn:A.
    + exact (proj1 (PU t m1 (HL _ _ A) G (veq_refl m1))).
    + exact G.
    + destruct (PU t m1 (HL _ _ A) G (veq_refl m1)) as (_ & Sa & Sb & Sv). split; [exact Sa|].
      split; [exact Sb|]. right. exists t. exact Sv.
    + repeat split. left. reflexivity.
  - pose proof (edited_find_backend e p m1) as EF.
    destruct (PU t0 _ (HF t0 FT) (EF _ _ good_edits (all_any _) G) (EF _ _ veq_edits (all_any _))) as (Gp & Sa & Sb & Sv).
    split; [exact Gp|]. split; [exact Sa|]. split; [exact Sb|]. right. exists t0. exact Sv.
Qed.

(* an output of the proxy: a dial marker, or write_message m' with m' good, the start line and
   body of the request, and the Via view [vh], possibly beneath the proxy's own entry *)
Definition relayed_good (br : bytes) (vh : list (option (list via_param))) (st : start_line) (bd : bytes)
           (o : output) : Prop :=
  match fst o with
  | DDial _ _ _ => True
  | _ => exists m', snd o = write_message m' /\ good m' /\ m_start m' = st /\ m_body m' = bd /\
                    (via_hdrs m' = vh \/ exists t, via_hdrs m' = Some [C07.own_via br t] :: vh)
  end.

(* C07_pipeline with the invariant [good] carried along *)
Theorem request_relayed : forall e peer port from rs tcp m0 x x',
  is_request m0 = true -> good m0 -> src_ok peer -> t_ok (e_branch e) from ->
  learned_ok (e_branch e) (x_learned x) ->
  (forall t0, first_transport (e_lc e) = Some t0 -> t_ok (e_branch e) t0) ->
  process_message e peer port from rs tcp m0 x = Ok x' ->
  exists outs, x_outs x' = x_outs x ++ outs /\
               Forall (relayed_good (e_branch e) (stamp_hdrs rs peer port (via_hdrs m0)) (m_start m0) (m_body m0)) outs.
Proof.
  intros e peer port from rs tcp m0 x x' Hq G0 Hsrc Hfrom HL HF EP.
  destruct (request_reach _ _ _ _ _ _ _ _ _ Hq EP) as (m1 & m3 & p1 & E1 & E2 & Q1 & Q4 & ->).
  destruct (E1 _ _ veq_edits (all_any _)) as (A1 & B1 & C1). pose proof (E1 _ _ good_edits (all_any _) G0) as G1.
  set (m2 := stage_stamp peer port rs m1) in *.
  destruct (stage_stamp_view peer port rs m1 Q1) as (A2 & B2 & C2). fold m2 in A2, B2, C2.
  pose proof (stage_stamp_good peer port rs m1 Hsrc G1 : good m2) as G2. rewrite A1 in A2. rewrite B1 in B2. rewrite C1 in C2.
  pose proof (edited_to_hop e from m2 m3 E2) as EH.
  set (m4 := stage_route e from m3) in *.
  destruct (request_sends e from m4 (ctx_with x (snd (stage_learn peer from m0 x)) p1) Q4) as (extra & O & D).
  cbn [x_outs x_learned x_p ctx_with] in O, D.
  exists extra. split; [exact O|]. destruct D as [->|(mo & Sh & Fm)]; [constructor|].
  destruct (relayed_form_good e _ _ _ mo (EH _ _ good_edits good_pop_route (all_any _) G2)
              (learned_ok_stage_learn _ peer from m0 x Hfrom HL) HF Fm) as (Gm & Sa & Sb & Sv).
  destruct (EH _ _ veq_edits veq_pop_route (all_any _)) as (A5 & B5 & C5).
  rewrite A5, A2 in Sa. rewrite B5, B2 in Sb. rewrite C5, C2 in Sv.
  eapply Forall_impl; [|exact (send_shape_outs _ _ Sh)]. intros o. unfold relayed_good.
  destruct (fst o); intros Ho; [| |exact I]; exists mo; repeat split; assumption.
Qed.

(* the entries the judge cuts out of one header the model holds: the printed value as [j_header] hands it over
   (TrimSpace), cut at the commas, every piece trimmed by [tr] *)
Definition hentries (tr : bytes -> bytes) (h : header) : list bytes :=
  map tr (split_byte ","%char (trim_space_go (" "%char :: hval_print (h_val h)))).
(* ... out of all headers whose name the judge takes for [nm] *)
Lemma j_entries_sel tr (p : bytes -> bool) nm hs : (forall n, same_header n nm = p n) ->
  j_entries tr p (map (fun h => jpair (hpair h)) hs) = flat_map (hentries tr) (C06.sel nm hs).
Proof.
  intros E. unfold j_entries, C06.sel. induction hs as [|h r IH]; [reflexivity|].
  cbn [map flat_map filter]. change (fst (jpair (hpair h))) with (h_name h). rewrite <- E.
  destruct (same_header (h_name h) nm); cbn [flat_map]; rewrite IH; reflexivity.
Qed.
(* write_message drops the Content-Length headers and puts its own last: the other names are not concerned *)
Lemma sel_emitted nm m : C06.disjoint_names nm (s2b "Content-Length") ->
  C06.sel nm (emitted_headers m) = C06.sel nm (m_headers m).
Proof.
  intros D. unfold emitted_headers, C06.sel. rewrite filter_app. cbn [filter].
  assert (E : same_header (h_name (cl_header m)) nm = false).
  { cbn [cl_header h_name]. apply (C06.disjoint_concrete nm _ D). reflexivity. }
  rewrite E, app_nil_r. induction (m_headers m) as [|h r IH]; [reflexivity|].
  cbn [filter]. unfold is_cl_h at 1. destruct (same_header (h_name h) (s2b "Content-Length")) eqn:C; cbn [negb filter].
  - destruct (same_header (h_name h) nm) eqn:E2; [rewrite (D _ E2) in C; discriminate|exact IH].
  - destruct (same_header (h_name h) nm); [f_equal|]; exact IH.
Qed.

Lemma via_param_print_no_comma v : vp_ok v = true -> ~ In ","%char (via_param_print v).
Proof. intros H. rewrite (vp_print_rp v H). apply rp_via1_no_comma. exact H. Qed.

Lemma jline_value l : vl_ok l ->
  opt_all (map j_via (map j_trim_via (split_byte ","%char (trim_space_go (via_print l))))) = Some (map jv_of l).
Proof.
  intros (NE & OK & TR). rewrite forallb_forall in OK. rewrite (rclean_trim _ TR). unfold via_print.
  rewrite entries_lead.
  - rewrite !map_map. apply opt_all_map_some. intros v Hv. exact (j_via_print v (OK v Hv)).
  - destruct l; [contradiction|discriminate].
  - apply Forall_forall. intros s Hs. apply in_map_iff in Hs. destruct Hs as (v & <- & Hv).
    exact (via_param_print_no_comma v (OK v Hv)).
Qed.

Lemma via_view_sel hs : via_view hs = map (fun h => hval_vias (h_val h)) (C06.sel VIA hs).
Proof. reflexivity. Qed.
Lemma good_via_sel hs : Forall (fun h => is_via_name (h_name h) = true -> good_h h) hs ->
  Forall (fun h => exists l, hval_vias (h_val h) = Some l /\ vl_ok l /\ hval_print (h_val h) = via_print l) (C06.sel VIA hs).
Proof.
  intros F. apply Forall_forall. intros h I. apply filter_In in I. destruct I as [I Hn].
  rewrite Forall_forall in F. exact (good_via_h h (F h I Hn) Hn).
Qed.

(* every Via header good: the judge reads the decoded entries *)
Theorem via_read hs : Forall (fun h => is_via_name (h_name h) = true -> good_h h) hs ->
  opt_all (map j_via (j_flat_via (map (fun h => jpair (hpair h)) hs))) =
  Some (map jv_of (flat_view (via_view hs))).
Proof.
  intros F. unfold j_flat_via. rewrite (j_entries_sel _ is_via VIA) by (intros n; apply same_header_via).
  rewrite via_view_sel. induction (good_via_sel hs F) as [|h r (l & Hv & VL & Hp) _ IH]; [reflexivity|].
  cbn [map flat_map flat_view]. rewrite map_app, opt_all_app. fold (flat_view (map (fun h => hval_vias (h_val h)) r)).
  rewrite IH, Hv, map_app. unfold hentries. rewrite Hp, trim_space_go_sp by reflexivity.
  rewrite (jline_value l VL). reflexivity.
Qed.

(* every Via header decodes, to a list that is not empty *)
Definition allsome (vh : list (option (list via_param))) : Prop :=
  Forall (fun o => exists l : list via_param, o = Some l /\ l <> []) vh.
Lemma good_view hs : Forall (fun h => is_via_name (h_name h) = true -> good_h h) hs -> allsome (via_view hs).
Proof.
  intros F. rewrite via_view_sel. apply Forall_map. eapply Forall_impl; [|exact (good_via_sel hs F)].
  intros h (l & Hv & (NE & _) & _). exists l. split; assumption.
Qed.
Lemma good_allsome m : good m -> allsome (via_hdrs m).
Proof. intros G. apply good_view. eapply Forall_impl; [|exact G]. intros h Gh _. exact Gh. Qed.

Lemma dj_Via_CL : C06.disjoint_names VIA (s2b "Content-Length").
Proof. intros n. apply (same_header_disjoint VIA (s2b "Content-Length") n). vm_compute. reflexivity. Qed.
Lemma emitted_view m : via_view (emitted_headers m) = via_hdrs m.
Proof. unfold via_hdrs. rewrite !via_view_sel, (sel_emitted VIA m dj_Via_CL). reflexivity. Qed.
Lemma emitted_good m : good m -> Forall (fun h => is_via_name (h_name h) = true -> good_h h) (emitted_headers m).
Proof.
  intros G. unfold emitted_headers. apply Forall_app. split.
  - apply Forall_forall. intros h I Hn. apply filter_In in I. exact (proj1 (Forall_forall _ _) G h (proj1 I)).
  - constructor; [|constructor]. intros Hn. vm_compute in Hn. discriminate Hn.
Qed.

Definition praw (h : header) : Prop :=
  hname_ok (h_name h) /\ exists v, h_val h = HRaw v /\ lf_free v /\ trim_space_go v = v.

Lemma read_agree_all b jin m rest :
  j_read b = Some jin -> parse_message b = Ok (m, rest) ->
  jm_headers jin = map (fun h => jpair (hpair h)) (m_headers m) /\ Forall praw (m_headers m).
Proof.
  intros J P. destruct (C01.input_read _ _ _ _ J P) as (_ & _ & EH & Ls & Rw & _). split; [exact EH|].
  unfold line_safe in Ls. rewrite Forall_forall in *. intros h I.
  destruct (Ls h I) as (N1 & N2 & L). destruct (Rw h I) as (v & V & T). rewrite V in L.
  split; [split; assumption|]. exists v. split; [exact V|]. split; [exact L|exact T].
Qed.

(* request or response: the judge and the model agree *)
Lemma parse_start_line_kind l st : parse_start_line l = Ok st ->
  (match st with SReq _ _ _ => true | _ => false end) = negb (has_prefix (s2b "SIP/") l).
Proof.
  unfold parse_start_line. destruct (has_prefix (s2b "SIP/") l).
  - unfold parse_status_line. destruct (fields_go l) as [|v [|c0 [|r1 rs]]]; try discriminate.
    destruct (atoi c0); [|discriminate]. intros H. injection H as <-. reflexivity.
  - unfold parse_request_line. destruct (fields_go l) as [|m0 [|u [|v [|x y]]]]; try discriminate.
    destruct (parse_addr_spec u); try discriminate. cbn [rbind]. intros H. injection H as <-. reflexivity.
Qed.

(* Whatever the lazy getters decode out of a line-feed-free raw value (From / To, CSeq, Route) prints
   without a line feed: every component is cut out of the text, and the printers only add
   punctuation and decimal numbers.  For EVERY text, in or out of the grammar. *)

Definition kv_lf (p : kv) : Prop := lf_free (k_key p) /\ lf_free (k_val p).
Lemma kv_split_lf s : lf_free s -> kv_lf (kv_split s).
Proof. intros L. unfold kv_split. destruct (index_byte "="%char s); split; cbn [k_key k_val]; auto with lf. Qed.
Lemma kv_print_lf p : kv_lf p -> lf_free (kv_print p).
Proof. intros [A B]. unfold kv_print. destruct (k_val p) eqn:E; auto with lf. Qed.
#[local] Hint Resolve kv_split_lf kv_print_lf : lf.
Lemma print_params_lf sep l : sep <> jLF -> Forall kv_lf l -> lf_free (print_params sep l).
Proof.
  intros N F. unfold print_params. induction F as [|p r Hp Hr IH]; cbn [flat_map]; auto using lf_cons_i with lf.
Qed.
#[local] Hint Extern 1 (lf_free (print_params _ _)) => apply print_params_lf; [discriminate|] : lf.
Lemma map_kv_split_lf l : Forall lf_free l -> Forall kv_lf (map kv_split l).
Proof. intros F. induction F; cbn [map]; auto with lf. Qed.
Lemma params_lf x : lf_free x -> Forall kv_lf (parse_uri_parameters x).
Proof. intros L. unfold parse_uri_parameters. apply map_kv_split_lf, lf_split, L. Qed.
Lemma headers_lf x : lf_free x -> Forall kv_lf (parse_uri_headers x).
Proof.
  intros L. unfold parse_uri_headers. induction (lf_split "&"%char x L) as [|p r Hp Hr IH]; cbn [parse_uri_headers_aux]; [constructor|].
  destruct (index_byte "="%char p); auto with lf.
Qed.
Lemma generic_params_lf l : Forall lf_free l -> forall ps, parse_generic_params l = Ok ps -> Forall kv_lf ps.
Proof.
  induction 1 as [|s r Hs Hr IH]; intros ps; cbn [parse_generic_params].
  - intros H. injection H as <-. constructor.
  - unfold parse_generic_param. destruct s as [|c s']; [discriminate|]. cbn [rbind].
    destruct (parse_generic_params r) as [qs| |]; try discriminate. cbn [rbind]. intros H. injection H as <-.
    auto with lf.
Qed.
#[local] Hint Resolve params_lf headers_lf : lf.

Definition uri_lf (u : sip_uri) : Prop :=
  lf_free (u_scheme u) /\ lf_free (u_user u) /\ lf_free (u_password u) /\ lf_free (u_host u) /\
  Forall kv_lf (u_params u) /\ Forall kv_lf (u_headers u).
(* [skipn (S n) x] as conversion leaves it *)
Lemma lf_skipn_S n x : lf_free x -> lf_free (match x with [] => [] | _ :: l => skipn n l end).
Proof. exact (lf_skipn (S n) x). Qed.
#[local] Hint Resolve lf_skipn_S : lf.
Lemma parse_sip_uri_lf s u : lf_free s -> parse_sip_uri s = Ok u -> uri_lf u.
Proof.
  intros L. unfold parse_sip_uri, parse_sip_uri_with. cbv zeta.
  assert (L4 : lf_free (skipn 4 s)) by auto with lf. assert (L5 : lf_free (skipn 5 s)) by auto with lf.
  set (s4 := skipn 4 s) in *. set (s5 := skipn 5 s) in *. clearbody s4 s5.
  destruct (has_prefix (s2b "sip:") s); [|destruct (has_prefix (s2b "sips:") s); [|discriminate]].
  all: cbv beta; unfold parse_user_info, parse_host_port;
    repeat (match goal with |- context [match index_byte ?c ?x with _ => _ end] => destruct (index_byte c x) end;
            cbv beta iota zeta);
    intros H; injection H as <-; unfold uri_lf;
    cbn [u_scheme u_user u_password u_host u_port u_params u_headers];
    repeat split; auto 8 with lf.
Qed.

Lemma sip_uri_print_lf a b u : uri_lf u -> lf_free (sip_uri_print_with a b u).
Proof.
  intros (A & B & C & D & E & F). unfold sip_uri_print_with.
  assert (H : lf_free (match u_headers u with
                       | [] => []
                       | h :: r => "?"%char :: k_key h ++ "="%char :: k_val h ++
                                   flat_map (fun p => "&"%char :: k_key p ++ "="%char :: k_val p) r
                       end)).
  { destruct F as [|h r [H1 H2] Hr]; [exact lf_nil|].
    assert (lf_free (flat_map (fun p => "&"%char :: k_key p ++ "="%char :: k_val p) r))
      by (induction Hr as [|p r' [P1 P2] _ IH]; cbn [flat_map]; auto with lf).
    auto with lf. }
  destruct (u_user u), (u_password u), (Z.eqb (u_port u) 0), a, b; auto 12 with lf.
Qed.

Definition addr_lf (a : addr_spec) : Prop := match a with ASip u => uri_lf u | AAbs s => lf_free s end.
Lemma parse_addr_spec_lf s a : lf_free s -> parse_addr_spec s = Ok a -> addr_lf a.
Proof.
  intros L. unfold parse_addr_spec, parse_addr_spec_with. destruct (_ || _)%bool.
  - pose proof (parse_sip_uri_lf s) as P. unfold parse_sip_uri in P.
    destruct (parse_sip_uri_with parse_uri_parameters s) as [u| |]; try discriminate.
    cbn [rmap]. intros H. injection H as <-. exact (P u L eq_refl).
  - intros H. injection H as <-. exact L.
Qed.
Lemma addr_spec_print_lf a : addr_lf a -> lf_free (addr_spec_print a).
Proof. destruct a as [u|s]; cbn [addr_lf addr_spec_print]; intros H; [exact (sip_uri_print_lf true true u H)|exact H]. Qed.

Definition na_lf (n : name_addr) : Prop := lf_free (na_display n) /\ addr_lf (na_addr n).
Lemma parse_name_addr_lf s n : lf_free s -> parse_name_addr s = Ok n -> na_lf n.
Proof.
  intros L. unfold parse_name_addr. destruct (index_byte "<"%char s) as [p1|]; [|discriminate].
  destruct (index_byte ">"%char s) as [p2|]; [|discriminate]. destruct (Nat.ltb p2 p1); [discriminate|].
  destruct (parse_addr_spec (slice s (S p1) p2)) as [a| |] eqn:E; try discriminate. cbn [rbind].
  intros H. injection H as <-. split; cbn [na_display na_addr]; [auto with lf|].
  apply (parse_addr_spec_lf _ _) with (2 := E). unfold slice. auto with lf.
Qed.
Lemma name_addr_print_lf n : na_lf n -> lf_free (name_addr_print n).
Proof. intros [A B]. unfold name_addr_print. auto using addr_spec_print_lf with lf. Qed.
#[local] Hint Resolve name_addr_print_lf addr_spec_print_lf : lf.

Lemma parse_route_param_lf s r : lf_free s -> parse_route_param s = Ok r -> lf_free (route_param_print r).
Proof.
  intros L. unfold parse_route_param. destruct (index_byte ">"%char s) as [pos|]; [|discriminate].
  destruct (parse_name_addr (firstn (S pos) s)) as [na| |] eqn:E; try discriminate. cbn [rbind].
  pose proof (parse_name_addr_lf _ _ (lf_firstn _ _ L) E) as Hn.
  assert (Lt : lf_free (trim_space_go (skipn (S pos) s))) by (apply trim_space_go_notin, lf_skipn, L).
  revert Lt. destruct (trim_space_go (skipn (S pos) s)) as [|c rest]; intros Lt.
  - intros H. injection H as <-. unfold route_param_print. cbn [r_addr r_params]. auto with lf.
  - destruct (Ascii.eqb c ";"%char); [|discriminate].
    destruct (parse_generic_params (split_byte ";"%char rest)) as [ps| |] eqn:Ep; try discriminate. cbn [rbind].
    intros H. injection H as <-. unfold route_param_print. cbn [r_addr r_params].
    assert (Forall kv_lf ps) by (apply (generic_params_lf _) with (2 := Ep), lf_split; intros I; apply Lt; right; exact I).
    auto with lf.
Qed.

Lemma parse_all_forall {A} (f : bytes -> res A) (P : A -> Prop) l :
  (forall s a, In s l -> f s = Ok a -> P a) -> forall rs, parse_all f l = Ok rs -> Forall P rs.
Proof.
  induction l as [|s r IH]; intros K rs; cbn [parse_all].
  - intros H. injection H as <-. constructor.
  - destruct (f s) as [a| |] eqn:E; try discriminate. cbn [rbind].
    destruct (parse_all f r) as [rest| |] eqn:Er; try discriminate. cbn [rbind]. intros H. injection H as <-.
    constructor; [exact (K s a (or_introl eq_refl) E)|].
    exact (IH (fun s0 a0 I => K s0 a0 (or_intror I)) rest eq_refl).
Qed.
Lemma parse_route_lf s l : lf_free s -> parse_route s = Ok l -> rl_ok l.
Proof.
  intros L H. unfold parse_route in H. unfold rl_ok.
  refine (parse_all_forall parse_route_param _ _ _ l H). intros p r I E.
  pose proof (lf_split ","%char s L) as F. rewrite Forall_forall in F. exact (parse_route_param_lf p r (F p I) E).
Qed.

(* the tail shared by the four forms of a From / To value: the parameters behind the address *)
Lemma fromto_tail_lf a params f : lf_free params ->
  match a with FtName n => na_lf n | FtSpec x => addr_lf x end ->
  match params with
  | [] => Ok {| ft_addr_of := a; ft_params := [] |}
  | _ :: _ => let! ps := parse_generic_params (split_byte ";"%char params) in
              Ok {| ft_addr_of := a; ft_params := ps |}
  end = Ok f -> lf_free (fromto_print f).
Proof.
  intros Lp Ha. unfold fromto_print. destruct params as [|c r].
  - intros H. injection H as <-. cbn [ft_addr_of ft_params]. destruct a; auto with lf.
  - destruct (parse_generic_params _) as [ps| |] eqn:E; try discriminate. cbn [rbind].
    intros H. injection H as <-. cbn [ft_addr_of ft_params].
    pose proof (generic_params_lf _ (lf_split _ _ Lp) _ E). destruct a; auto with lf.
Qed.
Lemma parse_fromto_lf s f : lf_free s -> parse_fromto s = Ok f -> lf_free (fromto_print f).
Proof.
  intros L.
  unfold parse_fromto, parse_fromto_with. cbv zeta beta.
  destruct (index_byte "<"%char s) as [la|].
  - destruct (index_byte ">"%char s) as [ra|]; [|discriminate]. destruct (Nat.ltb ra la); [discriminate|].
    destruct (parse_name_addr (firstn (S ra) s)) as [na| |] eqn:E; try discriminate. cbn [rbind].
    pose proof (parse_name_addr_lf _ _ (lf_firstn _ _ L) E) as Hn.
    destruct (index_byte ";"%char (skipn (S ra) s)) as [pos|]; intros H.
    + apply (fromto_tail_lf (FtName na) _ f) with (3 := H); auto with lf.
    + apply (fromto_tail_lf (FtName na) [] f) with (3 := H); auto with lf.
  - destruct (index_byte ";"%char s) as [pos|].
    + destruct (parse_addr_spec (firstn pos s)) as [a| |] eqn:E; try discriminate. cbn [rbind]. intros H.
      apply (fromto_tail_lf (FtSpec a) _ f) with (3 := H); [auto with lf|exact (parse_addr_spec_lf _ _ (lf_firstn _ _ L) E)].
    + destruct (parse_addr_spec s) as [a| |] eqn:E; try discriminate. cbn [rbind]. intros H.
      apply (fromto_tail_lf (FtSpec a) [] f) with (3 := H); [auto with lf|exact (parse_addr_spec_lf _ _ L E)].
Qed.

(* strings.Fields: the fields are non-empty and blank-free *)
Lemma fields_aux_spec s : forall cur f, nospace cur -> In f (fields_aux s cur) -> f <> [] /\ nospace f.
Proof.
  induction s as [|c r IH]; intros cur f N I; cbn [fields_aux] in I.
  - destruct cur as [|x cur']; [destruct I|]. destruct I as [<-|[]]. split.
    + apply rev_nonnil. discriminate.
    + intros y Iy. apply N. apply in_rev. exact Iy.
  - destruct (is_space c) eqn:Ec.
    + destruct cur as [|x cur'].
      * exact (IH [] f (fun _ F => match F with end) I).
      * destruct I as [<-|I].
        -- split; [apply rev_nonnil; discriminate|]. intros y Iy. apply N. apply in_rev. exact Iy.
        -- exact (IH [] f (fun _ F => match F with end) I).
    + apply (IH (c :: cur) f); [|exact I]. intros y [<-|Iy]; [exact Ec|exact (N y Iy)].
Qed.
Lemma fields_spec s f : In f (fields s) -> f <> [] /\ nospace f.
Proof. apply fields_aux_spec. intros c []. Qed.

Lemma lf_field l f : In f (fields_go l) -> lf_free f.
Proof. intros I. exact (nospace_lf _ (proj2 (fields_go_spec l f I))). Qed.

Lemma parse_cseq_lf s c : parse_cseq s = Ok c -> lf_free (cseq_print c).
Proof.
  unfold parse_cseq. destruct (fields_go s) as [|n [|m [|x y]]] eqn:F; try discriminate.
  destruct (atoi n); [|discriminate]. intros H. injection H as <-. unfold cseq_print. cbn [cs_seq cs_method].
  assert (lf_free m) by (apply (lf_field s); rewrite F; right; left; reflexivity). auto with lf.
Qed.

Theorem dec_ok_lf s : lf_free s -> dec_ok s.
Proof.
  intros L. split; [|split].
  - intros f P. exact (parse_fromto_lf s f L P).
  - intros c P. exact (parse_cseq_lf s c P).
  - intros l P. exact (parse_route_lf s l L P).
Qed.

(* the re-encoded start line is a line that does not begin with a blank *)
Lemma start_line_ok l st : parse_start_line l = Ok st -> start_ok (start_line_print st).
Proof.
  assert (K : forall f w : bytes, In f (fields_go l) -> lf_free w -> start_ok (f ++ " "%char :: w)).
  { intros f w I W. split; [change (lf_free (f ++ " "%char :: w)); pose proof (lf_field l f I); auto with lf|].
    destruct (fields_go_spec l f I) as [F1 F2].
    destruct f as [|c t]; [exfalso; apply F1; reflexivity|]. exists c, (t ++ " "%char :: w).
    split; [reflexivity|]. apply F2. left. reflexivity. }
  unfold parse_start_line. destruct (has_prefix (s2b "SIP/") l).
  - unfold parse_status_line. destruct (fields_go l) as [|v [|c0 [|r1 rs]]] eqn:F; try discriminate.
    destruct (atoi c0) as [code|]; [|discriminate]. intros H. injection H as <-. cbn [start_line_print].
    apply (K v); [left; reflexivity|].
    assert (lf_free (join_byte " "%char (r1 :: rs))).
    { apply lf_join; [discriminate|]. apply Forall_forall. intros x Ix.
      apply (lf_field l x). rewrite F. right. right. exact Ix. }
    auto with lf.
  - unfold parse_request_line. destruct (fields_go l) as [|m0 [|u [|v [|x y]]]] eqn:F; try discriminate.
    destruct (parse_addr_spec u) as [a| |] eqn:E; try discriminate. cbn [rbind]. intros H. injection H as <-.
    cbn [start_line_print]. apply (K m0); [left; reflexivity|].
    assert (lf_free u) by (apply (lf_field l); rewrite F; right; left; reflexivity).
    assert (lf_free v) by (apply (lf_field l); rewrite F; right; right; left; reflexivity).
    pose proof (parse_addr_spec_lf u a) as A. auto with lf.
Qed.

(* Via header values = reference renderings of well-formed entry lists of the C14 grammar *)
Definition via_domain (m : message) : Prop :=
  forall h s, In h (m_headers m) -> is_via_name (h_name h) = true -> h_val h = HRaw s ->
    exists al, al <> [] /\ forallb wf_via al = true /\ s = rp_via al.

Lemma good_of_parse m : Forall praw (m_headers m) -> via_domain m -> good m.
Proof.
  intros PR HV. unfold good. apply Forall_forall. intros h I.
  rewrite Forall_forall in PR. destruct (PR h I) as (N & s & V & L & T).
  split; [exact N|]. rewrite V. split; [exact L|]. split; [exact (dec_ok_lf s L)|].
  intros Hn. destruct (HV h s I Hn V) as (al & NE & W & ->).
  exists (map embed_via al). split; [apply parse_via_rp; assumption|]. split.
  - split; [destruct al; [exfalso; apply NE; reflexivity|discriminate]|]. split.
    + apply forallb_forall. intros v Iv. apply in_map_iff in Iv. destruct Iv as (a & <- & Ia).
      apply vp_ok_embed, wf_via_weaken. rewrite forallb_forall in W. exact (W a Ia).
    + rewrite via_print_embed by exact W. exact (proj2 (proj1 (trim_fix_iff _) T)).
  - apply via_print_embed. exact W.
Qed.

(* what the two readers make of the same bytes, on the domain *)
Lemma domain_read b jin m rest :
  j_read b = Some jin -> parse_message b = Ok (m, rest) -> via_domain m ->
  good m /\ jm_headers jin = map (fun h => jpair (hpair h)) (m_headers m) /\
  is_request m = negb (j_is_response jin) /\
  start_ok (start_line_print (m_start m)) /\
  (Z.of_nat (List.length (m_body m)) <= int_max)%Z /\
  opt_all (map j_via (j_flat_via (jm_headers jin))) = Some (map jv_of (flat_view (via_hdrs m))).
Proof.
  intros J P V.
  destruct (C01.input_read _ _ _ _ J P) as (_ & PS & _ & _ & _ & _ & Bd).
  destruct (read_agree_all _ _ _ _ J P) as (EH & PR).
  assert (G : good m) by (apply good_of_parse; assumption).
  split; [exact G|]. split; [exact EH|]. split; [exact (parse_start_line_kind _ _ PS)|].
  split; [exact (start_line_ok _ _ PS)|]. split; [exact Bd|]. rewrite EH. apply via_read.
  eapply Forall_impl; [|exact G]. intros h Gh _. exact Gh.
Qed.

Lemma pairs_kv_set k v l : map pair_of (kv_set k v l) = p_set k v (map pair_of l).
Proof.
  induction l as [|p r IH]; cbn [kv_set p_set map]; [reflexivity|].
  unfold pair_of at 2. rewrite (beq_sym k (k_key p)).
  destruct (beq (k_key p) k); cbn [map]; [reflexivity|rewrite IH; reflexivity].
Qed.
Lemma j_get_pairs k l : j_get k (map pair_of l) = kv_get k l.
Proof.
  induction l as [|p r IH]; cbn [kv_get j_get map]; [reflexivity|].
  unfold pair_of at 1. rewrite (beq_sym k (k_key p)). destruct (beq (k_key p) k); [reflexivity|exact IH].
Qed.
Lemma kv_has_pairs k l : kv_has k l = match j_get k (map pair_of l) with Some _ => true | None => false end.
Proof. rewrite j_get_pairs. reflexivity. Qed.

(* the judge's [stamped] on its own reading = its reading of the model's stamped entry *)
Theorem jv_stamp peer port v : jv_of (C07.stamp peer port v) = stamped true peer port (jv_of v).
Proof.
  unfold stamped, jv_of.
  cbn [jv_proto jv_transport jv_host jv_port jv_params C07.stamp v_name v_version v_transport v_host v_port v_params].
  f_equal. unfold stamp_params. rewrite kv_has_pairs, pairs_kv_set.
  destruct (j_get (s2b "rport") (p_set (s2b "received") peer (map pair_of (v_params v)))); cbv iota;
    rewrite ?pairs_kv_set; reflexivity.
Qed.
Lemma jv_stamp_rs (rs : bool) peer port v :
  jv_of (if rs then C07.stamp peer port v else v) = stamped rs peer port (jv_of v).
Proof. destruct rs; [apply jv_stamp|reflexivity]. Qed.

Lemma jvia_eqb_refl a : jvia_eqb a a = true.
Proof.
  unfold jvia_eqb. rewrite !beq_refl, Nat.eqb_refl.
  assert (P : forallb (fun '((k1, v1), (k2, v2)) => beq k1 k2 && beq v1 v2)
                      (combine (jv_params a) (jv_params a)) = true).
  { induction (jv_params a) as [|[k v] r IH]; [reflexivity|]. cbn [combine forallb]. rewrite !beq_refl, IH. reflexivity. }
  destruct (jv_port a); rewrite ?Z.eqb_refl; cbn [andb]; exact P.
Qed.
Lemma jvia_all_refl l : forallb (fun '(a, b) => jvia_eqb a b) (combine l l) = true.
Proof. induction l as [|a l IH]; [reflexivity|]. cbn [combine forallb]. rewrite jvia_eqb_refl, IH. reflexivity. Qed.

(* the comparison the judge makes for one output *)
Definition jcheck (want ovs : list jvia) : nat :=
  let ovs' := match ovs with
              | v :: r => if Nat.ltb (List.length want) (List.length ovs) then r else ovs
              | [] => [] end in
  match ovs', want with
  | o1 :: orest, w1 :: wrest =>
      if negb (jvia_eqb o1 w1) then 1%nat
      else if (Nat.eqb (List.length orest) (List.length wrest) &&
               forallb (fun '(a, b) => jvia_eqb a b) (combine orest wrest))%bool then O else 2%nat
  | _, _ => 2%nat
  end.
Definition jout (want : list jvia) (o : bytes * bytes) : nat :=
  match j_read (snd o) with
  | Some om =>
      match opt_all (map j_via (j_flat_via (jm_headers om))) with
      | Some ovs => jcheck want ovs
      | None => 2%nat
      end
  | None => O
  end.

(* what the judge does once [j_input] has told it where the bytes came from: the body of
   SpecProxy.judge_C07_event written with [jout] / [jcheck] (judge_C07_event_in holds by computation) *)
Definition judge_C07_in (pc : proxy_case) (i : jin) (outs : list (bytes * bytes)) : nat :=
  match j_read (ji_data i), nth_opt (c_listens (pc_cfg pc)) (ji_li i) with
  | Some m, Some lc =>
      if (negb (j_is_response m) && jm_has_cl m && (negb (ji_tcp i) || single_message m))%bool then
        match opt_all (map j_via (j_flat_via (jm_headers m))) with
        | Some (v1 :: vrest) =>
            first_nonzero (map (jout (stamped (received_on lc) (ji_src i) (ji_sport i) v1 :: vrest)) (msgs_of outs))
        | _ => O
        end
      else O
  | _, _ => O
  end.
Lemma judge_C07_event_in pc st ev outs closed :
  judge_C07_event pc st ev outs closed = match j_input st ev with Some i => judge_C07_in pc i outs | None => O end.
Proof. reflexivity. Qed.

Lemma jcheck_same w1 wrest : jcheck (w1 :: wrest) (w1 :: wrest) = O.
Proof.
  unfold jcheck. rewrite Nat.ltb_irrefl. cbv beta iota zeta. rewrite jvia_eqb_refl. cbn [negb].
  rewrite Nat.eqb_refl, jvia_all_refl. reflexivity.
Qed.
(* one more entry than expected: the proxy's own one on top is skipped *)
Lemma jcheck_pushed x w1 wrest : jcheck (w1 :: wrest) (x :: w1 :: wrest) = O.
Proof.
  unfold jcheck.
  assert (E : Nat.ltb (List.length (w1 :: wrest)) (List.length (x :: w1 :: wrest)) = true)
    by (apply Nat.ltb_lt; cbn [List.length]; lia).
  rewrite E. cbv beta iota zeta. rewrite jvia_eqb_refl. cbn [negb].
  rewrite Nat.eqb_refl, jvia_all_refl. reflexivity.
Qed.

Lemma flat_stamp rs peer port vh : allsome vh ->
  flat_view (stamp_hdrs rs peer port vh) =
  match flat_view vh with v :: t => (if rs then C07.stamp peer port v else v) :: t | [] => [] end.
Proof.
  intros F. destruct rs; cbn [stamp_hdrs]; [|destruct (flat_view vh); reflexivity].
  destruct F as [|o t (l & -> & NE) F']; [reflexivity|].
  destruct l as [|v rest]; [exfalso; apply NE; reflexivity|]. reflexivity.
Qed.

(* an output as the correspondence run prints it: label, payload *)
(* ([labelled], C13_bridge, prints the connection id as the payload of a dial marker; the judge of C07 skips
   dial markers, so the payload does not matter here) *)
Definition lab (o : output) : bytes * bytes := (label_of (fst o), snd o).
Lemma is_dial_label ip port c b : is_dial (label_of (DDial ip port c), b) = true.
Proof. reflexivity. Qed.
Lemma flat_view_cons l t : flat_view (Some l :: t) = l ++ flat_view t.
Proof. reflexivity. Qed.

Lemma out_accepted br (rs : bool) src sport m o v vrest :
  good m -> start_ok (start_line_print (m_start m)) -> (Z.of_nat (List.length (m_body m)) <= int_max)%Z ->
  flat_view (via_hdrs m) = v :: vrest ->
  relayed_good br (stamp_hdrs rs src sport (via_hdrs m)) (m_start m) (m_body m) o ->
  negb (is_dial (lab o)) = true ->
  jout (stamped rs src sport (jv_of v) :: map jv_of vrest) (lab o) = O.
Proof.
  intros G So Bd FV R Nd. destruct o as [d b]. unfold relayed_good in R. unfold lab in *. cbn [fst snd] in *.
  assert (K : exists m', b = write_message m' /\ good m' /\ m_start m' = m_start m /\ m_body m' = m_body m /\
                         (via_hdrs m' = stamp_hdrs rs src sport (via_hdrs m) \/
                          exists t, via_hdrs m' = Some [C07.own_via br t] :: stamp_hdrs rs src sport (via_hdrs m))).
  { destruct d; try exact R. rewrite is_dial_label in Nd. discriminate Nd. }
  destruct K as (m' & -> & G' & S' & B' & V').
  unfold jout. cbn [snd].
  rewrite (C01_single_content_length_read m' (good_line_safe _ G'));
    [|rewrite S'; exact So|rewrite B'; exact Bd].
  cbv beta iota. cbn [jm_headers].
  rewrite (via_read _ (emitted_good _ G')), emitted_view.
  pose proof (flat_stamp rs src sport _ (good_allsome m G)) as FS. rewrite FV in FS.
  destruct V' as [->|(t & ->)].
  - rewrite FS. cbn [map]. rewrite jv_stamp_rs. apply jcheck_same.
  - rewrite flat_view_cons, FS. cbn [app map]. rewrite jv_stamp_rs. apply jcheck_pushed.
Qed.

(* THE BRIDGE, for a message from anywhere.  [i] is what the judge knows of where the bytes came from; the
   model is run in any environment, through any server transport and connection, with the received-support
   flag the judge reads off the listen entry.  The datagram and the TCP chunk are the two instances. *)
Theorem C07_judge_bridge_in :
  forall (pc : proxy_case) (i : jin) (lc : listen_cfg) (e : env) (from : stransport) (tcp : option nat)
         (jin : jmsg) (m : message) (rest : bytes) (x x' : ctx) (pre : list output) (keep : output -> bool),
  nth_opt (c_listens (pc_cfg pc)) (ji_li i) = Some lc ->
  j_read (ji_data i) = Some jin -> parse_message (ji_data i) = Ok (m, rest) ->
  via_domain m -> src_ok (ji_src i) ->
  t_ok (e_branch e) from -> learned_ok (e_branch e) (x_learned x) ->
  (forall t0, first_transport (e_lc e) = Some t0 -> t_ok (e_branch e) t0) ->
  process_message e (ji_src i) (ji_sport i) from (received_on lc) tcp m x = Ok x' ->
  x_outs x' = x_outs x ++ pre ->
  judge_C07_in pc i (map lab (filter keep pre)) = O.
Proof.
  intros pc i lc e from tcp jin m rest x x' pre keep EL HJ HP HV Hsrc Hfrom HL HF EP EO.
  unfold judge_C07_in. rewrite HJ, EL.
  destruct (domain_read _ _ _ _ HJ HP HV) as (G0 & _ & Hq & Hst & Bd & VR).
  destruct (negb (j_is_response jin)); [|reflexivity]. cbn [andb].
  destruct (jm_has_cl jin && (negb (ji_tcp i) || single_message jin))%bool; [|reflexivity].
  rewrite VR. destruct (flat_view (via_hdrs m)) as [|v vrest] eqn:FV; [reflexivity|]. cbn [map].
  apply first_nonzero_zero. intros o Ho.
  unfold msgs_of in Ho. apply filter_In in Ho. destruct Ho as [Ho Nd].
  apply in_map_iff in Ho. destruct Ho as (o0 & <- & Ho0). apply filter_In in Ho0. destruct Ho0 as [Ho0 _].
  destruct (request_relayed e _ _ from _ tcp m x x' Hq G0 Hsrc Hfrom HL HF EP) as (outs & E1 & F).
  rewrite E1 in EO. apply app_inv_head in EO. subst outs. rewrite Forall_forall in F.
  exact (out_accepted (e_branch e) (received_on lc) _ _ m o0 v vrest G0 Hst Bd FV (F o0 Ho0) Nd).
Qed.

(* Any layout of the Via headers: comma lists, repeated lines, compact name, any case.
   For every configuration, listener, judge state, source, datagram that both readers accept, every model state:
   the judge of C07 accepts what process_message appends (any sub-selection [keep] of it, as the run only shows
   the visible outputs), labelled as the correspondence run labels it.
   Requests and responses alike (for a response the judge has nothing to check).
   What is assumed, all of it about the INPUT / the configuration:
     via_domain m   the Via header values are reference renderings of well-formed entry lists (C14 grammar)
     src_ok src     the source address has no separator of the Via grammar and is ASCII (an IP literal)
     branch_ok br, safe1 (lc_addr lc), port ranges, learned transports: the proxy's own Via entry is readable
     fx_wiring fx = true   the repaired startProxy wiring (with the legacy wiring C07 is refuted, see C07.v) *)
Theorem C07_judge_bridge_udp :
  forall (pc : proxy_case) (st : jstate) (fx : fixes) (now : Z) (br : bytes) (li : nat) (lc : listen_cfg)
         (src : bytes) (sport : Z) (data : bytes) (jin : jmsg) (m : message) (rest : bytes)
         (x x' : ctx) (pre : list output) (keep : output -> bool) (closed : list nat),
  let c := pc_cfg pc in
  let e := mk_env fx c (item_rs_of (fx_wiring fx)) li lc now br in
  fx_wiring fx = true ->
  nth_opt (c_listens c) li = Some lc ->
  j_read data = Some jin -> parse_message data = Ok (m, rest) ->
  via_domain m ->
  src_ok src -> branch_ok br ->
  safe1 (lc_addr lc) = true -> 0 <= lc_udp lc <= 65535 -> 0 <= lc_tcp lc <= 65535 ->
  (forall h t, alookup h (x_learned x) = Some t -> safe1 (t_addr t) = true /\ 0 <= t_port t <= 65535) ->
  process_message e src sport {| t_kind := KUdp; t_addr := lc_addr lc; t_port := lc_udp lc |}
                  (e_item_rs e) None m x = Ok x' ->
  x_outs x' = x_outs x ++ pre ->
  judge_C07_event pc st (EvUdp li src sport data) (map lab (filter keep pre)) closed = O.
Proof.
  intros pc st fx now br li lc src sport data jin m rest x x' pre keep closed c e
         Hfx EL HJ HP HV Hsrc Hbr Ha Hu Ht HLn EP EO.
  assert (RS : e_item_rs e = received_on lc) by (unfold e, mk_env; cbn [e_item_rs]; rewrite Hfx; reflexivity).
  rewrite RS in EP.
  exact (C07_judge_bridge_in pc {| ji_li := li; ji_tcp := false; ji_conn := 0; ji_src := src; ji_sport := sport;
                                   ji_data := data |} lc e _ None jin m rest x x' pre keep EL HJ HP HV Hsrc
           (t_ok_intro br {| t_kind := KUdp; t_addr := lc_addr lc; t_port := lc_udp lc |} Ha Hu Hbr)
           (learned_ok_intro br _ Hbr HLn) (first_transport_t_ok br lc Hbr Ha Hu Ht) EP EO).
Qed.

Lemma judge_C07_in_nil pc i : judge_C07_in pc i [] = O.
Proof.
  unfold judge_C07_in. destruct (j_read (ji_data i)); [|reflexivity]. destruct (nth_opt _ _); [|reflexivity].
  destruct (_ && _)%bool; [|reflexivity]. destruct (opt_all _) as [[|v r]|]; reflexivity.
Qed.
Lemma judge_C07_nil pc st ev closed : judge_C07_event pc st ev [] closed = O.
Proof. rewrite judge_C07_event_in. destruct (j_input st ev); [apply judge_C07_in_nil|reflexivity]. Qed.

Corollary C07_judge_bridge_step :
  forall (pc : proxy_case) (stj : jstate) (fx : fixes) (now : Z) (br : bytes) (st : state) (li : nat)
         (lc : listen_cfg) (src : bytes) (sport : Z) (data : bytes) (jin : jmsg) (m : message) (rest : bytes)
         (st' : state) (outs : list output) (keep : output -> bool) (closed : list nat),
  fx_wiring fx = true -> nth_opt (c_listens (pc_cfg pc)) li = Some lc ->
  j_read data = Some jin -> parse_message data = Ok (m, rest) ->
  via_domain m -> src_ok src -> branch_ok br ->
  safe1 (lc_addr lc) = true -> 0 <= lc_udp lc <= 65535 -> 0 <= lc_tcp lc <= 65535 ->
  (forall h t, alookup h (st_learned st) = Some t -> safe1 (t_addr t) = true /\ 0 <= t_port t <= 65535) ->
  proxy_step fx (pc_cfg pc) now br st (EvUdp li src sport data) = Ok (st', outs) ->
  judge_C07_event pc stj (EvUdp li src sport data) (map lab (filter keep outs)) closed = O.
Proof.
  intros pc stj fx now br st li lc src sport data jin m rest st' outs keep closed
         Hfx EL HJ HP HV Hsrc Hbr Ha Hu Ht HLn H.
  apply proxy_step_udp_inv in H.
  destruct H as [(_ & ->)|(lc' & m' & rest' & p & x' & EL' & HP' & _ & E & _ & ->)]; [apply judge_C07_nil|].
  rewrite EL in EL'. injection EL' as <-. rewrite HP in HP'. injection HP' as <- <-.
  exact (C07_judge_bridge_udp pc stj fx now br li lc src sport data jin m rest (start_ctx st p) x' (x_outs x') keep closed
           Hfx EL HJ HP HV Hsrc Hbr Ha Hu Ht HLn E eq_refl).
Qed.

(* the domain hypothesis in executable form, for concrete instances: decodable, well-formed entries, printed back
   byte for byte *)
Definition via_domain_b (m : message) : bool :=
  forallb (fun h => if is_via_name (h_name h) then
                      match h_val h with
                      | HRaw s => match parse_via s with
                                  | Ok l => match l with [] => false | _ :: _ => true end &&
                                            forallb (fun v => wf_via (unembed_via v)) l && beq (via_print l) s
                                  | _ => false end
                      | _ => true end
                    else true) (m_headers m).
Lemma via_domain_b_sound m : via_domain_b m = true -> via_domain m.
Proof.
  unfold via_domain_b, via_domain. intros H h s I Hn V. rewrite forallb_forall in H. specialize (H h I).
  cbv beta in H. rewrite Hn, V in H. destruct (parse_via s) as [l| |]; try discriminate H.
  apply andb_true_iff in H. destruct H as [H H3]. apply andb_true_iff in H. destruct H as [H1 H2].
  apply beq_eq in H3. exists (map unembed_via l). split; [destruct l; [discriminate H1|discriminate]|].
  split.
  - apply forallb_forall. intros a Ia. apply in_map_iff in Ia. destruct Ia as (v & <- & Iv).
    rewrite forallb_forall in H2. exact (H2 v Iv).
  - rewrite <- H3. apply via_print_rp. rewrite forallb_forall in *. intros v Iv.
    exact (wf_via_weaken _ (H2 v Iv)).
Qed.

Module C07_bridge_example.
Open Scope string_scope.
Open Scope list_scope.
Open Scope Z_scope.
Definition ex_lc : listen_cfg :=
  {| lc_addr := s2b "10.0.0.1"; lc_udp := 5060; lc_tcp := 5060; lc_backends := []; lc_dynamic := false;
     lc_no_received := false; lc_def_route := false; lc_must_rr := false |}.
Definition ex_cfg : cfg :=
  {| c_name := s2b "proxy.example"; c_keep_next_hop := false; c_dialog_timeout := 60; c_routes := [];
     c_hosts := []; c_listens := [ex_lc] |}.
Definition ex_pc : proxy_case :=
  {| pc_cfg := ex_cfg; pc_tcp_listeners := []; pc_udp_endpoints := []; pc_events := []; pc_waits := [] |}.
Definition ln (s : string) : bytes := s2b s ++ crlf.
(* top entry: ";rport;x=1" and a spoofed received=10.9.9.9; two more entries (comma list + compact name) *)
Definition ex_data : bytes :=
  flat_map ln ["INVITE sip:bob@example.com SIP/2.0";
               "Via: SIP/2.0/UDP 10.9.9.9:5070;rport;x=1;received=10.9.9.9,SIP/2.0/TCP 10.8.8.8;branch=z9hG4bKdef";
               "v: SIP/2.0/UDP 10.7.7.7:5062;branch=z9hG4bKghi";
               "Route: <sip:10.0.0.2:5070;lr>";
               "From: <sip:a@example.com>;tag=1";
               "To: <sip:bob@example.com>";
               "Call-ID: c1";
               "CSeq: 1 INVITE";
               "Content-Length: 0"] ++ crlf.
Definition ex_src : bytes := s2b "127.0.0.9".
Definition ex_br : bytes := s2b "z9hG4bKpx".
Definition dummy : message := {| m_start := SResp [] 0 []; m_headers := []; m_body := [] |}.
Definition ex_m : message := match parse_message ex_data with Ok (m, _) => m | _ => dummy end.
Definition ex_jin : jmsg :=
  match j_read ex_data with Some j => j | None => Build_jmsg [] [] [] [] false 0 None end.
Definition ex_from : stransport := {| t_kind := KUdp; t_addr := s2b "10.0.0.1"; t_port := 5060 |}.
(* the next hop 10.0.0.2 was learned before: the proxy pushes its own Via on top *)
Definition ex_x : ctx :=
  {| x_learned := [(s2b "10.0.0.2", ex_from)]; x_p := init_pstate ex_cfg 0 ex_lc; x_conns := [];
     x_world := {| w_tcp_listeners := []; w_next_conn := 0 |}; x_outs := [] |}.
Definition ex_e : env := mk_env all_fixed ex_cfg (item_rs_of true) 0 ex_lc 0 ex_br.
Definition ex_x' : ctx :=
  match process_message ex_e ex_src 40000 ex_from (e_item_rs ex_e) None ex_m ex_x with Ok y => y | _ => ex_x end.
Definition ex_pre : list output := x_outs ex_x'.

(* what leaves the proxy: own entry on top, sender entry stamped (received overwritten in place,
   valueless rport filled, x=1 kept), the other two entries as they came *)
Example ex_output :
  ex_pre = [(DUdp (s2b "10.0.0.2") 5070,
    flat_map ln ["INVITE sip:bob@example.com SIP/2.0";
                 "Via: SIP/2.0/UDP 10.0.0.1:5060;branch=z9hG4bKpx";
                 "Via: SIP/2.0/UDP 10.9.9.9:5070;rport=40000;x=1;received=127.0.0.9,SIP/2.0/TCP 10.8.8.8;branch=z9hG4bKdef";
                 "v: SIP/2.0/UDP 10.7.7.7:5062;branch=z9hG4bKghi";
                 "From: <sip:a@example.com>;tag=1";
                 "To: <sip:bob@example.com>";
                 "Call-ID: c1";
                 "CSeq: 1 INVITE";
                 "Content-Length: 0"] ++ crlf)].
Proof. vm_compute. reflexivity. Qed.

(* the hypotheses of the bridge hold of this instance, hence the judge accepts *)
Example C07_bridge_ex :
  judge_C07_event ex_pc (js_init ex_cfg) (EvUdp 0 ex_src 40000 ex_data)
                  (map lab (filter (fun _ => true) ex_pre)) [] = O.
Proof.
  apply (C07_judge_bridge_udp ex_pc (js_init ex_cfg) all_fixed 0 ex_br 0%nat ex_lc ex_src 40000 ex_data
            ex_jin ex_m [] ex_x ex_x' ex_pre (fun _ => true) []).
  - reflexivity.
  - reflexivity.
  - vm_compute. reflexivity.
  - vm_compute. reflexivity.
  - apply via_domain_b_sound. vm_compute. reflexivity.
  - split; vm_compute; reflexivity.
  - split; vm_compute; reflexivity.
  - reflexivity.
  - cbn. lia.
  - cbn. lia.
  - intros h t A. cbn [ex_x x_learned alookup] in A. destruct (beq h (s2b "10.0.0.2")); [|discriminate A].
    injection A as <-. split; [reflexivity|cbn; lia].
  - vm_compute. reflexivity.
  - unfold ex_pre. cbn [x_outs ex_x app]. reflexivity.
Qed.

(* the judge does look: the same request relayed WITHOUT stamping is rejected with reason 1 *)
Example C07_bridge_ex_sensitive :
  judge_C07_event ex_pc (js_init ex_cfg) (EvUdp 0 ex_src 40000 ex_data) [(s2b "udp:10.0.0.2:5070", ex_data)] [] = 1%nat.
Proof. vm_compute. reflexivity. Qed.

(* WHY THE RIGHT END OF A VIA ENTRY IS NOT READ THROUGH strings.TrimSpace (SpecProxy.j_flat_via: left end
   TrimSpace, right end ASCII blanks only).  The top entry is followed by a comma and its last parameter
   value ends with U+00A0 (bytes C2 A0; inside the C14 grammar: [val_char] allows bytes >= 128).  ParseVia
   keeps the parameter as it stands and the proxy writes ";received=..." BEHIND it, so the two bytes are
   still part of the value of x in what is relayed.  The judge accepts (it is inside the domain of
   C07_judge_bridge_udp); a reader that trimmed the right end of the received entry with TrimSpace
   semantics would read x=a, stamp, find x=a<C2 A0> in the output and reject a correct relay. *)
Definition nbsp : bytes := [ascii_of_nat 194; ascii_of_nat 160].
Definition ex_top : bytes := s2b "SIP/2.0/UDP 10.9.9.9:5070;x=a" ++ nbsp.
Definition ex_tail_data : bytes :=
  ln "INVITE sip:bob@example.com SIP/2.0" ++
  s2b "Via: " ++ ex_top ++ s2b ",SIP/2.0/TCP 10.8.8.8;branch=z9hG4bKdef" ++ crlf ++
  flat_map ln ["Route: <sip:10.0.0.2:5070;lr>"; "From: <sip:a@example.com>;tag=1"; "To: <sip:bob@example.com>";
               "Call-ID: c1"; "CSeq: 1 INVITE"; "Content-Length: 0"] ++ crlf.
Definition ex_tail_outs : list output :=
  match proxy_step all_fixed ex_cfg 0 ex_br (init_state ex_cfg 0 []) (EvUdp 0 ex_src 40000 ex_tail_data) with
  | Ok (_, o) => o | _ => [] end.
Example C07_bridge_ex_tail :
  via_domain_b (match parse_message ex_tail_data with Ok (m, _) => m | _ => dummy end) = true /\
  existsb (fun e => beq e (ex_top ++ s2b ";received=127.0.0.9"))
          (flat_map (fun o => match j_read (snd o) with Some om => j_flat_via (jm_headers om) | None => [] end)
                    (map lab ex_tail_outs)) = true /\
  judge_C07_event ex_pc (js_init ex_cfg) (EvUdp 0 ex_src 40000 ex_tail_data) (map lab ex_tail_outs) [] = O /\
  option_map jv_params (j_via (j_trim_via ex_top)) = Some [(s2b "x", s2b "a" ++ nbsp)] /\
  option_map jv_params (j_via (trim_space_go ex_top)) = Some [(s2b "x", s2b "a")].
Proof. repeat apply conj; vm_compute; reflexivity. Qed.
End C07_bridge_example.

Print Assumptions j_via_rp.
Print Assumptions via_read.
Print Assumptions jv_stamp.
Print Assumptions dec_ok_lf.
Print Assumptions read_agree_all.
Print Assumptions C07_judge_bridge_udp.
Print Assumptions C07_judge_bridge_step.
Print Assumptions C07_bridge_example.C07_bridge_ex.
