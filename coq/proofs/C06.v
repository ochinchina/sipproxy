(* C06.v — "one fresh top Via, Record-Route by policy" (property C06): where AddVia and
   AddRecordRoute put the proxy's own entries (C06_via_pushed, C06_rr_policy and their position
   statements), which transport they name (C06_decorate_learned, C06_backend_decorates), the
   branch (branch_of_inj, C06_branches_distinct) and the learned table (learn_lookup, C06_learning).
   Also the header vocabulary C13.v and C03.v share: [sel nm] (the headers of one name), [frame nm]
   (a message with the same start line, body and headers of name nm), the flattened Via and
   Record-Route lists, and what a request dispatch sends (dispatch_outputs).  The end-to-end
   statement C06_relayed_request needs the hop choice and is in C03.v. *)
From Coq Require Import List Ascii String ZArith Bool Arith Lia.
From Model Require Import Bytes BytesLemmas Uri Hdr Message Msg Rx Glob StaticRoute RoundRobin Pins Proxy RunProxy.
From Model.proofs Require C05 C07.
From Model.proofs Require Import MsgLemmas Pipeline MsgStages.
Import ListNotations.
Open Scope Z_scope.

(* no header name belongs to both classes *)
Definition disjoint_names (N1 N2 : bytes) : Prop := forall n, same_header n N1 = true -> same_header n N2 = false.

Lemma disjoint_of_bool N1 N2 : names_disjoint N1 N2 = true -> disjoint_names N1 N2.
Proof. intros D n H. exact (same_header_disjoint _ _ _ D H). Qed.

(* two literal names: the test is evaluated *)
Ltac solve_disj := apply disjoint_of_bool; reflexivity.

Lemma disjoint_sym N1 N2 : disjoint_names N1 N2 -> disjoint_names N2 N1.
Proof.
  intros D n H. destruct (same_header n N1) eqn:E; [|reflexivity].
  rewrite (D n E) in H. discriminate.
Qed.

Lemma dj_Route_Via : disjoint_names (s2b "Route") (s2b "Via"). Proof. solve_disj. Qed.
Lemma dj_Route_CSeq : disjoint_names (s2b "Route") (s2b "CSeq"). Proof. solve_disj. Qed.
Lemma dj_Route_From : disjoint_names (s2b "Route") (s2b "From"). Proof. solve_disj. Qed.
Lemma dj_Route_To : disjoint_names (s2b "Route") (s2b "To"). Proof. solve_disj. Qed.
Lemma dj_Route_RR : disjoint_names (s2b "Route") (s2b "Record-Route"). Proof. solve_disj. Qed.
Lemma dj_To_Via : disjoint_names (s2b "To") (s2b "Via"). Proof. solve_disj. Qed.
Lemma dj_To_CSeq : disjoint_names (s2b "To") (s2b "CSeq"). Proof. solve_disj. Qed.
Lemma dj_To_Route : disjoint_names (s2b "To") (s2b "Route"). Proof. solve_disj. Qed.
Lemma dj_To_From : disjoint_names (s2b "To") (s2b "From"). Proof. solve_disj. Qed.
Lemma dj_To_RR : disjoint_names (s2b "To") (s2b "Record-Route"). Proof. solve_disj. Qed.
Lemma dj_Via_CSeq : disjoint_names (s2b "Via") (s2b "CSeq"). Proof. solve_disj. Qed.
Lemma dj_Via_Route : disjoint_names (s2b "Via") (s2b "Route"). Proof. solve_disj. Qed.
Lemma dj_Via_From : disjoint_names (s2b "Via") (s2b "From"). Proof. solve_disj. Qed.
Lemma dj_Via_To : disjoint_names (s2b "Via") (s2b "To"). Proof. solve_disj. Qed.
Lemma dj_Via_RR : disjoint_names (s2b "Via") (s2b "Record-Route"). Proof. solve_disj. Qed.
Lemma dj_RR_Via : disjoint_names (s2b "Record-Route") (s2b "Via"). Proof. solve_disj. Qed.
Lemma dj_RR_CSeq : disjoint_names (s2b "Record-Route") (s2b "CSeq"). Proof. solve_disj. Qed.
Lemma dj_RR_Route : disjoint_names (s2b "Record-Route") (s2b "Route"). Proof. solve_disj. Qed.
Lemma dj_RR_From : disjoint_names (s2b "Record-Route") (s2b "From"). Proof. solve_disj. Qed.
Lemma dj_RR_To : disjoint_names (s2b "Record-Route") (s2b "To"). Proof. solve_disj. Qed.

Lemma sh_Via_Via : same_header (s2b "Via") (s2b "Via") = true. Proof. reflexivity. Qed.
Lemma sh_RR_RR : same_header (s2b "Record-Route") (s2b "Record-Route") = true. Proof. reflexivity. Qed.

Lemma disjoint_concrete nm N : disjoint_names nm N -> same_header N N = true -> same_header N nm = false.
Proof. intros D H. exact (disjoint_sym _ _ D N H). Qed.

Definition sel (nm : bytes) (hs : list header) : list header :=
  filter (fun h => same_header (h_name h) nm) hs.

Lemma get_header_sel nm hs : get_header nm hs = hd_error (sel nm hs).
Proof.
  induction hs as [|h r IH]; [reflexivity|]. cbn [get_header sel filter].
  destruct (same_header (h_name h) nm); [reflexivity|exact IH].
Qed.

Lemma sel_update_same nm f hs :
  sel nm (update_header nm f hs) =
  match sel nm hs with [] => [] | h :: r => {| h_name := h_name h; h_val := f (h_val h) |} :: r end.
Proof.
  induction hs as [|h r IH]; [reflexivity|]. cbn [update_header sel filter].
  destruct (same_header (h_name h) nm) eqn:E.
  - cbn [filter h_name]. rewrite E. reflexivity.
  - cbn [filter]. rewrite E. exact IH.
Qed.

Lemma sel_update_other nm nm' f hs : disjoint_names nm nm' ->
  sel nm (update_header nm' f hs) = sel nm hs.
Proof.
  intros D. induction hs as [|h r IH]; [reflexivity|]. cbn [update_header sel filter].
  destruct (same_header (h_name h) nm') eqn:E.
  - cbn [filter h_name]. destruct (same_header (h_name h) nm) eqn:E2; [|reflexivity].
    rewrite (D _ E2) in E. discriminate.
  - cbn [filter]. destruct (same_header (h_name h) nm); [f_equal|]; exact IH.
Qed.

Lemma sel_remove_same nm hs : sel nm (remove_header nm hs) = tl (sel nm hs).
Proof.
  induction hs as [|h r IH]; [reflexivity|]. cbn [remove_header sel filter].
  destruct (same_header (h_name h) nm) eqn:E; [reflexivity|].
  cbn [filter]. rewrite E. exact IH.
Qed.

Lemma sel_remove_other nm nm' hs : disjoint_names nm nm' ->
  sel nm (remove_header nm' hs) = sel nm hs.
Proof.
  intros D. induction hs as [|h r IH]; [reflexivity|]. cbn [remove_header sel filter].
  destruct (same_header (h_name h) nm') eqn:E.
  - destruct (same_header (h_name h) nm) eqn:E2; [|reflexivity].
    rewrite (D _ E2) in E. discriminate.
  - cbn [filter]. destruct (same_header (h_name h) nm); [f_equal|]; exact IH.
Qed.

Lemma sel_insert_other nm n h hs : same_header (h_name h) nm = false ->
  sel nm (insert_at n h hs) = sel nm hs.
Proof.
  intros E. unfold insert_at, sel. rewrite filter_app. cbn [filter]. rewrite E.
  rewrite <- filter_app, firstn_skipn. reflexivity.
Qed.

(* position of the first header of a name *)
Lemma find_header_pos_from_spec nm hs : forall i,
  match find_header_pos_from nm hs i with
  | Some j => exists k h r, j = (i + k)%nat /\ sel nm (firstn k hs) = [] /\ skipn k hs = h :: r /\
                            same_header (h_name h) nm = true
  | None => sel nm hs = []
  end.
Proof.
  induction hs as [|h r IH]; intros i; [reflexivity|]. cbn [find_header_pos_from].
  destruct (same_header (h_name h) nm) eqn:E.
  - exists O, h, r. repeat split; [lia|exact E].
  - specialize (IH (S i)). destruct (find_header_pos_from nm r (S i)) as [j|].
    + destruct IH as (k & h' & r' & -> & F & S' & E'). exists (S k), h', r'.
      repeat split; [lia| |exact S'|exact E']. cbn [firstn sel filter]. rewrite E. exact F.
    + cbn [sel filter]. rewrite E. exact IH.
Qed.

Lemma find_header_pos_spec nm hs :
  match find_header_pos nm hs with
  | Some k => exists h r, sel nm (firstn k hs) = [] /\ skipn k hs = h :: r /\ same_header (h_name h) nm = true
  | None => sel nm hs = []
  end.
Proof.
  unfold find_header_pos. pose proof (find_header_pos_from_spec nm hs 0%nat) as H.
  destruct (find_header_pos_from nm hs 0) as [j|]; [|exact H].
  destruct H as (k & h & r & -> & A & B & C). exists h, r. auto.
Qed.

(* inserting a header of name [nm] before the first header of that name (or anywhere when
   there is none) puts it in front of the headers of that name *)
Lemma sel_insert_first nm h hs k : same_header (h_name h) nm = true ->
  sel nm (firstn k hs) = [] -> sel nm (insert_at k h hs) = h :: sel nm hs.
Proof.
  intros E F. unfold insert_at, sel in *. rewrite filter_app, F. cbn [filter app]. rewrite E. f_equal.
  rewrite <- (firstn_skipn k hs) at 2. rewrite filter_app, F. reflexivity.
Qed.

(* around the inserted element the list is the original one: "all other headers in order" *)
Lemma insert_at_firstn {A} (k : nat) (x : A) (l : list A) : (k <= List.length l)%nat ->
  firstn k (insert_at k x l) = firstn k l.
Proof.
  intros L. unfold insert_at.
  assert (Hl : List.length (firstn k l) = k) by (apply firstn_length_le; exact L).
  rewrite firstn_app, Hl, Nat.sub_diag. cbn [firstn]. rewrite app_nil_r. apply firstn_all2.
  rewrite Hl. apply Nat.le_refl.
Qed.
Lemma insert_at_skipn {A} (k : nat) (x : A) (l : list A) : (k <= List.length l)%nat ->
  skipn (S k) (insert_at k x l) = skipn k l.
Proof.
  intros L. unfold insert_at.
  assert (Hl : List.length (firstn k l) = k) by (apply firstn_length_le; exact L).
  rewrite skipn_app, Hl. replace (S k - k)%nat with 1%nat by lia.
  rewrite skipn_all2 by (rewrite Hl; lia). reflexivity.
Qed.
Lemma insert_at_nth {A} (k : nat) (x : A) (l : list A) : (k <= List.length l)%nat ->
  nth_error (insert_at k x l) k = Some x.
Proof.
  intros L. unfold insert_at.
  assert (Hl : List.length (firstn k l) = k) by (apply firstn_length_le; exact L).
  rewrite nth_error_app2 by (rewrite Hl; apply Nat.le_refl). rewrite Hl, Nat.sub_diag. reflexivity.
Qed.

(* [m'] has the same start line, body and headers of name [nm] as [m] *)
Definition frame (nm : bytes) (m m' : message) : Prop :=
  sel nm (m_headers m') = sel nm (m_headers m) /\ m_start m' = m_start m /\ m_body m' = m_body m.

Lemma frame_refl nm m : frame nm m m.
Proof. repeat split. Qed.
Lemma frame_trans nm m1 m2 m3 : frame nm m1 m2 -> frame nm m2 m3 -> frame nm m1 m3.
Proof. intros (A & B & C) (A' & B' & C'). repeat split; congruence. Qed.

Lemma frame_set_val nm name v m : disjoint_names nm name -> frame nm m (set_val name v m).
Proof. intros D. repeat split. cbn. apply sel_update_other. exact D. Qed.
Lemma frame_remove nm name m : disjoint_names nm name ->
  frame nm m (with_headers m (remove_header name (m_headers m))).
Proof. intros D. repeat split. cbn. apply sel_remove_other. exact D. Qed.
Lemma frame_insert nm k h m : same_header (h_name h) nm = false ->
  frame nm m (with_headers m (insert_at k h (m_headers m))).
Proof. intros D. repeat split. cbn. apply sel_insert_other. exact D. Qed.

Definition mframe {A} (nm : bytes) (x : M A) : Prop := forall m, frame nm m (fst (x m)).

Lemma decode_all_vias_sel nm : disjoint_names nm (s2b "Via") ->
  forall hs, sel nm (fst (decode_all_vias hs)) = sel nm hs.
Proof.
  intros DVia. induction hs as [|h r IH]; [reflexivity|]. cbn [decode_all_vias].
  destruct (decode_all_vias r) as [r' vs]. cbn [fst] in IH.
  assert (K : forall v, same_header (h_name h) (s2b "Via") = true ->
              sel nm ({| h_name := h_name h; h_val := v |} :: r') = sel nm (h :: r)).
  { intros v E. cbn [sel filter h_name]. destruct (same_header (h_name h) nm) eqn:E2.
    - rewrite (DVia _ E2) in E. discriminate.
    - exact IH. }
  assert (K0 : sel nm (h :: r') = sel nm (h :: r)).
  { cbn [sel filter]. destruct (same_header (h_name h) nm); [f_equal|]; exact IH. }
  destruct (same_header (h_name h) (s2b "Via")) eqn:E; [|exact K0].
  destruct (h_val h); try exact K0. destruct (parse_via s); try exact K0.
  cbn [fst]. apply K. reflexivity.
Qed.

(* [mframe nm] is [mpres (frame nm)], and [frame nm] lets a stage touch every header whose name
   has no spelling in common with [nm] *)
Lemma frame_edits nm : edits_in (disjoint_names nm) (frame nm).
Proof.
  split; [apply frame_refl|apply frame_trans|..]; intros D.
  1-5: intros m h s a _ _ _; apply frame_set_val, D.
  intros m. repeat split. apply (decode_all_vias_sel nm D).
Qed.
Lemma frame_pop_route nm : disjoint_names nm (s2b "Route") -> pop_edit (frame nm) (s2b "Route") HRoute.
Proof. intros D m h [|a [|b l]] _ _; [apply frame_remove, D..|apply frame_set_val, D]. Qed.

Lemma mframe_try {A} nm (x : M A) : mframe nm x -> mframe nm (mtry x).
Proof. exact (mpres_mtry (frame nm) x). Qed.

Section Frames.
  Variable nm : bytes.
  Hypothesis DVia : disjoint_names nm (s2b "Via").
  Hypothesis DCSeq : disjoint_names nm (s2b "CSeq").

  Lemma mframe_client_transaction : mframe nm s_client_transaction.
  Proof. exact (mpres_s_client_transaction _ _ (frame_edits nm) DVia DCSeq). Qed.
  Lemma mframe_pop_via : mframe nm s_pop_via.
  Proof.
    apply (mpres_s_pop_via _ _ (frame_edits nm) DVia).
    intros m h [|a [|b l]] _ _; [apply frame_remove, DVia..|apply frame_set_val, DVia].
  Qed.
  Lemma mframe_set_received peer port : mframe nm (s_set_received peer port).
  Proof.
    apply (mpres_s_set_received _ _ (frame_edits nm) peer port DVia).
    intros m h v v' rest _ _ _ _ _ _ _. apply frame_set_val, DVia.
  Qed.
  Lemma mframe_next_response_hop : mframe nm next_response_hop.
  Proof. exact (mpres_next_response_hop _ _ (frame_edits nm) DVia). Qed.
  Lemma mframe_all_via_params : mframe nm s_all_via_params.
  Proof. exact (mpres_s_all_via_params _ _ (frame_edits nm) DVia). Qed.

  Hypothesis DFrom : disjoint_names nm (s2b "From").
  Hypothesis DTo : disjoint_names nm (s2b "To").
  Lemma mframe_find_backend_by_dialog e p : mframe nm (find_backend_by_dialog e p).
  Proof. exact (mpres_find_backend_by_dialog _ _ (frame_edits nm) e p DFrom DTo DCSeq). Qed.
End Frames.

Definition dec_via (v : hval) : option (list via_param) :=
  match v with
  | HVia l => Some l
  | HRaw s => match parse_via s with Ok l => Some l | _ => None end
  | _ => None
  end.
(* every via-param of every Via header that decodes, in order *)
Definition all_vias (hs : list header) : list via_param :=
  flat_map (fun h => match dec_via (h_val h) with Some l => l | None => [] end) (sel (s2b "Via") hs).

(* the same list in the vocabulary of C07.v *)
Lemma all_vias_view hs : all_vias hs = C07.flat_view (C07.via_view hs).
Proof.
  unfold all_vias, C07.flat_view, C07.via_view. change (C07.via_headers hs) with (sel (s2b "Via") hs).
  induction (sel (s2b "Via") hs) as [|h r IH]; [reflexivity|]. cbn [flat_map map]. rewrite IH. reflexivity.
Qed.
Lemma decode_all_vias_snd hs : snd (decode_all_vias hs) = all_vias hs.
Proof. rewrite all_vias_view. apply C07.decode_all_vias_spec. Qed.

Definition dec_rr (v : hval) : option (list route_param) :=
  match v with
  | HRecRoute l => Some l
  | HRaw s => match parse_record_route s with Ok l => Some l | _ => None end
  | _ => None
  end.
Definition all_rr (hs : list header) : list route_param :=
  flat_map (fun h => match dec_rr (h_val h) with Some l => l | None => [] end) (sel (s2b "Record-Route") hs).

Lemma sel_nil_firstn nm k hs : sel nm hs = [] -> sel nm (firstn k hs) = [].
Proof.
  intros H. unfold sel in *. rewrite <- (firstn_skipn k hs), filter_app in H.
  apply app_eq_nil in H. exact (proj1 H).
Qed.

Lemma find_header_pos_le nm hs k : find_header_pos nm hs = Some k -> (k < List.length hs)%nat.
Proof.
  intros E. pose proof (find_header_pos_spec nm hs) as H. rewrite E in H.
  destruct H as (h & r & _ & S' & _).
  destruct (Nat.lt_ge_cases k (List.length hs)) as [L|L]; [exact L|].
  rewrite skipn_all2 in S' by exact L. discriminate.
Qed.

Definition pushed_via (e : env) (t : stransport) : via_param :=
  {| v_name := s2b "SIP"; v_version := s2b "2.0"; v_transport := t_proto t; v_host := t_addr t;
     v_port := t_port t; v_params := [{| k_key := s2b "branch"; k_val := e_branch e |}] |}.
Definition pushed_via_header (e : env) (t : stransport) : header :=
  {| h_name := s2b "Via"; h_val := HVia [pushed_via e t] |}.
(* where AddVia puts it: the position of the first Via header, 0 when there is none *)
Definition via_pos (m : message) : nat :=
  match find_header_pos (s2b "Via") (m_headers m) with Some i => i | None => O end.

Lemma pushed_via_is e t :
  via_set_param (s2b "branch") (e_branch e) (create_via_param (t_proto t) (t_addr t) (t_port t)) = pushed_via e t.
Proof. reflexivity. Qed.

Lemma via_pos_spec m :
  (via_pos m <= List.length (m_headers m))%nat /\ sel (s2b "Via") (firstn (via_pos m) (m_headers m)) = [] /\
  match find_header_pos (s2b "Via") (m_headers m) with
  | Some _ => exists h r, skipn (via_pos m) (m_headers m) = h :: r /\ same_header (h_name h) (s2b "Via") = true
  | None => via_pos m = O /\ sel (s2b "Via") (m_headers m) = []
  end.
Proof.
  unfold via_pos. pose proof (find_header_pos_spec (s2b "Via") (m_headers m)) as H.
  destruct (find_header_pos (s2b "Via") (m_headers m)) as [k|] eqn:E.
  - destruct H as (h & r & A & B & C). split; [apply Nat.lt_le_incl, (find_header_pos_le _ _ _ E)|].
    split; [exact A|]. exists h, r. auto.
  - split; [apply Nat.le_0_l|]. split; [reflexivity|]. auto.
Qed.

(* px_add_via inserts exactly one header, named "Via", holding the single entry
   SIP/2.0/<proto of t> <addr of t>:<port of t>;branch=<e_branch e>, immediately before the first
   Via header (position 0 when the message has none); all other headers keep their order; the
   flattened Via list is that entry followed by the old list *)
Theorem C06_via_pushed : forall e t m,
  let k := via_pos m in
  m_headers (px_add_via e t m) = firstn k (m_headers m) ++ pushed_via_header e t :: skipn k (m_headers m) /\
  m_start (px_add_via e t m) = m_start m /\ m_body (px_add_via e t m) = m_body m /\
  sel (s2b "Via") (m_headers (px_add_via e t m)) = pushed_via_header e t :: sel (s2b "Via") (m_headers m) /\
  all_vias (m_headers (px_add_via e t m)) = pushed_via e t :: all_vias (m_headers m) /\
  (forall nm, same_header (s2b "Via") nm = false -> frame nm m (px_add_via e t m)).
Proof.
  intros e t m k. destruct (via_pos_spec m) as (L & F & _). fold k in L, F.
  assert (E : px_add_via e t m = with_headers m (insert_at k (pushed_via_header e t) (m_headers m))) by reflexivity.
  rewrite E. cbn [with_headers m_headers m_start m_body].
  assert (S1 : sel (s2b "Via") (insert_at k (pushed_via_header e t) (m_headers m))
               = pushed_via_header e t :: sel (s2b "Via") (m_headers m)).
  { apply sel_insert_first; [reflexivity|exact F]. }
  repeat split; try exact S1.
  - unfold all_vias. rewrite S1. reflexivity.
  - cbn. apply sel_insert_other. exact H.
Qed.

(* the position: nothing named Via before it, and the header that follows it is the old first
   Via header (when there is one) *)
Theorem C06_via_position : forall e t m,
  let k := via_pos m in
  (k <= List.length (m_headers m))%nat /\
  nth_error (m_headers (px_add_via e t m)) k = Some (pushed_via_header e t) /\
  firstn k (m_headers (px_add_via e t m)) = firstn k (m_headers m) /\
  skipn (S k) (m_headers (px_add_via e t m)) = skipn k (m_headers m) /\
  sel (s2b "Via") (firstn k (m_headers m)) = [] /\
  (sel (s2b "Via") (m_headers m) = [] -> k = O) /\
  (sel (s2b "Via") (m_headers m) <> [] ->
     exists h r, skipn k (m_headers m) = h :: r /\ same_header (h_name h) (s2b "Via") = true).
Proof.
  intros e t m k. destruct (via_pos_spec m) as (L & F & P). fold k in L, F, P.
  change (m_headers (px_add_via e t m)) with (insert_at k (pushed_via_header e t) (m_headers m)).
  split; [exact L|]. split; [apply insert_at_nth; exact L|]. split; [apply insert_at_firstn; exact L|].
  split; [apply insert_at_skipn; exact L|]. split; [exact F|].
  pose proof (find_header_pos_spec (s2b "Via") (m_headers m)) as Q.
  destruct (find_header_pos (s2b "Via") (m_headers m)) as [i|].
  - destruct P as (h & r & S' & Eh). split.
    + intros N. exfalso. rewrite <- (firstn_skipn k (m_headers m)) in N. unfold sel in N.
      rewrite filter_app, S' in N. cbn [filter] in N. rewrite Eh in N.
      apply app_eq_nil in N. destruct N as [_ N]. discriminate.
    + intros _. exists h, r. auto.
  - destruct P as (K0 & N). split; [intros _; exact K0|]. intros NN. contradiction.
Qed.

(* the branch parameter of the pushed entry is the branch of the environment *)
Theorem C06_branch : forall e t, via_get_branch (pushed_via e t) = Some (e_branch e).
Proof. reflexivity. Qed.

Definition own_rr_header (t : stransport) : header :=
  {| h_name := s2b "Record-Route"; h_val := HRecRoute [own_record_route t] |}.

Lemma has_header_sel nm m : has_header nm m = match sel nm (m_headers m) with [] => false | _ => true end.
Proof. unfold has_header. rewrite get_header_sel. destruct (sel nm (m_headers m)); reflexivity. Qed.

Lemma find_record_route_pos_spec hs :
  (find_record_route_pos hs <= List.length hs)%nat /\
  sel (s2b "Record-Route") (firstn (find_record_route_pos hs) hs) = [] /\
  (sel (s2b "Record-Route") hs <> [] ->
   exists h r, skipn (find_record_route_pos hs) hs = h :: r /\ same_header (h_name h) (s2b "Record-Route") = true).
Proof.
  unfold find_record_route_pos.
  pose proof (find_header_pos_spec (s2b "Record-Route") hs) as H.
  destruct (find_header_pos (s2b "Record-Route") hs) as [k|] eqn:E.
  - destruct H as (h & r & A & B & C). split; [apply Nat.lt_le_incl, (find_header_pos_le _ _ _ E)|].
    split; [exact A|]. intros _. exists h, r. auto.
  - assert (L : (match find_header_pos (s2b "From") hs, find_header_pos (s2b "Max-Forwards") hs with
                 | Some p1, Some p2 => Nat.min p1 p2 | Some p1, None => p1 | None, Some p2 => p2
                 | None, None => O end <= List.length hs)%nat).
    { destruct (find_header_pos (s2b "From") hs) as [p1|] eqn:E1;
      destruct (find_header_pos (s2b "Max-Forwards") hs) as [p2|] eqn:E2;
      try apply find_header_pos_le in E1; try apply find_header_pos_le in E2; lia. }
    split; [exact L|]. split; [apply sel_nil_firstn; exact H|]. intros N. contradiction.
Qed.

(* px_add_record_route adds the entry <sip:addr:port;lr> of [t] as a NEW header, before the first
   Record-Route header when there is one and at findRecordRoutePos otherwise, exactly when the
   message carries a Record-Route header or [must] is set; otherwise the message is unchanged *)
Theorem C06_rr_policy : forall must t m,
  if (has_header (s2b "Record-Route") m || must)%bool then
    let k := find_record_route_pos (m_headers m) in
    m_headers (px_add_record_route must t m)
      = firstn k (m_headers m) ++ own_rr_header t :: skipn k (m_headers m) /\
    m_start (px_add_record_route must t m) = m_start m /\ m_body (px_add_record_route must t m) = m_body m /\
    sel (s2b "Record-Route") (m_headers (px_add_record_route must t m))
      = own_rr_header t :: sel (s2b "Record-Route") (m_headers m) /\
    all_rr (m_headers (px_add_record_route must t m)) = own_record_route t :: all_rr (m_headers m) /\
    (forall nm, same_header (s2b "Record-Route") nm = false -> frame nm m (px_add_record_route must t m))
  else px_add_record_route must t m = m.
Proof.
  intros must t m. unfold px_add_record_route.
  destruct (has_header (s2b "Record-Route") m || must)%bool eqn:C.
  2:{ apply orb_false_iff in C. destruct C as [-> ->]. reflexivity. }
  (* the entry is added: one new header at findRecordRoutePos, before every Record-Route header *)
  assert (E : (negb (has_header (s2b "Record-Route") m) && negb must)%bool = false).
  { rewrite <- negb_orb, C. reflexivity. }
  rewrite E. set (k := find_record_route_pos (m_headers m)).
  destruct (find_record_route_pos_spec (m_headers m)) as (L & F & _). fold k in L, F.
  change (m_headers (add_record_route (own_record_route t) m)) with (insert_at k (own_rr_header t) (m_headers m)).
  assert (S1 : sel (s2b "Record-Route") (insert_at k (own_rr_header t) (m_headers m))
               = own_rr_header t :: sel (s2b "Record-Route") (m_headers m)).
  { apply sel_insert_first; [reflexivity|exact F]. }
  split; [reflexivity|]. split; [reflexivity|]. split; [reflexivity|]. split; [exact S1|]. split.
  - unfold all_rr. rewrite S1. reflexivity.
  - intros nm N. repeat split. cbn. apply sel_insert_other. exact N.
Qed.

Theorem C06_rr_position : forall must t m,
  (has_header (s2b "Record-Route") m || must)%bool = true ->
  let k := find_record_route_pos (m_headers m) in
  (k <= List.length (m_headers m))%nat /\
  nth_error (m_headers (px_add_record_route must t m)) k = Some (own_rr_header t) /\
  firstn k (m_headers (px_add_record_route must t m)) = firstn k (m_headers m) /\
  skipn (S k) (m_headers (px_add_record_route must t m)) = skipn k (m_headers m) /\
  sel (s2b "Record-Route") (firstn k (m_headers m)) = [] /\
  (has_header (s2b "Record-Route") m = true ->
     exists h r, skipn k (m_headers m) = h :: r /\ same_header (h_name h) (s2b "Record-Route") = true).
Proof.
  intros must t m Hc k. destruct (find_record_route_pos_spec (m_headers m)) as (L & F & P). fold k in L, F, P.
  assert (E : m_headers (px_add_record_route must t m) = insert_at k (own_rr_header t) (m_headers m)).
  { unfold px_add_record_route. destruct (has_header (s2b "Record-Route") m); destruct must; try discriminate; reflexivity. }
  rewrite E. split; [exact L|]. split; [apply insert_at_nth; exact L|]. split; [apply insert_at_firstn; exact L|].
  split; [apply insert_at_skipn; exact L|]. split; [exact F|].
  intros Hh. apply P. rewrite has_header_sel in Hh. destruct (sel (s2b "Record-Route") (m_headers m)); [discriminate|discriminate].
Qed.

(* flattened Record-Route of the result = own :: old, or = old *)
Corollary C06_rr_flat : forall must t m,
  all_rr (m_headers (px_add_record_route must t m)) =
  if (has_header (s2b "Record-Route") m || must)%bool then own_record_route t :: all_rr (m_headers m)
  else all_rr (m_headers m).
Proof.
  intros must t m. pose proof (C06_rr_policy must t m) as H.
  destruct (has_header (s2b "Record-Route") m || must)%bool.
  - exact (proj1 (proj2 (proj2 (proj2 (proj2 H))))).
  - rewrite H. reflexivity.
Qed.

(* the text of the entry; a transport without a port (a connection the proxy dialled itself)
   prints without one *)
Lemma own_record_route_print t :
  route_print [own_record_route t] =
  s2b "<sip:" ++ t_addr t ++ (if Z.eqb (t_port t) 0 then [] else ":"%char :: itoa (t_port t)) ++ s2b ";lr>".
Proof.
  unfold route_print, route_param_print, name_addr_print, own_record_route.
  cbn [map join_byte r_addr r_params na_display na_addr addr_spec_print print_params flat_map app].
  unfold sip_uri_print, sip_uri_print_with.
  cbn [u_scheme u_user u_password u_host u_port u_params u_headers print_params flat_map kv_print k_key k_val app].
  destruct (Z.eqb (t_port t) 0); rewrite !app_nil_r; cbn [s2b list_ascii_of_string app];
    repeat (rewrite <- app_assoc; cbn [app]); reflexivity.
Qed.
Theorem own_record_route_text : forall t, t_port t <> 0 ->
  route_print [own_record_route t] = s2b "<sip:" ++ t_addr t ++ ":"%char :: itoa (t_port t) ++ s2b ";lr>".
Proof.
  intros t P. rewrite own_record_route_print. destruct (Z.eqb_spec (t_port t) 0) as [E|_]; [contradiction|reflexivity].
Qed.
Theorem own_record_route_text_noport : forall t, t_port t = 0 ->
  route_print [own_record_route t] = s2b "<sip:" ++ t_addr t ++ s2b ";lr>".
Proof. intros t P. rewrite own_record_route_print, P. reflexivity. Qed.

(* an output that carries bytes (a datagram or bytes on a connection); DDial records a dial *)
Definition is_msg (o : output) : bool := match fst o with DDial _ _ _ => false | _ => true end.
Definition msg_count (l : list output) : nat := List.length (filter is_msg l).

Lemma msg_count_app a b : msg_count (a ++ b) = (msg_count a + msg_count b)%nat.
Proof. unfold msg_count. rewrite filter_app, app_length. reflexivity. Qed.
Lemma msg_count_single o : (msg_count [o] <= 1)%nat.
Proof. unfold msg_count. cbn [filter]. destruct (is_msg o); cbn [List.length]; lia. Qed.

(* the pool side of a proxy object is untouched *)
Definition same_rr (p p' : pstate) : Prop :=
  ps_rr p' = ps_rr p /\ ps_backends p' = ps_backends p /\ ps_has_rr p' = ps_has_rr p.
Lemma same_rr_refl p : same_rr p p. Proof. repeat split. Qed.
Lemma same_rr_trans p1 p2 p3 : same_rr p1 p2 -> same_rr p2 p3 -> same_rr p1 p3.
Proof. intros (A & B & C) (A' & B' & C'). repeat split; congruence. Qed.

Lemma same_rr_get_transport now proto host port tid p :
  same_rr p (fst (get_transport now proto host port tid p)).
Proof.
  unfold get_transport, clean_expired, with_table, with_clients.
  repeat match goal with
         | |- context [if ?c then _ else _] => destruct c
         | |- context [match alookup ?k ?t with _ => _ end] => destruct (alookup k t)
         end; repeat split.
Qed.
Lemma same_rr_set_primary key pr p : same_rr p (set_primary key pr p).
Proof. unfold set_primary. destruct (alookup key (ps_table p)); repeat split. Qed.

(* every byte-carrying output of [extra] carries [b], and there is at most one *)
Definition one_msg (b : bytes) (extra : list output) : Prop :=
  (msg_count extra <= 1)%nat /\ Forall (fun o => is_msg o = true -> snd o = b) extra.
Lemma one_msg_nil b : one_msg b []. Proof. split; [apply Nat.le_0_l|constructor]. Qed.
Lemma one_msg_dial b ip port c extra : one_msg b extra -> one_msg b ((DDial ip port c, []) :: extra).
Proof. intros (A & B). split; [exact A|]. constructor; [intros H; discriminate|exact B]. Qed.
Lemma one_msg_single b d : is_msg (d, b) = true -> one_msg b [(d, b)].
Proof.
  intros H. split.
  - unfold msg_count. cbn [filter]. rewrite H. apply Nat.le_refl.
  - constructor; [reflexivity|constructor].
Qed.

Lemma send_shape_one_msg b extra : send_shape b extra -> one_msg b extra.
Proof.
  intros [|ip port|c|h p c]; [apply one_msg_nil| | |apply one_msg_dial]; apply one_msg_single; reflexivity.
Qed.
Lemma send_shape_count b extra : send_shape b extra -> (msg_count extra <= 1)%nat.
Proof. intros S. exact (proj1 (send_shape_bounds b extra S)). Qed.

(* sendMessage: the message that leaves is the argument after GetClientTransaction has decoded
   CSeq and the top Via in place; the learned table is not touched; a transport other than
   udp / tcp (any case) sends nothing *)
Lemma send_message_one_msg e host port transport m x :
  let r := send_message e host port transport m x in
  snd r = fst (mtry s_client_transaction m) /\
  x_learned (fst r) = x_learned x /\
  exists extra, x_outs (fst r) = x_outs x ++ extra /\ one_msg (write_message (snd r)) extra /\
                (supported_proto (to_lower transport) = false -> extra = []).
Proof.
  destruct (Pipeline.send_message_shape e host port transport m x) as (Sm & L & extra & O & S & U).
  split; [exact Sm|]. split; [exact L|]. exists extra. split; [exact O|]. split; [apply send_shape_one_msg; exact S|exact U].
Qed.

Lemma find_backend_by_dialog_same_rr e p : mpost (find_backend_by_dialog e p) (fun r => same_rr p (fst r)).
Proof.
  unfold find_backend_by_dialog. apply mpost_mbind with (P := fun _ => True); [apply mpost_true|intros meth _].
  destruct (_ && _)%bool; [apply mpost_mret, same_rr_refl|].
  apply mpost_mbind with (P := fun _ => True); [apply mpost_true|intros [d|] _; [|apply mpost_mret, same_rr_refl]].
  destruct (pins_get (e_now e) d (ps_pins p)) as [pins1 ob]. cbv zeta.
  destruct (_ && _)%bool; [apply mpost_mret; cbn [fst]; repeat split|].
  apply mpost_mbind with (P := fun _ => True); [apply mpost_true|intros ss _]. apply mpost_mret. cbn [fst].
  destruct (_ && _)%bool; repeat split.
Qed.

(* where a backend address "ip:port" is sent to *)
Definition backend_dest (a : bytes) : option dest :=
  match last_index_byte ":"%char a with
  | Some pos => Some (DUdp (firstn pos a) (atoi_val (skipn (S pos) a)))
  | None => None
  end.
(* the backend object the dialog of the request is pinned to, if any *)
Definition pinned_backend (e : env) (p : pstate) (m : message) : option bref :=
  match snd (find_backend_by_dialog e p m) with Ok (_, ob) => ob | _ => None end.
(* the message handed to the backend: Via then Record-Route of the listener's first transport *)
Definition backend_message (e : env) (t0 : stransport) (p : pstate) (m : message) : message :=
  px_add_record_route (pa_must_rr (wire_proxy (e_lc e))) t0 (px_add_via e t0 (fst (find_backend_by_dialog e p m))).

Definition backend_alive (a : bytes) (g : nat) (p : pstate) : bool :=
  existsb (fun '(a', g') => beq a a' && Nat.eqb g g') (ps_backends p).

Lemma backend_send_outs b bs p p2 outs ok : backend_send b bs p = (p2, outs, ok) ->
  (ok = false -> outs = []) /\
  (outs = [] \/
   exists a d, backend_dest a = Some d /\ outs = [(d, bs)] /\
               match b with
               | BObj a' g => a = a' /\ backend_alive a g p = true
               | BRR => In a (rr_backends (ps_rr p))
               end).
Proof.
  unfold backend_send, backend_dest. destruct b as [a g|].
  - fold (backend_alive a g p). destruct (backend_alive a g p && fits_datagram bs)%bool eqn:E.
    + intros H. injection H as <- <- <-. split; [discriminate|].
      apply andb_true_iff in E. destruct E as [E _].
      destruct (last_index_byte ":"%char a) as [pos|] eqn:LI; [right|left; reflexivity].
      exists a. eexists. rewrite LI. split; [reflexivity|]. split; [reflexivity|]. split; [reflexivity|exact E].
    + intros H. injection H as <- <- <-. split; [reflexivity|left; reflexivity].
  - destruct (rr_dispatch (ps_rr p)) as [r' o] eqn:D.
    assert (M : forall a, o = Some a -> In a (rr_backends (ps_rr p))).
    { intros a ->. destruct (Nat.eq_dec (List.length (rr_backends (ps_rr p))) 0) as [Z|NZ].
      - rewrite (C05.rr_member_empty _ Z) in D. discriminate.
      - destruct (C05.rr_member _ NZ) as (b & E1 & E2 & _). rewrite D in E1. cbn [snd] in E1.
        injection E1 as <-. exact E2. }
    destruct o as [a|].
    + destruct (fits_datagram bs).
      * intros H. injection H as <- <- <-. split; [discriminate|].
        destruct (last_index_byte ":"%char a) as [pos|] eqn:LI; [right|left; reflexivity].
        exists a. eexists. rewrite LI. split; [reflexivity|]. split; [reflexivity|]. apply M. reflexivity.
      * intros H. injection H as <- <- <-. split; [reflexivity|left; reflexivity].
    + intros H. injection H as <- <- <-. split; [reflexivity|left; reflexivity].
Qed.

Lemma send_to_backend_shape e m x :
  let r := send_to_backend e m x in
  x_learned (fst r) = x_learned x /\
  exists extra, x_outs (fst r) = x_outs x ++ extra /\
    (extra = [] \/
     exists t0 a d, first_transport (e_lc e) = Some t0 /\ ps_has_rr (x_p x) = true /\
        extra = [(d, write_message (backend_message e t0 (x_p x) m))] /\ backend_dest a = Some d /\
        match pinned_backend e (x_p x) m with
        | Some (BObj a' g) => a = a' /\ backend_alive a g (x_p x) = true
        | _ => In a (rr_backends (ps_rr (x_p x)))
        end).
Proof.
  unfold send_to_backend.
  destruct (ps_has_rr (x_p x)) eqn:HR; cbn [negb].
  2:{ cbn [fst]. split; [reflexivity|]. exists []. rewrite app_nil_r. auto. }
  destruct (first_transport (e_lc e)) as [t0|] eqn:FT.
  2:{ cbn [fst]. split; [reflexivity|]. exists []. rewrite app_nil_r. auto. }
  unfold pinned_backend, backend_message.
  pose proof (find_backend_by_dialog_same_rr e (x_p x) m) as SR.
  destruct (find_backend_by_dialog e (x_p x) m) as [m1 r] eqn:FB. cbn [fst snd].
  set (pr := match r with Ok v => v | _ => (x_p x, None) end).
  assert (SR' : same_rr (x_p x) (fst pr)).
  { subst pr. destruct r as [v| |]; [exact (SR v eq_refl)|apply same_rr_refl|apply same_rr_refl]. }
  assert (OB : snd pr = match r with Ok (_, ob) => ob | _ => None end).
  { subst pr. destruct r as [[p' ob]| |]; reflexivity. }
  destruct pr as [p1 ob]. cbn [fst snd] in SR', OB. rewrite <- OB. clear OB.
  set (b := match ob with Some b => b | None => BRR end).
  set (m2 := px_add_record_route _ t0 (px_add_via e t0 m1)).
  destruct (backend_send b (write_message m2) p1) as [[p2 outs] ok] eqn:BS.
  apply backend_send_outs in BS. destruct BS as (NK & BS).
  destruct ok.
  - destruct (mtry s_client_transaction m2) as [m3 tid]. cbn [fst x_learned x_outs].
    split; [reflexivity|]. exists outs. split; [reflexivity|].
    destruct BS as [->|(a & d & BD & -> & Hb)]; [left; reflexivity|right].
    exists t0, a, d. repeat split; try assumption.
    destruct SR' as (R1 & R2 & R3). subst b. destruct ob as [[a' g|]|].
    + destruct Hb as [-> Hb]. split; [reflexivity|]. unfold backend_alive in *. rewrite <- R2. exact Hb.
    + rewrite <- R1. exact Hb.
    + rewrite <- R1. exact Hb.
  - cbn [fst x_learned x_outs]. split; [reflexivity|]. exists []. rewrite app_nil_r. auto.
Qed.

(* what the request branch does with the hop found: Via + Record-Route of the transport through
   which the next-hop host was learned, nothing when the host is not in the learned table *)
Definition decorate (e : env) (l : learned) (host : bytes) (m : message) : message :=
  match alookup host l with
  | Some t => px_add_record_route (pa_must_rr (wire_proxy (e_lc e))) t (px_add_via e t m)
  | None => m
  end.

(* what the dispatch of a request sends: at most one message, the decorated one as
   GetClientTransaction leaves it, or the backend message *)
Lemma dispatch_outputs e from x1 m1 r :
  exists extra, x_outs (fst (dispatch e from x1 m1 r)) = x_outs x1 ++ extra /\ (msg_count extra <= 1)%nat /\
    forall o, In o extra -> is_msg o = true ->
      match r with
      | Ok (host, _, _) => snd o = write_message (fst (mtry s_client_transaction (decorate e (x_learned x1) host m1)))
      | _ => is_my_message (new_my_name (c_name (e_cfg e))) from m1 = true /\
             exists t0, first_transport (e_lc e) = Some t0 /\ snd o = write_message (backend_message e t0 (x_p x1) m1)
      end.
Proof.
  assert (B : exists extra,
            x_outs (fst (if is_my_message (new_my_name (c_name (e_cfg e))) from m1 then send_to_backend e m1 x1 else (x1, m1)))
              = x_outs x1 ++ extra /\ (msg_count extra <= 1)%nat /\
            forall o, In o extra -> is_msg o = true ->
              is_my_message (new_my_name (c_name (e_cfg e))) from m1 = true /\
              exists t0, first_transport (e_lc e) = Some t0 /\ snd o = write_message (backend_message e t0 (x_p x1) m1)).
  { destruct (is_my_message _ from m1).
    - destruct (send_to_backend_shape e m1 x1) as (_ & extra & O & D). exists extra. split; [exact O|].
      destruct D as [->|(t0 & a & d & FT & _ & -> & _)].
      + split; [apply Nat.le_0_l|intros o []].
      + split; [apply msg_count_single|]. intros o [<-|[]] _. split; [reflexivity|]. exists t0. split; [exact FT|reflexivity].
    - exists []. rewrite app_nil_r. split; [reflexivity|]. split; [apply Nat.le_0_l|intros o []]. }
  unfold dispatch. destruct r as [[[host port] transport]| |]; [|exact B|exact B].
  destruct (send_message_one_msg e host port transport (decorate e (x_learned x1) host m1) x1)
    as (Sm & _ & extra & O & (C & Fo) & _).
  exists extra. split; [exact O|]. split; [exact C|]. intros o Io Mo. rewrite Forall_forall in Fo.
  rewrite <- Sm. exact (Fo o Io Mo).
Qed.

Definition pm_learn (peer : bytes) (from : stransport) (m0 : message) (x : ctx) : message * learned :=
  if (is_request m0 && negb (amem peer (ps_backends (x_p x))))%bool then
    let '(m', vs) := s_all_via_params m0 in
    (m', fold_left (fun l v => learn (v_host v) from l)
                   (match vs with Ok l => l | _ => [] end) (learn peer from (x_learned x)))
  else (m0, x_learned x).

Definition pm_conn (e : env) (tcp : option nat) (m2 : message) (x : ctx) : message * res pstate :=
    match tcp with
    | Some c =>
        if is_request m2 then
          let '(m', hop) := mtry next_response_hop m2 in
          match hop with
          | Ok oh =>
              let host0 := match oh with Some (h, _, _) => h | None => [] end in
              let port := match oh with Some (_, p, _) => p | None => 0 end in
              match (if has_prefix (s2b "[") host0
                     then (if (fx_bracket_host (e_fx e) && negb (has_suffix (s2b "]") host0 && Nat.leb 2 (List.length host0)))%bool
                           then Ok host0 else slice_chk host0 1 (List.length host0 - 1))
                     else Ok host0) with
              | Panic => (m', Panic)
              | Err => (m', Err)
              | Ok host =>
                  match oh with
                  | None => (m', Ok (x_p x))
                  | Some _ =>
                      let '(m'', tid) := mtry s_client_transaction m' in
                      match tid with
                      | Ok (Some t) =>
                          let host_r := if fx_resolved_key (e_fx e)
                                        then match get_ip (e_cfg e) host with Some i => i | None => host end else host in
                          let '(p1, rk) := get_transport (now_s e) (s2b "tcp") host_r port t (x_p x) in
                          match rk with
                          | Ok key => (m'', Ok (set_primary key (PConn c (now_s e + 3600)) p1))
                          | _ => (m'', Ok p1)
                          end
                      | _ => (m'', Ok (x_p x))
                      end
                  end
              end
          | _ => (m', Ok (x_p x))
          end
        else (m2, Ok (x_p x))
    | None => (m2, Ok (x_p x))
    end.

(* they are the learning and the connection stage of Pipeline.v *)
Lemma pm_learn_stage : pm_learn = stage_learn. Proof. reflexivity. Qed.
Lemma decorate_stage : decorate = stage_decorate. Proof. reflexivity. Qed.
Lemma backend_message_stage : backend_message = backend_msg. Proof. reflexivity. Qed.
Lemma pm_conn_stage e tcp m2 x : pm_conn e tcp m2 x = stage_conn e tcp m2 (x_p x).
Proof.
  unfold pm_conn, stage_conn. destruct tcp as [c|]; [|reflexivity]. destruct (is_request m2); [|reflexivity].
  destruct (mtry next_response_hop m2) as [m' hop]. destruct hop as [[[[host0 pt] tr]|]| |]; try reflexivity.
  fold (unbracket e host0). destruct (unbracket e host0) as [host| |]; try reflexivity.
  destruct (mtry s_client_transaction m') as [m'' tid]. destruct tid as [[t|]| |]; try reflexivity.
  unfold register_conn. destruct (get_transport _ _ _ _ _ _) as [p1 rk]. destruct rk; reflexivity.
Qed.

(* the learned table after the message has been looked at *)
Definition learned_after (peer : bytes) (from : stransport) (m0 : message) (x : ctx) : learned :=
  if (is_request m0 && negb (amem peer (ps_backends (x_p x))))%bool
  then fold_left (fun l h => learn h from l) (peer :: map v_host (all_vias (m_headers m0))) (x_learned x)
  else x_learned x.

Lemma fold_left_map_learn from vs : forall acc,
  fold_left (fun l v => learn (v_host v) from l) vs acc = fold_left (fun l h => learn h from l) (map v_host vs) acc.
Proof. induction vs as [|v r IH]; intros acc; [reflexivity|]. cbn [fold_left map]. apply IH. Qed.

Lemma pm_learn_spec peer from m0 x :
  snd (pm_learn peer from m0 x) = learned_after peer from m0 x /\
  forall nm, disjoint_names nm (s2b "Via") -> frame nm m0 (fst (pm_learn peer from m0 x)).
Proof.
  unfold pm_learn, learned_after. destruct (is_request m0 && negb (amem peer (ps_backends (x_p x))))%bool.
  2:{ split; [reflexivity|]. intros nm _. apply frame_refl. }
  unfold s_all_via_params. pose proof (decode_all_vias_snd (m_headers m0)) as S.
  destruct (decode_all_vias (m_headers m0)) as [hs vs] eqn:D. cbn [fst snd] in *. subst vs. split.
  - cbn [fold_left]. apply fold_left_map_learn.
  - intros nm DV. pose proof (decode_all_vias_sel nm DV (m_headers m0)) as H. rewrite D in H. repeat split. exact H.
Qed.

(* the learned table Pipeline's first stage hands on *)
Lemma stage_learn_learned peer from m0 x : snd (stage_learn peer from m0 x) = learned_after peer from m0 x.
Proof. exact (proj1 (pm_learn_spec peer from m0 x)). Qed.

Lemma stage_conn_same_rr e tcp m2 p p1 : snd (stage_conn e tcp m2 p) = Ok p1 -> same_rr p p1.
Proof.
  apply (stage_conn_inv (same_rr p)); [| |apply same_rr_refl].
  - intros host port t. apply same_rr_get_transport.
  - intros host port t key c ex _. eapply same_rr_trans; [apply same_rr_get_transport|apply same_rr_set_primary].
Qed.

Lemma all_vias_sel hs hs' : sel (s2b "Via") hs' = sel (s2b "Via") hs -> all_vias hs' = all_vias hs.
Proof. unfold all_vias. intros ->. reflexivity. Qed.
Lemma all_rr_sel hs hs' : sel (s2b "Record-Route") hs' = sel (s2b "Record-Route") hs -> all_rr hs' = all_rr hs.
Proof. unfold all_rr. intros ->. reflexivity. Qed.

Lemma decode_all_vias_all_vias hs : all_vias (fst (decode_all_vias hs)) = all_vias hs.
Proof. rewrite !all_vias_view, (proj2 (C07.decode_all_vias_spec hs)). reflexivity. Qed.

(* the edits of the reading stages do not change the flattened list: decoding a Via header in
   place re-reads as the same entries, the other edits are to headers of other names *)
Definition same_vias (m m' : message) : Prop := all_vias (m_headers m') = all_vias (m_headers m).

(* the flattened list after the value of the first Via header has been replaced *)
Lemma all_vias_set_first v m h :
  get_header (s2b "Via") (m_headers m) = Some h ->
  exists r, all_vias (m_headers m) = match dec_via (h_val h) with Some l => l | None => [] end ++ r /\
            all_vias (m_headers (set_val (s2b "Via") v m)) = match dec_via v with Some l => l | None => [] end ++ r.
Proof.
  intros G. rewrite get_header_sel in G. unfold all_vias, set_val. cbn [with_headers m_headers]. rewrite sel_update_same.
  destruct (sel (s2b "Via") (m_headers m)) as [|h' r]; [discriminate|]. injection G as ->.
  eexists. split; reflexivity.
Qed.

Lemma same_vias_edits : edits_in any_name same_vias.
Proof.
  assert (O : forall N, disjoint_names (s2b "Via") N -> forall v m, same_vias m (set_val N v m)).
  { intros N D v m. apply all_vias_sel, (frame_set_val _ N v m D). }
  split; try intros _.
  - reflexivity.
  - unfold same_vias. congruence.
  - intros m h s a G V P. destruct (all_vias_set_first (HVia a) m h G) as (r & A & B). unfold same_vias.
    rewrite A, B, V. cbn [dec_via]. rewrite P. reflexivity.
  - intros m h s a _ _ _. apply O, dj_Via_Route.
  - intros m h s a _ _ _. apply O, dj_Via_From.
  - intros m h s a _ _ _. apply O, dj_Via_To.
  - intros m h s a _ _ _. apply O, dj_Via_CSeq.
  - intros m. apply decode_all_vias_all_vias.
Qed.

Lemma all_vias_client_transaction m :
  all_vias (m_headers (fst (mtry s_client_transaction m))) = all_vias (m_headers m).
Proof. exact (mpres_mtry same_vias _ (mpres_s_client_transaction _ _ same_vias_edits I I) m). Qed.

(* ---- what happens to the Via stack before routing: every entry beneath the top one is
   untouched; the top one keeps its sent-by (only received / rport parameters may be set) ---- *)
Definition sent_by (v : via_param) : bytes * bytes * bytes * bytes * Z :=
  (v_name v, v_version v, v_transport v, v_host v, v_port v).
Definition via_rel (m m' : message) : Prop :=
  tl (all_vias (m_headers m')) = tl (all_vias (m_headers m)) /\
  option_map sent_by (hd_error (all_vias (m_headers m'))) = option_map sent_by (hd_error (all_vias (m_headers m))).
Lemma via_rel_refl m : via_rel m m. Proof. split; reflexivity. Qed.
Lemma via_rel_trans m1 m2 m3 : via_rel m1 m2 -> via_rel m2 m3 -> via_rel m1 m3.
Proof. intros (A & B) (A' & B'). split; congruence. Qed.
Lemma via_rel_eq m m' : all_vias (m_headers m') = all_vias (m_headers m) -> via_rel m m'.
Proof. intros E. unfold via_rel. rewrite E. split; reflexivity. Qed.
Lemma via_rel_frame m m' : frame (s2b "Via") m m' -> via_rel m m'.
Proof. intros (S & _). apply via_rel_eq, all_vias_sel, S. Qed.

(* SetReceived rewrites parameters of the top entry only *)
Lemma via_rel_top_edit : top_via_edit via_rel.
Proof.
  intros m h v v' rest G V N1 N2 N3 N4 N5. destruct (all_vias_set_first (HVia (v' :: rest)) m h G) as (r & A & B).
  unfold via_rel. rewrite A, B, V. cbn [dec_via app tl hd_error option_map]. split; [reflexivity|].
  unfold sent_by. congruence.
Qed.
Lemma via_rel_edits : edits_in any_name via_rel.
Proof. exact (edits_in_incl _ _ _ same_vias_edits via_rel_eq via_rel_trans). Qed.

Lemma via_rel_set_received peer port m : via_rel m (fst (s_set_received peer port m)).
Proof. exact (mpres_s_set_received _ _ via_rel_edits peer port I via_rel_top_edit m). Qed.
Lemma via_rel_next_response_hop m : via_rel m (fst (mtry next_response_hop m)).
Proof. exact (mpres_mtry via_rel _ (mpres_next_response_hop _ _ via_rel_edits I) m). Qed.

Lemma mframe_try_remove_top_route nm c from : disjoint_names nm (s2b "Route") ->
  mframe nm (try_remove_top_route c from).
Proof. intros D. exact (mpres_try_remove_top_route _ _ (frame_edits nm) c from D (frame_pop_route nm D)). Qed.

(* up to the connection stage nothing but Via and CSeq headers is touched (decoded in place,
   received / rport stamped), and the Via stack stays the received one *)
Definition pre_rel (m m' : message) : Prop :=
  (forall nm, disjoint_names nm (s2b "Via") -> disjoint_names nm (s2b "CSeq") -> frame nm m m') /\ via_rel m m'.
Lemma pre_rel_refl m : pre_rel m m.
Proof. split; [intros nm _ _; apply frame_refl|apply via_rel_refl]. Qed.
Lemma pre_rel_trans m1 m2 m3 : pre_rel m1 m2 -> pre_rel m2 m3 -> pre_rel m1 m3.
Proof.
  intros (F & V) (F' & V'). split; [|exact (via_rel_trans _ _ _ V V')].
  intros nm DV DC. exact (frame_trans nm _ _ _ (F nm DV DC) (F' nm DV DC)).
Qed.

Lemma pre_rel_conn e peer port from rs tcp m0 x :
  pre_rel m0 (fst (stage_conn e tcp (stage_stamp peer port rs (fst (stage_learn peer from m0 x))) (x_p x))).
Proof.
  refine (pre_rel_trans _ _ _ (stage_learn_rel pre_rel pre_rel_refl peer from x _ m0)
            (pre_rel_trans _ _ _ (stage_stamp_rel pre_rel pre_rel_refl peer port rs _ _)
               (stage_conn_rel pre_rel pre_rel_refl pre_rel_trans e tcp (x_p x) _ _ _))); intros m; split.
  - intros nm DV _. apply mframe_all_via_params, DV.
  - exact (mpres_s_all_via_params _ _ via_rel_edits I m).
  - intros nm DV _. apply mframe_set_received, DV.
  - apply via_rel_set_received.
  - intros nm DV _. apply mframe_try, mframe_next_response_hop, DV.
  - apply via_rel_next_response_hop.
  - intros nm DV DC. apply mframe_try, mframe_client_transaction; assumption.
  - apply via_rel_eq, all_vias_client_transaction.
Qed.

Lemma has_header_frame nm m m' : frame nm m m' -> has_header nm m' = has_header nm m.
Proof. intros (S & _). rewrite !has_header_sel, S. reflexivity. Qed.

(* Via, then Record-Route, of transport [t] on a message: exactly one Via of [t] on top,
   Record-Route of [t] by policy, nothing else touched *)
Lemma add_own_spec e t m :
  let m' := px_add_record_route (pa_must_rr (wire_proxy (e_lc e))) t (px_add_via e t m) in
  all_vias (m_headers m') = pushed_via e t :: all_vias (m_headers m) /\
  all_rr (m_headers m') =
    (if (has_header (s2b "Record-Route") m || pa_must_rr (wire_proxy (e_lc e)))%bool
     then own_record_route t :: all_rr (m_headers m) else all_rr (m_headers m)) /\
  m_start m' = m_start m /\ m_body m' = m_body m /\
  (forall nm, same_header (s2b "Via") nm = false -> same_header (s2b "Record-Route") nm = false -> frame nm m m').
Proof.
  cbv zeta. destruct (C06_via_pushed e t m) as (_ & St & Bo & _ & AV & Fr).
  set (m1 := px_add_via e t m) in *. set (must := pa_must_rr (wire_proxy (e_lc e))).
  assert (HH : has_header (s2b "Record-Route") m1 = has_header (s2b "Record-Route") m).
  { apply has_header_frame, Fr. reflexivity. }
  pose proof (C06_rr_policy must t m1) as P. rewrite C06_rr_flat, HH. rewrite HH in P.
  assert (ARR : all_rr (m_headers m1) = all_rr (m_headers m)) by (apply all_rr_sel, Fr; reflexivity).
  destruct (has_header (s2b "Record-Route") m || must)%bool.
  - destruct P as (_ & St' & Bo' & _ & _ & Fr'). rewrite ARR. split.
    + rewrite <- AV. apply all_vias_sel, Fr'. reflexivity.
    + split; [reflexivity|]. split; [congruence|]. split; [congruence|].
      intros nm N1 N2. eapply frame_trans; [apply Fr; exact N1|apply Fr'; exact N2].
  - rewrite P, ARR. split; [exact AV|]. split; [reflexivity|]. split; [exact St|]. split; [exact Bo|].
    intros nm N1 _. apply Fr. exact N1.
Qed.

(* a next hop learned through transport [t] *)
Theorem C06_decorate_learned : forall e l host t m,
  alookup host l = Some t ->
  all_vias (m_headers (decorate e l host m)) = pushed_via e t :: all_vias (m_headers m) /\
  all_rr (m_headers (decorate e l host m)) =
    (if (has_header (s2b "Record-Route") m || pa_must_rr (wire_proxy (e_lc e)))%bool
     then own_record_route t :: all_rr (m_headers m) else all_rr (m_headers m)) /\
  m_start (decorate e l host m) = m_start m /\ m_body (decorate e l host m) = m_body m /\
  (forall nm, same_header (s2b "Via") nm = false -> same_header (s2b "Record-Route") nm = false ->
              frame nm m (decorate e l host m)).
Proof. intros e l host t m A. unfold decorate. rewrite A. apply add_own_spec. Qed.

(* the next-hop host is not in the learned table: neither a Via nor a Record-Route is added *)
Theorem C06_not_learned_untouched : forall e l host m, alookup host l = None -> decorate e l host m = m.
Proof. intros e l host m A. unfold decorate. rewrite A. reflexivity. Qed.

(* sendToBackend: Via and Record-Route name the FIRST transport of the listener *)
Theorem C06_backend_decorates : forall e t0 p m,
  all_vias (m_headers (backend_message e t0 p m)) = pushed_via e t0 :: all_vias (m_headers m) /\
  all_rr (m_headers (backend_message e t0 p m)) =
    (if (has_header (s2b "Record-Route") m || pa_must_rr (wire_proxy (e_lc e)))%bool
     then own_record_route t0 :: all_rr (m_headers m) else all_rr (m_headers m)).
Proof.
  intros e t0 p m. unfold backend_message.
  pose proof (mframe_find_backend_by_dialog _ dj_Via_CSeq dj_Via_From dj_Via_To e p m) as FV.
  pose proof (mframe_find_backend_by_dialog _ dj_RR_CSeq dj_RR_From dj_RR_To e p m) as FR.
  destruct (add_own_spec e t0 (fst (find_backend_by_dialog e p m))) as (AV & AR & _).
  rewrite AV, AR, (has_header_frame _ _ _ FR), (all_vias_sel _ _ (proj1 FV)), (all_rr_sel _ _ (proj1 FR)).
  split; reflexivity.
Qed.

Lemma digits_val_zeros k s : digits_val (repeat "0"%char k ++ s) 0 = digits_val s 0.
Proof. induction k as [|k IH]; [reflexivity|]. cbn [repeat app digits_val]. exact IH. Qed.

Lemma branch_of_decode n : digits_val (skipn 13 (branch_of n)) 0 = Some (Z.of_nat n).
Proof.
  unfold branch_of, pad_left. cbn [s2b list_ascii_of_string app skipn].
  rewrite digits_val_zeros. unfold itoa.
  destruct (Z.ltb_spec (Z.of_nat n) 0) as [L|_]; [lia|].
  rewrite digits_val_utoa, Z2N.id by lia. reflexivity.
Qed.

Theorem branch_of_inj : forall a b, branch_of a = branch_of b -> a = b.
Proof.
  intros a b H. pose proof (branch_of_decode a) as Ha. rewrite H, branch_of_decode in Ha.
  injection Ha as Ha. lia.
Qed.

Theorem branch_of_cookie : forall n, has_prefix (s2b "z9hG4bK") (branch_of n) = true.
Proof. intros n. reflexivity. Qed.

(* along any event list the branches handed to the steps are pairwise distinct.  The real code
   draws 48 random bits per branch (uuid.NewRandom): freshness of the REAL branches is a
   probabilistic fact about the entropy source, measured by the harness (20 000 relayed requests,
   no collision), not proved here. *)
Theorem C06_branches_distinct : forall e0 n, NoDup (map branch_of (seq e0 n)).
Proof.
  intros e0 n. apply FinFun.Injective_map_NoDup; [exact branch_of_inj|apply seq_NoDup].
Qed.

(* run_events hands branch_of (event index) to the step of that event *)
Theorem run_events_branch : forall c ue ws e st ev r,
  run_events c ue ws e st (ev :: r) =
  match proxy_step current_fixes c (time_of ws e) (branch_of e) st ev with
  | Ok (st', outs) =>
      Wire.e_list e_output (filter (visible ue) outs)
      ++ Wire.e_list (fun n => [Wire.e_nat n]) (closed_by_proxy ev (st_conns st) (st_conns st'))
      ++ run_events c ue ws (S e) st' r
  | Err => [s2b "err"]
  | Panic => [s2b "panic"]
  end.
Proof. reflexivity. Qed.

Lemma same_transport_refl t : same_transport t t = true.
Proof. unfold same_transport. rewrite !beq_refl, Z.eqb_refl. reflexivity. Qed.

(* look-up after learn: the entry of [ip] is the old one when it names the same transport
   (protocol, address, port), the new transport otherwise; other hosts are not affected *)
Theorem learn_lookup : forall k ip t l,
  alookup k (learn ip t l) =
  if beq k ip
  then Some (match alookup ip l with
             | Some old => if same_transport old t then old else t
             | None => t
             end)
  else alookup k l.
Proof.
  intros k ip t l. unfold learn. destruct (beq k ip) eqn:E.
  - apply beq_eq in E. subst k. destruct (alookup ip l) as [old|] eqn:A.
    + destruct (same_transport old t); [exact A|apply alookup_aset_same].
    + apply alookup_aset_same.
  - apply beq_neq in E. destruct (alookup ip l) as [old|].
    + destruct (same_transport old t); [reflexivity|apply alookup_aset_other; exact E].
    + apply alookup_aset_other. exact E.
Qed.

(* learn leaves the table as it is iff the host already maps to the same transport *)
Theorem learn_keeps_iff : forall ip t l,
  learn ip t l = l <-> exists old, alookup ip l = Some old /\ same_transport old t = true.
Proof.
  intros ip t l. split.
  - intros H. pose proof (learn_lookup ip ip t l) as L. rewrite H, beq_refl in L.
    destruct (alookup ip l) as [old|]; [|discriminate]. exists old. split; [reflexivity|].
    destruct (same_transport old t) eqn:S; [reflexivity|]. injection L as ->. rewrite same_transport_refl in S. discriminate.
  - intros (old & A & S). unfold learn. rewrite A, S. reflexivity.
Qed.

(* a property of every learned transport is kept when transports that have it are learned *)
Definition all_learned (P : stransport -> Prop) (l : learned) : Prop := forall h t, alookup h l = Some t -> P t.
Lemma all_learned_learn (P : stransport -> Prop) ip t l : P t -> all_learned P l -> all_learned P (learn ip t l).
Proof.
  intros Pt Hl h t' A. rewrite learn_lookup in A. destruct (beq h ip); [|exact (Hl _ _ A)].
  destruct (alookup ip l) as [old|] eqn:Ao; [destruct (same_transport old t)|]; injection A as <-;
    [exact (Hl _ _ Ao)|exact Pt|exact Pt].
Qed.
Lemma all_learned_after (P : stransport -> Prop) src from m x :
  P from -> all_learned P (x_learned x) -> all_learned P (learned_after src from m x).
Proof.
  intros Pf Hl. unfold learned_after. destruct (_ && _)%bool; [|exact Hl].
  apply fold_left_inv; [|exact Hl]. intros l h _. apply all_learned_learn. exact Pf.
Qed.

(* the learned table after ANY message: requests from a peer that is not a key of the backend
   table teach the peer address and every host of every Via header that decodes, in this order;
   everything else (responses, requests from a backend key) leaves the table alone.
   NOTE: the keys of Proxy.backends are "ip:port" strings while [peer] is the bare IP of the
   sender (rawMessage.PeerAddr), so the exclusion of backends can only apply to a backend
   configured without port separator; requests coming from a backend DO teach. *)
Theorem C06_learning : forall e peer peer_port from rs tcp m0 x x',
  process_message e peer peer_port from rs tcp m0 x = Ok x' ->
  x_learned x' =
  if (is_request m0 && negb (amem peer (ps_backends (x_p x))))%bool
  then fold_left (fun l h => learn h from l) (peer :: map v_host (all_vias (m_headers m0))) (x_learned x)
  else x_learned x.
Proof.
  intros e peer pp from rs tcp m0 x x' H. rewrite (proj1 (process_message_sends _ _ _ _ _ _ _ _ _ H)).
  exact (proj1 (pm_learn_spec peer from m0 x)).
Qed.

Theorem C06_learning_response : forall e peer peer_port from rs tcp m0 x x',
  is_request m0 = false ->
  process_message e peer peer_port from rs tcp m0 x = Ok x' -> x_learned x' = x_learned x.
Proof. intros e peer pp from rs tcp m0 x x' R H. rewrite (C06_learning _ _ _ _ _ _ _ _ _ H), R. reflexivity. Qed.

(* (shared with C13.v and C03.v) messages are written line by line; LF line ends are accepted *)
Definition lines (ls : list string) : bytes := flat_map (fun s => s2b s ++ [LF]) ls.
Definition dummy_msg : message := {| m_start := SResp [] 0 []; m_headers := []; m_body := [] |}.
Definition msg_of (ls : list string) : message :=
  match parse_message (lines ls) with Ok (m, _) => m | _ => dummy_msg end.

Definition ex_lc (must : bool) : listen_cfg :=
  {| lc_addr := s2b "10.0.0.1"; lc_udp := 5060; lc_tcp := 5060;
     lc_backends := [s2b "10.0.1.1:5080"; s2b "10.0.1.2:5080"]; lc_dynamic := false;
     lc_no_received := false; lc_def_route := false; lc_must_rr := must |}.
(* services: a literal host, a regular expression (matches only as an expression), user@host, a
   urn; static routes: exact, wildcard, optionally default; two host-table names *)
Definition ex_cfg (keep with_default must : bool) : cfg :=
  {| c_name := s2b "svc.example.com, room.+@conf.example.com, alice@users.example.com, urn:service:sos";
     c_keep_next_hop := keep; c_dialog_timeout := 3600;
     c_routes := [(s2b "udp", (s2b "exact.example.com", s2b "10.0.2.1:5070"));
                  (s2b "tcp", (s2b "*.wild.example.com", s2b "10.0.2.2"))] ++
                 (if with_default then [(s2b "udp", (s2b "default", s2b "10.0.2.3:5090"))] else []);
     c_hosts := [(s2b "proxy.example.com", s2b "10.0.0.1"); (s2b "next.example.com", s2b "10.0.0.9")];
     c_listens := [ex_lc must] |}.
Definition ex_from : stransport := {| t_kind := KUdp; t_addr := s2b "10.0.0.1"; t_port := 5060 |}.
Definition ex_env (fx : fixes) (c : cfg) (n : nat) : env :=
  mk_env fx c (item_rs_of (fx_wiring fx)) 0 (ex_lc (lc_must_rr (ex_lc false))) (Z.of_nat n * ms) (branch_of n).

Definition req (ruri : string) (pre routes : list string) (to : string) (extra : list string) : list string :=
  [String.append "INVITE " (String.append ruri " SIP/2.0")] ++ pre ++
  ["Via: SIP/2.0/UDP client.example.com:5060;branch=z9hG4bKabc"%string; "Via: SIP/2.0/TCP 10.0.0.7;branch=z9hG4bKdef"%string]
  ++ routes ++
  [String.append "To: " to; "From: <sip:carol@example.com>;tag=f1"%string; "Call-ID: c1"%string;
   "CSeq: 1 INVITE"%string] ++ extra ++ ["Content-Length: 0"%string; ""%string].

(* what a datagram from 10.0.0.5:5060 produces in the initial state: destinations and texts *)
Definition run1 (fx : fixes) (c : cfg) (tcp_peers : list (bytes * Z)) (ls : list string) : list (dest * string) :=
  match proxy_step fx c 0 (branch_of 0) (init_state c 0 tcp_peers) (EvUdp 0 (s2b "10.0.0.5") 5060 (lines ls)) with
  | Ok (_, outs) => map (fun o => (fst o, string_of_list_ascii (snd o))) outs
  | _ => [(DConn 99, "error"%string)]
  end.

(* ---- a Via is pushed before the first Via header, here at position 1 ---- *)
Definition ex_m1 : message :=
  msg_of (req "sip:bob@svc.example.com" ["Max-Forwards: 70"%string] [] "<sip:bob@svc.example.com>" []).
Example ex_via_pushed :
  let e := ex_env all_fixed (ex_cfg false true false) 7 in
  via_pos ex_m1 = 1%nat /\
  map via_param_print (all_vias (m_headers (px_add_via e ex_from ex_m1))) =
    [s2b "SIP/2.0/UDP 10.0.0.1:5060;branch=z9hG4bK@@@@@@000007";
     s2b "SIP/2.0/UDP client.example.com:5060;branch=z9hG4bKabc"; s2b "SIP/2.0/TCP 10.0.0.7;branch=z9hG4bKdef"] /\
  map h_name (m_headers (px_add_via e ex_from ex_m1)) =
    map s2b ["Max-Forwards"; "Via"; "Via"; "Via"; "To"; "From"; "Call-ID"; "CSeq"; "Content-Length"]%string.
Proof. vm_compute. repeat split. Qed.

(* ---- Record-Route present / absent x must on / off ---- *)
Definition ex_m_rr : message :=
  msg_of (req "sip:bob@svc.example.com" ["Max-Forwards: 70"%string] [] "<sip:bob@svc.example.com>"
              ["Record-Route: <sip:10.0.0.5;lr>, <sip:edge.example.com:5080;lr>"%string]).
Example ex_rr_text : route_print [own_record_route ex_from] = s2b "<sip:10.0.0.1:5060;lr>".
Proof. vm_compute. reflexivity. Qed.
Example ex_rr_present_must_off :
  map route_param_print (all_rr (m_headers (px_add_record_route false ex_from ex_m_rr))) =
  [s2b "<sip:10.0.0.1:5060;lr>"; s2b "<sip:10.0.0.5;lr>"; s2b " <sip:edge.example.com:5080;lr>"] /\
  map h_name (m_headers (px_add_record_route false ex_from ex_m_rr)) =
    map s2b ["Max-Forwards"; "Via"; "Via"; "To"; "From"; "Call-ID"; "CSeq"; "Record-Route"; "Record-Route"; "Content-Length"]%string.
Proof. vm_compute. split; reflexivity. Qed.
Example ex_rr_present_must_on :
  map route_param_print (all_rr (m_headers (px_add_record_route true ex_from ex_m_rr))) =
  [s2b "<sip:10.0.0.1:5060;lr>"; s2b "<sip:10.0.0.5;lr>"; s2b " <sip:edge.example.com:5080;lr>"].
Proof. vm_compute. reflexivity. Qed.
Example ex_rr_absent_must_on :
  map route_param_print (all_rr (m_headers (px_add_record_route true ex_from ex_m1))) = [s2b "<sip:10.0.0.1:5060;lr>"] /\
  map h_name (m_headers (px_add_record_route true ex_from ex_m1)) =
    map s2b ["Record-Route"; "Max-Forwards"; "Via"; "Via"; "To"; "From"; "Call-ID"; "CSeq"; "Content-Length"]%string.
Proof. vm_compute. split; reflexivity. Qed.
Example ex_rr_absent_must_off : px_add_record_route false ex_from ex_m1 = ex_m1.
Proof. vm_compute. reflexivity. Qed.

Example ex_branch : branch_of 3 = s2b "z9hG4bK@@@@@@000003" /\ branch_of 1234 = s2b "z9hG4bK@@@@@@001234".
Proof. vm_compute. split; reflexivity. Qed.

(* ---- the peer and both Via hosts are learned, in this order ---- *)
Example ex_learning :
  match proxy_step all_fixed (ex_cfg false true false) 0 (branch_of 0) (init_state (ex_cfg false true false) 0 [])
                   (EvUdp 0 (s2b "10.0.0.5") 5060
                      (lines (req "sip:bob@svc.example.com" [] [] "<sip:bob@svc.example.com>" []))) with
  | Ok (st, _) => st_learned st = [(s2b "10.0.0.5", ex_from); (s2b "client.example.com", ex_from); (s2b "10.0.0.7", ex_from)]
  | _ => False
  end.
Proof. vm_compute. reflexivity. Qed.

(* ---- learned / not learned next hop, end to end ---- *)
(* the Route names the sender itself (learned from this very request, through the UDP listener):
   one Via of the listener on top, Record-Route of the listener ahead of the received one *)
Example ex_relay_learned :
  run1 all_fixed (ex_cfg false true false) []
       (req "sip:bob@elsewhere.example" [] ["Route: <sip:10.0.0.5:5062;lr>"%string] "<sip:bob@elsewhere.example>"
            ["Record-Route: <sip:10.0.0.5;lr>"%string]) =
  [(DUdp (s2b "10.0.0.5") 5062,
    String.concat (String (ascii_of_nat 13) (String (ascii_of_nat 10) EmptyString))
    ["INVITE sip:bob@elsewhere.example SIP/2.0";
     "Via: SIP/2.0/UDP 10.0.0.1:5060;branch=z9hG4bK@@@@@@000000";
     "Via: SIP/2.0/UDP client.example.com:5060;branch=z9hG4bKabc;received=10.0.0.5";
     "Via: SIP/2.0/TCP 10.0.0.7;branch=z9hG4bKdef";
     "To: <sip:bob@elsewhere.example>"; "From: <sip:carol@example.com>;tag=f1"; "Call-ID: c1"; "CSeq: 1 INVITE";
     "Record-Route: <sip:10.0.0.1:5060;lr>"; "Record-Route: <sip:10.0.0.5;lr>"; "Content-Length: 0"; ""; ""]%string)].
Proof. vm_compute. reflexivity. Qed.
(* the next hop 10.0.0.9 was never heard of: no Via, no Record-Route *)
Example ex_relay_not_learned :
  run1 all_fixed (ex_cfg false true true) []
       (req "sip:bob@elsewhere.example" [] ["Route: <sip:10.0.0.9:5062;lr>"%string] "<sip:bob@elsewhere.example>"
            ["Record-Route: <sip:10.0.0.5;lr>"%string]) =
  [(DUdp (s2b "10.0.0.9") 5062,
    String.concat (String (ascii_of_nat 13) (String (ascii_of_nat 10) EmptyString))
    ["INVITE sip:bob@elsewhere.example SIP/2.0";
     "Via: SIP/2.0/UDP client.example.com:5060;branch=z9hG4bKabc;received=10.0.0.5";
     "Via: SIP/2.0/TCP 10.0.0.7;branch=z9hG4bKdef";
     "To: <sip:bob@elsewhere.example>"; "From: <sip:carol@example.com>;tag=f1"; "Call-ID: c1"; "CSeq: 1 INVITE";
     "Record-Route: <sip:10.0.0.5;lr>"; "Content-Length: 0"; ""; ""]%string)].
Proof. vm_compute. reflexivity. Qed.

Print Assumptions C06_via_pushed.
Print Assumptions C06_via_position.
Print Assumptions C06_branch.
Print Assumptions C06_rr_policy.
Print Assumptions C06_rr_position.
Print Assumptions C06_rr_flat.
Print Assumptions own_record_route_text.
Print Assumptions own_record_route_text_noport.
Print Assumptions C06_decorate_learned.
Print Assumptions C06_not_learned_untouched.
Print Assumptions C06_backend_decorates.
Print Assumptions branch_of_inj.
Print Assumptions branch_of_cookie.
Print Assumptions C06_branches_distinct.
Print Assumptions learn_lookup.
Print Assumptions learn_keeps_iff.
Print Assumptions C06_learning.
Print Assumptions C06_learning_response.
Print Assumptions send_to_backend_shape.
