(* proofs/C20.v — sending survives connection faults (SendFault.v against SpecC20.v).
   SendFault.v has its own world, failover, tcp_client_send ...: the Go methods Proxy.v also
   models, here with the dial and write faults and the trace of I/O events made explicit.
   No axioms, no admits.
   The trace of one run of a send loop has one of a few shapes ([shape], for both
   TCPClientTransport.Send and TCPBackend.Send); everything said about one send (the trace judge,
   success = written exactly once, the ids a send talks about) is read off the shape, and
   FailOver.Send is two optional client sends in a row ([failover_send_eq]).  Then: sequences
   of sends; C20_failover, C20_later_direct, C20_refused on concrete worlds; trace judge =>
   count judge (C20_trace_judge_implies_obs); what the extracted runner prints (client_obs,
   backend_obs, the C20_obs_judged theorems); non-vacuity Examples. *)
From Coq Require Import List Bool Arith Lia.
From Model Require Import SendFault SpecC20 Run.
Import ListNotations.
Open Scope list_scope.

Ltac inv H := inversion H; clear H; subst.

(* script still to be played by connection c (first entry with that id) *)
Fixpoint conn_lookup (c : nat) (l : list (nat * conn_script)) : option conn_script :=
  match l with
  | [] => None
  | (c', s) :: r => if Nat.eqb c c' then Some s else conn_lookup c r
  end.
(* result of the next write on connection c *)
Definition next_write (c : nat) (w : world) : bool :=
  match conn_lookup c (w_conns w) with Some (b :: _) => b | _ => true end.
Definition after_write (c : nat) (w : world) : world := fst (w_write c w).
Definition after_dial (w : world) : world := fst (w_dial w).
(* ids of existing connections are below the allocation counter *)
Definition w_wf (w : world) : Prop := forall c s, In (c, s) (w_conns w) -> c < w_next w.

Lemma conn_write_snd c l :
  snd (conn_write c l) = match conn_lookup c l with Some (b :: _) => b | _ => true end.
Proof.
  induction l as [|[c' s] r IH]; cbn; [reflexivity|].
  destruct (Nat.eqb c c').
  - destruct s; reflexivity.
  - destruct (conn_write c r) as [r' ok]; cbn in *. exact IH.
Qed.

Lemma w_write_eq c w : w_write c w = (after_write c w, next_write c w).
Proof.
  unfold after_write, next_write. rewrite <- conn_write_snd.
  unfold w_write. destruct (conn_write c (w_conns w)) as [cs ok]; reflexivity.
Qed.

Lemma conn_write_lookup_other c c' l :
  c <> c' -> conn_lookup c' (fst (conn_write c l)) = conn_lookup c' l.
Proof.
  intros Hne. induction l as [|[c0 s] r IH]; cbn; [reflexivity|].
  destruct (Nat.eqb_spec c c0) as [E|E].
  - subst c0. destruct s; cbn; destruct (Nat.eqb_spec c' c); try congruence; reflexivity.
  - destruct (conn_write c r) as [r' ok]; cbn in *. rewrite IH. reflexivity.
Qed.

Lemma conn_write_ids c l : map fst (fst (conn_write c l)) = map fst l.
Proof.
  induction l as [|[c' s] r IH]; cbn; [reflexivity|].
  destruct (Nat.eqb c c').
  - destruct s; reflexivity.
  - destruct (conn_write c r) as [r' ok]; cbn in *. rewrite IH. reflexivity.
Qed.

Lemma after_write_eq c w :
  after_write c w =
  {| w_conns := fst (conn_write c (w_conns w)); w_dials := w_dials w; w_next := w_next w |}.
Proof. unfold after_write, w_write. destruct (conn_write c (w_conns w)); reflexivity. Qed.
Lemma after_write_next c w : w_next (after_write c w) = w_next w.
Proof. rewrite after_write_eq. reflexivity. Qed.
Lemma after_write_wf c w : w_wf w -> w_wf (after_write c w).
Proof.
  intros H c' s' Hin. rewrite after_write_eq in *. cbn [w_conns w_next] in *.
  apply (in_map fst) in Hin. rewrite conn_write_ids in Hin. apply in_map_iff in Hin.
  destruct Hin as ([c0 s0] & E & Hin). cbn in E. subst c0. exact (H _ _ Hin).
Qed.
Lemma next_write_after_other c c' w :
  c <> c' -> next_write c' (after_write c w) = next_write c' w.
Proof.
  intros Hne. unfold next_write. rewrite after_write_eq. cbn [w_conns].
  rewrite conn_write_lookup_other by exact Hne. reflexivity.
Qed.

Lemma w_dial_eq w : w_dial w = (after_dial w, snd (w_dial w)).
Proof. unfold after_dial. destruct (w_dial w); reflexivity. Qed.

Lemma w_dial_some w s rest :
  w_dials w = Some s :: rest ->
  w_dial w = ({| w_conns := w_conns w ++ [(w_next w, s)]; w_dials := rest; w_next := S (w_next w) |},
              Some (w_next w)).
Proof. intros H. unfold w_dial. rewrite H. reflexivity. Qed.

Definition dial_refused (w : world) : Prop :=
  match w_dials w with [] | None :: _ => True | Some _ :: _ => False end.
Lemma w_dial_refused w :
  dial_refused w ->
  w_dial w = ({| w_conns := w_conns w; w_dials := tl (w_dials w); w_next := w_next w |}, None).
Proof. unfold dial_refused, w_dial. destruct (w_dials w) as [|[s|] r]; intros H; [reflexivity|contradiction|reflexivity]. Qed.

Lemma w_dial_cases w :
  (snd (w_dial w) = None /\ w_next (after_dial w) = w_next w) \/
  (snd (w_dial w) = Some (w_next w) /\ w_next (after_dial w) = S (w_next w)).
Proof. unfold after_dial, w_dial. destruct (w_dials w) as [|[s|] r]; cbn; auto. Qed.

Lemma after_dial_next_le w : w_next w <= w_next (after_dial w).
Proof. destruct (w_dial_cases w) as [[_ E]|[_ E]]; rewrite E; lia. Qed.

Lemma after_dial_wf w : w_wf w -> w_wf (after_dial w).
Proof.
  intros H c s. unfold after_dial, w_dial. destruct (w_dials w) as [|[s0|] r]; cbn; try apply H.
  intros Hin. apply in_app_or in Hin. destruct Hin as [Hin|[Hin|[]]].
  - specialize (H _ _ Hin). lia.
  - inversion Hin; subst. lia.
Qed.

Lemma conn_lookup_app_fresh c s l :
  (forall s', ~ In (c, s') l) -> conn_lookup c (l ++ [(c, s)]) = Some s.
Proof.
  induction l as [|[c0 s0] r IH]; cbn; intros H.
  - rewrite Nat.eqb_refl. reflexivity.
  - destruct (Nat.eqb_spec c c0) as [E|E].
    + subst. exfalso. apply (H s0). left; reflexivity.
    + apply IH. intros s' Hin. apply (H s'). right; exact Hin.
Qed.

Lemma next_write_fresh w s rest :
  w_wf w -> w_dials w = Some s :: rest ->
  next_write (w_next w) (after_dial w) = hd true s.
Proof.
  intros Hwf Hd. unfold after_dial. rewrite (w_dial_some _ _ _ Hd). unfold next_write. cbn.
  rewrite conn_lookup_app_fresh.
  - destruct s; reflexivity.
  - intros s' Hin. specialize (Hwf _ _ Hin). lia.
Qed.

Lemma loop_cached n t w tr c :
  tc_conn t = Some c ->
  tcp_client_send_loop (S n) t w tr =
  if next_write c w then (t, after_write c w, tr ++ [EWrite c true], true)
  else tcp_client_send_loop n {| tc_conn := None; tc_reconnectable := tc_reconnectable t |}
         (after_write c w) (tr ++ [EWrite c false; EClose c]).
Proof.
  intros H. cbn [tcp_client_send_loop]. rewrite H. cbv beta iota. rewrite H, w_write_eq.
  reflexivity.
Qed.

(* a successful dial then behaves like a send on a cached connection, same iteration *)
Lemma loop_none_rec n t w tr :
  tc_conn t = None -> tc_reconnectable t = true ->
  tcp_client_send_loop (S n) t w tr =
  match snd (w_dial w) with
  | Some c => tcp_client_send_loop (S n) {| tc_conn := Some c; tc_reconnectable := true |}
                (after_dial w) (tr ++ [EDial (Some c)])
  | None => (t, after_dial w, tr ++ [EDial None], false)
  end.
Proof.
  intros H1 H2. cbn [tcp_client_send_loop]. rewrite H1, H2, w_dial_eq.
  destruct (snd (w_dial w)) as [c|]; cbn [tc_conn snd fst]; reflexivity.
Qed.

Lemma loop_norec k w tr0 :
  tcp_client_send_loop k {| tc_conn := None; tc_reconnectable := false |} w tr0 =
  ({| tc_conn := None; tc_reconnectable := false |}, w, tr0, false).
Proof. induction k as [|k IH]; [reflexivity|exact IH]. Qed.

Lemma bloop_cached n c w tr :
  tcp_backend_send_loop (S n) (Some c) w tr =
  if next_write c w then (Some c, after_write c w, tr ++ [EWrite c true], true)
  else tcp_backend_send_loop n None (after_write c w) (tr ++ [EWrite c false; EClose c]).
Proof. cbn [tcp_backend_send_loop]. rewrite w_write_eq. reflexivity. Qed.

(* a refused dial does not abort: the loop goes on to its next iteration *)
Lemma bloop_none n w tr :
  tcp_backend_send_loop (S n) None w tr =
  match snd (w_dial w) with
  | Some c => tcp_backend_send_loop (S n) (Some c) (after_dial w) (tr ++ [EDial (Some c)])
  | None => tcp_backend_send_loop n None (after_dial w) (tr ++ [EDial None])
  end.
Proof.
  cbn [tcp_backend_send_loop]. rewrite w_dial_eq.
  destruct (snd (w_dial w)) as [c|]; cbn [snd fst]; reflexivity.
Qed.

(* [shape abort k conn n conn' n' tr ok]: what k iterations of a send loop can do, starting
   with the cached connection conn when the next connection id is n: final connection, final
   next id, events, verdict.  A refused dial costs the loop all its remaining iterations
   (abort = true: TCPClientTransport returns the error) or only this one (TCPBackend). *)
Inductive shape (abort : bool)
  : nat -> option nat -> nat -> option nat -> nat -> list io_event -> bool -> Prop :=
| sh_zero conn n : shape abort 0 conn n conn n [] false
| sh_ok k c n : shape abort (S k) (Some c) n (Some c) n [EWrite c true] true
| sh_fail k c n conn' n' tr ok :
    shape abort k None n conn' n' tr ok ->
    shape abort (S k) (Some c) n conn' n' ([EWrite c false; EClose c] ++ tr) ok
| sh_refused k n conn' n' tr ok :
    shape abort (if abort then 0 else k) None n conn' n' tr ok ->
    shape abort (S k) None n conn' n' (EDial None :: tr) ok
| sh_dial k n conn' n' tr ok :
    shape abort (S k) (Some n) (S n) conn' n' tr ok ->
    shape abort (S k) None n conn' n' (EDial (Some n) :: tr) ok.

Lemma cloop_shape k : forall conn w tr0 t' w' tr' ok,
  tcp_client_send_loop k {| tc_conn := conn; tc_reconnectable := true |} w tr0 = (t', w', tr', ok) ->
  exists ext, tr' = tr0 ++ ext /\ tc_reconnectable t' = true /\
    shape true k conn (w_next w) (tc_conn t') (w_next w') ext ok /\ (w_wf w -> w_wf w').
Proof.
  induction k as [|k IH]; intros conn w tr0 t' w' tr' ok H.
  - inv H. exists []. rewrite app_nil_r. repeat split; [constructor|trivial].
  - assert (Hc : forall c w tr0,
      tcp_client_send_loop (S k) {| tc_conn := Some c; tc_reconnectable := true |} w tr0 = (t', w', tr', ok) ->
      exists ext, tr' = tr0 ++ ext /\ tc_reconnectable t' = true /\
        shape true (S k) (Some c) (w_next w) (tc_conn t') (w_next w') ext ok /\ (w_wf w -> w_wf w')).
    { clear H conn w tr0. intros c w tr0 H.
      rewrite (loop_cached _ _ _ _ c) in H by reflexivity. destruct (next_write c w).
      - inv H. exists [EWrite c true]. rewrite after_write_next.
        repeat split; [constructor|apply after_write_wf].
      - apply IH in H. destruct H as (ext & -> & Hr & Hs & Hw). rewrite after_write_next in Hs.
        exists ([EWrite c false; EClose c] ++ ext). rewrite <- app_assoc.
        repeat split; [exact Hr|constructor; exact Hs|]. intros H. apply Hw, after_write_wf, H. }
    destruct conn as [c|]; [exact (Hc c w tr0 H)|].
    rewrite loop_none_rec in H by reflexivity.
    destruct (w_dial_cases w) as [[E En]|[E En]]; rewrite E in H.
    + inv H. exists [EDial None]. rewrite En.
      repeat split; [apply sh_refused; constructor|apply after_dial_wf].
    + apply Hc in H. destruct H as (ext & -> & Hr & Hs & Hw). rewrite En in Hs.
      exists (EDial (Some (w_next w)) :: ext). rewrite <- app_assoc.
      repeat split; [exact Hr|apply sh_dial; exact Hs|]. intros H. apply Hw, after_dial_wf, H.
Qed.

Lemma bloop_shape k : forall conn w tr0 conn' w' tr' ok,
  tcp_backend_send_loop k conn w tr0 = (conn', w', tr', ok) ->
  exists ext, tr' = tr0 ++ ext /\
    shape false k conn (w_next w) conn' (w_next w') ext ok /\ (w_wf w -> w_wf w').
Proof.
  induction k as [|k IH]; intros conn w tr0 conn' w' tr' ok H.
  - inv H. exists []. rewrite app_nil_r. repeat split; [constructor|trivial].
  - assert (Hc : forall c w tr0,
      tcp_backend_send_loop (S k) (Some c) w tr0 = (conn', w', tr', ok) ->
      exists ext, tr' = tr0 ++ ext /\
        shape false (S k) (Some c) (w_next w) conn' (w_next w') ext ok /\ (w_wf w -> w_wf w')).
    { clear H conn w tr0. intros c w tr0 H. rewrite bloop_cached in H. destruct (next_write c w).
      - inv H. exists [EWrite c true]. rewrite after_write_next.
        repeat split; [constructor|apply after_write_wf].
      - apply IH in H. destruct H as (ext & -> & Hs & Hw). rewrite after_write_next in Hs.
        exists ([EWrite c false; EClose c] ++ ext). rewrite <- app_assoc.
        repeat split; [constructor; exact Hs|]. intros H. apply Hw, after_write_wf, H. }
    destruct conn as [c|]; [exact (Hc c w tr0 H)|].
    rewrite bloop_none in H. destruct (w_dial_cases w) as [[E En]|[E En]]; rewrite E in H.
    + apply IH in H. destruct H as (ext & -> & Hs & Hw). rewrite En in Hs.
      exists (EDial None :: ext). rewrite <- app_assoc.
      repeat split; [apply sh_refused; exact Hs|]. intros H. apply Hw, after_dial_wf, H.
    + apply Hc in H. destruct H as (ext & -> & Hs & Hw). rewrite En in Hs.
      exists (EDial (Some (w_next w)) :: ext). rewrite <- app_assoc.
      repeat split; [apply sh_dial; exact Hs|]. intros H. apply Hw, after_dial_wf, H.
Qed.

Definition no_okwrite (l : list io_event) : Prop := forall c, ~ In (EWrite c true) l.
(* what a send appends to the trace, according to its verdict *)
Definition ext_ok (ext : list io_event) (ok : bool) : Prop :=
  if ok then exists pre c, ext = pre ++ [EWrite c true] /\ no_okwrite pre
  else no_okwrite ext.

(* for a list that is written out *)
Ltac nook := let c := fresh "c" in let H := fresh "H" in
  intros c H; cbn in H; intuition discriminate.

Lemma no_okwrite_app a b : no_okwrite a -> no_okwrite b -> no_okwrite (a ++ b).
Proof. intros Ha Hb c Hin. apply in_app_or in Hin. destruct Hin; [eapply Ha|eapply Hb]; eassumption. Qed.

Lemma ext_ok_prefix pre ext ok : no_okwrite pre -> ext_ok ext ok -> ext_ok (pre ++ ext) ok.
Proof.
  destruct ok; cbn; intros Hp He.
  - destruct He as (mid & c & -> & Hm). exists (pre ++ mid), c. rewrite app_assoc.
    split; [reflexivity|]. apply no_okwrite_app; assumption.
  - apply no_okwrite_app; assumption.
Qed.

Lemma shape_ext {abort k conn n conn' n' tr ok} : shape abort k conn n conn' n' tr ok -> ext_ok tr ok.
Proof.
  induction 1 as [conn n|k c n|k c n conn' n' tr ok _ IH|k n conn' n' tr ok _ IH|k n conn' n' tr ok _ IH].
  - nook.
  - exists [], c. split; [reflexivity|nook].
  - apply ext_ok_prefix; [nook|exact IH].
  - apply (ext_ok_prefix [EDial None]); [nook|exact IH].
  - apply (ext_ok_prefix [EDial (Some n)]); [nook|exact IH].
Qed.

Definition ev_ids (e : io_event) : list nat :=
  match e with EWrite c _ => [c] | EDial (Some c) => [c] | EDial None => [] | EClose c => [c] end.
Definition ids_in (P : nat -> Prop) (tr : list io_event) : Prop :=
  forall e, In e tr -> forall c, In c (ev_ids e) -> P c.

Lemma ids_in_nil P : ids_in P [].
Proof. intros e []. Qed.
Lemma ids_in_cons (P : nat -> Prop) e r :
  match e with EWrite c _ => P c | EDial (Some c) => P c | EDial None => True | EClose c => P c end ->
  ids_in P r -> ids_in P (e :: r).
Proof.
  intros He Hr e' [<-|Hin]; [|exact (Hr e' Hin)].
  destruct e as [c b|[c|]|c]; cbn; intros c0 Hc0; try contradiction;
    destruct Hc0 as [<-|[]]; exact He.
Qed.
Lemma ids_in_app P a b : ids_in P a -> ids_in P b -> ids_in P (a ++ b).
Proof. intros Ha Hb e Hin. apply in_app_or in Hin. destruct Hin as [Hin|Hin]; [exact (Ha e Hin)|exact (Hb e Hin)]. Qed.
Lemma ids_in_weaken (P Q : nat -> Prop) tr : (forall c, P c -> Q c) -> ids_in P tr -> ids_in Q tr.
Proof. intros HPQ H e Hin c Hc. apply HPQ. exact (H e Hin c Hc). Qed.

(* a send talks about its cached connection and the ids it allocates *)
Lemma shape_ids {abort k conn n conn' n' tr ok} :
  shape abort k conn n conn' n' tr ok ->
  n <= n' /\ (forall c, conn' = Some c -> conn = Some c \/ n <= c < n') /\
  ids_in (fun c => conn = Some c \/ n <= c < n') tr.
Proof.
  induction 1 as [conn n|k c n|k c n conn' n' tr ok _ (IH1 & IH2 & IH3)
                 |k n conn' n' tr ok _ (IH1 & IH2 & IH3)|k n conn' n' tr ok _ (IH1 & IH2 & IH3)].
  - split; [lia|split; [intros c Hc; left; exact Hc|apply ids_in_nil]].
  - split; [lia|split; [intros c0 Hc0; left; exact Hc0|]].
    apply ids_in_cons; [left; reflexivity|apply ids_in_nil].
  - split; [exact IH1|split].
    + intros c0 Hc0. destruct (IH2 c0 Hc0) as [E|E]; [discriminate E|right; exact E].
    + apply ids_in_cons; [left; reflexivity|]. apply ids_in_cons; [left; reflexivity|].
      eapply ids_in_weaken; [|exact IH3]. cbv beta. intros c0 [E|E]; [discriminate E|right; exact E].
  - split; [exact IH1|split; [exact IH2|]]. apply ids_in_cons; [exact I|exact IH3].
  - split; [lia|split].
    + intros c0 Hc0. destruct (IH2 c0 Hc0) as [E|E]; right; [inv E|]; lia.
    + apply ids_in_cons; [right; lia|].
      eapply ids_in_weaken; [|exact IH3]. cbv beta. intros c0 [E|E]; right; [inv E|]; lia.
Qed.

(* cached ids are already allocated, so that a dialled id is new *)
Definition b_wf (conn : option nat) (n : nat) : Prop := forall c, conn = Some c -> c < n.

Lemma shape_below {abort k conn n conn' n' tr ok} :
  shape abort k conn n conn' n' tr ok -> b_wf conn n ->
  n <= n' /\ b_wf conn' n' /\ ids_in (fun c => c < n') tr.
Proof.
  intros Hs Hc. destruct (shape_ids Hs) as (Hle & Hc' & Hi).
  split; [exact Hle|split].
  - intros c E. destruct (Hc' c E) as [E0|E0]; [specialize (Hc c E0)|]; lia.
  - eapply ids_in_weaken; [|exact Hi]. cbv beta. intros c [E0|E0]; [specialize (Hc c E0)|]; lia.
Qed.

Lemma unwritten (P : nat -> Prop) c tr : ids_in P tr -> ~ P c -> existsb (ev_writes_to c) tr = false.
Proof.
  intros H Hc. apply not_true_is_false. intros Hex. apply existsb_exists in Hex.
  destruct Hex as (e & Hin & He). destruct e as [c' b|d|c']; try discriminate He.
  apply Nat.eqb_eq in He. subst c'. apply Hc, (H _ Hin). left; reflexivity.
Qed.

(* two traces in a row that talk about different connections *)
Lemma failed_forgotten_app (P Q : nat -> Prop) b : ids_in Q b -> failed_forgotten b = true ->
  forall a, ids_in P a -> (forall c, P c -> ~ Q c) ->
  failed_forgotten a = true -> failed_forgotten (a ++ b) = true.
Proof.
  intros Hb Hfb a Ha Hd. induction a as [|e r IH]; intros Hfa; [exact Hfb|].
  assert (Hr : ids_in P r) by (intros e' Hin; apply Ha; right; exact Hin).
  destruct e as [c [|]|d|c]; try exact (IH Hr Hfa).
  cbn [app failed_forgotten] in *. destruct r as [|[c' b'|d'|c'] r']; try discriminate Hfa.
  cbn [app]. rewrite !andb_true_iff, negb_true_iff in *. destruct Hfa as ((Hcc & Hex) & Hfr).
  rewrite existsb_app, Hex, (unwritten Q c b Hb).
  - repeat split; [exact Hcc|exact (IH Hr Hfr)].
  - apply Hd, (Ha (EWrite c false)); left; reflexivity.
Qed.

Lemma shape_forgotten {abort k conn n conn' n' tr ok} :
  shape abort k conn n conn' n' tr ok -> b_wf conn n -> failed_forgotten tr = true.
Proof.
  induction 1 as [conn n|k c n|k c n conn' n' tr ok Hs IH|k n conn' n' tr ok _ IH|k n conn' n' tr ok _ IH];
    intros Hc; try reflexivity.
  - cbn [app failed_forgotten]. rewrite Nat.eqb_refl.
    destruct (shape_ids Hs) as (_ & _ & Hi). rewrite (unwritten _ c _ Hi).
    + apply IH. intros c0 E; discriminate E.
    + specialize (Hc c eq_refl). intros [E|E]; [discriminate E|lia].
  - apply IH. intros c0 E; discriminate E.
  - apply IH. intros c0 E; inv E; lia.
Qed.

Lemma count_ev_cons f e r : count_ev f (e :: r) = Nat.b2n (f e) + count_ev f r.
Proof. unfold count_ev. cbn [filter]. destruct (f e); reflexivity. Qed.
Lemma count_ev_app f a b : count_ev f (a ++ b) = count_ev f a + count_ev f b.
Proof. unfold count_ev. rewrite filter_app, app_length. reflexivity. Qed.

(* the iteration that finds a cached connection does not dial *)
Definition cached (conn : option nat) : nat := match conn with Some _ => 1 | None => 0 end.

Lemma shape_counts {abort k conn n conn' n' tr ok} :
  shape abort k conn n conn' n' tr ok ->
  count_ev ev_is_dial tr <= k - cached conn /\ count_ev ev_is_write tr <= k.
Proof.
  induction 1 as [conn n|k c n|k c n conn' n' tr ok _ IH|k n conn' n' tr ok _ IH|k n conn' n' tr ok _ IH];
    cbn [app]; rewrite ?count_ev_cons; cbn [cached ev_is_dial ev_is_write Nat.b2n] in *;
    try destruct abort; cbn; lia.
Qed.

Lemma judge_parts tr ok :
  judge_C20_send tr ok = true <->
  (if ok then count_ev ev_is_okwrite tr = 1 /\
              ev_is_okwrite (last (filter ev_is_write tr) (EClose 0)) = true
   else count_ev ev_is_okwrite tr = 0) /\
  failed_forgotten tr = true /\ count_ev ev_is_dial tr <= 2 /\ count_ev ev_is_write tr <= 3.
Proof.
  unfold judge_C20_send, count_ev. cbv zeta. rewrite !andb_true_iff, !Nat.leb_le.
  destruct ok; rewrite ?andb_true_iff, Nat.eqb_eq; tauto.
Qed.

Lemma no_okwrite_filter l : no_okwrite l -> filter ev_is_okwrite l = [].
Proof.
  induction l as [|e r IH]; intros H; [reflexivity|].
  assert (Hr : no_okwrite r) by (intros c' Hin; apply (H c'); right; exact Hin).
  destruct e as [c [|]|d|c]; try exact (IH Hr). exfalso. apply (H c). left; reflexivity.
Qed.

Lemma ext_ok_count tr ok : ext_ok tr ok -> count_ev ev_is_okwrite tr = if ok then 1 else 0.
Proof.
  unfold count_ev. destruct ok; cbn [ext_ok].
  - intros (pre & c & -> & Hpre). rewrite filter_app, (no_okwrite_filter _ Hpre). reflexivity.
  - intros H. rewrite (no_okwrite_filter _ H). reflexivity.
Qed.

Lemma judge_intro tr ok :
  ext_ok tr ok -> failed_forgotten tr = true ->
  count_ev ev_is_dial tr <= 2 -> count_ev ev_is_write tr <= 3 -> judge_C20_send tr ok = true.
Proof.
  intros Hx Hff Hd Hw. apply judge_parts. split; [|auto]. rewrite (ext_ok_count _ _ Hx).
  destruct ok; [split|]; try reflexivity.
  destruct Hx as (pre & c & -> & _). rewrite filter_app. cbn [filter ev_is_write]. rewrite last_last. reflexivity.
Qed.

Lemma shape_judged {abort k conn n conn' n' tr ok} :
  shape abort k conn n conn' n' tr ok -> b_wf conn n -> k <= 2 -> judge_C20_send tr ok = true.
Proof.
  intros Hs Hc Hk. destruct (shape_counts Hs) as (Hd & Hw).
  apply judge_intro; [exact (shape_ext Hs)|exact (shape_forgotten Hs Hc)|lia|lia].
Qed.

(* two sends in a row on different connections, the first one failing; the bounds of the judge
   leave room for one write and no dial in the first *)
Lemma shapes_judged {a1 a2 k1 k2 c1 c2 n c1' n1 c2' n2 tr1 tr2 ok} :
  shape a1 k1 c1 n c1' n1 tr1 false -> shape a2 k2 c2 n1 c2' n2 tr2 ok ->
  b_wf c1 n -> b_wf c2 n -> (forall c, c1 = Some c -> c2 = Some c -> False) ->
  k1 <= cached c1 -> k2 <= 2 -> judge_C20_send (tr1 ++ tr2) ok = true.
Proof.
  intros S1 S2 H1 H2 Hne Hk1 Hk2.
  destruct (shape_ids S1) as (Hle & _ & Hi1). destruct (shape_ids S2) as (_ & _ & Hi2).
  assert (H2' : b_wf c2 n1) by (intros d E; specialize (H2 d E); lia).
  destruct (shape_counts S1) as (Hd1 & Hw1). destruct (shape_counts S2) as (Hd2 & Hw2).
  assert (Hx : cached c1 <= 1) by (destruct c1; cbn; lia).
  apply judge_intro.
  - exact (ext_ok_prefix _ _ _ (shape_ext S1) (shape_ext S2)).
  - refine (failed_forgotten_app _ _ _ Hi2 (shape_forgotten S2 H2') _ Hi1 _ (shape_forgotten S1 H1)).
    cbv beta. intros c [E|E] [E'|E'].
    + exact (Hne c E E').
    + specialize (H1 c E). lia.
    + specialize (H2 c E'). lia.
    + lia.
  - rewrite count_ev_app. lia.
  - rewrite count_ev_app. lia.
Qed.

Lemma client_cached_ok t c w :
  tc_conn t = Some c -> next_write c w = true ->
  tcp_client_send t w = (t, after_write c w, [EWrite c true], true).
Proof.
  intros Hc Hn. unfold tcp_client_send. rewrite (loop_cached _ _ _ _ c) by exact Hc.
  rewrite Hn. reflexivity.
Qed.

Lemma client_norec_fail t c w :
  tc_conn t = Some c -> tc_reconnectable t = false -> next_write c w = false ->
  tcp_client_send t w =
  ({| tc_conn := None; tc_reconnectable := false |}, after_write c w, [EWrite c false; EClose c], false).
Proof.
  intros Hc Hr Hn. unfold tcp_client_send. rewrite (loop_cached _ _ _ _ c) by exact Hc.
  rewrite Hn, Hr, loop_norec. reflexivity.
Qed.

(* a transport that may be absent (the two fields of FailOverClientTransport) *)
Definition oconn (o : option tcp_client) : option nat :=
  match o with Some t => tc_conn t | None => None end.
Definition orec (o : option tcp_client) : bool :=
  match o with Some t => tc_reconnectable t | None => false end.
Definition opt_send (o : option tcp_client) (w : world) : option tcp_client * world * list io_event * bool :=
  match o with
  | Some t => let '(t', w', tr, ok) := tcp_client_send t w in (Some t', w', tr, ok)
  | None => (None, w, [], false)
  end.

(* primary, then (unless it wrote the message) forget it and try the secondary *)
Lemma failover_send_eq f w :
  failover_send f w =
  let '(p1, w1, tr1, ok1) := opt_send (fo_primary f) w in
  if ok1 then ({| fo_primary := p1; fo_secondary := fo_secondary f |}, w1, tr1, true)
  else let '(s2, w2, tr2, ok2) := opt_send (fo_secondary f) w1 in
       ({| fo_primary := None; fo_secondary := s2 |}, w2, tr1 ++ tr2, ok2).
Proof.
  unfold failover_send, opt_send. destruct f as [[p|] [s|]]; cbn [fo_primary fo_secondary].
  - destruct (tcp_client_send p w) as [[[p' w1] tr1] [|]]; [reflexivity|]. cbn [fo_secondary fo_primary].
    destruct (tcp_client_send s w1) as [[[s' w2] tr2] ok2]. reflexivity.
  - destruct (tcp_client_send p w) as [[[p' w1] tr1] [|]]; [reflexivity|]. cbn [fo_secondary].
    rewrite app_nil_r. reflexivity.
  - destruct (tcp_client_send s w) as [[[s' w2] tr2] ok2]. reflexivity.
  - reflexivity.
Qed.

(* A transport that may not dial behaves like one that runs out of iterations before its first
   dial: one iteration if there is a connection to write on, none otherwise. *)
Definition fuel (o : option tcp_client) : nat := if orec o then 2 else cached (oconn o).

Lemma opt_send_shape o w o' w' tr ok :
  opt_send o w = (o', w', tr, ok) ->
  orec o' = orec o /\
  shape true (fuel o) (oconn o) (w_next w) (oconn o') (w_next w') tr ok /\ (w_wf w -> w_wf w').
Proof.
  unfold fuel. destruct o as [[conn [|]]|]; cbn [opt_send orec oconn cached tc_conn tc_reconnectable]; intros H.
  - destruct (tcp_client_send _ w) as [[[t' w1] tr1] ok1] eqn:E. inv H.
    apply cloop_shape in E. destruct E as (ext & -> & Hr & Hs & Hw). auto.
  - destruct conn as [c|]; [destruct (next_write c w) eqn:Hn|].
    + rewrite (client_cached_ok _ c) in H by auto. inv H. rewrite after_write_next.
      repeat split; [constructor|apply after_write_wf].
    + rewrite (client_norec_fail _ c) in H by auto. inv H. rewrite after_write_next.
      repeat split; [apply (sh_fail true 0), sh_zero|apply after_write_wf].
    + unfold tcp_client_send in H. rewrite loop_norec in H. inv H. repeat split; [constructor|trivial].
  - inv H. repeat split; [constructor|trivial].
Qed.

Definition primary_id (f : failover) : option nat :=
  match fo_primary f with Some p => tc_conn p | None => None end.
Definition secondary_id (f : failover) : option nat :=
  match fo_secondary f with Some s => tc_conn s | None => None end.
(* the primary (an inbound connection) cannot be re-dialled; cached connection ids are already
   allocated (below the counter n, so that a dialled id is new) and pairwise distinct *)
Definition fo_wf (f : failover) (n : nat) : Prop :=
  (forall p, fo_primary f = Some p -> tc_reconnectable p = false) /\
  (forall c, primary_id f = Some c -> c < n) /\
  (forall d, secondary_id f = Some d -> d < n) /\
  (forall c d, primary_id f = Some c -> secondary_id f = Some d -> c <> d).

Lemma fo_wf_iff f n :
  fo_wf f n <->
  orec (fo_primary f) = false /\ b_wf (oconn (fo_primary f)) n /\ b_wf (oconn (fo_secondary f)) n /\
  (forall c d, oconn (fo_primary f) = Some c -> oconn (fo_secondary f) = Some d -> c <> d).
Proof.
  unfold fo_wf, primary_id, secondary_id, b_wf, oconn, orec.
  destruct (fo_primary f) as [p|]; split; intros (H1 & H); (split; [|exact H]).
  - exact (H1 p eq_refl).
  - intros p0 E. inv E. exact H1.
  - reflexivity.
  - intros p0 E. discriminate E.
Qed.

Theorem failover_send_spec {f w f' w' tr ok} :
  fo_wf f (w_next w) -> failover_send f w = (f', w', tr, ok) ->
  judge_C20_send tr ok = true /\ fo_wf f' (w_next w') /\ w_next w <= w_next w'.
Proof.
  intros Hf H. apply fo_wf_iff in Hf. destruct Hf as (Hrec & Hc & Hd & Hcd).
  rewrite failover_send_eq in H.
  destruct (opt_send (fo_primary f) w) as [[[p1 w1] tr1] ok1] eqn:E1.
  apply opt_send_shape in E1. destruct E1 as (Hr1 & S1 & _).
  unfold fuel in S1. rewrite Hrec in S1, Hr1.
  destruct (shape_ids S1) as (_ & Hid1 & _). destruct (shape_below S1 Hc) as (Hle1 & Hc1 & _).
  assert (Hd1 : b_wf (oconn (fo_secondary f)) (w_next w1)) by (intros d E; specialize (Hd d E); lia).
  destruct ok1.
  - inv H. split; [|split; [apply fo_wf_iff; cbn [fo_primary fo_secondary]; repeat split|exact Hle1]];
      [|exact Hr1|exact Hc1|exact Hd1|].
    + apply (shape_judged S1 Hc). destruct (oconn (fo_primary f)); cbn; lia.
    + (* a kept primary connection is the old one, or newer than the secondary's *)
      intros c d Ec Ed. specialize (Hd d Ed).
      destruct (Hid1 c Ec) as [E|E]; [exact (Hcd c d E Ed)|lia].
  - destruct (opt_send (fo_secondary f) w1) as [[[s2 w2] tr2] ok2] eqn:E2.
    apply opt_send_shape in E2. destruct E2 as (_ & S2 & _). inv H.
    destruct (shape_below S2 Hd1) as (Hle2 & Hc2 & _).
    split; [|split; [apply fo_wf_iff; cbn [fo_primary fo_secondary orec oconn]; repeat split|lia]];
      [|intros c E; discriminate E|exact Hc2|intros c d E; discriminate E].
    apply (shapes_judged S1 S2 Hc Hd (fun c E E' => Hcd c c E E' eq_refl) (le_n _)).
    unfold fuel, cached. destruct (orec (fo_secondary f)), (oconn (fo_secondary f)); lia.
Qed.

(* no hypothesis at all on the state or the world *)
Theorem failover_ext_ok {f w f' w' tr ok} :
  failover_send f w = (f', w', tr, ok) -> ext_ok tr ok.
Proof.
  intros H. rewrite failover_send_eq in H.
  destruct (opt_send (fo_primary f) w) as [[[p1 w1] tr1] ok1] eqn:E1.
  apply opt_send_shape in E1. destruct E1 as (_ & S1 & _). apply shape_ext in S1.
  destruct ok1; [inv H; exact S1|].
  destruct (opt_send (fo_secondary f) w1) as [[[s2 w2] tr2] ok2] eqn:E2.
  apply opt_send_shape in E2. destruct E2 as (_ & S2 & _). apply shape_ext in S2.
  inv H. exact (ext_ok_prefix _ _ _ S1 S2).
Qed.

Theorem failover_send_w_wf f w f' w' tr ok :
  w_wf w -> failover_send f w = (f', w', tr, ok) -> w_wf w'.
Proof.
  intros Hw H. rewrite failover_send_eq in H.
  destruct (opt_send (fo_primary f) w) as [[[p1 w1] tr1] ok1] eqn:E1.
  apply opt_send_shape in E1. destruct E1 as (_ & _ & Hw1). specialize (Hw1 Hw).
  destruct ok1; [inv H; exact Hw1|].
  destruct (opt_send (fo_secondary f) w1) as [[[s2 w2] tr2] ok2] eqn:E2.
  apply opt_send_shape in E2. destruct E2 as (_ & _ & Hw2). inv H. exact (Hw2 Hw1).
Qed.

Theorem failover_send_ids {f w f' w' tr ok} :
  fo_wf f (w_next w) -> failover_send f w = (f', w', tr, ok) ->
  ids_in (fun c => c < w_next w') tr.
Proof.
  intros Hf H. apply fo_wf_iff in Hf. destruct Hf as (_ & Hc & Hd & _).
  rewrite failover_send_eq in H.
  destruct (opt_send (fo_primary f) w) as [[[p1 w1] tr1] ok1] eqn:E1.
  apply opt_send_shape in E1. destruct E1 as (_ & S1 & _).
  destruct (shape_below S1 Hc) as (Hle1 & _ & Hi1).
  destruct ok1; [inv H; exact Hi1|].
  destruct (opt_send (fo_secondary f) w1) as [[[s2 w2] tr2] ok2] eqn:E2.
  apply opt_send_shape in E2. destruct E2 as (_ & S2 & _). inv H.
  assert (Hd1 : b_wf (oconn (fo_secondary f)) (w_next w1)) by (intros d E; specialize (Hd d E); lia).
  destruct (shape_below S2 Hd1) as (Hle2 & _ & Hi2).
  apply ids_in_app; [|exact Hi2]. eapply ids_in_weaken; [|exact Hi1]. cbv beta. intros c Hlt; lia.
Qed.

Lemma backend_shape conn w conn' w' tr ok :
  tcp_backend_send conn w = (conn', w', tr, ok) ->
  shape false 2 conn (w_next w) conn' (w_next w') tr ok /\ (w_wf w -> w_wf w').
Proof. intros H. apply bloop_shape in H. destruct H as (ext & -> & H). exact H. Qed.

Theorem backend_send_spec {conn w conn' w' tr ok} :
  b_wf conn (w_next w) -> tcp_backend_send conn w = (conn', w', tr, ok) ->
  judge_C20_send tr ok = true /\ b_wf conn' (w_next w') /\ w_next w <= w_next w'.
Proof.
  intros Hc H. apply backend_shape in H. destruct H as (Hs & _).
  destruct (shape_below Hs Hc) as (Hle & Hc' & _).
  split; [exact (shape_judged Hs Hc (le_n _))|split; assumption].
Qed.

Theorem backend_send_w_wf conn w conn' w' tr ok :
  w_wf w -> tcp_backend_send conn w = (conn', w', tr, ok) -> w_wf w'.
Proof. intros Hw H. apply backend_shape in H. exact (proj2 H Hw). Qed.

Theorem backend_send_ids {conn w conn' w' tr ok} :
  b_wf conn (w_next w) -> tcp_backend_send conn w = (conn', w', tr, ok) ->
  ids_in (fun c => c < w_next w') tr.
Proof. intros Hc H. apply backend_shape in H. exact (proj2 (proj2 (shape_below (proj1 H) Hc))). Qed.

Theorem C20_judged_client : forall f w,
  fo_wf f (w_next w) ->
  let '(_, _, tr, ok) := failover_send f w in judge_C20_send tr ok = true.
Proof.
  intros f w Hwf. destruct (failover_send f w) as [[[f' w'] tr] ok] eqn:E.
  exact (proj1 (failover_send_spec Hwf E)).
Qed.

Theorem C20_judged_backend : forall conn w,
  b_wf conn (w_next w) ->
  let '(_, _, tr, ok) := tcp_backend_send conn w in judge_C20_send tr ok = true.
Proof.
  intros conn w Hwf. destruct (tcp_backend_send conn w) as [[[c' w'] tr] ok] eqn:E.
  exact (proj1 (backend_send_spec Hwf E)).
Qed.

(* A schedule: before each send the world is prepared (Run.run_sendfault installs the dial
   results of that send with [with_plan]); each send yields one output.  If every send from a
   state satisfying inv yields a good output and a state satisfying inv, all outputs are good. *)
Section Schedule.
  Variables (S P A : Type) (send : S -> world -> S * world * list io_event * bool)
            (prep : world -> P -> world) (out : world -> list io_event -> bool -> A)
            (inv : S -> world -> Prop) (good : A -> bool).
  Hypothesis step : forall s w p s' w' tr ok,
    inv s w -> send s (prep w p) = (s', w', tr, ok) -> good (out w' tr ok) = true /\ inv s' w'.

  Fixpoint outs (ps : list P) (s : S) (w : world) : list A :=
    match ps with
    | [] => []
    | p :: r => let '(s', w', tr, ok) := send s (prep w p) in out w' tr ok :: outs r s' w'
    end.

  Lemma outs_good : forall ps s w, inv s w -> forallb good (outs ps s w) = true.
  Proof.
    induction ps as [|p r IH]; intros s w Hi; [reflexivity|].
    cbn [outs]. destruct (send s (prep w p)) as [[[s' w'] tr] ok] eqn:E.
    destruct (step _ _ _ _ _ _ _ Hi E) as (Hg & Hi'). cbn [forallb]. rewrite Hg. exact (IH _ _ Hi').
  Qed.
End Schedule.

Theorem C20_judged_client_seq : forall k f w,
  fo_wf f (w_next w) -> judge_C20 (failover_sends k f w) = true.
Proof.
  induction k as [|k IH]; intros f w Hwf; [reflexivity|].
  cbn [failover_sends]. destruct (failover_send f w) as [[[f' w'] tr] ok] eqn:E.
  destruct (failover_send_spec Hwf E) as (Hj & Hwf' & _).
  cbn. rewrite Hj. apply IH. exact Hwf'.
Qed.

Theorem C20_judged_backend_seq : forall k conn w,
  b_wf conn (w_next w) -> judge_C20 (backend_sends k conn w) = true.
Proof.
  induction k as [|k IH]; intros conn w Hwf; [reflexivity|].
  cbn [backend_sends]. destruct (tcp_backend_send conn w) as [[[c' w'] tr] ok] eqn:E.
  destruct (backend_send_spec Hwf E) as (Hj & Hwf' & _).
  cbn. rewrite Hj. apply IH. exact Hwf'.
Qed.

(* the same along the schedule used by Run.run_sendfault: before each send the dial results
   of that send are installed with [with_plan] *)
Fixpoint client_traces (plans : list (list conn_script)) (f : failover) (w : world)
  : list (list io_event * bool) :=
  match plans with
  | [] => []
  | pl :: r => let '(f', w', tr, ok) := failover_send f (with_plan w pl) in
               (tr, ok) :: client_traces r f' w'
  end.
Fixpoint backend_traces (plans : list (list conn_script)) (c : option nat) (w : world)
  : list (list io_event * bool) :=
  match plans with
  | [] => []
  | pl :: r => let '(c', w', tr, ok) := tcp_backend_send c (with_plan w pl) in
               (tr, ok) :: backend_traces r c' w'
  end.

(* [with_plan] leaves w_next alone, so fo_wf / b_wf of the prepared world is that of w *)
Theorem C20_judged_client_plans : forall plans f w,
  fo_wf f (w_next w) -> judge_C20 (client_traces plans f w) = true.
Proof.
  refine (outs_good _ _ _ failover_send with_plan (fun _ tr ok => (tr, ok))
                    (fun f w => fo_wf f (w_next w)) _ _).
  intros f w pl f' w' tr ok Hwf E.
  destruct (failover_send_spec (w := with_plan w pl) Hwf E) as (Hj & Hwf' & _). auto.
Qed.

Theorem C20_judged_backend_plans : forall plans conn w,
  b_wf conn (w_next w) -> judge_C20 (backend_traces plans conn w) = true.
Proof.
  refine (outs_good _ _ _ tcp_backend_send with_plan (fun _ tr ok => (tr, ok))
                    (fun c w => b_wf c (w_next w)) _ _).
  intros c w pl c' w' tr ok Hwf E.
  destruct (backend_send_spec (w := with_plan w pl) Hwf E) as (Hj & Hwf' & _). auto.
Qed.

Lemma with_plan_wf w pl : w_wf w -> w_wf (with_plan w pl).
Proof. intros H. exact H. Qed.

Theorem C20_success_means_written : forall f w f' w' tr,
  failover_send f w = (f', w', tr, true) ->
  exists pre c, tr = pre ++ [EWrite c true] /\ (forall c', ~ In (EWrite c' true) pre).
Proof. intros f w f' w' tr H. exact (failover_ext_ok H). Qed.

Theorem C20_error_means_unwritten : forall f w f' w' tr,
  failover_send f w = (f', w', tr, false) -> forall c, ~ In (EWrite c true) tr.
Proof. intros f w f' w' tr H. exact (failover_ext_ok H). Qed.

Lemma backend_ext_ok {conn w conn' w' tr ok} :
  tcp_backend_send conn w = (conn', w', tr, ok) -> ext_ok tr ok.
Proof. intros H. apply backend_shape in H. exact (shape_ext (proj1 H)). Qed.

Theorem C20_success_means_written_backend : forall conn w conn' w' tr,
  tcp_backend_send conn w = (conn', w', tr, true) ->
  exists pre c, tr = pre ++ [EWrite c true] /\ (forall c', ~ In (EWrite c' true) pre).
Proof. intros conn w conn' w' tr H. exact (backend_ext_ok H). Qed.

Theorem C20_error_means_unwritten_backend : forall conn w conn' w' tr,
  tcp_backend_send conn w = (conn', w', tr, false) -> forall c, ~ In (EWrite c true) tr.
Proof. intros conn w conn' w' tr H. exact (backend_ext_ok H). Qed.

Theorem C20_okwrite_count : forall f w f' w' tr ok,
  failover_send f w = (f', w', tr, ok) ->
  List.length (filter ev_is_okwrite tr) = if ok then 1 else 0.
Proof. intros f w f' w' tr ok H. exact (ext_ok_count _ _ (failover_ext_ok H)). Qed.

Theorem C20_okwrite_count_backend : forall conn w conn' w' tr ok,
  tcp_backend_send conn w = (conn', w', tr, ok) ->
  List.length (filter ev_is_okwrite tr) = if ok then 1 else 0.
Proof. intros conn w conn' w' tr ok H. exact (ext_ok_count _ _ (backend_ext_ok H)). Qed.

Theorem C20_no_dup : forall f w f' w' tr ok,
  failover_send f w = (f', w', tr, ok) -> List.length (filter ev_is_okwrite tr) <= 1.
Proof. intros f w f' w' tr ok H. rewrite (C20_okwrite_count _ _ _ _ _ _ H). destruct ok; lia. Qed.

Theorem C20_no_dup_backend : forall conn w conn' w' tr ok,
  tcp_backend_send conn w = (conn', w', tr, ok) -> List.length (filter ev_is_okwrite tr) <= 1.
Proof. intros conn w conn' w' tr ok H. rewrite (C20_okwrite_count_backend _ _ _ _ _ _ H). destruct ok; lia. Qed.

Lemma failover_primary_none f w :
  fo_primary f = None ->
  failover_send f w =
  let '(s2, w2, tr2, ok) := opt_send (fo_secondary f) w in
  ({| fo_primary := None; fo_secondary := s2 |}, w2, tr2, ok).
Proof.
  intros H. rewrite failover_send_eq, H. cbn [opt_send].
  destruct (opt_send (fo_secondary f) w) as [[[s2 w2] tr2] ok]. reflexivity.
Qed.

Lemma failover_primary_ok f w p c :
  fo_primary f = Some p -> tc_conn p = Some c -> next_write c w = true ->
  failover_send f w =
  ({| fo_primary := Some p; fo_secondary := fo_secondary f |}, after_write c w, [EWrite c true], true).
Proof.
  intros Hp Hc Hn. rewrite failover_send_eq, Hp. cbn [opt_send].
  rewrite (client_cached_ok _ _ _ Hc Hn). reflexivity.
Qed.

Lemma failover_primary_fail f w p c :
  fo_primary f = Some p -> tc_conn p = Some c -> tc_reconnectable p = false ->
  next_write c w = false ->
  failover_send f w =
  let '(s2, w2, tr2, ok) := opt_send (fo_secondary f) (after_write c w) in
  ({| fo_primary := None; fo_secondary := s2 |}, w2, [EWrite c false; EClose c] ++ tr2, ok).
Proof.
  intros Hp Hc Hr Hn. rewrite failover_send_eq, Hp. cbn [opt_send].
  rewrite (client_norec_fail _ _ _ Hc Hr Hn). reflexivity.
Qed.

Lemma loop_dial n w tr s rest :
  w_wf w -> w_dials w = Some s :: rest ->
  tcp_client_send_loop (S n) {| tc_conn := None; tc_reconnectable := true |} w tr =
  if hd true s
  then ({| tc_conn := Some (w_next w); tc_reconnectable := true |},
        after_write (w_next w) (after_dial w), tr ++ [EDial (Some (w_next w)); EWrite (w_next w) true], true)
  else tcp_client_send_loop n {| tc_conn := None; tc_reconnectable := true |}
         (after_write (w_next w) (after_dial w))
         (tr ++ [EDial (Some (w_next w)); EWrite (w_next w) false; EClose (w_next w)]).
Proof.
  intros Hw Hd. rewrite loop_none_rec by reflexivity. rewrite (w_dial_some _ _ _ Hd). cbn [snd].
  rewrite (loop_cached _ _ _ _ (w_next w)) by reflexivity.
  rewrite (next_write_fresh _ _ _ Hw Hd), <- !app_assoc. reflexivity.
Qed.

Lemma loop_dial_fail n w tr s rest :
  w_wf w -> w_dials w = Some s :: rest -> hd true s = false ->
  tcp_client_send_loop (S n) {| tc_conn := None; tc_reconnectable := true |} w tr =
  tcp_client_send_loop n {| tc_conn := None; tc_reconnectable := true |}
    (after_write (w_next w) (after_dial w))
    (tr ++ [EDial (Some (w_next w)); EWrite (w_next w) false; EClose (w_next w)]).
Proof. intros Hw Hd Hs. rewrite (loop_dial _ _ _ _ _ Hw Hd), Hs. reflexivity. Qed.

Lemma client_fresh w s rest :
  w_wf w -> w_dials w = Some s :: rest -> hd true s = true ->
  tcp_client_send {| tc_conn := None; tc_reconnectable := true |} w =
  ({| tc_conn := Some (w_next w); tc_reconnectable := true |},
   after_write (w_next w) (after_dial w), [EDial (Some (w_next w)); EWrite (w_next w) true], true).
Proof. intros Hw Hd Hs. unfold tcp_client_send. rewrite (loop_dial _ _ _ _ _ Hw Hd), Hs. reflexivity. Qed.

(* stale cached connection failing once, then a healthy dialled connection *)
Lemma client_stale d w s rest :
  w_wf w -> next_write d w = false -> w_dials w = Some s :: rest -> hd true s = true ->
  tcp_client_send {| tc_conn := Some d; tc_reconnectable := true |} w =
  ({| tc_conn := Some (w_next w); tc_reconnectable := true |},
   after_write (w_next w) (after_dial (after_write d w)),
   [EWrite d false; EClose d; EDial (Some (w_next w)); EWrite (w_next w) true], true).
Proof.
  intros Hw Hn Hd Hs. unfold tcp_client_send. rewrite (loop_cached _ _ _ _ d) by reflexivity.
  rewrite Hn. cbn [tc_reconnectable].
  assert (Hd' : w_dials (after_write d w) = Some s :: rest) by (rewrite after_write_eq; exact Hd).
  rewrite (loop_dial _ _ _ _ _ (after_write_wf d w Hw) Hd'), Hs, after_write_next. reflexivity.
Qed.

Theorem C20_failover : forall f w p c s rest,
  w_wf w -> fo_wf f (w_next w) ->
  fo_primary f = Some p -> tc_conn p = Some c -> next_write c w = false ->
  fo_secondary f = Some {| tc_conn := None; tc_reconnectable := true |} ->
  w_dials w = Some s :: rest -> hd true s = true ->
  failover_send f w =
    ({| fo_primary := None;
        fo_secondary := Some {| tc_conn := Some (w_next w); tc_reconnectable := true |} |},
     after_write (w_next w) (after_dial (after_write c w)),
     [EWrite c false; EClose c; EDial (Some (w_next w)); EWrite (w_next w) true], true)
  /\ c <> w_next w.
Proof.
  intros f w p c s rest Hw (Hrec & Hc & _ & _) Hp Hpc Hn Hs Hd Hh.
  specialize (Hrec _ Hp). unfold primary_id in Hc. rewrite Hp in Hc. specialize (Hc _ Hpc).
  split; [|lia].
  rewrite (failover_primary_fail _ _ _ _ Hp Hpc Hrec Hn), Hs. cbn [opt_send].
  assert (Hd' : w_dials (after_write c w) = Some s :: rest) by (rewrite after_write_eq; exact Hd).
  rewrite (client_fresh _ _ _ (after_write_wf c w Hw) Hd' Hh), after_write_next. reflexivity.
Qed.

(* After the fail-over of C20_failover, the next send (in any later world w2, e.g. w' itself or
   [with_plan w' pl]) never mentions the forgotten connection c, starts with a write on the
   connection dialled by the fail-over, and if that write is accepted it is the whole send. *)
Theorem C20_later_direct : forall f w p c s rest,
  w_wf w -> fo_wf f (w_next w) ->
  fo_primary f = Some p -> tc_conn p = Some c -> next_write c w = false ->
  fo_secondary f = Some {| tc_conn := None; tc_reconnectable := true |} ->
  w_dials w = Some s :: rest -> hd true s = true ->
  forall f' w' tr ok, failover_send f w = (f', w', tr, ok) ->
  forall w2, w_next w' <= w_next w2 ->          (* e.g. w2 = w' or with_plan w' pl *)
  forall f2 w3 tr2 ok2, failover_send f' w2 = (f2, w3, tr2, ok2) ->
  (forall e, In e tr2 -> ~ In c (ev_ids e)) /\
  (exists b rest2, tr2 = EWrite (w_next w) b :: rest2) /\
  (next_write (w_next w) w2 = true -> tr2 = [EWrite (w_next w) true] /\ ok2 = true /\ f2 = f').
Proof.
  intros f w p c s rest Hw Hf Hp Hpc Hn Hs Hd Hh f' w' tr ok E w2 Hle f2 w3 tr2 ok2 E2.
  destruct (C20_failover _ _ _ _ _ _ Hw Hf Hp Hpc Hn Hs Hd Hh) as [E0 Hne].
  rewrite E0 in E. inv E.
  pose proof (after_dial_next_le (after_write c w)) as Hm. rewrite after_write_next in Hle, Hm.
  destruct Hf as (_ & Hc & _ & _). unfold primary_id in Hc. rewrite Hp in Hc. specialize (Hc _ Hpc).
  rewrite failover_primary_none in E2 by reflexivity. cbn [fo_secondary] in E2.
  destruct (opt_send _ w2) as [[[s2 w4] tr4] ok4] eqn:E4. inv E2.
  destruct (opt_send_shape _ _ _ _ _ _ E4) as (_ & S4 & _).
  unfold fuel in S4. cbn [orec oconn tc_conn tc_reconnectable] in S4.
  split; [|split].
  - (* tr2 talks about the dialled connection and newer ones *)
    destruct (shape_ids S4) as (_ & _ & Hids).
    intros e Hin Hce. specialize (Hids e Hin c Hce). cbv beta in Hids.
    destruct Hids as [Heq|Hr]; [inv Heq|]; lia.
  - inv S4; eexists; eexists; reflexivity.
  - intros Hn2. cbn [opt_send] in E4.
    rewrite (client_cached_ok {| tc_conn := Some (w_next w); tc_reconnectable := true |}
                                (w_next w) w2 eq_refl Hn2) in E4. inv E4. auto.
Qed.

Lemma opt_send_idle o w : oconn o = None -> orec o = false -> opt_send o w = (o, w, [], false).
Proof.
  destruct o as [[conn rec]|]; cbn [opt_send oconn orec tc_conn tc_reconnectable]; [|reflexivity].
  intros -> ->.
  unfold tcp_client_send. rewrite loop_norec. reflexivity.
Qed.

Lemma after_dial_refused w :
  dial_refused w -> w_conns (after_dial w) = w_conns w /\ w_next (after_dial w) = w_next w.
Proof. intros H. unfold after_dial. rewrite (w_dial_refused _ H). split; reflexivity. Qed.

(* A destination that refuses connections, no cached connection: FailOver.Send makes at most one
   dial attempt (so at most 2), writes nothing, touches no connection, and reports an error. *)
Theorem C20_refused : forall f w f' w' tr ok,
  fo_wf f (w_next w) -> dial_refused w -> primary_id f = None -> secondary_id f = None ->
  failover_send f w = (f', w', tr, ok) ->
  ok = false /\ (tr = [] \/ tr = [EDial None]) /\
  List.length (filter ev_is_dial tr) <= 2 /\ filter ev_is_write tr = [] /\
  w_conns w' = w_conns w /\ w_next w' = w_next w /\ primary_id f' = None /\ secondary_id f' = None.
Proof.
  intros f w f' w' tr ok Hf Hr Hp Hs H. apply fo_wf_iff in Hf. destruct Hf as (Hrec & _).
  rewrite failover_send_eq, (opt_send_idle _ _ Hp Hrec) in H.
  unfold secondary_id in Hs. destruct (orec (fo_secondary f)) eqn:Hsr.
  - destruct (fo_secondary f) as [[sc sr]|]; [|discriminate Hsr]. cbn in Hs, Hsr. subst sc sr.
    cbn [opt_send] in H. unfold tcp_client_send in H. rewrite loop_none_rec in H by reflexivity.
    rewrite (w_dial_refused _ Hr) in H. cbn [snd] in H. inv H.
    destruct (after_dial_refused _ Hr) as [A1 A2]. cbn. auto 10.
  - rewrite (opt_send_idle _ _ Hs Hsr) in H. inv H. cbn. auto 10.
Qed.

(* TCPBackend.Send does not abort on a refused dial: it dials once per iteration *)
Theorem C20_refused_backend : forall w conn' w' tr ok,
  dial_refused w -> dial_refused (after_dial w) ->
  tcp_backend_send None w = (conn', w', tr, ok) ->
  ok = false /\ tr = [EDial None; EDial None] /\ conn' = None /\
  w_conns w' = w_conns w /\ w_next w' = w_next w.
Proof.
  intros w conn' w' tr ok Hr1 Hr2 H. unfold tcp_backend_send in H.
  rewrite bloop_none in H. rewrite (w_dial_refused _ Hr1) in H. cbn [snd] in H.
  rewrite bloop_none in H. rewrite (w_dial_refused _ Hr2) in H. cbn [snd tcp_backend_send_loop app] in H.
  inv H. destruct (after_dial_refused _ Hr1) as [A1 A2]. destruct (after_dial_refused _ Hr2) as [B1 B2].
  rewrite B1, B2, A1, A2. auto.
Qed.

(* The statement
     forall next tr ok, judge_C20_send tr ok = true -> judge_C20_obs (obs_of_trace next tr ok) = true
   is FALSE: [so_dialled] only counts the accepted writes on ids 2 .. next-1, so an accepted write
   on an id >= next is not seen by the observation (see the Example right below).  The minimal extra
   hypothesis is [okwrites_below next tr]; it holds for every trace produced from a well-formed
   state with next = w_next of the world AFTER the send (failover_send_ids / backend_send_ids
   above). *)
Example C20_obs_needs_ids :
  judge_C20_send [EWrite 5 true] true = true /\
  judge_C20_obs (obs_of_trace 2 [EWrite 5 true] true) = false.
Proof. split; vm_compute; reflexivity. Qed.

Definition okwrites_below (next : nat) (tr : list io_event) : Prop :=
  forall c, In (EWrite c true) tr -> c < next.
Lemma ids_in_okwrites next tr : ids_in (fun c => c < next) tr -> okwrites_below next tr.
Proof. intros H c Hin. apply (H _ Hin c). left; reflexivity. Qed.

Lemma count_ev_le f g tr : (forall e, f e = true -> g e = true) -> count_ev f tr <= count_ev g tr.
Proof.
  intros H. induction tr as [|e r IH]; [cbn; lia|]. rewrite !count_ev_cons.
  destruct (f e) eqn:Ef; [rewrite (H e Ef)|]; cbn [Nat.b2n]; lia.
Qed.
Lemma count_ev_in f e tr : In e tr -> f e = true -> 1 <= count_ev f tr.
Proof.
  induction tr as [|e' r IH]; intros Hin He; [contradiction|]. rewrite count_ev_cons.
  destruct Hin as [->|Hin]; [rewrite He; cbn; lia|]. specialize (IH Hin He). lia.
Qed.
Lemma existsb_false_count f tr : existsb f tr = false -> count_ev f tr = 0.
Proof.
  induction tr as [|e r IH]; [reflexivity|]. cbn [existsb]. rewrite count_ev_cons.
  destruct (f e); cbn; [discriminate|exact IH].
Qed.

Lemma okwrite_write e : ev_is_okwrite e = true -> ev_is_write e = true.
Proof. destruct e as [c [|]|d|c]; cbn; congruence. Qed.
Lemma writes_to_write c e : ev_writes_to c e = true -> ev_is_write e = true.
Proof. destruct e as [c' b|d|c']; cbn; congruence. Qed.

(* an accepted write is the last write of the trace *)
Lemma okwrite_is_last (tr : list io_event) (ok : bool) :
  (if ok then count_ev ev_is_okwrite tr = 1 /\
              ev_is_okwrite (last (filter ev_is_write tr) (EClose 0)) = true
   else count_ev ev_is_okwrite tr = 0) ->
  forall pre e post, tr = pre ++ e :: post -> ev_is_okwrite e = true -> filter ev_is_write post = [].
Proof.
  intros H pre e post -> He.
  rewrite count_ev_app, count_ev_cons, He in H. cbn [Nat.b2n] in H.
  destruct ok; [|lia]. destruct H as [Hcnt Hlast].
  destruct (filter ev_is_write post) as [|y q] eqn:Eq; [reflexivity|exfalso].
  assert (Hne : y :: q <> []) by discriminate.
  destruct (exists_last Hne) as (q' & x & Ex).
  rewrite filter_app in Hlast. cbn [filter] in Hlast.
  rewrite (okwrite_write _ He), Eq, Ex, app_comm_cons, app_assoc, last_last in Hlast.
  assert (Hx : In x post).
  { assert (Hx : In x (filter ev_is_write post)) by (rewrite Eq, Ex; apply in_or_app; right; left; reflexivity).
    apply filter_In in Hx. apply Hx. }
  pose proof (count_ev_in _ _ _ Hx Hlast). lia.
Qed.

Lemma failed_forgotten_tl e r : failed_forgotten (e :: r) = true -> failed_forgotten r = true.
Proof.
  destruct e as [c [|]|d|c]; cbn [failed_forgotten]; try (intros H; exact H).
  destruct r as [|[c' b|d|c'] r']; try discriminate.
  rewrite !andb_true_iff. intros (_ & H). exact H.
Qed.

(* a connection is written at most once per send *)
Lemma writes_once c : forall tr,
  failed_forgotten tr = true ->
  (forall pre e post, tr = pre ++ e :: post -> ev_is_okwrite e = true -> filter ev_is_write post = []) ->
  count_ev (ev_writes_to c) tr <= 1.
Proof.
  induction tr as [|e r IH]; intros Hff Hlast; [cbn; lia|].
  rewrite count_ev_cons. destruct (ev_writes_to c e) eqn:Ew.
  - cbn [Nat.b2n]. enough (count_ev (ev_writes_to c) r = 0) by lia.
    destruct e as [c' [|]|d|c']; cbn in Ew; try discriminate Ew.
    + pose proof (Hlast [] _ r eq_refl eq_refl) as Hr.
      pose proof (count_ev_le (ev_writes_to c) ev_is_write r (writes_to_write c)) as Hle.
      unfold count_ev at 2 in Hle. rewrite Hr in Hle. cbn in Hle. lia.
    + apply Nat.eqb_eq in Ew. subst c'. cbn [failed_forgotten] in Hff.
      destruct r as [|[c' b|d|c'] r']; try discriminate Hff.
      rewrite !andb_true_iff, negb_true_iff in Hff. destruct Hff as ((_ & Hex) & _).
      rewrite count_ev_cons. cbn [ev_writes_to Nat.b2n]. rewrite (existsb_false_count _ _ Hex). reflexivity.
  - cbn [Nat.b2n]. apply IH; [exact (failed_forgotten_tl _ _ Hff)|].
    intros pre e' post Heq. apply (Hlast (e :: pre)). rewrite Heq. reflexivity.
Qed.

Lemma count_writes_split c tr :
  count_ev (is_write c true) tr + count_ev (is_write c false) tr = count_ev (ev_writes_to c) tr.
Proof.
  induction tr as [|e r IH]; [reflexivity|]. rewrite !count_ev_cons.
  destruct e as [c' [|]|d|c']; cbn [is_write ev_writes_to]; try destruct (Nat.eqb c c'); cbn; lia.
Qed.

(* every failed write on c is followed by a close of c; the induction goes through when a
   close at the head, which the write before it has already paid for, is not counted *)
Lemma fail_le_close c tr : failed_forgotten tr = true ->
  count_ev (is_write c false) tr + match tr with EClose c' :: _ => Nat.b2n (Nat.eqb c c') | _ => 0 end
  <= count_ev (is_close c) tr.
Proof.
  induction tr as [|e r IH]; intros Hff; [cbn; lia|]. rewrite !count_ev_cons.
  destruct e as [c' [|]|d|c']; cbn [is_write is_close Bool.eqb Nat.b2n];
    rewrite ?andb_false_r, ?andb_true_r; cbn [Nat.b2n].
  - specialize (IH Hff). lia.
  - cbn [failed_forgotten] in Hff. destruct r as [|[c'' b|d|c''] r']; try discriminate Hff.
    rewrite !andb_true_iff in Hff. destruct Hff as ((Hcc & _) & Hff). apply Nat.eqb_eq in Hcc. subst c''.
    specialize (IH Hff). rewrite !count_ev_cons in IH. cbn [is_write is_close Nat.b2n] in IH.
    rewrite !count_ev_cons. cbn [is_write is_close Nat.b2n]. lia.
  - specialize (IH Hff). lia.
  - specialize (IH Hff). lia.
Qed.

Lemma cached_ok_counts c tr ok : judge_C20_send tr ok = true -> cached_ok (counts_of c tr) = true.
Proof.
  intros H. apply judge_parts in H. destruct H as (H1 & Hff & _ & _).
  unfold cached_ok, counts_of. cbn [cc_ok cc_fail cc_close]. rewrite andb_true_iff, !Nat.leb_le. split.
  - rewrite count_writes_split. apply writes_once; [exact Hff|exact (okwrite_is_last _ _ H1)].
  - pose proof (fail_le_close c tr Hff). lia.
Qed.

Definition total_ok (next : nat) (tr : list io_event) : nat :=
  count_ev (is_write 0 true) tr + count_ev (is_write 1 true) tr +
  list_sum (map (fun c => count_ev (is_write c true) tr) (seq 2 (next - 2))).

Lemma list_sum_map_add {A} (f g : A -> nat) l :
  list_sum (map (fun x => f x + g x) l) = list_sum (map f l) + list_sum (map g l).
Proof. unfold list_sum. induction l as [|x r IH]; cbn [map fold_right]; [reflexivity|]. rewrite IH. lia. Qed.
Lemma list_sum_map_zero {A} (l : list A) : list_sum (map (fun _ => 0) l) = 0.
Proof. unfold list_sum. induction l as [|x r IH]; cbn [map fold_right]; [reflexivity|exact IH]. Qed.
Lemma sum_eqb_seq c : forall n a,
  list_sum (map (fun c' => Nat.b2n (Nat.eqb c' c)) (seq a n)) = Nat.b2n ((a <=? c) && (c <? a + n)).
Proof.
  unfold list_sum. induction n as [|n IH]; intros a; cbn [seq map fold_right].
  - destruct (Nat.leb_spec a c), (Nat.ltb_spec c (a + 0)); cbn; lia.
  - rewrite IH.
    destruct (Nat.eqb_spec a c), (Nat.leb_spec (S a) c), (Nat.ltb_spec c (S a + n)),
             (Nat.leb_spec a c), (Nat.ltb_spec c (a + S n)); cbn; lia.
Qed.

Lemma is_write_true c e :
  is_write c true e = match e with EWrite c' true => Nat.eqb c c' | _ => false end.
Proof. destruct e as [c' [|]|d|c']; cbn; rewrite ?andb_true_r, ?andb_false_r; reflexivity. Qed.

Lemma total_ok_count next tr : okwrites_below next tr -> total_ok next tr = count_ev ev_is_okwrite tr.
Proof.
  unfold total_ok. induction tr as [|e r IH]; intros Hb.
  - cbn. rewrite list_sum_map_zero. reflexivity.
  - assert (Hbr : okwrites_below next r) by (intros c Hin; apply Hb; right; exact Hin).
    specialize (IH Hbr). rewrite !count_ev_cons.
    rewrite (map_ext _ (fun c => Nat.b2n (is_write c true e) + count_ev (is_write c true) r))
      by (intros c; apply count_ev_cons).
    rewrite list_sum_map_add.
    enough (Nat.b2n (is_write 0 true e) + Nat.b2n (is_write 1 true e) +
            list_sum (map (fun c => Nat.b2n (is_write c true e)) (seq 2 (next - 2))) =
            Nat.b2n (ev_is_okwrite e)) by lia.
    rewrite (map_ext _ (fun c => Nat.b2n (match e with EWrite c' true => Nat.eqb c c' | _ => false end)))
      by (intros c; rewrite is_write_true; reflexivity).
    rewrite !is_write_true.
    destruct e as [c' [|]|d|c']; cbn [ev_is_okwrite Nat.b2n]; rewrite ?list_sum_map_zero; try reflexivity.
    assert (Hc : c' < next) by (apply Hb; left; reflexivity).
    rewrite sum_eqb_seq.
    destruct (Nat.eqb_spec 0 c'), (Nat.eqb_spec 1 c'), (Nat.leb_spec 2 c'), (Nat.ltb_spec c' (2 + (next - 2)));
      cbn; lia.
Qed.

Theorem C20_trace_judge_implies_obs : forall next tr ok,
  okwrites_below next tr ->
  judge_C20_send tr ok = true -> judge_C20_obs (obs_of_trace next tr ok) = true.
Proof.
  intros next tr ok Hb H. unfold judge_C20_obs, obs_of_trace.
  cbn [so_ok so_dials so_c0 so_c1 so_dialled]. cbv zeta.
  rewrite (cached_ok_counts 0 _ _ H), (cached_ok_counts 1 _ _ H).
  unfold counts_of at 1 2. cbn [cc_ok]. fold (total_ok next tr). rewrite (total_ok_count _ _ Hb).
  apply judge_parts in H. destruct H as (H1 & _ & Hd & _).
  rewrite !andb_true_r, andb_true_iff, Nat.eqb_eq, Nat.leb_le. split.
  - destruct ok; [exact (proj1 H1)|exact H1].
  - pose proof (count_ev_le is_dial_ok ev_is_dial tr) as Hle.
    assert (Hi : forall e, is_dial_ok e = true -> ev_is_dial e = true)
      by (intros [c b|[d|]|c]; cbn; congruence).
    specialize (Hle Hi). lia.
Qed.

Theorem C20_obs_send_client : forall f w f' w' tr ok,
  fo_wf f (w_next w) -> failover_send f w = (f', w', tr, ok) ->
  judge_C20_obs (obs_of_trace (w_next w') tr ok) = true.
Proof.
  intros f w f' w' tr ok Hf H. apply C20_trace_judge_implies_obs.
  - exact (ids_in_okwrites _ _ (failover_send_ids Hf H)).
  - exact (proj1 (failover_send_spec Hf H)).
Qed.

Theorem C20_obs_send_backend : forall conn w conn' w' tr ok,
  b_wf conn (w_next w) -> tcp_backend_send conn w = (conn', w', tr, ok) ->
  judge_C20_obs (obs_of_trace (w_next w') tr ok) = true.
Proof.
  intros conn w conn' w' tr ok Hf H. apply C20_trace_judge_implies_obs.
  - exact (ids_in_okwrites _ _ (backend_send_ids Hf H)).
  - exact (proj1 (backend_send_spec Hf H)).
Qed.

(* the observations printed by Run.sendfault_client / Run.sendfault_backend, as data *)
Fixpoint client_obs (plans : list (list conn_script)) (f : failover) (w : world) : list send_obs :=
  match plans with
  | [] => []
  | pl :: r => let '(f', w', tr, ok) := failover_send f (with_plan w pl) in
               obs_of_trace (w_next w') tr ok :: client_obs r f' w'
  end.
Fixpoint backend_obs (plans : list (list conn_script)) (c : option nat) (w : world) : list send_obs :=
  match plans with
  | [] => []
  | pl :: r => let '(c', w', tr, ok) := tcp_backend_send c (with_plan w pl) in
               obs_of_trace (w_next w') tr ok :: backend_obs r c' w'
  end.

Theorem C20_client_obs_printed : forall plans f w,
  sendfault_client plans f w = flat_map e_obs (client_obs plans f w).
Proof.
  induction plans as [|pl r IH]; intros f w; [reflexivity|].
  cbn [sendfault_client client_obs].
  destruct (failover_send f (with_plan w pl)) as [[[f' w'] tr] ok].
  cbn [flat_map]. rewrite IH. reflexivity.
Qed.

Theorem C20_backend_obs_printed : forall plans c w,
  sendfault_backend plans c w = flat_map e_obs (backend_obs plans c w).
Proof.
  induction plans as [|pl r IH]; intros c w; [reflexivity|].
  cbn [sendfault_backend backend_obs].
  destruct (tcp_backend_send c (with_plan w pl)) as [[[c' w'] tr] ok].
  cbn [flat_map]. rewrite IH. reflexivity.
Qed.

(* [w_wf] is not needed (only the ids cached in the state matter); the statements with it follow *)
Theorem C20_obs_judged_client_strong : forall plans f w,
  fo_wf f (w_next w) -> forallb judge_C20_obs (client_obs plans f w) = true.
Proof.
  refine (outs_good _ _ _ failover_send with_plan (fun w' tr ok => obs_of_trace (w_next w') tr ok)
                    (fun f w => fo_wf f (w_next w)) _ _).
  intros f w pl f' w' tr ok Hwf E. split.
  - exact (C20_obs_send_client f (with_plan w pl) _ _ _ _ Hwf E).
  - exact (proj1 (proj2 (failover_send_spec (w := with_plan w pl) Hwf E))).
Qed.

Theorem C20_obs_judged_backend_strong : forall plans conn w,
  b_wf conn (w_next w) -> forallb judge_C20_obs (backend_obs plans conn w) = true.
Proof.
  refine (outs_good _ _ _ tcp_backend_send with_plan (fun w' tr ok => obs_of_trace (w_next w') tr ok)
                    (fun c w => b_wf c (w_next w)) _ _).
  intros c w pl c' w' tr ok Hwf E. split.
  - exact (C20_obs_send_backend c (with_plan w pl) _ _ _ _ Hwf E).
  - exact (proj1 (proj2 (backend_send_spec (w := with_plan w pl) Hwf E))).
Qed.

Theorem C20_obs_judged_client : forall plans f w,
  w_wf w -> fo_wf f (w_next w) -> forallb judge_C20_obs (client_obs plans f w) = true.
Proof. intros plans f w _ Hf. exact (C20_obs_judged_client_strong plans f w Hf). Qed.

Theorem C20_obs_judged_backend : forall plans conn w,
  w_wf w -> b_wf conn (w_next w) -> forallb judge_C20_obs (backend_obs plans conn w) = true.
Proof. intros plans conn w _ Hf. exact (C20_obs_judged_backend_strong plans conn w Hf). Qed.

(* the states of the Examples cache at most one connection *)
Lemma fo_wf_one p s n :
  orec p = false -> oconn p = None \/ oconn s = None ->
  (forall c, oconn p = Some c \/ oconn s = Some c -> c < n) ->
  fo_wf {| fo_primary := p; fo_secondary := s |} n.
Proof.
  intros Hr Hone Hlt. apply fo_wf_iff. cbn [fo_primary fo_secondary].
  split; [exact Hr|]. split; [intros c E; apply Hlt; left; exact E|].
  split; [intros c E; apply Hlt; right; exact E|].
  intros c d Ec Ed. destruct Hone as [E|E]; congruence.
Qed.

(* (a) the cached inbound connection (id 0) fails on write; the secondary dials a fresh one *)
Definition ex_w_stale : world := {| w_conns := [(0, [false])]; w_dials := [Some []]; w_next := 2 |}.
Definition ex_f_stale : failover :=
  {| fo_primary := Some {| tc_conn := Some 0; tc_reconnectable := false |};
     fo_secondary := Some {| tc_conn := None; tc_reconnectable := true |} |}.

Example ex_stale_wf : w_wf ex_w_stale /\ fo_wf ex_f_stale (w_next ex_w_stale).
Proof. split; [intros c s [H|[]]; inv H; cbn; lia|]. apply fo_wf_one; [reflexivity|auto|intros c [E|E]; cbn in E; inv E; cbn; lia]. Qed.

(* the hypotheses of C20_failover / C20_later_direct hold in this world *)
Example ex_stale_hyps :
  fo_primary ex_f_stale = Some {| tc_conn := Some 0; tc_reconnectable := false |} /\
  next_write 0 ex_w_stale = false /\
  fo_secondary ex_f_stale = Some {| tc_conn := None; tc_reconnectable := true |} /\
  w_dials ex_w_stale = Some [] :: [] /\ hd true (@nil bool) = true.
Proof. repeat split. Qed.

Example ex_stale_run :
  let '(f', w', tr, ok) := failover_send ex_f_stale ex_w_stale in
  (tr, ok) = ([EWrite 0 false; EClose 0; EDial (Some 2); EWrite 2 true], true) /\
  (* the later send goes straight to connection 2 *)
  (let '(_, _, tr2, ok2) := failover_send f' (with_plan w' []) in (tr2, ok2) = ([EWrite 2 true], true)).
Proof. vm_compute. split; reflexivity. Qed.

(* the cached connection of a reconnectable client (id 1) fails: same Send re-dials *)
Example ex_client_stale_run :
  let w := {| w_conns := [(1, [false])]; w_dials := [Some []]; w_next := 2 |} in
  let f := {| fo_primary := None; fo_secondary := Some {| tc_conn := Some 1; tc_reconnectable := true |} |} in
  w_wf w /\ fo_wf f (w_next w) /\
  (let '(_, _, tr, ok) := failover_send f w in
   (tr, ok) = ([EWrite 1 false; EClose 1; EDial (Some 2); EWrite 2 true], true)).
Proof.
  split; [intros c s [H|[]]; inv H; cbn; lia|split; [|vm_compute; reflexivity]].
  apply fo_wf_one; [reflexivity|auto|intros c [E|E]; cbn in E; inv E; cbn; lia].
Qed.

(* (b) a destination that refuses connections *)
Definition ex_w_refuse : world := {| w_conns := []; w_dials := []; w_next := 2 |}.
Definition ex_f_fresh : failover :=
  {| fo_primary := None; fo_secondary := Some {| tc_conn := None; tc_reconnectable := true |} |}.

Example ex_refuse_hyps :
  w_wf ex_w_refuse /\ fo_wf ex_f_fresh (w_next ex_w_refuse) /\ dial_refused ex_w_refuse /\
  dial_refused (after_dial ex_w_refuse) /\
  primary_id ex_f_fresh = None /\ secondary_id ex_f_fresh = None /\
  dial_refused (with_plan ex_w_refuse []) /\ b_wf None (w_next ex_w_refuse).
Proof.
  split; [intros c s []|]. split; [apply fo_wf_one; [reflexivity|auto|intros c [E|E]; cbn in E; inv E; cbn; lia]|]. cbn. repeat split. intros c H; discriminate H.
Qed.

Example ex_refuse_run :
  (let '(_, _, tr, ok) := failover_send ex_f_fresh ex_w_refuse in (tr, ok) = ([EDial None], false)) /\
  (let '(_, _, tr, ok) := tcp_backend_send None ex_w_refuse in (tr, ok) = ([EDial None; EDial None], false)).
Proof. vm_compute. split; reflexivity. Qed.

(* (c) the destination accepts the connection, then resets it on the first write *)
Definition ex_w_reset : world := {| w_conns := []; w_dials := [Some [false]; Some []]; w_next := 2 |}.
Definition ex_w_reset2 : world := {| w_conns := []; w_dials := [Some [false]; Some [false]]; w_next := 2 |}.

Example ex_reset_run :
  w_wf ex_w_reset /\ fo_wf ex_f_fresh (w_next ex_w_reset) /\
  (let '(_, _, tr, ok) := failover_send ex_f_fresh ex_w_reset in
   (tr, ok) = ([EDial (Some 2); EWrite 2 false; EClose 2; EDial (Some 3); EWrite 3 true], true)) /\
  (let '(_, _, tr, ok) := tcp_backend_send None ex_w_reset in
   (tr, ok) = ([EDial (Some 2); EWrite 2 false; EClose 2; EDial (Some 3); EWrite 3 true], true)) /\
  (* reset twice: an error, nothing accepted, the loop stops after two dials *)
  (let '(_, _, tr, ok) := failover_send ex_f_fresh ex_w_reset2 in
   (tr, ok) = ([EDial (Some 2); EWrite 2 false; EClose 2; EDial (Some 3); EWrite 3 false; EClose 3], false)).
Proof.
  split; [intros c s []|]. split; [apply fo_wf_one; [reflexivity|auto|intros c [E|E]; cbn in E; inv E; cbn; lia]|]. vm_compute. repeat split.
Qed.

(* (d) the schedule of the extracted runner: three sends (stale primary + fresh dial, direct,
   direct), all observations judged; backend from a cached connection 0: accepted / cached
   connection and the dialled one both reset (error) / reset then fresh dial / direct *)
Example ex_obs_client :
  let obs := client_obs [[[]]; []; [[false]]] ex_f_stale
               {| w_conns := [(0, [false])]; w_dials := []; w_next := 2 |} in
  map so_ok obs = [true; true; true] /\ map so_dials obs = [1; 0; 0] /\
  forallb judge_C20_obs obs = true.
Proof. vm_compute. repeat split. Qed.

Example ex_obs_client2 :
  let obs := client_obs [[[false]; [false]]; []; [[]]] ex_f_fresh ex_w_refuse in
  map so_ok obs = [false; false; true] /\ map so_dials obs = [2; 0; 1] /\
  forallb judge_C20_obs obs = true.
Proof. vm_compute. repeat split. Qed.

Example ex_obs_backend :
  let w := {| w_conns := [(0, [true; false])]; w_dials := []; w_next := 2 |} in
  let obs := backend_obs [[]; [[false]; []]; [[false]; []]; []] (Some 0) w in
  w_wf w /\ b_wf (Some 0) (w_next w) /\
  map so_ok obs = [true; false; true; true] /\ map so_dials obs = [0; 1; 2; 0] /\
  forallb judge_C20_obs obs = true.
Proof.
  split; [intros c s [H|[]]; inv H; cbn; lia|]. split; [intros c H; inv H; cbn; lia|].
  vm_compute. repeat split.
Qed.

Print Assumptions C20_judged_client.
Print Assumptions C20_judged_backend.
Print Assumptions C20_judged_client_seq.
Print Assumptions C20_judged_backend_seq.
Print Assumptions C20_judged_client_plans.
Print Assumptions C20_judged_backend_plans.
Print Assumptions C20_success_means_written.
Print Assumptions C20_error_means_unwritten.
Print Assumptions C20_success_means_written_backend.
Print Assumptions C20_error_means_unwritten_backend.
Print Assumptions failover_send_w_wf.
Print Assumptions backend_send_w_wf.
Print Assumptions C20_failover.
Print Assumptions C20_later_direct.
Print Assumptions C20_refused.
Print Assumptions C20_refused_backend.
Print Assumptions C20_okwrite_count.
Print Assumptions C20_okwrite_count_backend.
Print Assumptions C20_no_dup.
Print Assumptions C20_no_dup_backend.
Print Assumptions C20_trace_judge_implies_obs.
Print Assumptions C20_obs_send_client.
Print Assumptions C20_obs_send_backend.
Print Assumptions C20_client_obs_printed.
Print Assumptions C20_backend_obs_printed.
Print Assumptions C20_obs_judged_client_strong.
Print Assumptions C20_obs_judged_backend_strong.
Print Assumptions C20_obs_judged_client.
Print Assumptions C20_obs_judged_backend.
