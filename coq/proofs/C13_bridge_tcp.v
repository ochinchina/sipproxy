(* C13_bridge_tcp.v — the judge of C13 on a request read on an ACCEPTED TCP connection: the instances of
   C13_bridge.C13_judge_bridge_in at the listener's KTcpListen transport and at the input [j_input] yields for such a
   connection.  The own Route entry is then the one naming the listener's address and its TCP port: the model pops it
   with [designates c (cn_from cn)], the judge with [j_own c lc true].  Hence [cn_from] must be that transport (a
   connection the proxy dialled is read by a KTcpConn transport with another port), and the judge's record of the
   connection must carry the listen entry of the model's record and be below [dial_mark].  Nothing is asked of the
   received-support flag (the judge reads Route entries only) nor of the judge's [single_message] test (when it
   fails the judge answers 0); at the proxy_step level the chunk must hold one message, or the outputs of the
   later ones would be judged against the Route set of the first.  Then a run t13_* with two sensitivity checks. *)
From Coq Require Import List Ascii String ZArith NArith Bool Arith Lia.
From Model Require Import Bytes BytesLemmas Wire Uri Hdr Message Msg Rx Glob StaticRoute RoundRobin Pins
     Proxy RunProxy SpecProxy SpecC14.
From Model.proofs Require Import C14_uri C14_hdr MsgLemmas Pipeline C06 C01 C13 C13_bridge.
From Model.proofs Require C07_bridge.
Import ListNotations.
Open Scope list_scope.

(* process_message level.  The judge's record of the connection also holds the peer of the model's record, and
   [cn_li cn = li], [cn_id cn = cid], [trim_left rest = []] are premises although this level does not use them (the
   judge of C13 does not look at the peer; the rest of the chunk is the business of tcp_messages): the statement is
   the one C13_judge_bridge_tcp_step needs, where they hold. *)
Theorem C13_judge_bridge_tcp_msg :
  forall pc stj cid li lc cn data closed jin m rest e x x',
  nth_opt (c_listens (pc_cfg pc)) li = Some lc -> e_cfg e = pc_cfg pc -> e_lc e = lc ->
  find (fun x => Nat.eqb (fst x) cid) (js_conns stj) = Some (cid, (li, cn_peer cn, cn_peer_port cn)) ->
  (li < dial_mark)%nat ->
  cn_li cn = li -> cn_id cn = cid ->
  cn_from cn = {| t_kind := KTcpListen; t_addr := lc_addr lc; t_port := lc_tcp lc |} ->
  j_read data = Some jin -> parse_message data = Ok (m, rest) -> trim_left rest = [] ->
  is_request m = true ->
  route_domain_in (RS m) ->
  B7.via_domain m -> B7.src_ok (cn_peer cn) -> B7.branch_ok (e_branch e) ->
  safe1 (lc_addr lc) = true -> (0 <= lc_udp lc <= 65535)%Z -> (0 <= lc_tcp lc <= 65535)%Z ->
  (forall h t, alookup h (x_learned x) = Some t -> safe1 (t_addr t) = true /\ (0 <= t_port t <= 65535)%Z) ->
  process_message e (cn_peer cn) (cn_peer_port cn) (cn_from cn) (cn_received_support cn) (Some (cn_id cn)) m x = Ok x' ->
  exists pre, x_outs x' = x_outs x ++ pre /\ (msg_count pre <= 1)%nat /\
    forall vis, judge_C13_event pc stj (EvTcpData cid data) (map labelled (filter vis pre)) closed = 0%nat.
Proof.
  intros pc stj cid li lc cn data closed jin m rest e x x' N He Hlc Fd M _ _ Hcf J P _ R Dom HV Hsrc Hbr Ha Hu Ht HLn H.
  rewrite Hcf in H.
  destruct (C13_judge_bridge_in pc {| ji_li := li; ji_tcp := true; ji_conn := cid; ji_src := cn_peer cn;
                                      ji_sport := cn_peer_port cn; ji_data := data |} lc
              {| t_kind := KTcpListen; t_addr := lc_addr lc; t_port := lc_tcp lc |} jin m rest e _ _ _ _ x x'
              N He Hlc eq_refl eq_refl J P R Dom HV Hsrc Hbr Ha Hu Ht HLn H) as (pre & O & C & K).
  exists pre. split; [exact O|]. split; [exact C|]. intros vis.
  rewrite (judge_C13_event_in pc stj _ _ closed _ (C07_bridge.j_input_accepted stj cid li _ _ data Fd M)
             (C07_bridge.ji_dialled_accepted stj cid li _ _ data Fd M)).
  apply K.
Qed.

(* ... and for one step of the whole proxy on a chunk read on connection [cid]: [outs] is what RunProxy
   prints for the event (through [labelled] = e_output; [vis] = the destinations the driver observes).
   [cn] is the model's record of the connection; an already closed connection emits nothing. *)
Theorem C13_judge_bridge_tcp_step :
  forall pc stj fx now br st st' outs cid li lc cn data closed jin m rest,
  nth_opt (c_listens (pc_cfg pc)) li = Some lc ->
  find (fun x => Nat.eqb (fst x) cid) (js_conns stj) = Some (cid, (li, cn_peer cn, cn_peer_port cn)) ->
  (li < dial_mark)%nat ->
  find (fun x => Nat.eqb (cn_id x) cid) (st_conns st) = Some cn ->
  cn_li cn = li ->
  cn_from cn = {| t_kind := KTcpListen; t_addr := lc_addr lc; t_port := lc_tcp lc |} ->
  j_read data = Some jin -> parse_message data = Ok (m, rest) -> trim_left rest = [] ->
  is_request m = true ->
  route_domain_in (RS m) ->
  B7.via_domain m -> B7.src_ok (cn_peer cn) -> B7.branch_ok br ->
  safe1 (lc_addr lc) = true -> (0 <= lc_udp lc <= 65535)%Z -> (0 <= lc_tcp lc <= 65535)%Z ->
  (forall h t, alookup h (st_learned st) = Some t -> safe1 (t_addr t) = true /\ (0 <= t_port t <= 65535)%Z) ->
  proxy_step fx (pc_cfg pc) now br st (EvTcpData cid data) = Ok (st', outs) ->
  forall vis, judge_C13_event pc stj (EvTcpData cid data) (map labelled (filter vis outs)) closed = 0%nat.
Proof.
  intros pc stj fx now br st st' outs cid li lc cn data closed jin m rest
         N Fd M Fc Hli Hcf J P Hr R Dom HV Hsrc Hbr Ha Hu Ht HLn H vis.
  subst li. apply proxy_step_tcp_inv in H.
  destruct H as [(_ & ->)|(cn' & lc' & p & x' & Fc' & Id & _ & N' & _ & E & _ & ->)].
  { rewrite (judge_C13_event_in pc stj _ _ closed _ (C07_bridge.j_input_accepted stj cid _ _ _ data Fd M)
               (C07_bridge.ji_dialled_accepted stj cid _ _ _ data Fd M)).
    apply judge_C13_in_nil. }
  rewrite Fc in Fc'. injection Fc' as <-. rewrite N in N'. injection N' as <-.
  rewrite (tcp_messages_single _ cn data _ m rest P Hr) in E.
  destruct (C13_judge_bridge_tcp_msg pc stj cid (cn_li cn) lc cn data closed jin m rest
              (listener_env fx (pc_cfg pc) now br (cn_li cn) lc) (start_ctx st p) x'
              N eq_refl eq_refl Fd M eq_refl Id Hcf J P Hr R Dom HV Hsrc Hbr Ha Hu Ht HLn E) as (pre & O & _ & K).
  cbn [x_outs start_ctx app] in O. rewrite O. apply K.
Qed.

(* ---- a run ---- *)
(* the example of proofs/C13_bridge.v with a listener whose TCP port (5062) differs from its UDP port
   (5060); a peer connects, then sends on the connection a request with two Via headers and three Route
   entries: the own entry (address of the listener, its TCP port), the next hop, one more; a keep-alive
   CR LF follows the body; keep-next-hop-route off *)
Definition t13_lc : listen_cfg :=
  {| lc_addr := s2b "10.0.0.1"; lc_udp := 5060; lc_tcp := 5062; lc_backends := [s2b "10.0.0.2:5080"];
     lc_dynamic := false; lc_no_received := false; lc_def_route := false; lc_must_rr := true |}.
Definition t13_cfg : cfg :=
  {| c_name := c_name C01.ex_cfg; c_keep_next_hop := false; c_dialog_timeout := 3600;
     c_routes := c_routes C01.ex_cfg; c_hosts := []; c_listens := [t13_lc] |}.
Definition t13_pc : proxy_case :=
  {| pc_cfg := t13_cfg; pc_tcp_listeners := [(s2b "10.0.0.7", 5080%Z)];
     pc_udp_endpoints := [(s2b "10.0.0.9", 5070%Z)]; pc_events := []; pc_waits := [] |}.
Definition t13_st0 : state := init_state t13_cfg 0 [(s2b "10.0.0.7", 5080%Z)].
Definition t13_accept : event := EvTcpAccept 0 (s2b "10.0.0.9") 40000%Z.
(* model state and judge bookkeeping after the accept *)
Definition t13_st1 : state :=
  match proxy_step all_fixed t13_cfg 500 (branch_of 0) t13_st0 t13_accept with Ok (s, _) => s | _ => t13_st0 end.
Definition t13_js1 : jstate := js_step_c (js_init t13_cfg) t13_accept [] [].
Definition t13_routes : list a_relem :=
  [b13_elem "" "10.0.0.1" (Some 5062%Z); b13_elem "" "10.0.0.9" (Some 5070%Z); b13_elem """Far"" " "far.example.com" None].
Definition t13_tail : bytes :=
  s2b "Via: SIP/2.0/TCP 10.0.0.9:5070;branch=z9hG4bKabc;rport" ++ crlf ++
  s2b "Via: SIP/2.0/UDP 10.0.0.8:5071;branch=z9hG4bK0" ++ crlf ++
  s2b "From: <sip:alice@a.example.com>;tag=1" ++ crlf ++
  s2b "To: <sip:svc@example.com>" ++ crlf ++
  s2b "Call-ID: call-1@host" ++ crlf ++
  s2b "CSeq: 7 INVITE" ++ crlf ++
  s2b "Content-Length: 3" ++ crlf ++ crlf ++ s2b "abc" ++ crlf.
Definition t13_req : bytes :=
  s2b "INVITE sip:bob@elsewhere.example SIP/2.0" ++ crlf ++
  s2b "Route: <sip:10.0.0.1:5062;lr>,<sip:10.0.0.9:5070;lr>,""Far"" <sip:far.example.com;lr>" ++ crlf ++ t13_tail.
Definition t13_ev : event := EvTcpData 0 t13_req.
Definition t13_run : res (state * list output) :=
  proxy_step all_fixed (pc_cfg t13_pc) 1000 (branch_of 1) t13_st1 t13_ev.
Definition t13_outs : list output := match t13_run with Ok (_, outs) => outs | _ => [] end.
(* the model's record of the connection *)
Definition t13_cn : conn :=
  {| cn_id := 0; cn_li := 0; cn_open := true; cn_peer := s2b "10.0.0.9"; cn_peer_port := 40000;
     cn_from := {| t_kind := KTcpListen; t_addr := lc_addr t13_lc; t_port := lc_tcp t13_lc |};
     cn_received_support := true |}.

Example t13_text : rp_route t13_routes =
  s2b "<sip:10.0.0.1:5062;lr>,<sip:10.0.0.9:5070;lr>,""Far"" <sip:far.example.com;lr>".
Proof. vm_compute. reflexivity. Qed.

(* the hypotheses of C13_judge_bridge_tcp_step hold *)
Example t13_hyp_listener : nth_opt (c_listens (pc_cfg t13_pc)) 0 = Some t13_lc.
Proof. reflexivity. Qed.
Example t13_hyp_judge_conn :
  find (fun x => Nat.eqb (fst x) 0) (js_conns t13_js1) = Some (0%nat, (0%nat, cn_peer t13_cn, cn_peer_port t13_cn)).
Proof. vm_compute. reflexivity. Qed.
Example t13_hyp_model_conn : find (fun x => Nat.eqb (cn_id x) 0) (st_conns t13_st1) = Some t13_cn.
Proof. vm_compute. reflexivity. Qed.
Example t13_hyp_read :
  option_map (fun jin => (jm_has_cl jin, single_message jin, option_map (fun q => all_sip (jq_routes q)) (j_request jin)))
             (j_read t13_req)
  = Some (true, true, Some true).
Proof. vm_compute. reflexivity. Qed.
Example t13_hyp_parse : parse_message t13_req = Ok (parsed t13_req, crlf).
Proof. vm_compute. reflexivity. Qed.
Example t13_hyp_rest : trim_left crlf = [].
Proof. vm_compute. reflexivity. Qed.
Example t13_hyp_request : is_request (parsed t13_req) = true.
Proof. vm_compute. reflexivity. Qed.
Example t13_hyp_two_vias :
  List.length (filter (fun h => is_via (h_name h)) (m_headers (parsed t13_req))) = 2%nat.
Proof. vm_compute. reflexivity. Qed.
Example t13_hyp_routes : route_domain_in (RS (parsed t13_req)).
Proof.
  assert (E : RS (parsed t13_req) = [{| h_name := s2b "Route"; h_val := HRaw (rp_route t13_routes) |}])
    by (vm_compute; reflexivity).
  rewrite E. cbn [route_domain_in]. split; [|exact I]. exists t13_routes.
  split; [discriminate|]. split; [vm_compute; reflexivity|]. split; [vm_compute; reflexivity|reflexivity].
Qed.

(* the run: one datagram to the next hop (the Route entry names no transport); it carries the third
   entry only (own entry and next hop consumed); the proxy's own Via names the TCP listener; the
   executable judge accepts what RunProxy prints for the event *)
Example t13_run_labels : map (fun o => fst (labelled o)) t13_outs = [s2b "udp:10.0.0.9:5070"].
Proof. vm_compute. reflexivity. Qed.
Example t13_run_routes :
  map (fun o => option_map (fun om => j_flat is_route (jm_headers om)) (j_read (snd o))) t13_outs
    = [Some [s2b """Far"" <sip:far.example.com;lr>"]].
Proof. vm_compute. reflexivity. Qed.
Example t13_run_top_via :
  map (fun o => option_map (fun om => hd [] (j_flat_via (jm_headers om))) (j_read (snd o))) t13_outs
    = [Some (s2b "SIP/2.0/TCP 10.0.0.1:5062;branch=z9hG4bK@@@@@@000001")].
Proof. vm_compute. reflexivity. Qed.
Example t13_run_judged :
  judge_C13_event t13_pc t13_js1 t13_ev
    (map labelled (filter (visible (pc_udp_endpoints t13_pc)) t13_outs)) [] = 0%nat.
Proof. vm_compute. reflexivity. Qed.

(* the step theorem instantiated on the run: every hypothesis is on the input side and holds *)
Example t13_accepted_by_theorem :
  forall vis, judge_C13_event t13_pc t13_js1 (EvTcpData 0 t13_req) (map labelled (filter vis t13_outs)) [] = 0%nat.
Proof.
  pose proof t13_hyp_read as H. destruct (j_read t13_req) as [jin|] eqn:J; [clear H|discriminate H].
  assert (Hrun : exists s, proxy_step all_fixed (pc_cfg t13_pc) 1000 (branch_of 1) t13_st1
                             (EvTcpData 0 t13_req) = Ok (s, t13_outs)).
  { assert (K : match t13_run with Ok _ => true | _ => false end = true) by (vm_compute; reflexivity).
    unfold t13_outs. unfold t13_run, t13_ev in *.
    destruct (proxy_step _ _ _ _ _ _) as [[s o]| |]; [exists s; reflexivity|discriminate K..]. }
  destruct Hrun as (s & Hrun).
  assert (HV : B7.via_domain (parsed t13_req)) by (apply B7.via_domain_b_sound; vm_compute; reflexivity).
  assert (Hsrc : B7.src_ok (cn_peer t13_cn)) by (split; vm_compute; reflexivity).
  assert (Hbr : B7.branch_ok (branch_of 1)) by (split; vm_compute; reflexivity).
  assert (Ha : safe1 (lc_addr t13_lc) = true) by (vm_compute; reflexivity).
  assert (Hu : (0 <= lc_udp t13_lc <= 65535)%Z) by (unfold t13_lc; cbn [lc_udp]; lia).
  assert (Ht : (0 <= lc_tcp t13_lc <= 65535)%Z) by (unfold t13_lc; cbn [lc_tcp]; lia).
  assert (HLn : forall h t, alookup h (st_learned t13_st1) = Some t ->
                            safe1 (t_addr t) = true /\ (0 <= t_port t <= 65535)%Z).
  { assert (E : st_learned t13_st1 = []) by (vm_compute; reflexivity). rewrite E. intros h t A. discriminate A. }
  exact (C13_judge_bridge_tcp_step t13_pc t13_js1 all_fixed 1000%Z (branch_of 1) t13_st1 s t13_outs
           0%nat 0%nat t13_lc t13_cn t13_req [] jin (parsed t13_req) crlf
           t13_hyp_listener t13_hyp_judge_conn C07_bridge.zero_below_mark t13_hyp_model_conn eq_refl eq_refl J t13_hyp_parse t13_hyp_rest
           t13_hyp_request t13_hyp_routes HV Hsrc Hbr Ha Hu Ht HLn Hrun).
Qed.

(* SENSITIVITY 1: a wrong output.  The request relayed with its Route set untouched (the bytes received,
   sent to the same destination): the same judge, same bookkeeping, same event, answers 1. *)
Definition t13_wrong : list (bytes * bytes) :=
  map (fun o => (fst (labelled o), t13_req)) (filter (visible (pc_udp_endpoints t13_pc)) t13_outs).
Example t13_wrong_rejected :
  map fst t13_wrong = [s2b "udp:10.0.0.9:5070"] /\
  judge_C13_event t13_pc t13_js1 t13_ev t13_wrong [] = 1%nat.
Proof. split; vm_compute; reflexivity. Qed.

(* SENSITIVITY 2: the port that makes an entry "own" on a TCP connection is the TCP port.  The same request
   with a first entry naming the UDP port 5060 of the listener: on the connection that entry is NOT the
   proxy's own; the model leaves it, takes it for the next hop and relays the two others; the judge
   (ji_tcp = true: lc_tcp) agrees, verdict 0.  Had the proxy popped it as own (what it does for a datagram:
   the run t13_outs relays one entry), the judge would answer 1. *)
Definition t13u_req : bytes :=
  s2b "INVITE sip:bob@elsewhere.example SIP/2.0" ++ crlf ++
  s2b "Route: <sip:10.0.0.1:5060;lr>,<sip:10.0.0.9:5070;lr>,""Far"" <sip:far.example.com;lr>" ++ crlf ++ t13_tail.
Definition t13u_ev : event := EvTcpData 0 t13u_req.
Definition t13u_outs : list output :=
  match proxy_step all_fixed (pc_cfg t13_pc) 1000 (branch_of 1) t13_st1 t13u_ev with Ok (_, outs) => outs | _ => [] end.
Example t13u_not_own :
  map (fun o => option_map (fun om => j_flat is_route (jm_headers om)) (j_read (snd o))) t13u_outs
    = [Some [s2b "<sip:10.0.0.9:5070;lr>"; s2b """Far"" <sip:far.example.com;lr>"]] /\
  map (fun o => fst (labelled o)) t13u_outs = [s2b "udp:10.0.0.1:5060"] /\
  judge_C13_event t13_pc t13_js1 t13u_ev (map labelled t13u_outs) [] = 0%nat /\
  judge_C13_event t13_pc t13_js1 t13u_ev
    (map labelled (filter (visible (pc_udp_endpoints t13_pc)) t13_outs)) [] = 1%nat.
Proof. repeat apply conj; vm_compute; reflexivity. Qed.

Print Assumptions C13_judge_bridge_tcp_msg.
Print Assumptions C13_judge_bridge_tcp_step.
Print Assumptions t13_accepted_by_theorem.
