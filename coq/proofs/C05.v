(* proofs/C05.v — round-robin backend pool: strict rotation, membership, schedules.
   Main statements: C05_judged, rr_reachable_inv, rr_member, rr_member_empty, rr_window,
   rr_counts, rr_removed_silent, rr_added_joins, rr_sstep_no_panic,
   rr_sstep_delivered_member, C05_schedules_safe.   No axioms, no admits. *)
From Coq Require Import List Ascii String Bool Arith Lia Permutation.
From Model Require Import Bytes BytesLemmas RoundRobin SpecC05.
Import ListNotations.
Open Scope list_scope.

Lemma mod_shift_neq a d n : 0 < d -> d < n -> (a + d) mod n <> a mod n.
Proof.
  intros Hd Hn H.
  assert (N0 : n <> 0) by lia.
  rewrite <- Nat.add_mod_idemp_l in H by exact N0.
  pose proof (Nat.mod_upper_bound a n N0) as Hm.
  remember (a mod n) as m eqn:Em. clear Em.
  destruct (lt_dec (m + d) n) as [L|L].
  - rewrite Nat.mod_small in H by exact L. lia.
  - replace (m + d) with ((m + d - n) + 1 * n) in H by lia.
    rewrite Nat.mod_add in H by exact N0.
    rewrite Nat.mod_small in H by lia. lia.
Qed.

Lemma mod_inj_window a j1 j2 n : j1 < n -> j2 < n ->
  (a + j1) mod n = (a + j2) mod n -> j1 = j2.
Proof.
  intros H1 H2 H.
  destruct (Nat.lt_trichotomy j1 j2) as [L|[E|L]]; [|exact E|]; exfalso.
  - apply (mod_shift_neq (a + j1) (j2 - j1) n); [lia|lia|].
    replace (a + j1 + (j2 - j1)) with (a + j2) by lia. symmetry. exact H.
  - apply (mod_shift_neq (a + j2) (j1 - j2) n); [lia|lia|].
    replace (a + j2 + (j1 - j2)) with (a + j1) by lia. exact H.
Qed.

Lemma mod_plus_period a n : n <> 0 -> (a + n) mod n = a mod n.
Proof.
  intros N0. replace (a + n) with (a + 1 * n) by lia. apply Nat.mod_add. exact N0.
Qed.

(* for any i, the residues (i+0) mod n, ..., (i+n-1) mod n are a permutation of 0..n-1 *)
Lemma residues_perm a n :
  Permutation (map (fun j => (a + j) mod n) (seq 0 n)) (seq 0 n).
Proof.
  destruct (Nat.eq_dec n 0) as [->|N0]; [constructor|].
  apply NoDup_Permutation_bis.
  - apply NoDup_map_inj_on; [apply seq_NoDup|].
    intros x y Hx Hy. apply in_seq in Hx. apply in_seq in Hy.
    apply mod_inj_window; lia.
  - rewrite map_length. lia.
  - intros x Hx. apply in_map_iff in Hx. destruct Hx as (j & <- & _).
    apply in_seq. pose proof (Nat.mod_upper_bound (a + j) n N0). lia.
Qed.

(* [remove_all a] is the judge's own deletion [c05_del a] (a filter), and on a list without
   repetition [remove_first a] removes all there is to remove *)
Lemma remove_all_del a l : remove_all a l = c05_del a l.
Proof.
  unfold c05_del. induction l as [|y l IH]; cbn [remove_all filter]; [reflexivity|].
  rewrite IH. destruct (beq a y); reflexivity.
Qed.

Lemma In_c05_del a x l : In x (c05_del a l) <-> In x l /\ x <> a.
Proof.
  unfold c05_del. rewrite filter_In, negb_true_iff, beq_neq.
  split; intros [H N]; (split; [exact H|congruence]).
Qed.

Lemma In_remove_first_sub a x l : In x (remove_first a l) -> In x l.
Proof.
  induction l as [|y l IH]; cbn; [tauto|].
  destruct (beq a y); cbn; intros H; [right; exact H|].
  destruct H as [H|H]; [left; exact H|right; apply IH; exact H].
Qed.

Lemma remove_first_all a l : NoDup l -> remove_first a l = remove_all a l.
Proof.
  induction 1 as [|y l Hy ND IH]; cbn [remove_first remove_all]; [reflexivity|].
  destruct (beq_spec a y) as [->|_]; [|rewrite IH; reflexivity].
  clear IH. induction l as [|z l IH]; cbn [remove_all]; [reflexivity|].
  apply not_in_cons in Hy. destruct Hy as [N Hy]. apply beq_neq in N. rewrite N.
  f_equal. apply IH; [exact Hy|]. apply NoDup_cons_iff in ND. apply ND.
Qed.

(* What holds of every state reached inside the domain: the rotation list has no repeated
   address, and the map knows every address of the list. *)
Definition rr_inv (s : rr) : Prop :=
  NoDup (rr_backends s) /\ (forall a, In a (rr_backends s) -> In a (rr_map s)).

Lemma rr_add_map_in a s x : In x (rr_map (rr_add a s)) <-> In x (rr_map s) \/ x = a.
Proof.
  cbn [rr_add rr_map]. destruct (mem_bytes a (rr_map s)) eqn:E.
  - apply mem_bytes_In in E. split; [tauto|]. intros [H| ->]; assumption.
  - rewrite in_app_iff. cbn. intuition congruence.
Qed.

Lemma rr_add_inv a s : rr_inv s -> ~ In a (rr_backends s) -> rr_inv (rr_add a s).
Proof.
  intros [ND Hmap] Ha. split.
  - cbn [rr_add rr_backends]. apply NoDup_app_iff. split; [exact ND|]. split.
    + constructor; [intros []|constructor].
    + intros x Hx [<-|[]]. contradiction.
  - intros x Hx. apply rr_add_map_in. cbn [rr_add rr_backends] in Hx.
    apply in_app_iff in Hx. destruct Hx as [Hx|[<-|[]]]; [left; apply Hmap; exact Hx|right; reflexivity].
Qed.

Lemma rr_remove_spec a s : rr_inv s ->
  (forall x, In x (rr_backends (fst (rr_remove a s))) <-> In x (rr_backends s) /\ x <> a) /\
  (forall x, In x (rr_map (fst (rr_remove a s))) <-> In x (rr_map s) /\ x <> a) /\
  NoDup (rr_backends (fst (rr_remove a s))) /\
  snd (rr_remove a s) = mem_bytes a (rr_backends s).
Proof.
  intros [ND Hmap]. unfold rr_remove.
  destruct (mem_bytes a (rr_map s)) eqn:Em; cbn [fst snd rr_backends rr_map].
  - rewrite (remove_first_all a _ ND), !remove_all_del.
    split; [intros x; apply In_c05_del|]. split; [intros x; apply In_c05_del|].
    split; [apply NoDup_filter; exact ND|reflexivity].
  - apply mem_bytes_notIn in Em.
    assert (Ha : ~ In a (rr_backends s)) by (intros H; exact (Em (Hmap a H))).
    split; [intros x; split; [intros H; split; [exact H|congruence]|tauto]|].
    split; [intros x; split; [intros H; split; [exact H|congruence]|tauto]|].
    split; [exact ND|]. symmetry. apply mem_bytes_notIn. exact Ha.
Qed.

Lemma rr_remove_inv a s : rr_inv s -> rr_inv (fst (rr_remove a s)).
Proof.
  intros HI. destruct (rr_remove_spec a s HI) as (Hb & Hm & ND' & _).
  split; [exact ND'|]. intros x Hx. apply Hm. apply Hb in Hx.
  split; [apply HI; apply Hx|apply Hx].
Qed.

(* without any invariant: nothing comes into the list *)
Lemma rr_remove_sub a x s : In x (rr_backends (fst (rr_remove a s))) -> In x (rr_backends s).
Proof.
  unfold rr_remove. destruct (mem_bytes a (rr_map s)); cbn [fst rr_backends]; [|tauto].
  apply In_remove_first_sub.
Qed.

(* the backend the (j+1)-th dispatch from state s goes to *)
Definition rr_target (s : rr) (j : nat) : option bytes :=
  nth_opt (rr_backends s) ((rr_index s + 1 + j) mod List.length (rr_backends s)).

Lemma rr_target_some s j : List.length (rr_backends s) <> 0 ->
  exists b, rr_target s j = Some b /\ In b (rr_backends s).
Proof.
  intros N0. destruct (nth_opt_lt (rr_backends s) ((rr_index s + 1 + j) mod List.length (rr_backends s)))
    as (b & Hb); [apply Nat.mod_upper_bound; exact N0|].
  exists b. split; [exact Hb|exact (nth_opt_In _ _ _ Hb)].
Qed.

Theorem rr_member_empty : forall s, List.length (rr_backends s) = 0 -> rr_dispatch s = (s, None).
Proof. intros s H. unfold rr_dispatch. rewrite H. reflexivity. Qed.

Lemma rr_dispatch_pos s : List.length (rr_backends s) <> 0 ->
  rr_dispatch s =
  ({| rr_index := (rr_index s + 1) mod List.length (rr_backends s);
      rr_backends := rr_backends s; rr_map := rr_map s |}, rr_target s 0).
Proof.
  intros H. unfold rr_dispatch, rr_target.
  destruct (List.length (rr_backends s)) as [|m] eqn:E; [congruence|].
  cbv zeta. rewrite Nat.mod_mod, Nat.add_0_r by lia. reflexivity.
Qed.

Lemma rr_dispatch_frame s :
  rr_backends (fst (rr_dispatch s)) = rr_backends s /\ rr_map (fst (rr_dispatch s)) = rr_map s.
Proof.
  destruct (Nat.eq_dec (List.length (rr_backends s)) 0) as [Z|NZ];
    [rewrite (rr_member_empty s Z)|rewrite (rr_dispatch_pos s NZ)]; split; reflexivity.
Qed.

Theorem rr_member : forall s, List.length (rr_backends s) <> 0 ->
  exists b, snd (rr_dispatch s) = Some b /\ In b (rr_backends s) /\
            rr_backends (fst (rr_dispatch s)) = rr_backends s /\
            rr_map (fst (rr_dispatch s)) = rr_map s.
Proof.
  intros s N0. destruct (rr_target_some s 0 N0) as (b & Hb & Hin).
  exists b. split; [rewrite (rr_dispatch_pos s N0); exact Hb|]. split; [exact Hin|apply rr_dispatch_frame].
Qed.

(* the two projections of a step, and of a run, in the shape the statements below use *)
Lemma rr_step_remove s a : rr_step s (RRemove a) = (fst (rr_remove a s), ORemoved (snd (rr_remove a s))).
Proof. cbn [rr_step]. destruct (rr_remove a s). reflexivity. Qed.

Lemma rr_step_dispatch s : rr_step s RDispatch = (fst (rr_dispatch s), OSent (snd (rr_dispatch s))).
Proof. cbn [rr_step]. destruct (rr_dispatch s). reflexivity. Qed.

Lemma rr_run_cons s o r :
  rr_run s (o :: r) =
  (fst (rr_run (fst (rr_step s o)) r), snd (rr_step s o) :: snd (rr_run (fst (rr_step s o)) r)).
Proof. cbn [rr_run]. destruct (rr_step s o) as [s1 x]. cbn [fst snd]. destruct (rr_run s1 r). reflexivity. Qed.

Lemma rr_run_fst ops : forall s, fst (rr_run s ops) = fold_left (fun s o => fst (rr_step s o)) ops s.
Proof.
  induction ops as [|o r IH]; intros s; [reflexivity|]. rewrite rr_run_cons. apply IH.
Qed.

Lemma rr_run_fst_app s ops1 ops2 :
  fst (rr_run s (ops1 ++ ops2)) = fst (rr_run (fst (rr_run s ops1)) ops2).
Proof. rewrite !rr_run_fst. apply fold_left_app. Qed.

(* the judge's registered set and the model's rotation list hold the same addresses *)
Definition rr_rel (s : rr) (reg : list bytes) : Prop :=
  rr_inv s /\ NoDup reg /\ (forall x, In x reg <-> In x (rr_backends s)).

Lemma rr_rel_length s reg : rr_rel s reg -> List.length reg = List.length (rr_backends s).
Proof.
  intros ((ND & _) & NDr & Hio). apply Permutation_length.
  apply NoDup_Permutation; assumption.
Qed.

Definition op_in_domain (reg : list bytes) (o : rr_op) : bool :=
  match o with RAdd a => negb (mem_bytes a reg) | _ => true end.

Lemma rr_rel_step s reg o : rr_rel s reg -> op_in_domain reg o = true ->
  rr_rel (fst (rr_step s o)) (c05_reg_step reg o).
Proof.
  intros (HI & NDr & Hio) Hdom.
  destruct o as [a|a|]; cbn [c05_reg_step].
  - cbn [op_in_domain] in Hdom. apply negb_true_iff, mem_bytes_notIn in Hdom.
    cbn [rr_step fst]. split; [apply rr_add_inv; [exact HI|rewrite <- Hio; exact Hdom]|].
    split; [constructor; assumption|]. intros x. cbn [rr_add rr_backends In].
    rewrite in_app_iff, Hio. cbn [In]. tauto.
  - rewrite rr_step_remove. cbn [fst]. destruct (rr_remove_spec a s HI) as (Hb & _).
    split; [apply rr_remove_inv; exact HI|]. split; [apply NoDup_filter; exact NDr|].
    intros x. rewrite In_c05_del, Hb, Hio. reflexivity.
  - rewrite rr_step_dispatch. cbn [fst]. destruct (rr_dispatch_frame s) as [Eb Em].
    unfold rr_rel, rr_inv. rewrite Eb, Em. exact (conj HI (conj NDr Hio)).
Qed.

Lemma rr_rel_init : rr_rel rr_init [].
Proof.
  unfold rr_rel, rr_inv. cbn. repeat split; try constructor; try tauto.
Qed.

Lemma rr_rel_run ops s reg : rr_rel s reg -> c05_domain reg ops = true ->
  rr_rel (fst (rr_run s ops)) (fold_left c05_reg_step ops reg).
Proof.
  rewrite rr_run_fst. apply (fold_left_sim rr_rel (fun reg ops => c05_domain reg ops = true)).
  intros s' reg' o l HR Hd. cbn [c05_domain] in Hd. apply andb_true_iff in Hd.
  split; [apply rr_rel_step; [exact HR|apply Hd]|apply Hd].
Qed.

(* Reachability: inside the domain every reachable state satisfies the invariant, in
   particular its rotation list has no repeated address. *)
Theorem rr_reachable_inv : forall ops, rr_domain ops = true ->
  rr_inv (fst (rr_run rr_init ops)).
Proof. intros ops Hd. exact (proj1 (rr_rel_run ops rr_init [] rr_rel_init Hd)). Qed.

(* [run] (most recent first) lists what the dispatches since the last membership change
   returned; i0 is the index the run started from. *)
Definition run_inv (s : rr) (run : list bytes) : Prop :=
  exists i0,
    (rr_index s + 1) mod List.length (rr_backends s)
      = (i0 + List.length run + 1) mod List.length (rr_backends s) /\
    forall d, d < List.length run ->
      nth_opt run d = nth_opt (rr_backends s) ((i0 + List.length run - d) mod List.length (rr_backends s)).

Lemma run_inv_nil s : run_inv s [].
Proof.
  exists (rr_index s). cbn [List.length]. split.
  - f_equal. lia.
  - intros d Hd. lia.
Qed.

Lemma c05_nodup_iff l : c05_nodup l = true <-> NoDup l.
Proof. apply (nodup_mem_bytes c05_nodup); reflexivity. Qed.

Lemma c05_perm_ok s reg : rr_rel s reg -> c05_perm (rr_backends s) reg = true.
Proof.
  intros HR. pose proof (rr_rel_length _ _ HR) as HL.
  destruct HR as ((ND & _) & NDr & Hio).
  unfold c05_perm. rewrite (proj2 (c05_nodup_iff _) ND), <- HL, Nat.eqb_refl. cbn [andb].
  apply forallb_forall. intros x Hx. apply mem_bytes_In. apply Hio. exact Hx.
Qed.

Lemma rr_remove_closed a s reg : rr_rel s reg -> snd (rr_remove a s) = mem_bytes a reg.
Proof.
  intros (HI & _ & Hio). destruct (rr_remove_spec a s HI) as (_ & _ & _ & ->).
  apply Bool.eq_iff_eq_true. rewrite !mem_bytes_In. symmetry. apply Hio.
Qed.

Lemma dispatch_judged s reg run :
  rr_rel s reg -> run_inv s run -> List.length (rr_backends s) <> 0 ->
  exists b, snd (rr_dispatch s) = Some b /\ c05_dispatch_ok reg run b = true /\
            run_inv (fst (rr_dispatch s)) (b :: run).
Proof.
  intros HR (i0 & Hidx & Hrun) N0.
  pose proof (rr_rel_length _ _ HR) as HL.
  destruct HR as ((ND & Hmap) & NDr & Hio).
  destruct (rr_target_some s 0 N0) as (b & Hb & Hin).
  rewrite (rr_dispatch_pos s N0). cbn [fst snd]. exists b. split; [exact Hb|].
  unfold rr_target in Hb. rewrite Nat.add_0_r in Hb.
  set (L := rr_backends s) in *. set (n := List.length L) in *. set (r := List.length run) in *.
  split.
  - unfold c05_dispatch_ok. rewrite HL. fold n.
    apply andb_true_iff. split; [apply andb_true_iff; split|].
    + apply mem_bytes_In. apply Hio. exact Hin.
    + apply negb_true_iff. apply mem_bytes_notIn. intros H.
      apply In_firstn_nth in H. destruct H as (d & Hd & E).
      pose proof (nth_opt_Some_lt _ _ _ E) as Hdr. fold r in Hdr.
      rewrite (Hrun d Hdr) in E. rewrite Hidx in Hb.
      pose proof (nth_opt_NoDup_inj _ _ _ _ ND E Hb) as Heq.
      apply (mod_shift_neq (i0 + r - d) (d + 1) n); [lia|lia|].
      replace (i0 + r - d + (d + 1)) with (i0 + r + 1) by lia. symmetry. exact Heq.
    + destruct (nth_opt run (n - 1)) as [b'|] eqn:E; [|reflexivity].
      pose proof (nth_opt_Some_lt _ _ _ E) as Hdr. fold r in Hdr.
      rewrite (Hrun _ Hdr) in E. rewrite Hidx in Hb.
      rewrite <- (mod_plus_period _ n N0) in E.
      replace (i0 + r - (n - 1) + n) with (i0 + r + 1) in E by lia.
      apply beq_eq. congruence.
  - exists i0. cbn [rr_index rr_backends List.length]. fold L n r. split.
    + rewrite Hidx. rewrite Nat.add_mod_idemp_l by exact N0. f_equal. lia.
    + intros [|d] Hd.
      * cbn [nth_opt]. rewrite <- Hb, Hidx. f_equal. f_equal. lia.
      * cbn [nth_opt]. rewrite (Hrun d) by lia. f_equal. f_equal. lia.
Qed.

Lemma c05_judge_run ops : forall s reg run,
  rr_rel s reg -> run_inv s run -> c05_domain reg ops = true ->
  c05_judge reg run ops (snd (rr_run s ops)) (rr_backends (fst (rr_run s ops))) = true.
Proof.
  induction ops as [|o r IH]; intros s reg run HR HI Hd.
  - apply c05_perm_ok. exact HR.
  - cbn [c05_domain] in Hd. apply andb_true_iff in Hd. destruct Hd as [Hd1 Hd2].
    pose proof (rr_rel_step s reg o HR Hd1) as HR1.
    rewrite rr_run_cons. cbn [fst snd].
    destruct o as [a|a|]; cbn [c05_reg_step] in *.
    + cbn [rr_step fst snd c05_judge] in *. apply IH; [exact HR1|apply run_inv_nil|exact Hd2].
    + rewrite rr_step_remove in *. cbn [fst snd c05_judge] in *.
      rewrite (rr_remove_closed a s reg HR), eqb_reflx.
      apply IH; [exact HR1|apply run_inv_nil|exact Hd2].
    + rewrite rr_step_dispatch in *. cbn [fst snd] in *.
      destruct (Nat.eq_dec (List.length (rr_backends s)) 0) as [Z|NZ].
      * rewrite (rr_member_empty s Z) in *. cbn [fst snd c05_judge] in *.
        rewrite (IH s reg run HR1 HI Hd2), andb_true_r.
        rewrite <- (rr_rel_length _ _ HR) in Z. destruct reg; [reflexivity|discriminate].
      * destruct (dispatch_judged s reg run HR HI NZ) as (b & Hb & Hok & HI1).
        rewrite Hb. cbn [c05_judge]. rewrite Hok. apply IH; assumption.
Qed.

(* MAIN: on every history of the domain, the model's outputs and final rotation list are
   accepted by the model-independent judge of SpecC05.v. *)
Theorem C05_judged : forall ops, rr_domain ops = true ->
  let '(s, outs) := rr_run rr_init ops in judge_C05 ops outs (rr_backends s) = true.
Proof.
  intros ops Hd.
  pose proof (c05_judge_run ops rr_init [] [] rr_rel_init (run_inv_nil _) Hd) as H.
  destruct (rr_run rr_init ops) as [s outs]. exact H.
Qed.

(* m dispatches in a row with no membership change in between, and what each returned *)
Fixpoint rr_dispatches (s : rr) (m : nat) : rr * list (option bytes) :=
  match m with
  | O => (s, [])
  | S m' => let '(s1, x) := rr_dispatch s in
            let '(s2, xs) := rr_dispatches s1 m' in (s2, x :: xs)
  end.

(* ... which is rr_run on m RDispatch operations *)
Lemma rr_dispatches_run m : forall s,
  rr_run s (repeat RDispatch m) =
  (fst (rr_dispatches s m), map OSent (snd (rr_dispatches s m))).
Proof.
  induction m as [|m IH]; intros s; cbn [repeat rr_run rr_step rr_dispatches]; [reflexivity|].
  destruct (rr_dispatch s) as [s1 x]. rewrite IH.
  destruct (rr_dispatches s1 m) as [s2 xs]. reflexivity.
Qed.

Lemma rr_dispatches_closed m : forall s, List.length (rr_backends s) <> 0 ->
  snd (rr_dispatches s m) = map (rr_target s) (seq 0 m) /\
  rr_backends (fst (rr_dispatches s m)) = rr_backends s /\
  rr_map (fst (rr_dispatches s m)) = rr_map s.
Proof.
  induction m as [|m IH]; intros s N0; cbn [rr_dispatches]; [auto|].
  rewrite (rr_dispatch_pos s N0).
  set (s1 := {| rr_index := _; rr_backends := _; rr_map := _ |}).
  assert (N1 : List.length (rr_backends s1) <> 0) by exact N0.
  destruct (IH s1 N1) as (IH1 & IH2 & IH3).
  destruct (rr_dispatches s1 m) as [s2 xs]. cbn [fst snd] in *.
  split; [|split; [exact IH2|exact IH3]].
  cbn [seq map]. f_equal.
  rewrite <- seq_shift, map_map, IH1. apply map_ext. intros j.
  unfold rr_target, s1. cbn [rr_index rr_backends]. f_equal.
  rewrite <- Nat.add_assoc. rewrite Nat.add_mod_idemp_l by exact N0. f_equal; lia.
Qed.

Lemma rr_target_period s j : List.length (rr_backends s) <> 0 ->
  rr_target s (j + List.length (rr_backends s)) = rr_target s j.
Proof.
  intros N0. unfold rr_target. f_equal. rewrite Nat.add_assoc. apply mod_plus_period. exact N0.
Qed.

Lemma rr_targets_window s :
  Permutation (map (rr_target s) (seq 0 (List.length (rr_backends s)))) (map Some (rr_backends s)).
Proof.
  rewrite <- map_nth_opt_seq.
  change (rr_target s) with
    (fun j => nth_opt (rr_backends s) ((fun j => (rr_index s + 1 + j) mod List.length (rr_backends s)) j)).
  rewrite <- (map_map (fun j => (rr_index s + 1 + j) mod List.length (rr_backends s)) (nth_opt (rr_backends s))).
  apply Permutation_map. apply residues_perm.
Qed.

(* n consecutive dispatches over n backends reach each backend exactly once (NoDup is not
   needed: with repeated addresses each is reached as often as it is listed). *)
Theorem rr_window : forall s, List.length (rr_backends s) <> 0 ->
  Permutation (snd (rr_dispatches s (List.length (rr_backends s)))) (map Some (rr_backends s)) /\
  rr_backends (fst (rr_dispatches s (List.length (rr_backends s)))) = rr_backends s.
Proof.
  intros s N0. destruct (rr_dispatches_closed (List.length (rr_backends s)) s N0) as (H1 & H2 & _).
  split; [|exact H2]. rewrite H1. apply rr_targets_window.
Qed.

Corollary rr_window_list : forall s, List.length (rr_backends s) <> 0 ->
  exists l, snd (rr_dispatches s (List.length (rr_backends s))) = map Some l /\
            Permutation l (rr_backends s).
Proof.
  intros s N0. destruct (rr_window s N0) as [H _].
  apply Permutation_map_inv in H. destruct H as (l & E & P).
  exists l. split; [exact E|apply Permutation_sym; exact P].
Qed.

Definition obytes_dec : forall x y : option bytes, {x = y} + {x <> y}.
Proof. decide equality. apply (list_eq_dec ascii_dec). Defined.

Section Counts.
  Variable s : rr.
  Variable b : bytes.
  Hypothesis ND : NoDup (rr_backends s).
  Hypothesis Hb : In b (rr_backends s).
  Let n := List.length (rr_backends s).
  Let cnt (M : nat) := count_occ obytes_dec (map (rr_target s) (seq 0 M)) (Some b).

  Lemma counts_n0 : n <> 0.
  Proof. unfold n. destruct (rr_backends s); [contradiction|discriminate]. Qed.

  Lemma counts_NoDup_some : NoDup (map Some (rr_backends s)).
  Proof. apply NoDup_map_inj_on; [exact ND|]. intros x y _ _ H. congruence. Qed.

  Lemma counts_shift M : forall k, map (rr_target s) (seq (k + n) M) = map (rr_target s) (seq k M).
  Proof.
    induction M as [|M IH]; intros k; cbn [seq map]; [reflexivity|].
    f_equal; [apply rr_target_period; exact counts_n0|apply (IH (S k))].
  Qed.

  Lemma counts_window : cnt n = 1.
  Proof.
    unfold cnt, n.
    rewrite (proj1 (Permutation_count_occ obytes_dec _ _) (rr_targets_window s)).
    apply (proj1 (NoDup_count_occ' obytes_dec _) counts_NoDup_some).
    apply in_map. exact Hb.
  Qed.

  Lemma counts_period M : cnt (n + M) = 1 + cnt M.
  Proof.
    unfold cnt. rewrite seq_app, map_app, count_occ_app.
    rewrite (counts_shift M 0).
    f_equal. exact counts_window.
  Qed.

  Lemma counts_small r : r < n -> cnt r <= 1.
  Proof.
    intros Hr. unfold cnt. apply (proj1 (NoDup_count_occ obytes_dec _)).
    assert (NDn : NoDup (map (rr_target s) (seq 0 n))).
    { apply (Permutation_NoDup (l := map Some (rr_backends s))); [|exact counts_NoDup_some].
      apply Permutation_sym. apply rr_targets_window. }
    replace n with (r + (n - r)) in NDn by lia.
    rewrite seq_app, map_app in NDn. apply NoDup_app_iff in NDn. apply NDn.
  Qed.

  Lemma counts_mul q : forall r, cnt (q * n + r) = q + cnt r.
  Proof.
    induction q as [|q IH]; intros r; [reflexivity|].
    replace (S q * n + r) with (n + (q * n + r)) by lia.
    rewrite counts_period, IH. lia.
  Qed.

  Lemma counts_total N : cnt N = N / n \/ cnt N = N / n + 1.
  Proof.
    pose proof counts_n0 as N0.
    pose proof (Nat.div_mod N n N0) as E.
    pose proof (Nat.mod_upper_bound N n N0) as Hr.
    pose proof (counts_small _ Hr) as Hs.
    assert (H : cnt N = N / n + cnt (N mod n)).
    { rewrite E at 1. rewrite Nat.mul_comm. apply counts_mul. }
    lia.
  Qed.
End Counts.

(* After N consecutive dispatches from a state whose rotation list has n distinct
   addresses, every backend of the list has received floor(N/n) or floor(N/n)+1 of them
   (the latter is ceil(N/n) whenever it occurs, since then n does not divide N). *)
Theorem rr_counts : forall s N b, NoDup (rr_backends s) -> In b (rr_backends s) ->
  let c := count_occ obytes_dec (snd (rr_dispatches s N)) (Some b) in
  c = N / List.length (rr_backends s) \/ c = N / List.length (rr_backends s) + 1.
Proof.
  intros s N b ND Hb. cbv zeta.
  assert (N0 : List.length (rr_backends s) <> 0) by (apply (counts_n0 s b ND Hb)).
  rewrite (proj1 (rr_dispatches_closed N s N0)).
  apply counts_total; assumption.
Qed.

Corollary rr_counts_balanced : forall s N b1 b2, NoDup (rr_backends s) ->
  In b1 (rr_backends s) -> In b2 (rr_backends s) ->
  let c1 := count_occ obytes_dec (snd (rr_dispatches s N)) (Some b1) in
  let c2 := count_occ obytes_dec (snd (rr_dispatches s N)) (Some b2) in
  c1 <= c2 + 1 /\ c2 <= c1 + 1.
Proof.
  intros s N b1 b2 ND H1 H2. cbv zeta.
  pose proof (rr_counts s N b1 ND H1) as C1. pose proof (rr_counts s N b2 ND H2) as C2.
  cbv zeta in C1, C2. lia.
Qed.

(* the ceiling is only reached when N is not a multiple of n *)
Corollary rr_counts_exact : forall s q b, NoDup (rr_backends s) -> In b (rr_backends s) ->
  count_occ obytes_dec (snd (rr_dispatches s (q * List.length (rr_backends s)))) (Some b) = q.
Proof.
  intros s q b ND Hb.
  assert (N0 : List.length (rr_backends s) <> 0) by (apply (counts_n0 s b ND Hb)).
  rewrite (proj1 (rr_dispatches_closed _ s N0)).
  pose proof (counts_mul s b ND Hb q 0) as H. cbn in H.
  rewrite Nat.add_0_r in H. rewrite H. lia.
Qed.

Lemma rr_step_absent a s o : ~ In a (rr_backends s) -> o <> RAdd a ->
  snd (rr_step s o) <> OSent (Some a) /\ ~ In a (rr_backends (fst (rr_step s o))).
Proof.
  intros Ha Ho. destruct o as [a'|a'|].
  - cbn [rr_step fst snd rr_add rr_backends]. split; [discriminate|].
    rewrite in_app_iff. cbn [In]. intros [H|[H|[]]]; [contradiction|congruence].
  - rewrite rr_step_remove. cbn [fst snd]. split; [discriminate|].
    intros H. exact (Ha (rr_remove_sub a' a s H)).
  - rewrite rr_step_dispatch. cbn [fst snd]. rewrite (proj1 (rr_dispatch_frame s)).
    split; [|exact Ha]. intros H. injection H as H.
    destruct (Nat.eq_dec (List.length (rr_backends s)) 0) as [Z|NZ].
    + rewrite (rr_member_empty s Z) in H. discriminate.
    + destruct (rr_member s NZ) as (b & E & Hin & _). congruence.
Qed.

(* an address that is not in the rotation list is never returned, whatever happens, until
   it is added again *)
Lemma rr_absent_silent a ops : forall s,
  ~ In a (rr_backends s) -> Forall (fun o => o <> RAdd a) ops ->
  ~ In (OSent (Some a)) (snd (rr_run s ops)).
Proof.
  induction ops as [|o r IH]; intros s Ha HF; [intros []|].
  apply Forall_cons_iff in HF. destruct HF as [Ho Hr].
  destruct (rr_step_absent a s o Ha Ho) as [Hx Hs1].
  rewrite rr_run_cons. cbn [snd]. intros [H|H]; [exact (Hx H)|exact (IH _ Hs1 Hr H)].
Qed.

(* Needs the state invariant rr_inv (no repeated address, the map knows the listed
   addresses), which holds of every state reachable inside the domain (rr_reachable_inv):
   with a repeated address RemoveBackend would only drop the first copy. *)
Theorem rr_removed_silent : forall s a ops, rr_inv s ->
  Forall (fun o => o <> RAdd a) ops ->
  ~ In (OSent (Some a)) (snd (rr_run (fst (rr_remove a s)) ops)).
Proof.
  intros s a ops HI HF. apply rr_absent_silent; [|exact HF].
  intros H. apply (proj1 (rr_remove_spec a s HI)) in H. destruct H as [_ H]. exact (H eq_refl).
Qed.

(* the n+1 dispatches that follow the addition
   reach a, and every older backend too *)
Theorem rr_added_joins : forall s a,
  let outs := snd (rr_dispatches (rr_add a s) (List.length (rr_backends s) + 1)) in
  In (Some a) outs /\ forall b, In b (rr_backends s) -> In (Some b) outs.
Proof.
  intros s a. cbv zeta.
  assert (HL : List.length (rr_backends (rr_add a s)) = List.length (rr_backends s) + 1)
    by apply app_length.
  destruct (rr_window (rr_add a s)) as [P _]; [lia|]. rewrite HL in P.
  assert (Hall : forall b, In b (rr_backends s ++ [a]) ->
                 In (Some b) (snd (rr_dispatches (rr_add a s) (List.length (rr_backends s) + 1)))).
  { intros b Hb. apply (Permutation_in _ (Permutation_sym P)). apply in_map. exact Hb. }
  split; [|intros b Hb]; apply Hall, in_or_app; [right; left; reflexivity|left; exact Hb].
Qed.

(* One lock region of the small-step model never panics and never fails, from ANY state:
   the index arithmetic never divides by zero nor indexes out of range.  A Send that
   delivers, delivers to a backend that is in the rotation list at the moment of the delivery
   (whatever happened since it obtained its index). *)
Lemma rr_sstep_spec st o : exists st' out, rr_sstep st o = Ok (st', out) /\
  forall tid b, out = SDelivered tid b -> In b (rr_backends (ss_rr st)).
Proof.
  unfold rr_sstep.
  destruct o as [a|a| |tid]; try (do 2 eexists; split; [reflexivity|discriminate]).
  destruct (nth_opt (ss_threads st) tid) as [[pc|]|]; try (do 2 eexists; split; [reflexivity|discriminate]).
  cbv zeta.
  destruct (Nat.eqb_spec (List.length (rr_backends (ss_rr st))) 0) as [Z|NZ].
  - destruct pc as [|i|i [|[|l]]]; do 2 eexists; (split; [reflexivity|discriminate]).
  - destruct pc as [|i|i lft]; try (do 2 eexists; split; [reflexivity|discriminate]).
    destruct (nth_opt_lt (rr_backends (ss_rr st)) (i mod List.length (rr_backends (ss_rr st))))
      as (b & Hb); [apply Nat.mod_upper_bound; exact NZ|].
    rewrite Hb. do 2 eexists. split; [reflexivity|].
    intros tid' b' E. injection E as _ <-. exact (nth_opt_In _ _ _ Hb).
Qed.

Theorem rr_sstep_total : forall st o, exists st' out, rr_sstep st o = Ok (st', out).
Proof. intros st o. destruct (rr_sstep_spec st o) as (st' & out & E & _). eauto. Qed.

Theorem rr_sstep_no_panic : forall st o, rr_sstep st o <> Panic.
Proof.
  intros st o. destruct (rr_sstep_total st o) as (st' & out & E). rewrite E. discriminate.
Qed.

Theorem rr_sstep_delivered_member : forall st o st' tid b,
  rr_sstep st o = Ok (st', SDelivered tid b) -> In b (rr_backends (ss_rr st)).
Proof.
  intros st o st' tid b H. destruct (rr_sstep_spec st o) as (st1 & out & E & Hout).
  rewrite E in H. injection H as _ ->. exact (Hout tid b eq_refl).
Qed.

(* the run always completes; replaying the prefix, the k-th output, if a delivery, names a
   backend that was in the rotation list of the state reached after the first k operations *)
Lemma rr_srun_spec ops : forall st, exists st' outs, rr_srun st ops = Ok (st', outs) /\
  forall k tid b, nth_error outs k = Some (SDelivered tid b) ->
  exists stk, rr_srun st (firstn k ops) = Ok (stk, firstn k outs) /\
              In b (rr_backends (ss_rr stk)).
Proof.
  induction ops as [|o r IH]; intros st; cbn [rr_srun].
  - do 2 eexists. split; [reflexivity|]. intros [|k]; discriminate.
  - destruct (rr_sstep_spec st o) as (st1 & x & E & Hx). rewrite E. cbn [rbind].
    destruct (IH st1) as (st2 & xs & E2 & Hxs). rewrite E2. cbn [rbind].
    do 2 eexists. split; [reflexivity|]. intros [|k] tid b Hk; cbn [nth_error firstn] in *.
    + injection Hk as ->. exists st. split; [reflexivity|exact (Hx tid b eq_refl)].
    + destruct (Hxs k tid b Hk) as (stk & Ek & Hin). exists stk. split; [|exact Hin].
      cbn [rr_srun]. rewrite E. cbn [rbind]. rewrite Ek. reflexivity.
Qed.

Theorem rr_srun_total : forall ops st, exists st' outs, rr_srun st ops = Ok (st', outs).
Proof. intros ops st. destruct (rr_srun_spec ops st) as (st' & outs & E & _). eauto. Qed.

(* MAIN (schedule half): under every interleaving of membership changes, spawned Sends and
   their lock regions (no domain restriction at all) the pool never panics, the run always
   completes, and every delivery goes to a backend registered at the moment of delivery. *)
Theorem C05_schedules_safe : forall ops,
  rr_srun {| ss_rr := rr_init; ss_threads := [] |} ops <> Panic /\
  exists st' outs,
    rr_srun {| ss_rr := rr_init; ss_threads := [] |} ops = Ok (st', outs) /\
    forall k tid b, nth_error outs k = Some (SDelivered tid b) ->
      exists stk, rr_srun {| ss_rr := rr_init; ss_threads := [] |} (firstn k ops)
                    = Ok (stk, firstn k outs) /\
                  In b (rr_backends (ss_rr stk)).
Proof.
  intros ops.
  destruct (rr_srun_spec ops {| ss_rr := rr_init; ss_threads := [] |}) as (st' & outs & E & H).
  split; [rewrite E; discriminate|]. exists st', outs. split; [exact E|exact H].
Qed.

(* check (d) of the judge really says "final is a duplicate-free rearrangement of reg" *)
Lemma c05_perm_sound l reg : c05_perm l reg = true -> NoDup l /\ Permutation l reg.
Proof.
  unfold c05_perm. intros H.
  apply andb_true_iff in H. destruct H as [H H3].
  apply andb_true_iff in H. destruct H as [H1 H2].
  apply c05_nodup_iff in H1. apply Nat.eqb_eq in H2.
  split; [exact H1|]. apply NoDup_Permutation_bis; [exact H1|lia|].
  intros x Hx. apply mem_bytes_In. apply (proj1 (forallb_forall _ _) H3). exact Hx.
Qed.

Definition xa := s2b "10.0.0.1:5060".
Definition xb := s2b "10.0.0.2:5060".
Definition xc := s2b "10.0.0.3:5060".
Definition xd := s2b "10.0.0.4:5060".

(* three backends, a removal in the middle (which leaves index = 2 >= n = 2), a removal of
   an unknown address, an addition, and finally an empty pool *)
Definition ex_ops : list rr_op :=
  [RAdd xa; RAdd xb; RAdd xc; RDispatch; RDispatch; RDispatch; RDispatch; RDispatch;
   RRemove xc; RDispatch; RDispatch; RDispatch; RRemove xd; RAdd xd;
   RDispatch; RDispatch; RDispatch; RDispatch;
   RRemove xa; RRemove xb; RRemove xd; RDispatch; RAdd xc; RDispatch].

Definition ex_outs : list rr_out :=
  [OAdded; OAdded; OAdded;
   OSent (Some xb); OSent (Some xc); OSent (Some xa); OSent (Some xb); OSent (Some xc);
   ORemoved true; OSent (Some xb); OSent (Some xa); OSent (Some xb); ORemoved false; OAdded;
   OSent (Some xd); OSent (Some xa); OSent (Some xb); OSent (Some xd);
   ORemoved true; ORemoved true; ORemoved true; OSent None; OAdded; OSent (Some xc)].

Example ex_domain : rr_domain ex_ops = true.
Proof. vm_compute. reflexivity. Qed.

Example ex_run : rr_run rr_init ex_ops =
  ({| rr_index := 0; rr_backends := [xc]; rr_map := [xc] |}, ex_outs).
Proof. vm_compute. reflexivity. Qed.

Example ex_judged : judge_C05 ex_ops ex_outs [xc] = true.
Proof. vm_compute. reflexivity. Qed.

Example ex_C05_judged_instance :
  let '(s, outs) := rr_run rr_init ex_ops in judge_C05 ex_ops outs (rr_backends s) = true.
Proof. exact (C05_judged ex_ops ex_domain). Qed.

(* the judge is not trivially true: each of these wrong observations is rejected *)
Definition set_out (k : nat) (x : rr_out) : list rr_out := set_nth ex_outs k x.

Example ex_reject_same_twice :      (* 4th dispatch repeats the 3rd: window broken *)
  judge_C05 ex_ops (set_out 6 (OSent (Some xa))) [xc] = false.
Proof. vm_compute. reflexivity. Qed.
Example ex_reject_removed_served :  (* dispatch to xc after its removal *)
  judge_C05 ex_ops (set_out 10 (OSent (Some xc))) [xc] = false.
Proof. vm_compute. reflexivity. Qed.
Example ex_reject_dropped :         (* request dropped although backends are registered *)
  judge_C05 ex_ops (set_out 3 (OSent None)) [xc] = false.
Proof. vm_compute. reflexivity. Qed.
Example ex_reject_ghost :           (* a backend served although none is registered *)
  judge_C05 ex_ops (set_out 21 (OSent (Some xa))) [xc] = false.
Proof. vm_compute. reflexivity. Qed.
Example ex_reject_closed_flag :
  judge_C05 ex_ops (set_out 12 (ORemoved true)) [xc] = false.
Proof. vm_compute. reflexivity. Qed.
Example ex_reject_final : judge_C05 ex_ops ex_outs [xc; xa] = false.
Proof. vm_compute. reflexivity. Qed.
Example ex_reject_short : judge_C05 ex_ops (firstn 23 ex_outs) [xc] = false.
Proof. vm_compute. reflexivity. Qed.
Example ex_reject_new_ignored :     (* after adding xd the rotation keeps skipping it *)
  judge_C05 [RAdd xa; RAdd xb; RDispatch; RAdd xd; RDispatch; RDispatch; RDispatch]
            [OAdded; OAdded; OSent (Some xb); OAdded;
             OSent (Some xa); OSent (Some xb); OSent (Some xa)] [xa; xb; xd] = false.
Proof. vm_compute. reflexivity. Qed.

(* the domain restriction matters: adding an address twice leaves a copy behind that the
   map no longer knows, and that copy keeps being served after the removal *)
Example ex_outside_domain :
  rr_domain [RAdd xa; RAdd xa; RRemove xa; RDispatch] = false /\
  rr_run rr_init [RAdd xa; RAdd xa; RRemove xa; RDispatch] =
    ({| rr_index := 0; rr_backends := [xa]; rr_map := [] |},
     [OAdded; OAdded; ORemoved true; OSent (Some xa)]) /\
  judge_C05 [RAdd xa; RAdd xa; RRemove xa; RDispatch]
            [OAdded; OAdded; ORemoved true; OSent (Some xa)] [xa] = false.
Proof. vm_compute. auto. Qed.

(* a state for the corollaries: three backends, index left at 2 *)
Definition ex_s3 : rr := fst (rr_run rr_init [RAdd xa; RAdd xb; RAdd xc; RDispatch; RDispatch]).

Example ex_s3_inv : rr_inv ex_s3.
Proof. apply rr_reachable_inv. vm_compute. reflexivity. Qed.

Example ex_member : snd (rr_dispatch ex_s3) = Some xa /\ List.length (rr_backends ex_s3) <> 0.
Proof. vm_compute. split; [reflexivity|discriminate]. Qed.

Example ex_window : snd (rr_dispatches ex_s3 3) = [Some xa; Some xb; Some xc].
Proof. vm_compute. reflexivity. Qed.

Example ex_counts :                (* N = 7 over n = 3: 3, 2, 2 *)
  map (fun b => count_occ obytes_dec (snd (rr_dispatches ex_s3 7)) (Some b)) [xa; xb; xc] = [3; 2; 2]
  /\ 7 / 3 = 2.
Proof. vm_compute. auto. Qed.

(* index >= number of backends after a removal: the next dispatch is still in range *)
Example ex_index_after_removal :
  let s := fst (rr_remove xc ex_s3) in
  rr_index s = 2 /\ List.length (rr_backends s) = 2 /\
  snd (rr_dispatches s 4) = [Some xb; Some xa; Some xb; Some xa].
Proof. vm_compute. auto. Qed.

Example ex_removed_silent :
  ~ In (OSent (Some xc))
       (snd (rr_run (fst (rr_remove xc ex_s3)) [RDispatch; RAdd xd; RDispatch; RDispatch; RDispatch])).
Proof.
  apply rr_removed_silent; [exact ex_s3_inv|].
  repeat constructor; discriminate.
Qed.

Example ex_added_joins :
  snd (rr_dispatches (rr_add xd ex_s3) 4) = [Some xd; Some xa; Some xb; Some xc].
Proof. vm_compute. reflexivity. Qed.

(* schedules: a Send obtains index 1 (-> xb) and the count 2; xb is removed before the
   Send reaches getBackend: it delivers to xa, the only backend left (1 mod 1 = 0) *)
Example ex_schedule_race :
  rmap snd (rr_srun {| ss_rr := rr_init; ss_threads := [] |}
              [SAdd xa; SAdd xb; SSpawn; SStep 0; SStep 0; SRemove xb; SStep 0; SStep 0]) =
  Ok [SNone; SNone; SNone; SNone; SNone; SNone; SDelivered 0 xa; SNone].
Proof. vm_compute. reflexivity. Qed.

(* all backends vanish while the Send is in its loop (2 iterations granted): it gives up *)
Example ex_schedule_all_removed :
  rmap snd (rr_srun {| ss_rr := rr_init; ss_threads := [] |}
              [SAdd xa; SAdd xb; SSpawn; SStep 0; SStep 0; SRemove xb; SRemove xa;
               SStep 0; SStep 0; SStep 0]) =
  Ok [SNone; SNone; SNone; SNone; SNone; SNone; SNone; SNone; SFailed 0; SNone].
Proof. vm_compute. reflexivity. Qed.

(* two racing Sends and an addition in between *)
Example ex_schedule_two :
  rmap snd (rr_srun {| ss_rr := rr_init; ss_threads := [] |}
              [SAdd xa; SAdd xb; SSpawn; SSpawn; SStep 0; SStep 1; SAdd xc; SStep 1; SStep 0;
               SStep 0; SStep 1]) =
  Ok [SNone; SNone; SNone; SNone; SNone; SNone; SNone; SNone; SNone;
      SDelivered 0 xb; SDelivered 1 xa].
Proof. vm_compute. reflexivity. Qed.

Print Assumptions C05_judged.
Print Assumptions rr_reachable_inv.
Print Assumptions rr_member.
Print Assumptions rr_member_empty.
Print Assumptions rr_window.
Print Assumptions rr_window_list.
Print Assumptions rr_counts.
Print Assumptions rr_counts_balanced.
Print Assumptions rr_counts_exact.
Print Assumptions rr_removed_silent.
Print Assumptions rr_added_joins.
Print Assumptions rr_sstep_total.
Print Assumptions rr_sstep_no_panic.
Print Assumptions rr_sstep_delivered_member.
Print Assumptions rr_srun_total.
Print Assumptions C05_schedules_safe.
