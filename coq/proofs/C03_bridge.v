(* C03_bridge.v — the executable judge of C03 (SpecProxy.judge_C03_event: it reads the raw bytes of the
   received datagram with its own reader and looks at the LABELS of what was observed) accepts what the
   MODEL emits for a request of the domain.

   What the judge reads as the hop in the bytes (j_hop; j_choose is its image under j_dest) is the hop the model
   takes (C03.effective_hop, on the decoded message), for any receiving transport: first remaining Route entry /
   static route of the To host / service name (hop_read, choose_agree_at).  At that hop the verdict is 0
   (hop_verdict, by class of destination in send_verdict).  [agree] relates the judge's bookkeeping to the model
   state; any datagram keeps it (agree_step_udp).

   What is NOT proved (see the comment at C03_judge_bridge_udp): for a TCP next hop the bridge keeps one
   premise on the observation side: when the model writes nothing on a connection, the judge must see a
   refusing peer (no listener, no open connection there).  The model can stay silent towards a listening
   peer (a request with a transaction id towards the source port of an accepted connection), so that
   premise does not follow from the agreement alone.  (A cached connection
   that was closed does not cause silence: the round of Proxy.tcp_client_send that dials also writes,
   C02.C02_stale_redial.) *)
From Coq Require Import List Ascii String ZArith NArith Bool Arith Lia.
From Model Require Import Bytes BytesLemmas Wire Uri Hdr Message Msg Rx Glob StaticRoute RoundRobin Pins
     Proxy RunProxy SpecProxy SpecC14.
From Model.proofs Require Import C14_uri C14_hdr MsgLemmas C06 C01 C13 C03 C13_bridge.
From Model.proofs Require C05 C07 C02 C04 Pipeline MsgStages.
Import ListNotations.
Open Scope list_scope.

(* the first To header: the judge reads the raw value the model holds *)
Lemma j_first_to jhs hl : Forall2 hrel2 jhs hl ->
  match get_header (s2b "To") hl with
  | Some h => exists s, h_val h = HRaw s /\ j_first is_to jhs = Some s
  | None => j_first is_to jhs = None
  end.
Proof.
  induction 1 as [|p h jhs hl (En & Ev & _) F IH]; [reflexivity|].
  unfold j_first in *. cbn [get_header filter]. rewrite En, <- same_header_to.
  destruct (same_header (h_name h) (s2b "To")); [|exact IH].
  exists (snd p). split; [exact Ev|reflexivity].
Qed.

(* the value of the first To header is the reference rendering of a well-formed From / To value *)
Definition to_domain (m : message) : Prop :=
  match get_header (s2b "To") (m_headers m) with
  | Some h => exists f, wf_fromto f = true /\ h_val h = HRaw (rp_fromto f)
  | None => True
  end.
(* the Request-URI (second field of the request line) is the reference rendering of a well-formed address *)
(* ... and strings.Fields (the proxy) splits the request line like the judge's ASCII split: no
   UTF-8 encoding of a Unicode white-space rune inside it ([no_usp (jm_start jin) = true] is
   sufficient, BytesLemmas.fields_go_no_usp; [wf_addr] allows bytes >= 128 in the Request-URI) *)
Definition ruri_domain (jin : jmsg) : Prop :=
  fields_go (jm_start jin) = fields (jm_start jin) /\
  forall meth u ver, fields (jm_start jin) = [meth; u; ver] -> exists au, wf_addr au = true /\ u = rp_addr au.

Lemma start_agree l st meth u ver :
  parse_start_line l = Ok st -> has_prefix (s2b "SIP/") l = false -> fields l = [meth; u; ver] ->
  fields_go l = fields l ->
  exists a, st = SReq meth a ver /\ parse_addr_spec u = Ok a.
Proof.
  unfold parse_start_line. intros P R F G. rewrite R in P. unfold parse_request_line in P. rewrite G, F in P.
  destruct (parse_addr_spec u) as [a| |]; try discriminate P. cbn [rbind] in P. injection P as <-.
  exists a. split; reflexivity.
Qed.

Lemma good_hdr_wf h l b : good_hdr h l -> In b l -> wf_relem b = true.
Proof. intros ((_ & W & _) & _) I. rewrite forallb_forall in W. exact (W b I). Qed.

(* the entries that remain once the own one is consumed: judge (text, flag [tcp]) and model (decoded,
   received through [from]) *)
Lemma remaining_agree_at c lc tcp from hs :
  t_addr from = lc_addr lc -> t_port from = listener_port lc tcp -> route_domain hs ->
  match (match tview hs with e :: r => if j_own c lc tcp e then r else e :: r | [] => [] end) with
  | [] => drop_own c from (entries_of hs) = []
  | e :: _ => exists b rest, wf_relem b = true /\ e = rp_relem b /\
                             drop_own c from (entries_of hs) = EDec (embed_relem b) :: rest
  end.
Proof.
  intros Ha Hp D. destruct hs as [|h1 rest]; [reflexivity|]. destruct D as ((l1 & G1) & D2).
  destruct l1 as [|a l1]; [destruct G1 as ((NE & _) & _); contradiction|].
  rewrite (tview_good h1 rest (a :: l1) G1), (entries_good h1 rest (a :: l1) G1). cbn [map app].
  assert (Wa : wf_relem a = true) by (apply (good_hdr_wf _ _ _ G1); left; reflexivity).
  rewrite (own_agree c lc tcp from a Ha Hp Wa). unfold drop_own.
  destruct (designates c from (embed_relem a)).
  - destruct l1 as [|b l1].
    + cbn [map app]. destruct rest as [|h2 rest']; [reflexivity|]. destruct D2 as (l2 & G2).
      destruct l2 as [|b l2]; [destruct G2 as ((NE & _) & _); contradiction|].
      rewrite (tview_good h2 rest' (b :: l2) G2), (entries_good h2 rest' (b :: l2) G2). cbn [map app].
      exists b. eexists. split; [apply (good_hdr_wf _ _ _ G2); left; reflexivity|]. split; reflexivity.
    + cbn [map app]. exists b. eexists.
      split; [apply (good_hdr_wf _ _ _ G1); right; left; reflexivity|]. split; reflexivity.
  - exists a. eexists. split; [exact Wa|]. split; reflexivity.
Qed.

(* (3) the service name / the receiving listener's own address and port *)
Lemma service_agree_at c lc tcp from m meth au ver :
  t_addr from = lc_addr lc -> t_port from = listener_port lc tcp ->
  wf_addr au = true -> m_start m = SReq meth (embed_addr au) ver ->
  j_service_match c lc tcp (rp_addr au) = is_my_message (new_my_name (c_name c)) from m.
Proof.
  intros Ha Hp W Em. unfold j_service_match, is_my_message. rewrite Em, Ha, Hp.
  destruct au as [u|s]; cbn [rp_addr embed_addr wf_addr] in *.
  - destruct (j_uri_sipuri u W) as (txt & ->). rewrite (proj2 (ju_facts txt _ u W)).
    unfold mk_ju. cbn [ju_sip ju_host ju_user embed_sipuri u_host u_user]. reflexivity.
  - rewrite (j_uri_other s W). reflexivity.
Qed.

(* What the judge reads as the hop, written as a hop of the model (None: a Route entry that is not a SIP URI,
   where the judge is silent).  j_choose is this reading with the address turned into where the message must
   show up (j_choose_hop); the judge of C06 looks up the host of the same address in its learned table. *)
Definition j_hop (c : cfg) (lc : listen_cfg) (tcp : bool) (q : jreq) : option hop :=
  match (match jq_routes q with e :: r => if j_own c lc tcp e then r else e :: r | [] => [] end) with
  | e :: _ =>
      let u := j_entry_uri e in
      if ju_sip u then Some (HopAddr (ju_host u) (ju_eff_port u) (ju_transport u)) else None
  | [] =>
      match (match jq_to q with
             | Some t => let u := j_entry_uri t in
                         if ju_sip u then find_route (route_table_of c) (ju_host u) else None
             | None => None
             end) with
      | Some it => Some (HopAddr (ri_host it) (ri_port it) (ri_proto it))
      | None => Some (if j_service_match c lc tcp (jq_ruri q) then HopBackend else HopNone)
      end
  end.
Definition jhop_of (c : cfg) (o : option hop) : jhop :=
  match o with
  | Some (HopAddr host port tr) => HHop (j_dest c tr host port)
  | Some HopBackend => HBackend
  | Some HopNone => HDrop
  | _ => HOut
  end.
Lemma j_choose_hop c lc tcp q : j_choose c lc tcp q = jhop_of c (j_hop c lc tcp q).
Proof.
  unfold j_choose, j_hop.
  destruct (match jq_routes q with e :: r => if j_own c lc tcp e then r else e :: r | [] => [] end) as [|e r].
  - destruct (jq_to q) as [t|]; cbv zeta.
    + destruct (ju_sip (j_entry_uri t)); [destruct (find_route _ _); [reflexivity|]|];
        destruct (j_service_match c lc tcp (jq_ruri q)); reflexivity.
    + destruct (j_service_match c lc tcp (jq_ruri q)); reflexivity.
  - cbv zeta. destruct (ju_sip (j_entry_uri e)); reflexivity.
Qed.

(* the ports of the static routes are port numbers *)
Definition routes_ok (c : cfg) : Prop :=
  forall h it, find_route (route_table_of c) h = Some it -> (0 <= ri_port it <= 65535)%Z.
Definition hop_port_ok (h : hop) : Prop :=
  match h with HopAddr _ port _ => (0 <= port <= 65535)%Z | _ => True end.

Lemma port_range_embed u : wf_sipuri u = true -> (0 <= sip_uri_get_port (embed_sipuri u) <= 65535)%Z.
Proof.
  intros H. destruct (wf_sipuri_parts u H) as (_ & _ & Hpt & _ & _).
  rewrite (sip_uri_get_port_embed u Hpt). destruct (au_port u) as [z|].
  - apply wf_port_range in Hpt. lia.
  - destruct (beq (x_transport u) (s2b "tls")); lia.
Qed.

(* the hop the judge reads in the text of a Route entry is the hop of the decoded entry ([l] stands for what the
   model does with an entry that is not a SIP URI: the judge prescribes nothing there) *)
Lemma route_entry_read b (l : hop) : wf_relem b = true ->
  let ju := j_entry_uri (rp_relem b) in
  if ju_sip ju
  then match na_addr (r_addr (embed_relem b)) with
       | ASip u => HopAddr (u_host u) (sip_uri_get_port u) (sip_uri_transport u)
       | AAbs _ => l
       end = HopAddr (ju_host ju) (ju_eff_port ju) (ju_transport ju) /\ (0 <= ju_eff_port ju <= 65535)%Z
  else True.
Proof.
  intros Wb. destruct (wf_relem_parts b Wb) as [Hn _]. destruct (wf_nameaddr_parts _ Hn) as [_ Hw].
  unfold rp_relem. rewrite (j_entry_nameaddr _ _ Hn). cbn [embed_relem r_addr embed_nameaddr na_addr].
  destruct (an_addr (ar_na b)) as [ub|s]; cbn [embed_addr rp_addr wf_addr] in *.
  - destruct (j_uri_sipuri ub Hw) as (txt & ->). destruct (ju_facts txt (emb_user (au_user ub)) ub Hw) as (T1 & T2).
    cbv zeta. rewrite T1, T2. unfold mk_ju. cbn [ju_sip ju_host].
    split; [reflexivity|apply port_range_embed, Hw].
  - cbv zeta. rewrite (j_uri_other s Hw). exact I.
Qed.

(* the static route the judge looks up for the To host it reads is the one the model looks up for the decoded To *)
Lemma to_route_read c jin m : Forall2 hrel2 (jm_headers jin) (m_headers m) -> to_domain m ->
  match j_first is_to (jm_headers jin) with
  | Some t => if ju_sip (j_entry_uri t) then find_route (route_table_of c) (ju_host (j_entry_uri t)) else None
  | None => None
  end =
  match decoded_to m with
  | Some t => match fromto_host t with Some h => find_route (route_table_of c) h | None => None end
  | None => None
  end.
Proof.
  intros HR DT. unfold decoded_to. pose proof (j_first_to _ _ HR) as JT. unfold to_domain in DT.
  destruct (get_header (s2b "To") (m_headers m)) as [h|]; [|rewrite JT; reflexivity].
  destruct JT as (s & Ev & ->). destruct DT as (f & Wf & Ef). rewrite Ev in Ef. injection Ef as ->.
  rewrite Ev, (parse_fromto_rp f Wf), (fromto_host_embed f), (j_entry_fromto f Wf).
  pose proof (wf_fromto_addr f Wf) as Wa.
  destruct (a_ft_addr f) as [uf|sf]; cbn [rp_addr wf_addr] in *.
  - destruct (j_uri_sipuri uf Wa) as (txt & ->). reflexivity.
  - rewrite (j_uri_other sf Wa). reflexivity.
Qed.

(* HOP AGREEMENT.  On the grammar domain the hop the judge reads in the text of the request is the hop the
   model takes, for a message received through [from] and judged with the flag [tcp]; [HR] and [PS] are what
   the judge's reader and the model's parser have in common (C13_bridge.read_headers_agree, C01.input_read).
   Its port is a port number when those of the static routes are. *)
Section HopRead.
  Variables (c : cfg) (lc : listen_cfg) (tcp : bool) (from : stransport) (jin : jmsg) (m : message) (q : jreq).
  Hypothesis Ha : t_addr from = lc_addr lc.
  Hypothesis Hp : t_port from = listener_port lc tcp.
  Hypothesis HR : Forall2 hrel2 (jm_headers jin) (m_headers m).
  Hypothesis PS : parse_start_line (jm_start jin) = Ok (m_start m).
  Hypothesis Q : j_request jin = Some q.
  Hypothesis Dom : route_domain_in (RS m).
  Hypothesis DT : to_domain m.
  Hypothesis DR : ruri_domain jin.

  Lemma hop_read :
    is_request m = true /\
    match j_hop c lc tcp q with
    | Some h => effective_hop c from m = h /\ (routes_ok c -> hop_port_ok h)
    | None => True
    end.
  Proof.
    unfold j_request in Q. unfold j_is_response in Q.
    destruct (has_prefix (s2b "SIP/") (jm_start jin)) eqn:Resp; [discriminate Q|].
    destruct (fields (jm_start jin)) as [|meth [|u [|ver [|x y]]]] eqn:F; try discriminate Q.
    injection Q as <-.
    destruct (start_agree _ _ _ _ _ PS Resp F (proj1 DR)) as (a & Em & Pa).
    destruct (proj2 DR meth u ver F) as (au & Wau & ->).
    rewrite (parse_addr_spec_rp au Wau) in Pa. injection Pa as <-.
    split; [unfold is_request; rewrite Em; reflexivity|].
    unfold j_hop. cbn [jq_routes jq_to jq_ruri].
    rewrite (j_flat_input _ _ HR). fold (RS m).
    pose proof (remaining_agree_at c lc tcp from (RS m) Ha Hp (route_domain_read jin m HR Dom)) as RA.
    rewrite effective_hop_spec. unfold route_view. fold (RS m).
    destruct (match tview (RS m) with e :: r => if j_own c lc tcp e then r else e :: r | [] => [] end) as [|e erest].
    2:{ destruct RA as (b & rest' & Wb & -> & ->).
        pose proof (route_entry_read b (lower_choice c from m) Wb) as RE. cbv zeta in RE.
        destruct (ju_sip (j_entry_uri (rp_relem b))); [|exact I].
        split; [exact (proj1 RE)|intros _; exact (proj2 RE)]. }
    rewrite RA, (service_agree_at c lc tcp from m meth au ver Ha Hp Wau Em).
    (* (2) static route of the To host, then (3) *)
    rewrite (to_route_read c jin m HR DT). unfold lower_choice, static_hop.
    assert (SV : routes_ok c ->
                 hop_port_ok (if is_my_message (new_my_name (c_name c)) from m then HopBackend else HopNone))
      by (destruct (is_my_message _ from m); intros _; exact I).
    destruct (decoded_to m) as [t|]; [|split; [reflexivity|exact SV]].
    destruct (fromto_host t) as [h|]; [|split; [reflexivity|exact SV]].
    destruct (find_route (route_table_of c) h) as [it|] eqn:FR; [|split; [reflexivity|exact SV]].
    split; [reflexivity|intros RO; exact (RO _ _ FR)].
  Qed.

  Lemma hop_read_eq h : j_hop c lc tcp q = Some h -> effective_hop c from m = h.
  Proof. intros E. pose proof (proj2 hop_read) as H. rewrite E in H. exact (proj1 H). Qed.
End HopRead.

(* the hop the judge prescribes against the hop the model takes *)
Definition hop_rel (c : cfg) (jh : jhop) (h : hop) : Prop :=
  match jh with
  | HOut => True
  | HDrop => h = HopNone
  | HBackend => h = HopBackend
  | HHop d => exists host port tr, h = HopAddr host port tr /\ d = j_dest c tr host port /\ (0 <= port <= 65535)%Z
  end.

Lemma hop_rel_read c o h :
  match o with Some h' => h = h' /\ hop_port_ok h' | None => True end -> hop_rel c (jhop_of c o) h.
Proof.
  destruct o as [[host port tr| | |]|]; cbn [jhop_of hop_rel]; try (intros [-> _]; reflexivity); try (intros _; exact I).
  intros [-> PR]. exists host, port, tr. split; [reflexivity|]. split; [reflexivity|exact PR].
Qed.

Theorem choose_agree_at : forall c lc tcp from data jin m rest q,
  t_addr from = lc_addr lc -> t_port from = listener_port lc tcp ->
  j_read data = Some jin -> parse_message data = Ok (m, rest) -> j_request jin = Some q ->
  route_domain_in (RS m) -> to_domain m -> ruri_domain jin -> routes_ok c ->
  is_request m = true /\ hop_rel c (j_choose c lc tcp q) (effective_hop c from m).
Proof.
  intros c lc tcp from data jin m rest q Ha Hp J P Q Dom DT DR RO.
  destruct (input_read _ _ _ _ J P) as (_ & PS & _).
  destruct (hop_read c lc tcp from jin m q Ha Hp (read_headers_agree _ _ _ _ J P) PS Q Dom DT DR) as (R & HA).
  split; [exact R|]. rewrite j_choose_hop. apply hop_rel_read.
  destruct (j_hop c lc tcp q) as [h|]; [exact (conj (proj1 HA) (proj2 HA RO))|exact I].
Qed.

Theorem choose_agree : forall c lc data jin m rest q,
  j_read data = Some jin -> parse_message data = Ok (m, rest) -> j_request jin = Some q ->
  route_domain_in (RS m) -> to_domain m -> ruri_domain jin -> routes_ok c ->
  is_request m = true /\ hop_rel c (j_choose c lc false q) (effective_hop c (udp_transport lc) m).
Proof.
  intros c lc data jin m rest q.
  exact (choose_agree_at c lc false (udp_transport lc) data jin m rest q eq_refl eq_refl).
Qed.

(* for a datagram: the message that enters HandleMessage (learned, stamped, own Route entry consumed), the state
   it is processed in, and the message after the route steps *)
Definition pre_msg (e : env) (peer : bytes) (pp : Z) (from : stransport) (rs : bool) (m0 : message) (x : ctx) : message :=
  let m1 := fst (pm_learn peer from m0 x) in
  let m2 := if (is_request m1 && rs)%bool then fst (s_set_received peer pp m1) else m1 in
  fst (mtry (try_remove_top_route (e_cfg e) from) m2).
Definition ctx1 (peer : bytes) (from : stransport) (m0 : message) (x : ctx) : ctx :=
  {| x_learned := learned_after peer from m0 x; x_p := x_p x; x_conns := x_conns x; x_world := x_world x;
     x_outs := x_outs x |}.
Definition routed_msg (e : env) (peer : bytes) (pp : Z) (from : stransport) (rs : bool) (m0 : message) (x : ctx) : message :=
  fst (next_request_hop (c_keep_next_hop (e_cfg e)) (route_table_of (e_cfg e)) (pre_msg e peer pp from rs m0 x)).

Lemma choice_udp e peer pp from rs m0 x x' :
  is_request m0 = true -> process_message e peer pp from rs None m0 x = Ok x' ->
  hop_goal e (ctx1 peer from m0 x) (routed_msg e peer pp from rs m0 x) (effective_hop (e_cfg e) from m0) x'.
Proof.
  intros R H. destruct (C03.request_routed _ _ _ _ _ _ _ _ _ R H) as (p1 & SC & _ & _ & _ & _ & ->).
  cbv zeta in SC. cbn [Pipeline.stage_conn snd] in SC. injection SC as <-.
  exact (hop_run_goal e _ _ _ (effective_hop_not_out _ _ _)).
Qed.

Definition obs (pc : proxy_case) (outs : list output) : list (bytes * bytes) :=
  msgs_of (map labelled (filter (visible (pc_udp_endpoints pc)) outs)).
Lemma obs_eq pc outs : obs pc outs = map labelled (filter is_msg (filter (visible (pc_udp_endpoints pc)) outs)).
Proof. apply msgs_of_labelled. Qed.
Lemma obs_len pc outs : (List.length (obs pc outs) <= msg_count outs)%nat.
Proof.
  rewrite obs_eq, map_length. unfold msg_count.
  induction outs as [|o outs IH]; [apply Nat.le_refl|]. cbn [filter].
  destruct (visible (pc_udp_endpoints pc) o); cbn [filter]; destruct (is_msg o); cbn [List.length]; lia.
Qed.
Lemma obs_udp pc ip port b :
  obs pc [(DUdp ip port, b)] = if has_peer (pc_udp_endpoints pc) ip port then [(udp_label ip port, b)] else [].
Proof.
  rewrite obs_eq. cbn [filter]. change (visible (pc_udp_endpoints pc) (DUdp ip port, b)) with (has_peer (pc_udp_endpoints pc) ip port).
  destruct (has_peer (pc_udp_endpoints pc) ip port); reflexivity.
Qed.
Lemma obs_tcp pc b outs : C07.tcp_shape b outs ->
  (obs pc outs = [] /\ msg_count outs = 0%nat) \/ exists c, obs pc outs = [(label_of (DConn c), b)].
Proof.
  intros [->|[(c & ->)|[(h & p & c & ->)|(h & p & c & c' & ->)]]]; rewrite obs_eq.
  - left. split; reflexivity.
  - right. exists c. reflexivity.
  - left. split; reflexivity.
  - right. exists c'. reflexivity.
Qed.

Lemma dest_ok_udp pc stj ip port b :
  dest_ok pc stj (JUdp ip port) (obs pc [(DUdp ip port, b)]) = true.
Proof.
  rewrite obs_udp. unfold dest_ok. destruct (has_peer (pc_udp_endpoints pc) ip port); [apply beq_refl|reflexivity].
Qed.

Definition hosts_ok (c : cfg) : Prop := forall n ip, alookup n (c_hosts c) = Some ip -> is_ipv4 ip = true.
Lemma get_ip_ipv4 c host ip : hosts_ok c -> get_ip c host = Some ip -> is_ipv4 ip = true.
Proof.
  intros HO. unfold get_ip. destruct (is_ipv4 host) eqn:E.
  - intros H. injection H as <-. exact E.
  - apply HO.
Qed.

(* the judge's list of backends of the listener against the proxy object: same members as the rotation;
   every live backend object is a member; a non-empty pool has its rotation object *)
Definition pool_agree (l : list bytes) (p : pstate) : Prop :=
  (forall a, In a l <-> In a (rr_backends (ps_rr p))) /\
  (forall a g, In (a, g) (ps_backends p) -> In a l) /\
  (l <> [] -> ps_has_rr p = true).

Lemma backend_alive_in a g p : backend_alive a g p = true -> In (a, g) (ps_backends p).
Proof.
  unfold backend_alive. intros H. apply existsb_exists in H. destruct H as ([a' g'] & I & E).
  apply andb_true_iff in E. destruct E as [E1 E2]. apply beq_eq in E1. apply Nat.eqb_eq in E2. subst. exact I.
Qed.

(* when something must leave: a live backend object, or a rotation with a member, and bytes that fit a datagram *)
Lemma backend_send_emits b bs p : fits_datagram bs = true ->
  match b with BObj a g => In (a, g) (ps_backends p) | BRR => rr_backends (ps_rr p) <> [] end ->
  exists p' a, backend_send b bs p = (p', C04.to_addr_outs a bs, true) /\
               match b with BObj a' _ => a = a' | BRR => In a (rr_backends (ps_rr p)) end.
Proof.
  intros Hfit Hb. destruct b as [a g|].
  - rewrite (C04.backend_send_obj a g bs p Hb), Hfit. exists p, a. split; reflexivity.
  - assert (NZ : List.length (rr_backends (ps_rr p)) <> 0%nat)
      by (destruct (rr_backends (ps_rr p)); [contradiction|discriminate]).
    destruct (C05.rr_member _ NZ) as (a & E1 & E2 & _).
    rewrite C04.backend_send_rr, E1, Hfit. eexists _, a. split; [reflexivity|exact E2].
Qed.

(* the backend object selected for the dialog of the request, if any, is a live one (fix 9d11976: a pin to an
   object that has left the set is forgotten) *)
Lemma stb_sel_alive e p m a g :
  fx_stale_pin (e_fx e) = true -> snd (C04.stb_sel e p m) = BObj a g -> In (a, g) (ps_backends p).
Proof.
  intros Hfx. unfold C04.stb_sel, C04.fbd_pure.
  destruct (C04.method_of m) as [meth| |]; try discriminate. destruct (_ && _)%bool; [discriminate|].
  destruct (C04.dialog_of m) as [d| |]; try discriminate. cbv zeta. rewrite Hfx. cbn [andb].
  destruct (snd (pins_get (e_now e) d (ps_pins p))) as [v|]; cbn [option_map].
  2:{ destruct (get_raw _ m); discriminate. }
  destruct (bref_alive _ (bref_of_val v)) eqn:A; cbn [negb]; [|discriminate].
  destruct (get_raw _ m); try discriminate; cbn [snd]; intros E; rewrite E in A;
    cbn [bref_alive with_pins ps_backends] in A;
    (destruct (alookup a (ps_backends p)) as [g'|] eqn:AL; [|discriminate A]);
    apply Nat.eqb_eq in A; subst g'; exact (alookup_in _ _ _ AL).
Qed.

(* sendToBackend against the judge's list [l]: with no member nothing can leave (whatever it would address is
   a member); otherwise the object selected for the dialog is alive, or the rotation has a member, and the
   datagram goes to a member *)
Lemma backend_outs e m x l t0 :
  fx_stale_pin (e_fx e) = true -> pool_agree l (x_p x) -> first_transport (e_lc e) = Some t0 ->
  (forall a, In a l -> backend_dest a <> None) ->
  fits_datagram (write_message (backend_message e t0 (x_p x) m)) = true ->
  exists extra, x_outs (fst (send_to_backend e m x)) = x_outs x ++ extra /\
    match l with
    | [] => extra = []
    | _ :: _ => exists a d b, In a l /\ backend_dest a = Some d /\ extra = [(d, b)]
    end.
Proof.
  intros Hfx (PA1 & PA2 & PA3) FT HD Hfit.
  destruct l as [|a0 l0].
  { destruct (send_to_backend_shape e m x) as (_ & extra & O & D). exists extra. split; [exact O|].
    destruct D as [->|(t1 & a & d & _ & _ & _ & _ & PB)]; [reflexivity|]. exfalso.
    destruct (pinned_backend e (x_p x) m) as [[a' g|]|].
    - destruct PB as [-> PB]. exact (PA2 _ _ (backend_alive_in _ _ _ PB)).
    - exact (proj2 (PA1 a) PB).
    - exact (proj2 (PA1 a) PB). }
  set (l := a0 :: l0) in *.
  assert (HR : ps_has_rr (x_p x) = true) by (apply PA3; discriminate).
  destruct (C04.send_to_backend_spec e m x t0 HR FT) as (_ & O & _). eexists. split; [exact O|].
  unfold C04.stb_pure. change (C04.fwd_bytes e t0 (x_p x) m) with (write_message (backend_message e t0 (x_p x) m)).
  destruct (C04.stb_sel_mem e (x_p x) m) as ((R2 & _) & R1). pose proof (stb_sel_alive e (x_p x) m) as AL.
  destruct (C04.stb_sel e (x_p x) m) as [p1 b]. cbn [fst snd] in R1, R2, AL.
  assert (Hb : match b with BObj a g => In (a, g) (ps_backends p1) | BRR => rr_backends (ps_rr p1) <> [] end).
  { destruct b as [a g|]; [rewrite R2; exact (AL a g Hfx eq_refl)|].
    rewrite R1. intros E. pose proof (proj1 (PA1 a0) (or_introl eq_refl)) as I0. rewrite E in I0. exact I0. }
  destruct (backend_send_emits b _ p1 Hfit Hb) as (p2 & a & -> & Ha). cbn [snd].
  assert (Ia : In a l).
  { destruct b as [a' g|]; [subst a'; rewrite R2 in Hb; exact (PA2 a g Hb)|apply PA1; rewrite <- R1; exact Ha]. }
  unfold C04.to_addr_outs. change (C04.addr_dest a) with (backend_dest a).
  specialize (HD a Ia). destruct (backend_dest a) as [d|] eqn:BD; [|contradiction].
  exists a, d, (write_message (backend_message e t0 (x_p x) m)). repeat split; assumption.
Qed.

(* a backend address the driver can observe and name: "ip:port" in canonical form, with a driver socket there *)
Definition backend_ok (ue : list (bytes * Z)) (a : bytes) : Prop :=
  exists ip port, backend_dest a = Some (DUdp ip port) /\ ip ++ ":"%char :: itoa port = a /\ has_peer ue ip port = true.

(* the message serialised when [m1] leaves [x1] for the hop [h] (datagram size: a message over 65507 bytes is
   not sent) *)
Definition sent_at (e : env) (h : hop) (x1 : ctx) (m1 : message) : message :=
  match h with
  | HopAddr host _ _ => C07.sent_msg (decorate e (x_learned x1) host m1)
  | HopBackend => match first_transport (e_lc e) with Some t0 => backend_message e t0 (x_p x1) m1 | None => m1 end
  | _ => m1
  end.
Definition would_send (e : env) (peer : bytes) (pp : Z) (from : stransport) (rs : bool) (m0 : message) (x : ctx) : message :=
  let m1 := routed_msg e peer pp from rs m0 x in
  match effective_hop (e_cfg e) from m0 with
  | HopAddr host _ _ => C07.sent_msg (decorate e (learned_after peer from m0 x) host m1)
  | HopBackend => match first_transport (e_lc e) with Some t0 => backend_message e t0 (x_p x) m1 | None => m1 end
  | _ => m1
  end.

(* the judge of C03 once it has read its input: [jh] is the hop it prescribes, [ms] the messages observed *)
Definition jc03_verdict (pc : proxy_case) (st : jstate) (li : nat) (jh : jhop) (ms : list (bytes * bytes)) : nat :=
  if Nat.ltb 1 (List.length ms) then 1%nat
  else match jh with
       | HOut => O
       | HDrop => match ms with [] => O | _ => 2%nat end
       | HHop d => if dest_ok pc st d ms then O else match ms with [] => 3%nat | _ => 2%nat end
       | HBackend =>
           let bs := backend_labels (match nth_opt (js_backends st) li with Some l => l | None => [] end) in
           match ms, bs with
           | [], [] => O
           | [], _ => 3%nat
           | [(l, _)], _ => if mem_bytes l bs then O else 2%nat
           | _, _ => 1%nat
           end
       end.

(* SpecProxy.judge_C03_event after [j_input], for bytes the judge can read; holds by computation *)
Lemma judge_C03_read pc st ev i outs closed jin lc :
  j_input st ev = Some i -> ji_dialled st i = false ->
  j_read (ji_data i) = Some jin -> nth_opt (c_listens (pc_cfg pc)) (ji_li i) = Some lc ->
  judge_C03_event pc st ev outs closed =
  if (jm_has_cl jin && (negb (ji_tcp i) || single_message jin))%bool then
    match j_request jin with
    | Some q => jc03_verdict pc st (ji_li i) (j_choose (pc_cfg pc) lc (ji_tcp i) q) (msgs_of outs)
    | None => O
    end
  else O.
Proof. intros I D J N. unfold judge_C03_event. rewrite I. cbv zeta. rewrite J, N, D. reflexivity. Qed.

Lemma first_transport_some lc : (0 < lc_udp lc \/ 0 < lc_tcp lc)%Z -> exists t0, first_transport lc = Some t0.
Proof.
  intros H. unfold first_transport.
  destruct (Z.ltb 0 (lc_udp lc)) eqn:A; [eexists; reflexivity|].
  destruct (Z.ltb 0 (lc_tcp lc)) eqn:B; [eexists; reflexivity|].
  apply Z.ltb_ge in A. apply Z.ltb_ge in B. lia.
Qed.

(* sendMessage against where the judge expects the message, by class of destination (j_dest) *)
Lemma send_verdict pc stj e host port tr mm x1 pre :
  e_cfg e = pc_cfg pc -> hosts_ok (pc_cfg pc) -> (0 <= port <= 65535)%Z -> fx_udp_via_listener (e_fx e) = true ->
  (forall ip p, C02.udp_slot_ok ip p (x_p x1)) -> C02.tcp_slot_ok (x_p x1) ->
  fits_datagram (write_message (C07.sent_msg mm)) = true ->
  x_outs (fst (send_message e host port tr mm x1)) = x_outs x1 ++ pre -> (msg_count pre <= 1)%nat ->
  (forall ip p, j_dest (pc_cfg pc) tr host port = JTcp ip p -> msg_count pre = 0%nat ->
                dest_ok pc stj (JTcp ip p) [] = true) ->
  dest_ok pc stj (j_dest (pc_cfg pc) tr host port) (obs pc pre) = true.
Proof.
  intros He HO PR Hfx Hslot Htso Hfit O C Htcp.
  assert (PRE : forall extra, x_outs (fst (send_message e host port tr mm x1)) = x_outs x1 ++ extra -> pre = extra)
    by (intros extra E; rewrite O in E; exact (app_inv_head _ _ _ E)).
  assert (ANY : dest_ok pc stj JAny (obs pc pre) = true).
  { pose proof (obs_len pc pre). apply Nat.leb_le. lia. }
  revert Htcp. unfold j_dest, lower_is.
  destruct (beq (to_lower tr) (s2b "udp")) eqn:TU; [|destruct (beq (to_lower tr) (s2b "tcp")) eqn:TT].
  - intros _. destruct (get_ip (pc_cfg pc) host) as [ip|] eqn:GI; [|exact ANY].
    assert (RS1 : resolvable ip port = true).
    { unfold resolvable. rewrite (get_ip_ipv4 _ _ _ HO GI). apply andb_true_iff. split; apply Z.leb_le; apply PR. }
    rewrite <- He in GI.
    rewrite (PRE _ (C02.C02_dest_udp e host port tr mm x1 ip (proj1 (beq_eq _ _) TU) GI RS1 (Hslot ip port) Hfit)).
    apply dest_ok_udp.
  - destruct (get_ip (pc_cfg pc) host) as [ip|]; [|intros _; exact ANY]. intros Htcp.
    destruct (C02.C02_dest_tcp e host port tr mm x1 Hfx (proj1 (beq_eq _ _) TT) Htso) as (outs & O2 & SH).
    rewrite (PRE _ O2) in *.
    destruct (obs_tcp pc _ _ SH) as [(-> & C0)|(c & ->)]; [exact (Htcp ip port eq_refl C0)|reflexivity].
  - intros _. apply beq_neq in TU, TT.
    rewrite (PRE [] (eq_trans (C03_unsupported_transport_dropped e host port tr mm x1 TU TT) (eq_sym (app_nil_r _)))).
    reflexivity.
Qed.

Lemma backend_verdict lab (b : bytes) l : In lab (backend_labels l) ->
  match [(lab, b)], backend_labels l with
  | [], [] => O
  | [], _ => 3%nat
  | [(l0, _)], _ => if mem_bytes l0 (backend_labels l) then O else 2%nat
  | _, _ => 1%nat
  end = O.
Proof.
  intros I. apply mem_bytes_In in I. revert I.
  destruct (backend_labels l); intros I; cbv beta iota; rewrite I; reflexivity.
Qed.

(* THE BRIDGE at the hop: the model takes the hop [h] with [m1] in [x1] (hop_goal), the judge prescribes [jh]
   which reads the same hop (hop_rel); [pre] is what is appended to the outputs *)
Lemma hop_verdict pc stj li e h jh x1 m1 x' pre l :
  e_cfg e = pc_cfg pc -> hop_rel (pc_cfg pc) jh h -> hop_goal e x1 m1 h x' ->
  x_outs x' = x_outs x1 ++ pre -> (msg_count pre <= 1)%nat ->
  hosts_ok (pc_cfg pc) -> (0 < lc_udp (e_lc e) \/ 0 < lc_tcp (e_lc e))%Z ->
  fx_udp_via_listener (e_fx e) = true -> fx_stale_pin (e_fx e) = true ->
  nth_opt (js_backends stj) li = Some l -> Forall (backend_ok (pc_udp_endpoints pc)) l ->
  pool_agree l (x_p x1) -> (forall ip port, C02.udp_slot_ok ip port (x_p x1)) -> C02.tcp_slot_ok (x_p x1) ->
  fits_datagram (write_message (sent_at e h x1 m1)) = true ->
  (forall ip port, jh = HHop (JTcp ip port) -> msg_count pre = 0%nat -> dest_ok pc stj (JTcp ip port) [] = true) ->
  jc03_verdict pc stj li jh (obs pc pre) = 0%nat.
Proof.
  intros He HR CH O C HO Hport Hfx1 Hfx2 Nl BO PA Hslot Htso Hfit Htcp.
  assert (PRE : forall extra, x_outs x' = x_outs x1 ++ extra -> pre = extra)
    by (intros extra E; rewrite O in E; exact (app_inv_head _ _ _ E)).
  unfold jc03_verdict.
  replace (Nat.ltb 1 (List.length (obs pc pre))) with false
    by (pose proof (obs_len pc pre); symmetry; apply Nat.ltb_ge; lia).
  destruct jh as [| |d|]; cbn [hop_rel] in HR.
  - reflexivity.
  - (* nothing *)
    subst h. cbn [hop_goal] in CH. rewrite (PRE [] (eq_trans (f_equal x_outs CH) (eq_sym (app_nil_r _)))). reflexivity.
  - (* an address *)
    destruct HR as (host & port & tr & -> & -> & PR). cbn [hop_goal sent_at] in CH, Hfit. subst x'.
    rewrite (send_verdict pc stj e host port tr _ x1 pre He HO PR Hfx1 Hslot Htso Hfit O C); [reflexivity|].
    intros ip p E. apply Htcp. rewrite E. reflexivity.
  - (* the pool *)
    subst h. cbn [hop_goal sent_at] in CH, Hfit. destruct (first_transport_some _ Hport) as (t0 & FT). rewrite FT in Hfit.
    rewrite Forall_forall in BO.
    assert (HD : forall a, In a l -> backend_dest a <> None).
    { intros a Ia. destruct (BO a Ia) as (ip & port & E & _). rewrite E. discriminate. }
    destruct (backend_outs e m1 x1 l t0 Hfx2 PA FT HD Hfit) as (extra & O2 & EX).
    rewrite <- CH in O2. rewrite (PRE _ O2), Nl. cbv zeta.
    destruct l as [|a0 l0]; [rewrite EX; reflexivity|].
    destruct EX as (a & d & b & Ia & BD & ->). destruct (BO a Ia) as (ip & port & BD' & CAN & VIS).
    rewrite BD' in BD. injection BD as <-. rewrite obs_udp, VIS.
    apply (backend_verdict (udp_label ip port) b (a0 :: l0)).
    replace (udp_label ip port) with (s2b "udp:" ++ a) by (rewrite <- CAN; reflexivity).
    exact (in_map (fun a => s2b "udp:" ++ a) _ a Ia).
Qed.

(* THE BRIDGE for a request, received through any transport [from] and read by the judge as the input [i]
   (not on a connection the proxy dialled): [x1], [m1] are the state and the message from which the hop is
   taken (C03_choice); the conditions on the proxy object are on the one that enters HandleMessage. *)
Theorem C03_judge_bridge_any :
  forall pc stj ev i lc closed jin m rest e peer pp from rs tcp x x' x1 m1 l,
  j_input stj ev = Some i -> ji_dialled stj i = false ->
  nth_opt (c_listens (pc_cfg pc)) (ji_li i) = Some lc -> e_cfg e = pc_cfg pc -> e_lc e = lc ->
  t_addr from = lc_addr lc -> t_port from = listener_port lc (ji_tcp i) ->
  j_read (ji_data i) = Some jin -> parse_message (ji_data i) = Ok (m, rest) ->
  route_domain_in (RS m) -> to_domain m -> ruri_domain jin ->
  hosts_ok (pc_cfg pc) -> routes_ok (pc_cfg pc) -> (0 < lc_udp lc \/ 0 < lc_tcp lc)%Z ->
  fx_udp_via_listener (e_fx e) = true -> fx_stale_pin (e_fx e) = true ->
  nth_opt (js_backends stj) (ji_li i) = Some l -> Forall (backend_ok (pc_udp_endpoints pc)) l ->
  process_message e peer pp from rs tcp m x = Ok x' ->
  (is_request m = true -> hop_goal e x1 m1 (effective_hop (e_cfg e) from m) x') -> x_outs x1 = x_outs x ->
  pool_agree l (x_p x1) -> (forall ip port, C02.udp_slot_ok ip port (x_p x1)) -> C02.tcp_slot_ok (x_p x1) ->
  fits_datagram (write_message (sent_at e (effective_hop (e_cfg e) from m) x1 m1)) = true ->
  exists pre, x_outs x' = x_outs x ++ pre /\ (msg_count pre <= 1)%nat /\
    ((forall q ip port, j_request jin = Some q -> j_choose (pc_cfg pc) lc (ji_tcp i) q = HHop (JTcp ip port) ->
        msg_count pre = 0%nat -> dest_ok pc stj (JTcp ip port) [] = true) ->
     judge_C03_event pc stj ev (map labelled (filter (visible (pc_udp_endpoints pc)) pre)) closed = 0%nat).
Proof.
  intros pc stj ev i lc closed jin m rest e peer pp from rs tcp x x' x1 m1 l
         JI JD N He Hlc Ha Hp J P Dom DT DR HO RO Hport Hfx1 Hfx2 Nl BO H CH O1 PA Hslot Htso Hfit.
  destruct (C03_at_most_one _ _ _ _ _ _ _ _ _ H) as (pre & O & C).
  exists pre. split; [exact O|]. split; [exact C|]. intros Htcp.
  rewrite (judge_C03_read pc stj ev i _ closed jin lc JI JD J N).
  destruct (jm_has_cl jin && _)%bool; [|reflexivity].
  destruct (j_request jin) as [q|] eqn:Q; [|reflexivity].
  destruct (choose_agree_at (pc_cfg pc) lc (ji_tcp i) from _ jin m rest q Ha Hp J P Q Dom DT DR RO) as (R & HR).
  specialize (CH R). rewrite He in CH, Hfit. rewrite <- O1 in O. subst lc.
  exact (hop_verdict pc stj (ji_li i) e _ _ x1 m1 x' pre l He HR CH O C HO Hport Hfx1 Hfx2 Nl BO PA Hslot Htso Hfit
           (fun ip port => Htcp q ip port eq_refl)).
Qed.

(* THE BRIDGE, process_message level.
   Input side:   route_domain_in / to_domain / ruri_domain: the first two Route headers, the To header and the
                 Request-URI are reference renderings of the C14 grammar.
   Configuration: hosts_ok (the host table maps to IPv4 literals), routes_ok (static-route ports are ports),
                 the listener has a UDP port; fixes fx_udp_via_listener (B1) and fx_stale_pin (9d11976).
   Judge vs model: the judge's backend list [l] of the listener has the members of the rotation (pool_agree);
                 every backend is "ip:port" in canonical form where the driver owns a socket (backend_ok).
   Model state:  the UDP slots of the transport table hold UDP clients (C02.udp_slot_ok; true until a send
                 fails), no tcp key holds a UDP client (C02.tcp_slot_ok, an invariant: C02_tcp_slot_reachable);
                 the message to send fits a datagram.
   TCP next hop: when nothing is written on a connection the peer must be a refusing one for the judge
                 (premise of the conclusion: the model can stay silent towards a listening peer, e.g. a
                 request with a transaction id towards the source port of an accepted connection; a stale
                 cached connection alone does not silence it, C02.C02_stale_redial). *)
Theorem C03_judge_bridge_udp :
  forall pc stj li lc src sport data closed jin m rest e rs x x' l,
  nth_opt (c_listens (pc_cfg pc)) li = Some lc -> e_cfg e = pc_cfg pc -> e_lc e = lc ->
  j_read data = Some jin -> parse_message data = Ok (m, rest) ->
  route_domain_in (RS m) -> to_domain m -> ruri_domain jin ->
  hosts_ok (pc_cfg pc) -> routes_ok (pc_cfg pc) -> (0 < lc_udp lc)%Z ->
  fx_udp_via_listener (e_fx e) = true -> fx_stale_pin (e_fx e) = true ->
  nth_opt (js_backends stj) li = Some l -> pool_agree l (x_p x) ->
  Forall (backend_ok (pc_udp_endpoints pc)) l ->
  (forall ip port, C02.udp_slot_ok ip port (x_p x)) -> C02.tcp_slot_ok (x_p x) ->
  fits_datagram (write_message (would_send e src sport (udp_transport lc) rs m x)) = true ->
  process_message e src sport (udp_transport lc) rs None m x = Ok x' ->
  exists pre, x_outs x' = x_outs x ++ pre /\ (msg_count pre <= 1)%nat /\
    ((forall q ip port, j_request jin = Some q -> j_choose (pc_cfg pc) lc false q = HHop (JTcp ip port) ->
        msg_count pre = 0%nat -> dest_ok pc stj (JTcp ip port) [] = true) ->
     judge_C03_event pc stj (EvUdp li src sport data)
       (map labelled (filter (visible (pc_udp_endpoints pc)) pre)) closed = 0%nat).
Proof.
  intros pc stj li lc src sport data closed jin m rest e rs x x' l
         N He Hlc J P Dom DT DR HO RO Hudp Hfx1 Hfx2 Nl PA BO Hslot Htso Hfit H.
  exact (C03_judge_bridge_any pc stj (EvUdp li src sport data)
           {| ji_li := li; ji_tcp := false; ji_conn := 0; ji_src := src; ji_sport := sport; ji_data := data |}
           lc closed jin m rest e src sport (udp_transport lc) rs None x x'
           (ctx1 src (udp_transport lc) m x) (routed_msg e src sport (udp_transport lc) rs m x) l
           eq_refl eq_refl N He Hlc eq_refl eq_refl J P Dom DT DR HO RO (or_introl Hudp) Hfx1 Hfx2 Nl BO H
           (fun R => choice_udp e src sport (udp_transport lc) rs m x x' R H) eq_refl PA Hslot Htso Hfit).
Qed.

(* the listen entry as the judge files it: with SpecProxy.dial_mark added for a connection THE PROXY DIALLED
   (read by its own KTcpConn transport), as it is for an accepted one *)
Definition jli_of (cn : conn) : nat :=
  match t_kind (cn_from cn) with KTcpConn => (cn_li cn + dial_mark)%nat | _ => cn_li cn end.
Definition conns_agree (jc : list (nat * (nat * bytes * Z))) (cs : list conn) : Prop :=
  forall id li ip port, In (id, (li, ip, port)) jc <->
    exists cn, In cn cs /\ cn_open cn = true /\ cn_id cn = id /\ jli_of cn = li /\ cn_peer cn = ip /\ cn_peer_port cn = port.
Definition agree (stj : jstate) (st : state) : Prop :=
  (forall li p, nth_p (st_proxies st) li = Some p ->
     exists l, nth_opt (js_backends stj) li = Some l /\ pool_agree l p) /\
  conns_agree (js_conns stj) (st_conns st).

Definition step_would_send (fx : fixes) (c : cfg) (now : Z) (br : bytes) (st : state) (li : nat) (lc : listen_cfg)
           (p : pstate) (src : bytes) (sport : Z) (m : message) : message :=
  let e := mk_env fx c (item_rs_of (fx_wiring fx)) li lc now br in
  would_send e src sport (udp_transport lc) (e_item_rs e) m
    {| x_learned := st_learned st; x_p := p; x_conns := st_conns st; x_world := st_world st; x_outs := [] |}.

(* THE BRIDGE for one step of the whole proxy on a datagram: [outs] is what RunProxy prints for the event *)
Theorem C03_judge_bridge_step :
  forall pc stj fx now br st st' outs li lc p src sport data closed jin m rest,
  nth_opt (c_listens (pc_cfg pc)) li = Some lc ->
  j_read data = Some jin -> parse_message data = Ok (m, rest) ->
  route_domain_in (RS m) -> to_domain m -> ruri_domain jin ->
  hosts_ok (pc_cfg pc) -> routes_ok (pc_cfg pc) -> (0 < lc_udp lc)%Z ->
  fx_udp_via_listener fx = true -> fx_stale_pin fx = true ->
  agree stj st -> nth_p (st_proxies st) li = Some p ->
  (forall l, nth_opt (js_backends stj) li = Some l -> Forall (backend_ok (pc_udp_endpoints pc)) l) ->
  (forall ip port, C02.udp_slot_ok ip port p) -> C02.tcp_slot_ok p ->
  fits_datagram (write_message (step_would_send fx (pc_cfg pc) now br st li lc p src sport m)) = true ->
  proxy_step fx (pc_cfg pc) now br st (EvUdp li src sport data) = Ok (st', outs) ->
  (forall q ip port, j_request jin = Some q -> j_choose (pc_cfg pc) lc false q = HHop (JTcp ip port) ->
     msg_count outs = 0%nat -> dest_ok pc stj (JTcp ip port) [] = true) ->
  judge_C03_event pc stj (EvUdp li src sport data)
    (map labelled (filter (visible (pc_udp_endpoints pc)) outs)) closed = 0%nat.
Proof.
  intros pc stj fx now br st st' outs li lc p src sport data closed jin m rest
         N J P Dom DT DR HO RO Hudp Hfx1 Hfx2 (AG & _) Np BO Hslot Htso Hfit H Htcp.
  destruct (AG li p Np) as (l & Nl & PA).
  destruct (Pipeline.proxy_step_udp_single _ _ _ _ _ _ _ _ _ _ _ _ _ _ _ N P Np H) as (x' & PM & _ & ->).
  destruct (C03_judge_bridge_udp pc stj li lc src sport data closed jin m rest
              (Pipeline.listener_env fx (pc_cfg pc) now br li lc) _ (Pipeline.start_ctx st p) x' l
              N eq_refl eq_refl J P Dom DT DR HO RO Hudp Hfx1 Hfx2 Nl PA (BO l Nl) Hslot Htso Hfit PM)
    as (pre & O & _ & K).
  cbn [x_outs Pipeline.start_ctx app] in O. rewrite O in *. exact (K Htcp).
Qed.

(* ... with conditions on the input, the configuration and the two states only, when the hop the judge reads in
   the request is not a TCP destination (Route / static route over udp, unsupported transport, unresolvable
   host, backend, nothing) *)
Corollary C03_judge_bridge_step_no_tcp :
  forall pc stj fx now br st st' outs li lc p src sport data closed jin m rest,
  nth_opt (c_listens (pc_cfg pc)) li = Some lc ->
  j_read data = Some jin -> parse_message data = Ok (m, rest) ->
  route_domain_in (RS m) -> to_domain m -> ruri_domain jin ->
  hosts_ok (pc_cfg pc) -> routes_ok (pc_cfg pc) -> (0 < lc_udp lc)%Z ->
  fx_udp_via_listener fx = true -> fx_stale_pin fx = true ->
  agree stj st -> nth_p (st_proxies st) li = Some p ->
  (forall l, nth_opt (js_backends stj) li = Some l -> Forall (backend_ok (pc_udp_endpoints pc)) l) ->
  (forall ip port, C02.udp_slot_ok ip port p) -> C02.tcp_slot_ok p ->
  fits_datagram (write_message (step_would_send fx (pc_cfg pc) now br st li lc p src sport m)) = true ->
  proxy_step fx (pc_cfg pc) now br st (EvUdp li src sport data) = Ok (st', outs) ->
  (forall q ip port, j_request jin = Some q -> j_choose (pc_cfg pc) lc false q <> HHop (JTcp ip port)) ->
  judge_C03_event pc stj (EvUdp li src sport data)
    (map labelled (filter (visible (pc_udp_endpoints pc)) outs)) closed = 0%nat.
Proof.
  intros pc stj fx now br st st' outs li lc p src sport data closed jin m rest
         N J P Dom DT DR HO RO Hudp Hfx1 Hfx2 AG Np BO Hslot Htso Hfit H NT.
  apply (C03_judge_bridge_step pc stj fx now br st st' outs li lc p src sport data closed jin m rest
           N J P Dom DT DR HO RO Hudp Hfx1 Hfx2 AG Np BO Hslot Htso Hfit H).
  intros q ip port Q JC _. exfalso. exact (NT q ip port Q JC).
Qed.

Lemma first_glob_in t h it : first_glob t h = Some it -> exists d, In (d, it) t.
Proof.
  induction t as [|[d i0] r IH]; cbn [first_glob]; [discriminate|].
  destruct (glob d h).
  - intros E. injection E as <-. exists d. left. reflexivity.
  - intros E. destruct (IH E) as (d' & I'). exists d'. right. exact I'.
Qed.
Lemma find_route_in t h it : find_route t h = Some it -> exists d, In (d, it) t.
Proof.
  unfold find_route. destruct (alookup h t) as [i0|] eqn:A.
  - intros E. injection E as <-. exists h. apply alookup_in, A.
  - destruct (first_glob t h) as [i1|] eqn:G.
    + intros E. injection E as <-. exact (first_glob_in _ _ _ G).
    + intros E. exists (s2b "default"). apply alookup_in, E.
Qed.
Definition routes_ok_b (c : cfg) : bool :=
  forallb (fun kv => Z.leb 0 (ri_port (snd kv)) && Z.leb (ri_port (snd kv)) 65535) (route_table_of c).
Lemma routes_ok_b_sound c : routes_ok_b c = true -> routes_ok c.
Proof.
  unfold routes_ok_b, routes_ok. intros H h it F. destruct (find_route_in _ _ _ F) as (d & I).
  rewrite forallb_forall in H. specialize (H _ I). cbn [snd] in H.
  apply andb_true_iff in H. destruct H as [H1 H2]. apply Z.leb_le in H1. apply Z.leb_le in H2. lia.
Qed.

Definition jdummy : jmsg :=
  {| jm_start := []; jm_headers := []; jm_body := []; jm_rest := []; jm_has_cl := false; jm_cl_count := 0;
     jm_cl_value := None |}.
Definition jin_of (d : bytes) : jmsg := match j_read d with Some j => j | None => jdummy end.

(* The conditions of the bridge on the input, for a concrete request [d], decided by one evaluation that reads
   and parses [d] once: the Route headers are none ([routes] = []) or one, printed from [routes]; the first To
   header and the Request-URI are printed from [to] and [au]; [ws] is the message the model would serialise.
   The answer is the hop the judge reads. *)
Definition request_read (c : cfg) (lc : listen_cfg) (tcp : bool) (ws : message -> message) (d rest : bytes)
           (routes : list a_relem) (to : a_fromto) (au : a_addr) : option jhop :=
  match j_read d, parse_message d with
  | Some jin, Ok (m, r) =>
      if (beq r rest
          && match RS m, routes with
             | [], [] => true
             | [h], _ :: _ => match h_val h with
                              | HRaw s => beq s (rp_route routes) && forallb wf_relem routes && forallb lead_ok routes
                              | _ => false
                              end
             | _, _ => false
             end
          && match get_header (s2b "To") (m_headers m) with
             | Some h => match h_val h with HRaw s => beq s (rp_fromto to) && wf_fromto to | _ => false end
             | None => true
             end
          && no_usp (jm_start jin)
          && match fields (jm_start jin) with [_; u; _] => beq u (rp_addr au) && wf_addr au | _ => false end
          && fits_datagram (write_message (ws m)))%bool
      then option_map (j_choose c lc tcp) (j_request jin)
      else None
  | _, _ => None
  end.

Lemma request_read_sound c lc tcp ws d rest routes to au jh :
  request_read c lc tcp ws d rest routes to au = Some jh ->
  j_read d = Some (jin_of d) /\ parse_message d = Ok (parsed d, rest) /\
  route_domain_in (RS (parsed d)) /\ to_domain (parsed d) /\ ruri_domain (jin_of d) /\
  fits_datagram (write_message (ws (parsed d))) = true /\
  option_map (j_choose c lc tcp) (j_request (jin_of d)) = Some jh.
Proof.
  unfold request_read, jin_of, parsed.
  destruct (j_read d) as [jin|]; [|discriminate]. destruct (parse_message d) as [[m r]| |]; try discriminate.
  destruct (_ && _)%bool eqn:B; [|discriminate]. intros Q.
  apply andb_true_iff in B. destruct B as [B Hfit]. apply andb_true_iff in B. destruct B as [B HU].
  apply andb_true_iff in B. destruct B as [B HN]. apply andb_true_iff in B. destruct B as [B HT].
  apply andb_true_iff in B. destruct B as [Hr HR]. apply beq_eq in Hr. subst r.
  split; [reflexivity|]. split; [reflexivity|]. split; [|split; [|split; [|split; [exact Hfit|exact Q]]]].
  - destruct (RS m) as [|h [|h2 t]]; destruct routes as [|a l]; try discriminate HR; [exact I|].
    destruct (h_val h) eqn:EV; try discriminate HR.
    apply andb_true_iff in HR. destruct HR as [HR L]. apply andb_true_iff in HR. destruct HR as [E W].
    apply beq_eq in E. subst. split; [|exact I]. exists (a :: l). split; [discriminate|]. auto.
  - unfold to_domain. destruct (get_header (s2b "To") (m_headers m)) as [h|]; [|exact I].
    destruct (h_val h); try discriminate HT. apply andb_true_iff in HT. destruct HT as [E W].
    apply beq_eq in E. subst. exists to. split; [exact W|reflexivity].
  - split; [apply fields_go_no_usp, HN|]. intros meth u ver F. rewrite F in HU.
    apply andb_true_iff in HU. destruct HU as [E W]. apply beq_eq in E. exists au. split; [exact W|exact E].
Qed.

Definition dests_of (r : res (state * list output)) : option (list dest) :=
  match r with Ok (_, o) => Some (map fst o) | _ => None end.
Lemma labels_fst (o : list output) : map (fun x => fst (labelled x)) o = map label_of (map fst o).
Proof. rewrite map_map. reflexivity. Qed.
Lemma msg_count_fst (o : list output) : msg_count o = msg_count (map (fun d => (d, [])) (map fst o)).
Proof.
  unfold msg_count. induction o as [|[d b] o IH]; [reflexivity|]. cbn [map filter fst].
  change (is_msg (d, b)) with (is_msg (d, @nil ascii)). destruct (is_msg (d, [])); cbn [List.length]; rewrite IH; reflexivity.
Qed.

(* the configuration of proofs/C01.v (service "example.com", listener 10.0.0.1:5060, one backend
   10.0.0.2:5080, a static route for static.example.org); the driver owns sockets at the peer
   10.0.0.9:5070 and at the backend *)
Definition b3_pc : proxy_case :=
  {| pc_cfg := C01.ex_cfg; pc_tcp_listeners := [(s2b "10.0.0.7", 5080%Z)];
     pc_udp_endpoints := [(s2b "10.0.0.9", 5070%Z); (s2b "10.0.0.2", 5080%Z)]; pc_events := []; pc_waits := [] |}.
Definition b3_p : pstate := init_pstate C01.ex_cfg 0 C01.ex_lc.
Definition b3_src : bytes := s2b "10.0.0.9".
Definition b3_step (d : bytes) : res (state * list output) :=
  proxy_step all_fixed (pc_cfg b3_pc) 1000 (branch_of 0) C01.ex_st (EvUdp 0 b3_src 5070%Z d).
Definition b3_outs (d : bytes) : list output := match b3_step d with Ok (_, o) => o | _ => [] end.
Definition b3_state (d : bytes) : state := match b3_step d with Ok (s, _) => s | _ => C01.ex_st end.
Definition b3_to : a_fromto :=
  {| af_addr := AFName {| an_display := [];
                          an_addr := AASip {| au_secure := false; au_user := Some (s2b "svc", None);
                                              au_host := s2b "example.com"; au_port := None;
                                              au_params := []; au_headers := [] |} |};
     af_params := [] |}.
Definition b3_uri (user host : string) : a_addr :=
  AASip {| au_secure := false; au_user := Some (s2b user, None); au_host := s2b host; au_port := None;
           au_params := []; au_headers := [] |}.

Lemma pool_agree_one a g p :
  rr_backends (ps_rr p) = [a] -> ps_backends p = [(a, g)] -> ps_has_rr p = true -> pool_agree [a] p.
Proof.
  intros E1 E2 E3. split; [intros b; rewrite E1; tauto|]. split; [|intros _; exact E3].
  intros b g' I. rewrite E2 in I. destruct I as [I|[]]. injection I as <- _. left. reflexivity.
Qed.

Lemma b3_agree_init : agree (js_init C01.ex_cfg) C01.ex_st.
Proof.
  split.
  - intros li p Np. destruct li as [|li]; [|destruct li; discriminate Np].
    assert (E : p = b3_p) by (injection Np as <-; reflexivity). subst p.
    exists [s2b "10.0.0.2:5080"]. split; [reflexivity|].
    apply (pool_agree_one _ 0%nat); vm_compute; reflexivity.
  - intros id li ip port. split; [intros []|intros (cn & [] & _)].
Qed.

(* the step theorem on the case: a request whose input conditions are decided by request_read and whose outputs go
   to [ds], the one thing evaluated of the step; when the hop is a TCP destination a message is among them *)
Lemma b3_bridge d routes to au jh ds :
  request_read C01.ex_cfg C01.ex_lc false
    (step_would_send all_fixed C01.ex_cfg 1000 (branch_of 0) C01.ex_st 0 C01.ex_lc b3_p b3_src 5070%Z)
    d [] routes to au = Some jh ->
  dests_of (b3_step d) = Some ds ->
  (forall ip port, jh <> HHop (JTcp ip port)) \/ msg_count (map (fun x => (x, [])) ds) = 1%nat ->
  map (fun o => fst (labelled o)) (b3_outs d) = map label_of ds /\
  judge_C03_event b3_pc (js_init C01.ex_cfg) (EvUdp 0 b3_src 5070%Z d)
    (map labelled (filter (visible (pc_udp_endpoints b3_pc)) (b3_outs d))) [] = 0%nat.
Proof.
  intros RR E NT. destruct (request_read_sound _ _ _ _ _ _ _ _ _ _ RR) as (J & P & Dom & DT & DR & Hfit & JH).
  unfold b3_outs. destruct (b3_step d) as [[s o]| |] eqn:Hrun; try discriminate E.
  injection E as <-. split; [apply labels_fst|]. rewrite <- msg_count_fst in NT. unfold b3_step in Hrun.
  refine (C03_judge_bridge_step b3_pc (js_init C01.ex_cfg) all_fixed 1000%Z (branch_of 0) C01.ex_st s o
            0%nat C01.ex_lc b3_p b3_src 5070%Z d [] (jin_of d) (parsed d) []
            eq_refl J P Dom DT DR _ _ _ eq_refl eq_refl b3_agree_init eq_refl _ _ _ Hfit Hrun _).
  - intros n ip A. discriminate A.
  - apply routes_ok_b_sound. vm_compute. reflexivity.
  - unfold C01.ex_lc. cbn [lc_udp]. lia.
  - intros l E. injection E as <-. constructor; [|constructor].
    exists (s2b "10.0.0.2"), 5080%Z. split; [vm_compute; reflexivity|]. split; vm_compute; reflexivity.
  - intros ip port. exact (proj1 (C02.slots_ok_init C01.ex_cfg 0 C01.ex_lc ip port)).
  - exact (proj2 (C02.slots_ok_init C01.ex_cfg 0 C01.ex_lc [] 0%Z)).
  - intros q ip port Q JC C0. destruct NT as [NT|C1]; [|rewrite C1 in C0; discriminate C0].
    rewrite Q in JH. injection JH as <-. destruct (NT ip port JC).
Qed.

(* 1. Route: own entry, next hop 10.0.0.9:5070 (udp), one more entry *)
Example b3_route_accepted :
  map (fun o => fst (labelled o)) (b3_outs b13_req) = [s2b "udp:10.0.0.9:5070"] /\
  judge_C03_event b3_pc (js_init C01.ex_cfg) (EvUdp 0 b3_src 5070%Z b13_req)
    (map labelled (filter (visible (pc_udp_endpoints b3_pc)) (b3_outs b13_req))) [] = 0%nat.
Proof.
  apply (b3_bridge b13_req b13_routes b3_to (b3_uri "bob" "elsewhere.example")
           (HHop (JUdp (s2b "10.0.0.9") 5070%Z)) [DUdp (s2b "10.0.0.9") 5070%Z]).
  - vm_compute. reflexivity.
  - vm_compute. reflexivity.
  - left. discriminate.
Qed.

(* 2. no Route, no static route for the To host, the Request-URI names the service: a backend *)
Definition b3_req_svc : bytes := s2b "INVITE sip:bob@example.com SIP/2.0" ++ crlf ++ C01.ex_common.
Example b3_backend_accepted :
  map (fun o => fst (labelled o)) (b3_outs b3_req_svc) = [s2b "udp:10.0.0.2:5080"] /\
  judge_C03_event b3_pc (js_init C01.ex_cfg) (EvUdp 0 b3_src 5070%Z b3_req_svc)
    (map labelled (filter (visible (pc_udp_endpoints b3_pc)) (b3_outs b3_req_svc))) [] = 0%nat.
Proof.
  apply (b3_bridge b3_req_svc [] b3_to (b3_uri "bob" "example.com") HBackend [DUdp (s2b "10.0.0.2") 5080%Z]).
  - vm_compute. reflexivity.
  - vm_compute. reflexivity.
  - left. discriminate.
Qed.

(* what one message does to the proxy object as far as the judge's bookkeeping goes: the pool keeps its members,
   the connection table grows by exactly the connections whose dialling was reported, nothing is closed *)
Definition pool_same (p p' : pstate) : Prop :=
  (forall a, In a (rr_backends (ps_rr p')) <-> In a (rr_backends (ps_rr p))) /\
  ps_backends p' = ps_backends p /\ ps_has_rr p' = ps_has_rr p.
Lemma pool_same_refl p : pool_same p p.
Proof. split; [intros a; reflexivity|split; reflexivity]. Qed.
Lemma pool_same_trans a b c : pool_same a b -> pool_same b c -> pool_same a c.
Proof. intros (A1 & A2 & A3) (B1 & B2 & B3). split; [intros x; rewrite B1; apply A1|split; congruence]. Qed.
Lemma same_rr_pool p p' : same_rr p p' -> pool_same p p'.
Proof. intros (A & B & C). split; [intros a; rewrite A; reflexivity|split; assumption]. Qed.
Lemma lb_pool p p' : C04.lb_eq p p' -> pool_same p p'.
Proof. intros (A & B & C & _). split; [intros a; rewrite B; reflexivity|split; assumption]. Qed.
Lemma pool_with_pins p x : pool_same p (with_pins p x).
Proof. split; [intros a; reflexivity|split; reflexivity]. Qed.
Lemma pool_agree_same l p p' : pool_same p p' -> pool_agree l p -> pool_agree l p'.
Proof.
  intros (A & B & C) (P1 & P2 & P3). split; [intros a; rewrite A; apply P1|].
  split; [intros a g I; rewrite B in I; exact (P2 a g I)|intros NE; rewrite C; exact (P3 NE)].
Qed.

(* (the same list as Pipeline.dial_conns) *)
Definition dial_conns (li : nat) (local : bytes) (rs : bool) (outs : list output) : list conn :=
  flat_map (fun o => match fst o with
                     | DDial ip port c =>
                         [{| cn_id := c; cn_li := li; cn_open := true; cn_peer := ip; cn_peer_port := port;
                             cn_from := {| t_kind := KTcpConn; t_addr := local; t_port := 0 |};
                             cn_received_support := rs |}]
                     | _ => []
                     end) outs.

Definition ctx_step (e : env) (x x' : ctx) : Prop :=
  pool_same (x_p x) (x_p x') /\
  exists extra, x_outs x' = x_outs x ++ extra /\
    x_conns x' = x_conns x ++ dial_conns (e_li e) (lc_addr (e_lc e)) (pa_received_support (wire_proxy (e_lc e))) extra.
Lemma ctx_step_same e x y : pool_same (x_p x) (x_p y) -> x_outs y = x_outs x -> x_conns y = x_conns x -> ctx_step e x y.
Proof. intros A B C. split; [exact A|]. exists []. rewrite B, C. split; symmetry; apply app_nil_r. Qed.
Lemma ctx_step_refl e x : ctx_step e x x.
Proof. apply ctx_step_same; [apply pool_same_refl|reflexivity..]. Qed.

Lemma ctx_step_trans e x y z : ctx_step e x y -> ctx_step e y z -> ctx_step e x z.
Proof.
  intros (A & GA) (B & GB). split; [exact (pool_same_trans _ _ _ A B)|exact (Pipeline.ctx_grows_trans e x y z GA GB)].
Qed.

Lemma send_message_step e host port tr m x : ctx_step e x (fst (send_message e host port tr m x)).
Proof. split; [apply lb_pool, C04.lb_send_message|apply Pipeline.send_message_conns]. Qed.

Lemma rr_dispatch_backends s : rr_backends (fst (rr_dispatch s)) = rr_backends s.
Proof.
  destruct (Nat.eq_dec (List.length (rr_backends s)) 0) as [Z|NZ].
  - rewrite (C05.rr_member_empty _ Z). reflexivity.
  - destruct (C05.rr_member _ NZ) as (b & _ & _ & E & _). exact E.
Qed.

Lemma backend_send_pool b bs p : pool_same p (fst (fst (backend_send b bs p))).
Proof.
  unfold backend_send. cbv zeta. destruct b as [a g|].
  - destruct (_ && _)%bool; apply pool_same_refl.
  - pose proof (rr_dispatch_backends (ps_rr p)) as RB.
    destruct (rr_dispatch (ps_rr p)) as [r' o]. cbn [fst] in RB.
    assert (W : pool_same p (with_rr p r')).
    { split; [intros a; cbn [with_rr ps_rr]; rewrite RB; reflexivity|split; reflexivity]. }
    destruct o; [destruct (fits_datagram _)|]; exact W.
Qed.

(* sendToBackend (C04.send_to_backend_spec: the proxy object after it is C04.stb_pure's): the object found for
   the dialog and the pin of the transaction leave the pool alone, the rotation keeps its members; what it
   sends is a datagram *)
Lemma send_to_backend_step e m x : ctx_step e x (fst (send_to_backend e m x)).
Proof.
  destruct (ps_has_rr (x_p x)) eqn:HR; [|unfold send_to_backend; rewrite HR; apply ctx_step_refl].
  destruct (first_transport (e_lc e)) as [t0|] eqn:FT; [|unfold send_to_backend; rewrite HR, FT; apply ctx_step_refl].
  destruct (C04.send_to_backend_spec e m x t0 HR FT) as (EP & O & _ & Cn & _). split.
  - rewrite EP. unfold C04.stb_pure.
    pose proof (proj1 (C04.stb_sel_mem e (x_p x) m)) as (M1 & M2 & _). pose proof (proj2 (C04.stb_sel_mem e (x_p x) m)) as MR.
    destruct (C04.stb_sel e (x_p x) m) as [p1 b]. cbn [fst] in M1, M2, MR.
    assert (P1 : pool_same (x_p x) p1) by (split; [rewrite MR; intros a; reflexivity|split; assumption]).
    pose proof (backend_send_pool b (C04.fwd_bytes e t0 (x_p x) m) p1) as P2.
    destruct (backend_send b (C04.fwd_bytes e t0 (x_p x) m) p1) as [[p2 outs] ok]. cbn [fst] in P2.
    pose proof (pool_same_trans _ _ _ P1 P2) as P3.
    destruct ok; cbn [fst]; [|exact P3]. destruct (snd (s_get_cseq m)); [|exact P3..].
    exact (pool_same_trans _ _ _ P3 (pool_with_pins _ _)).
  - apply Pipeline.send_to_backend_conns.
Qed.

(* filing the connection for the responses leaves the pool alone *)
Lemma register_conn_pool e c host port t p : pool_same p (Pipeline.register_conn e c host port t p).
Proof.
  destruct (Pipeline.register_conn_cases e c host port t p) as [->|(key & _ & ->)]; apply lb_pool.
  - apply C04.lb_get_transport.
  - eapply C04.lb_trans; [apply C04.lb_get_transport|apply C04.lb_set_primary].
Qed.

Lemma process_message_step e peer pp from rs tcp m0 x x' :
  process_message e peer pp from rs tcp m0 x = Ok x' -> ctx_step e x x'.
Proof.
  apply (MsgStages.process_message_rel (ctx_step e) (ctx_step_refl e) (ctx_step_trans e) e
           (send_message_step e) (send_to_backend_step e)).
  - intros y l pins. apply ctx_step_same; [apply pool_with_pins|reflexivity..].
  - intros y c host port t. apply ctx_step_same; [apply register_conn_pool|reflexivity..].
Qed.

Definition jc_of (cn : conn) : nat * (nat * bytes * Z) := (cn_id cn, (jli_of cn, cn_peer cn, cn_peer_port cn)).
(* the label and payload of a dial report can be read back: port and identifier in the int64 range *)
Definition dials_readable (outs : list output) : Prop :=
  Forall (fun o => match fst o with
                   | DDial ip port c => (int_min <= port <= int_max)%Z /\ (Z.of_nat c <= int_max)%Z
                   | _ => True end) outs.

Lemma dialled_cons li o l :
  dialled li (o :: l) =
  (if is_dial o then
     match last_index_byte ":"%char (skipn 5 (fst o)), atoi (snd o) with
     | Some p, Some id => [(Z.to_nat id, ((li + dial_mark)%nat, firstn p (skipn 5 (fst o)),
                                          atoi_val (skipn (S p) (skipn 5 (fst o)))))]
     | _, _ => []
     end
   else []) ++ dialled li l.
Proof. reflexivity. Qed.

Lemma dialled_labelled ue li local rs outs : dials_readable outs ->
  dialled li (map labelled (filter (visible ue) outs)) = map jc_of (dial_conns li local rs outs).
Proof.
  intros DRd. induction outs as [|o outs IH]; [reflexivity|]. inversion DRd as [|? ? Ho Hr]; subst.
  specialize (IH Hr). destruct o as [[ip port|c|ip port c] b].
  - cbn [filter]. change (dial_conns li local rs ((DUdp ip port, b) :: outs)) with (dial_conns li local rs outs).
    destruct (visible ue (DUdp ip port, b)); [|exact IH].
    cbn [map]. rewrite dialled_cons, is_dial_labelled. cbn [is_msg fst negb app]. exact IH.
  - change (dial_conns li local rs ((DConn c, b) :: outs)) with (dial_conns li local rs outs).
    cbn [filter]. change (visible ue (DConn c, b)) with true. cbv iota.
    cbn [map]. rewrite dialled_cons, is_dial_labelled. cbn [is_msg fst negb app]. exact IH.
  - cbn [filter]. change (visible ue (DDial ip port c, b)) with true. cbv iota.
    cbn [map]. rewrite dialled_cons, is_dial_labelled. cbn [is_msg fst negb].
    change (skipn 5 (fst (labelled (DDial ip port c, b)))) with (ip ++ ":"%char :: itoa port).
    change (snd (labelled (DDial ip port c, b))) with (itoa (Z.of_nat c)).
    cbn [fst] in Ho. destruct Ho as (Hp & Hc).
    rewrite (last_index_byte_app ":"%char ip (itoa port) (itoa_no_colon port)).
    rewrite atoi_itoa by (unfold int_min; lia).
    rewrite firstn_length_app, skipn_S_length_app, (atoi_val_itoa port Hp), Nat2Z.id.
    cbn [app]. rewrite IH. reflexivity.
Qed.

Lemma filter_true_id {A} (f : A -> bool) l : (forall x, f x = true) -> filter f l = l.
Proof. intros H. induction l as [|a l IH]; [reflexivity|]. cbn [filter]. rewrite (H a), IH. reflexivity. Qed.

Lemma js_step_c_udp stj li src sport data o :
  js_backends (js_step_c stj (EvUdp li src sport data) o []) = js_backends stj /\
  js_conns (js_step_c stj (EvUdp li src sport data) o []) = js_conns stj ++ dialled li o.
Proof.
  unfold js_step_c, js_step. cbv beta iota zeta. cbn [js_backends js_conns app].
  split; [reflexivity|]. apply filter_true_id. intros x. reflexivity.
Qed.

(* the connections dialled for the listen entry [li] are the records the judge derives from the dial reports *)
Lemma conns_agree_app jc cs li local rs extra :
  conns_agree jc cs -> conns_agree (jc ++ map jc_of (dial_conns li local rs extra)) (cs ++ dial_conns li local rs extra).
Proof.
  intros AG id li0 ip port. split.
  - intros I. apply in_app_or in I. destruct I as [I|I].
    + apply AG in I. destruct I as (cn & Ic & R). exists cn. split; [apply in_or_app; left; exact Ic|exact R].
    + apply in_map_iff in I. destruct I as (cn & E & Ic). exists cn. split; [apply in_or_app; right; exact Ic|].
      unfold dial_conns in Ic. apply in_flat_map in Ic. destruct Ic as (o & _ & Io).
      destruct (fst o) as [? ?|?|ip' port' c']; [destruct Io|destruct Io|]. destruct Io as [<-|[]].
      unfold jc_of in E. cbn in E. injection E as <- <- <- <-. repeat split.
  - intros (cn & Ic & Op & <- & <- & <- & <-). apply in_app_or in Ic. apply in_or_app. destruct Ic as [Ic|Ic].
    + left. apply AG. exists cn. repeat split; assumption.
    + right. apply in_map_iff. exists cn. split; [reflexivity|exact Ic].
Qed.

(* PRESERVATION for a datagram (any datagram: request, response, undecodable): the bookkeeping the judge
   derives from the event and the observed outputs (js_step_c, no connection reported closed) agrees with
   the state of the model after the step *)
Theorem agree_step_udp : forall pc stj fx now br st st' outs li src sport data,
  agree stj st ->
  proxy_step fx (pc_cfg pc) now br st (EvUdp li src sport data) = Ok (st', outs) ->
  dials_readable outs ->
  agree (js_step_c stj (EvUdp li src sport data) (map labelled (filter (visible (pc_udp_endpoints pc)) outs)) []) st'.
Proof.
  intros pc stj fx now br st st' outs li src sport data (AG1 & AG2) H DRd.
  destruct (js_step_c_udp stj li src sport data (map labelled (filter (visible (pc_udp_endpoints pc)) outs))) as (JB & JC).
  unfold agree. rewrite JB, JC. clear JB JC.
  apply Pipeline.proxy_step_udp_inv in H.
  destruct H as [(-> & ->)|(lc & m & rest & p & x' & _ & _ & Np & PM & -> & ->)].
  { split; [exact AG1|]. cbn [filter map]. change (dialled li []) with (@nil (nat * (nat * bytes * Z))).
    rewrite app_nil_r. exact AG2. }
  destruct (process_message_step _ _ _ _ _ _ _ _ _ PM) as (PS & extra & O & Cn).
  cbn [x_p x_outs x_conns app e_li e_lc mk_env Pipeline.start_ctx Pipeline.listener_env] in PS, O, Cn.
  cbn [st_proxies st_conns Pipeline.ctx_state]. rewrite O in *. split.
  - intros li0 p0 N0. destruct (Nat.eq_dec li li0) as [<-|NE].
    + rewrite (Pipeline.nth_set_same _ _ _ _ Np) in N0. injection N0 as <-.
      destruct (AG1 li p Np) as (l & Nl & PA). exists l. split; [exact Nl|exact (pool_agree_same _ _ _ PS PA)].
    + rewrite (Pipeline.nth_set_other _ _ _ _ NE) in N0. exact (AG1 li0 p0 N0).
  - rewrite Cn, (dialled_labelled _ li (lc_addr lc) (pa_received_support (wire_proxy lc)) extra DRd).
    apply conns_agree_app, AG2.
Qed.

(* 3. Route: own entry, then a next hop with transport=tcp at a peer that accepts connections: the proxy
   dials and writes on the new connection; the judge accepts, and its bookkeeping after the event (one
   connection, to 10.0.0.7:5080) agrees with the state of the model *)
Definition b3_tcp_elem : a_relem :=
  {| ar_na := {| an_display := [];
                 an_addr := AASip {| au_secure := false; au_user := None; au_host := s2b "10.0.0.7"; au_port := Some 5080%Z;
                                     au_params := [{| ap_key := s2b "transport"; ap_val := Some (s2b "tcp") |};
                                                   {| ap_key := s2b "lr"; ap_val := None |}];
                                     au_headers := [] |} |};
     ar_params := [] |}.
Definition b3_tcp_routes : list a_relem := [b13_elem "" "10.0.0.1" (Some 5060%Z); b3_tcp_elem].
Definition b3_req_tcp : bytes :=
  s2b "INVITE sip:bob@elsewhere.example SIP/2.0" ++ crlf ++
  s2b "Route: <sip:10.0.0.1:5060;lr>,<sip:10.0.0.7:5080;transport=tcp;lr>" ++ crlf ++ C01.ex_common.

Lemma b3_tcp_run : dests_of (b3_step b3_req_tcp) = Some [DDial (s2b "10.0.0.7") 5080%Z 0%nat; DConn 0%nat].
Proof. vm_compute. reflexivity. Qed.

Example b3_tcp_accepted :
  map (fun o => fst (labelled o)) (b3_outs b3_req_tcp) = [s2b "dial:10.0.0.7:5080"; s2b "conn:0"] /\
  judge_C03_event b3_pc (js_init C01.ex_cfg) (EvUdp 0 b3_src 5070%Z b3_req_tcp)
    (map labelled (filter (visible (pc_udp_endpoints b3_pc)) (b3_outs b3_req_tcp))) [] = 0%nat.
Proof.
  refine (b3_bridge b3_req_tcp b3_tcp_routes b3_to (b3_uri "bob" "elsewhere.example")
            (HHop (JTcp (s2b "10.0.0.7") 5080%Z)) _ _ b3_tcp_run _).
  - vm_compute. reflexivity.
  - right. reflexivity.
Qed.

Lemma dials_readable_fst outs :
  Forall (fun d => match d with
                   | DDial ip port c => (int_min <= port <= int_max)%Z /\ (Z.of_nat c <= int_max)%Z
                   | _ => True end) (map fst outs) -> dials_readable outs.
Proof. unfold dials_readable. rewrite Forall_map. intros H. exact H. Qed.

(* preservation on the case, for any datagram *)
Lemma b3_agree_step d s o :
  b3_step d = Ok (s, o) -> dials_readable o ->
  agree (js_step_c (js_init C01.ex_cfg) (EvUdp 0 b3_src 5070%Z d)
           (map labelled (filter (visible (pc_udp_endpoints b3_pc)) o)) []) s.
Proof.
  intros Hrun DRd. unfold b3_step in Hrun.
  exact (agree_step_udp b3_pc (js_init C01.ex_cfg) all_fixed 1000%Z (branch_of 0) C01.ex_st s o
           0%nat b3_src 5070%Z d b3_agree_init Hrun DRd).
Qed.

Example b3_tcp_agree_after :
  js_conns (js_step_c (js_init C01.ex_cfg) (EvUdp 0 b3_src 5070%Z b3_req_tcp)
              (map labelled (filter (visible (pc_udp_endpoints b3_pc)) (b3_outs b3_req_tcp))) [])
    = [(0%nat, (dial_mark, s2b "10.0.0.7", 5080%Z))] /\      (* listen entry 0, a connection the proxy dialled *)
  agree (js_step_c (js_init C01.ex_cfg) (EvUdp 0 b3_src 5070%Z b3_req_tcp)
           (map labelled (filter (visible (pc_udp_endpoints b3_pc)) (b3_outs b3_req_tcp))) [])
        (b3_state b3_req_tcp).
Proof.
  pose proof b3_tcp_run as E. unfold b3_outs, b3_state.
  destruct (b3_step b3_req_tcp) as [[s o]| |] eqn:Hrun; try discriminate E. injection E as E.
  (* the payloads [b1], [b2] stay unevaluated: the judge's bookkeeping reads the labels *)
  destruct o as [|[d1 b1] [|[d2 b2] [|]]]; try discriminate E. injection E as -> ->.
  split; [reflexivity|]. apply (b3_agree_step _ _ _ Hrun), dials_readable_fst. cbn [map fst].
  constructor; [unfold int_min, int_max; cbn [Z.of_nat]; lia|]. constructor; [exact I|constructor].
Qed.

Print Assumptions choose_agree.
Print Assumptions C03_judge_bridge_udp.
Print Assumptions C03_judge_bridge_step.
Print Assumptions b3_route_accepted.
Print Assumptions b3_backend_accepted.
Print Assumptions agree_step_udp.
Print Assumptions b3_tcp_accepted.
Print Assumptions b3_tcp_agree_after.
Print Assumptions C03_judge_bridge_step_no_tcp.
