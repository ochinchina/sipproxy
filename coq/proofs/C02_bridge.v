(* proofs/C02_bridge.v — JUDGE BRIDGE for property C02 (responses follow the Via chain).

   The executable judge [SpecProxy.judge_C02_event] reads raw bytes with its own minimal reader
   (j_read, j_flat_via, j_via, j_get, jvia_port, j_dest, dest_ok, jvia_eqb).  This file proves that
   it ACCEPTS (returns 0) what the MODEL emits for a datagram carrying a response, for every
   configuration, listener, source, model state and every response whose Via header values are
   reference renderings of well-formed Via entry lists of the C14 grammar (any layout: comma lists,
   repeated lines, compact name "v", any case), tying the byte-level judge to the decoded-message
   theorems of proofs/C02.v (C02_response_general, C02_dest_udp, C02_dest_tcp, C02_dest_unsupported).

   Part 1  the Via view of a message whose Via headers all decode: pop / top on the flat list
   Part 2  the invariant [good] of proofs/C07_bridge.v along the RESPONSE pipeline (PopVia keeps it: the
           entry that becomes the first one may begin with Unicode white space, the judge trims the
           left end of every entry like strings.TrimSpace); the message that is serialised, as an
           explicit function of the input: [relayed_response]
   Part 3  the judge unfolded ([judge_C02_in] on the input it extracts from an event, [jc02_body],
           [jc02_two], [jvias_ok]); its host / port arithmetic is hop_host / hop_port of C02.v ([jhop_of])
   Part 4  the core, once for every event and every way a message reaches process_message
           ([C02_judge_in_core]): the judge accepts as soon as its destination check [dest_ok] holds
           of the visible outputs (everything else - Via stack of the relayed response, readable
           output, drop of a single-Via response - is discharged here); C02_judge_bridge_core is its
           instance for a datagram, proofs/C02_bridge_tcp.v holds the instances for a TCP chunk
   Part 5  the destinations, each once as a lemma about ONE sendMessage call ([dest_udp],
           [dest_unsupported], [dest_unresolved], [dest_tcp], [dest_tcp_fresh]), then for a datagram:
             C02_judge_bridge_step_udp          next Via says UDP, host resolvable        (no agreement needed)
             C02_judge_bridge_step_drop         one Via entry or none: nothing is relayed (no agreement needed)
             C02_judge_bridge_step_unsupported  next Via says neither udp nor tcp         (no agreement needed)
             C02_judge_bridge_step_unresolved   host not in the host table (judge: JAny)  (no agreement needed)
             C02_judge_bridge_step_tcp_partial  next Via says TCP; agreement = [tcp_quiet_ok] (stated on the
                                                outputs: when nothing was written the judge must not
                                                know a listener / a connection for that address)
             C02_judge_bridge_step_tcp_sent     ... corollary: something was written: no agreement needed
             C02_judge_bridge_step_tcp_fresh    next Via says TCP, first use of that address by this
                                                listener: agreement on the STATES only ([tcp_agree])
   Part 6  examples (non-vacuity), a sensitivity check of the judge, and two runs with Unicode white
           space inside a Via comma list: [via_lead_ok_needed] (second entry BEGINS with U+0085: the
           judge trims the left end of every entry like strings.TrimSpace, the decoder
           (strings.Fields) drops those two bytes, the input is outside [via_domain] and the
           judge's verdict 0 is shown by computation) and [via_tail_kept] (second
           entry ENDS with U+00A0: why the right end of a Via entry is not read through TrimSpace)
   Not covered: responses whose Via values are outside the C14 grammar (the judge's own j_via failing
   on an entry is not related to parse_via failing).  Responses arriving over TCP (EvTcpData):
   proofs/C02_bridge_tcp.v.
   No axioms, no admits. *)
From Coq Require Import List Ascii String ZArith NArith Bool Arith Lia.
From Model Require Import Bytes BytesLemmas Uri Hdr Message Msg Rx Glob StaticRoute RoundRobin Pins Wire
     Proxy RunProxy SpecProxy SpecC14.
From Model.proofs Require C06 C13_bridge.
From Model.proofs Require Import MsgLemmas Pipeline MsgStages C14_via C01 C07 C02 C07_bridge.
Import ListNotations.
Open Scope Z_scope.
Open Scope list_scope.
Module B13 := C13_bridge.

(* ====================================================================== Part 1: the view *)
Lemma top_flat vh : allsome vh -> top_view vh = hd_error (flat_view vh).
Proof.
  intros [|o t (l & -> & NE) _]; [reflexivity|]. destruct l; [contradiction|reflexivity].
Qed.

Lemma pop_flat vh : allsome vh -> allsome (pop_view vh) /\ flat_view (pop_view vh) = tl (flat_view vh).
Proof.
  intros [|o t (l & -> & NE) A]; [split; [constructor|reflexivity]|].
  destruct l as [|a [|b r]]; [contradiction| |]; cbn [pop_view].
  - split; [exact A|reflexivity].
  - split; [|reflexivity]. constructor; [|exact A]. exists (b :: r). split; [reflexivity|discriminate].
Qed.

(* ====================================================================== Part 2: [good] along the response pipeline *)
(* C02.handle_response_eq with the invariant carried along.
   PopVia keeps [good] (C07_bridge.good_pop_via): the entry that becomes the first one of the first Via
   header after the pop (second entry of a comma list) may begin with Unicode white space ([safe] allows
   bytes >= 128): the judge reads header values through strings.TrimSpace, and it trims the left end of
   EVERY entry of a comma list the same way (SpecProxy.j_flat_via), so it reads that entry the same way in
   the received response (after a comma) and in the relayed one (first of its header value).  [vl_ok] only
   asks for a clean RIGHT end, which the rest of a list inherits. *)
Lemma handle_response_good e from m x : is_request m = false -> good m ->
  match top_view (pop_view (via_hdrs m)) with
  | Some v2 =>
      exists m4 pins',
        handle_message e from m x =
          send_message e (hop_host v2) (hop_port v2) (v_transport v2) m4
            (ctx_with x (x_learned x) (with_pins (x_p x) pins')) /\
        good m4 /\ m_start m4 = m_start m /\ m_body m4 = m_body m /\ via_hdrs m4 = pop_view (via_hdrs m)
  | None => fst (handle_message e from m x) = x
  end.
Proof.
  intros Hq G. pose proof (handle_response_eq e from m x Hq) as H.
  destruct (top_view (pop_view (via_hdrs m))) as [v2|]; [|exact H].
  destruct (response_msg_pins e (x_p x) m) as (pins' & P). rewrite P in H.
  exists (fst (response_msg e (x_p x) m)), pins'. split; [exact H|]. split; [|apply response_msg_view].
  exact (response_msg_edits _ good_rel good_edits I I I I e (x_p x) m (mpres_s_pop_via _ _ good_edits I good_pop_via) G).
Qed.

(* what process_message does with a response that arrived in a datagram, as one expression:
   tryRemoveTopRoute, handleDialog, HandleMessage; its second component is the message that was
   handed to the transport (= serialised) *)
Definition response_hm (e : env) (peer : bytes) (pport : Z) (from : stransport) (x : ctx) (m0 : message)
  : ctx * message :=
  let m4 := fst (mtry (try_remove_top_route (e_cfg e) from) m0) in
  let '(m', r) := handle_dialog e peer pport (x_p x) m4 in
  handle_message e from m'
    {| x_learned := x_learned x; x_p := match r with Ok p' => p' | _ => x_p x end; x_conns := x_conns x;
       x_world := x_world x; x_outs := x_outs x |}.
Definition relayed_response (e : env) (peer : bytes) (pport : Z) (from : stransport) (x : ctx) (m0 : message)
  : message := snd (response_hm e peer pport from x m0).

Lemma response_hm_stage e peer port from x m0 : is_response m0 = true ->
  response_hm e peer port from x m0 =
  handle_message e from (fst (stage_dialog e peer port (x_p x) (stage_route e from m0)))
    (ctx_with x (x_learned x) (snd (stage_dialog e peer port (x_p x) (stage_route e from m0)))).
Proof.
  intros Hr. unfold response_hm, stage_dialog. cbv zeta. fold (stage_route e from m0).
  assert (V4 : veq m0 (stage_route e from m0))
    by (apply (mpres_mtry veq _ (mpres_try_remove_top_route _ veq veq_edits _ _ I veq_pop_route))).
  rewrite (veq_is_response _ _ V4), Hr.
  destruct (handle_dialog e peer port (x_p x) (stage_route e from m0)) as [m5 r]. reflexivity.
Qed.

(* a response is processed the same way whatever connection it came on: handleRawMessage files the
   connection for the responses of a REQUEST only *)
Lemma process_response_hm e peer port from rs tcp m0 x x' :
  is_response m0 = true -> process_message e peer port from rs tcp m0 x = Ok x' ->
  x' = fst (response_hm e peer port from x m0).
Proof.
  intros Hr E. rewrite (response_hm_stage _ _ _ _ _ _ Hr). exact (process_response_eq _ _ _ _ _ _ _ _ _ Hr E).
Qed.

Lemma response_hm_good e peer port from x m0 :
  is_response m0 = true -> good m0 ->
  match top_view (pop_view (via_hdrs m0)) with
  | Some v2 =>
      exists m4 pins',
        response_hm e peer port from x m0 =
          send_message e (hop_host v2) (hop_port v2) (v_transport v2) m4
            (ctx_with x (x_learned x) (with_pins (x_p x) pins')) /\
        good m4 /\ m_start m4 = m_start m0 /\ m_body m4 = m_body m0 /\ via_hdrs m4 = pop_view (via_hdrs m0)
  | None => x_outs (fst (response_hm e peer port from x m0)) = x_outs x
  end.
Proof.
  intros Hr G0. rewrite (response_hm_stage _ _ _ _ _ _ Hr).
  assert (Hq : is_request m0 = false) by (unfold is_response in Hr; apply negb_true_iff; exact Hr).
  pose proof (response_reach_edits _ veq veq_edits I I I I I veq_pop_route e peer port from (x_p x) m0) as V5.
  pose proof (response_reach_edits _ good_rel good_edits I I I I I good_pop_route e peer port from (x_p x) m0 G0) as G5.
  destruct (stage_dialog_pins e peer port (x_p x) (stage_route e from m0)) as (pins2 & P2).
  destruct (stage_dialog e peer port (x_p x) (stage_route e from m0)) as [m5 p2]. cbn [fst snd] in *. subst p2.
  assert (Q5 : is_request m5 = false) by (rewrite (veq_is_request _ _ V5); exact Hq).
  destruct V5 as (S5 & B5 & H5).
  pose proof (handle_response_good e from m5 (ctx_with x (x_learned x) (with_pins (x_p x) pins2)) Q5 G5) as GG.
  rewrite H5 in GG. destruct (top_view (pop_view (via_hdrs m0))) as [v2|].
  - destruct GG as (m6 & pins' & G1 & G2 & G3 & G4' & G5'). exists m6, pins'. rewrite G1.
    split; [reflexivity|]. split; [exact G2|]. repeat split; congruence.
  - rewrite GG. reflexivity.
Qed.

(* process_message on a good response, from any peer and transport, on any connection or none: ONE
   sendMessage call for the entry on top after the pop, on a good message; or no output *)
Lemma process_response_good e peer port from rs tcp m x x' :
  is_response m = true -> good m ->
  process_message e peer port from rs tcp m x = Ok x' ->
  match top_view (pop_view (via_hdrs m)) with
  | Some v2 =>
      exists m4 pins',
        x' = fst (send_message e (hop_host v2) (hop_port v2) (v_transport v2) m4
                    (ctx_with x (x_learned x) (with_pins (x_p x) pins'))) /\
        sent_msg m4 = relayed_response e peer port from x m /\
        good m4 /\ m_start m4 = m_start m /\ m_body m4 = m_body m /\ via_hdrs m4 = pop_view (via_hdrs m)
  | None => x_outs x' = x_outs x
  end.
Proof.
  intros Hr G E. pose proof (process_response_hm _ _ _ _ _ _ _ _ _ Hr E) as EX.
  pose proof (response_hm_good e peer port from x m Hr G) as GG.
  destruct (top_view (pop_view (via_hdrs m))) as [v2|].
  - destruct GG as (m4 & pins' & G1 & G2 & G3 & G4 & G5). exists m4, pins'.
    split; [rewrite EX, G1; reflexivity|]. split; [|repeat split; assumption].
    unfold relayed_response. rewrite G1. symmetry. exact (proj1 (send_message_outs _ _ _ _ _ _)).
  - rewrite EX. exact GG.
Qed.

(* ---- one step of the whole proxy on a datagram ---- *)
Definition udp_from (lc : listen_cfg) : stransport :=
  {| t_kind := KUdp; t_addr := lc_addr lc; t_port := lc_udp lc |}.
Definition step_env (fx : fixes) (c : cfg) (li : nat) (lc : listen_cfg) (now : Z) (br : bytes) : env :=
  mk_env fx c (item_rs_of (fx_wiring fx)) li lc now br.
Definition pin_ctx (st : state) (p : pstate) (pins' : pins) : ctx :=
  {| x_learned := st_learned st; x_p := with_pins p pins'; x_conns := st_conns st; x_world := st_world st;
     x_outs := [] |}.
Definition step_ctx (st : state) (p : pstate) : ctx :=
  {| x_learned := st_learned st; x_p := p; x_conns := st_conns st; x_world := st_world st; x_outs := [] |}.
(* the bytes of the relayed response, as a function of the input (for the datagram size limit) *)
Definition relayed_bytes (fx : fixes) (c : cfg) (now : Z) (br : bytes) (st : state) (li : nat) (lc : listen_cfg)
           (p : pstate) (src : bytes) (sport : Z) (m : message) : bytes :=
  write_message (relayed_response (step_env fx c li lc now br) src sport (udp_from lc) (step_ctx st p) m).

(* ====================================================================== Part 3: the judge, unfolded *)
Definition jhop (v2 : jvia) : bytes * Z :=
  match j_get (s2b "received") (jv_params v2) with
  | Some h => (h, match j_get (s2b "rport") (jv_params v2) with
                  | Some r => match atoi r with Some p => p | None => jvia_port v2 end
                  | None => jvia_port v2 end)
  | None => (jv_host v2, jvia_port v2)
  end.
Definition jvias_ok (ob : bytes) (v2 : jvia) (vrest : list jvia) : nat :=
  match j_read ob with
  | Some om =>
      match opt_all (map j_via (j_flat_via (jm_headers om))) with
      | Some ovs =>
          if (Nat.eqb (List.length ovs) (S (List.length vrest)) &&
              forallb (fun '(a, b) => jvia_eqb a b) (combine ovs (v2 :: vrest)))%bool
          then O else 2%nat
      | None => 2%nat
      end
  | None => 3%nat
  end.
Definition jc02_two (pc : proxy_case) (st : jstate) (ms : list (bytes * bytes)) (v2 : jvia) (vrest : list jvia) : nat :=
  let '(host, port) := jhop v2 in
  let d := j_dest (pc_cfg pc) (jv_transport v2) host port in
  if negb (dest_ok pc st d ms) then 1%nat
  else match ms with
       | [(_, ob)] => jvias_ok ob v2 vrest
       | _ => O
       end.
Definition jc02_body (pc : proxy_case) (st : jstate) (es : list bytes) (ms : list (bytes * bytes)) : nat :=
  match es with
  | [] | [_] => if dest_ok pc st JDrop ms then O else 1%nat
  | e1 :: e2 :: rest =>
      match j_via e1, j_via e2 with
      | Some _, Some v2 =>
          match opt_all (map j_via rest) with
          | None => O
          | Some vrest => jc02_two pc st ms v2 vrest
          end
      | _, _ => if dest_ok pc st JDrop ms then O else 1%nat
      end
  end.

(* the judge on the input [j_input] extracts from the event (a datagram, or a chunk read on a connection of
   its bookkeeping); of the input it uses the bytes and whether they came over TCP: the body of
   SpecProxy.judge_C02_event (judge_C02_event_in holds by computation) *)
Definition judge_C02_in (pc : proxy_case) (st : jstate) (i : jin) (ms : list (bytes * bytes)) : nat :=
  match j_read (ji_data i) with
  | Some m => if (j_is_response m && jm_has_cl m && (negb (ji_tcp i) || single_message m))%bool
              then jc02_body pc st (j_flat_via (jm_headers m)) ms else O
  | None => O
  end.
Lemma judge_C02_event_in pc st ev outs closed :
  judge_C02_event pc st ev outs closed =
  match j_input st ev with Some i => judge_C02_in pc st i (msgs_of outs) | None => O end.
Proof. reflexivity. Qed.

Lemma jc02_body_read pc st es ms l :
  opt_all (map j_via es) = Some l ->
  jc02_body pc st es ms = match l with
                          | _ :: j2 :: jrest => jc02_two pc st ms j2 jrest
                          | _ => if dest_ok pc st JDrop ms then O else 1%nat
                          end.
Proof.
  destruct es as [|e1 [|e2 rest]]; unfold jc02_body; cbn [map opt_all].
  - intros H. injection H as <-. reflexivity.
  - destruct (j_via e1); intros H; [injection H as <-; reflexivity|discriminate H].
  - destruct (j_via e1); [|discriminate]. destruct (j_via e2); [|discriminate].
    destruct (opt_all (map j_via rest)); [|discriminate]. intros H. injection H as <-. reflexivity.
Qed.

Lemma jvia_port_of v : jvia_port (jv_of v) = via_get_port v.
Proof.
  unfold jvia_port, via_get_port, jv_of. cbn [jv_port jv_transport].
  destruct (Z.eqb (v_port v) 0); reflexivity.
Qed.
(* where the judge sends the response = where getNextReponseHop sends it *)
Theorem jhop_of v : jhop (jv_of v) = (hop_host v, hop_port v).
Proof.
  unfold jhop. rewrite jvia_port_of. unfold jv_of at 1 2 3. cbn [jv_params jv_host].
  rewrite !j_get_pairs. unfold hop_host, hop_port, via_get_received, via_get_rport.
  destruct (kv_get (s2b "received") (v_params v)); [|reflexivity].
  destruct (kv_get (s2b "rport") (v_params v)) as [r|]; [|reflexivity].
  destruct (atoi r); reflexivity.
Qed.

Lemma jc02_two_of pc st ms v2 vrest :
  jc02_two pc st ms (jv_of v2) vrest =
  if negb (dest_ok pc st (j_dest (pc_cfg pc) (v_transport v2) (hop_host v2) (hop_port v2)) ms) then 1%nat
  else match ms with
       | [(_, ob)] => jvias_ok ob (jv_of v2) vrest
       | _ => O
       end.
Proof. unfold jc02_two. rewrite jhop_of. reflexivity. Qed.

(* the Via stack the judge reads in a serialised good message *)
Lemma jvias_accept m' v2 vrest :
  good m' -> start_ok (start_line_print (m_start m')) -> (Z.of_nat (List.length (m_body m')) <= int_max)%Z ->
  flat_view (via_hdrs m') = v2 :: vrest ->
  jvias_ok (write_message m') (jv_of v2) (map jv_of vrest) = O.
Proof.
  intros G' So Bd FV. unfold jvias_ok.
  rewrite (C01_single_content_length_read m' (good_line_safe _ G') So Bd).
  cbv beta iota. cbn [jm_headers].
  rewrite (via_read _ (emitted_good _ G')), emitted_view, FV. cbn [map List.length].
  rewrite Nat.eqb_refl. cbn [andb].
  change (jv_of v2 :: map jv_of vrest) with (map jv_of (v2 :: vrest)).
  rewrite jvia_all_refl. reflexivity.
Qed.

(* the payload of the one message the judge sees *)
Lemma single_msg_payload m' outs vis l ob :
  Forall (out_is m') outs -> msgs_of (map B13.labelled (filter vis outs)) = [(l, ob)] -> ob = write_message m'.
Proof.
  intros F E. rewrite B13.msgs_of_labelled in E.
  assert (I : In (l, ob) (map B13.labelled (filter C06.is_msg (filter vis outs)))) by (rewrite E; left; reflexivity).
  apply in_map_iff in I. destruct I as (o & Eo & Io). apply filter_In in Io. destruct Io as [Io Mo].
  apply filter_In in Io. destruct Io as [Io _].
  rewrite Forall_forall in F. specialize (F o Io). unfold out_is in F.
  destruct o as [[ip pt|c|ip pt c] b]; cbn [fst snd] in F; unfold B13.labelled in Eo; cbn [fst snd] in Eo.
  - injection Eo as _ <-. exact F.
  - injection Eo as _ <-. exact F.
  - discriminate Mo.
Qed.

(* ====================================================================== Part 4: the core *)
(* THE CORE, for every input the judge may extract and every way the message reaches process_message (any
   environment, peer, receiving transport, received-support flag, connection or none, context): the judge of
   C02 accepts what process_message appends for the message ([pre], any sub-selection [vis] of it, labelled as
   the correspondence run labels it) as soon as its destination check [dest_ok] holds of the visible outputs.
   The check is only asked for when the response has at least two Via entries, and may use what the model
   emitted: ONE sendMessage call for the entry v2 on top after the pop, on a message whose serialisation is
   that of [relayed_response]. *)
Theorem C02_judge_in_core pc stj i e peer pport from rs tcp jin m rest x x' pre vis :
  j_read (ji_data i) = Some jin -> parse_message (ji_data i) = Ok (m, rest) -> via_domain m ->
  process_message e peer pport from rs tcp m x = Ok x' -> x_outs x' = x_outs x ++ pre ->
  (forall v1 v2 vrest m4 pins',
     is_response m = true ->
     flat_view (via_hdrs m) = v1 :: v2 :: vrest ->
     x_outs x ++ pre = x_outs (fst (send_message e (hop_host v2) (hop_port v2) (v_transport v2) m4
                                      (ctx_with x (x_learned x) (with_pins (x_p x) pins')))) ->
     write_message (sent_msg m4) = write_message (relayed_response e peer pport from x m) ->
     dest_ok pc stj (j_dest (pc_cfg pc) (v_transport v2) (hop_host v2) (hop_port v2))
             (msgs_of (map B13.labelled (filter vis pre))) = true) ->
  judge_C02_in pc stj i (msgs_of (map B13.labelled (filter vis pre))) = O.
Proof.
  intros HJ HP HV EP EO Hdest. unfold judge_C02_in. rewrite HJ.
  destruct (j_is_response jin) eqn:JR; [|reflexivity]. cbn [andb].
  destruct (jm_has_cl jin && (negb (ji_tcp i) || single_message jin))%bool; [|reflexivity].
  destruct (domain_read _ _ _ _ HJ HP HV) as (G0 & _ & Hq & Hst & Bd & VR). rewrite JR in Hq.
  assert (Hr : is_response m = true) by (unfold is_response; rewrite Hq; reflexivity).
  pose proof (good_allsome m G0) as GV.
  rewrite (jc02_body_read pc stj _ _ _ VR).
  pose proof (process_response_good _ _ _ _ _ _ _ _ _ Hr G0 EP) as SG.
  destruct (pop_flat _ GV) as (GP & FP). rewrite (top_flat _ GP), FP in SG.
  assert (NIL : x_outs x' = x_outs x -> pre = []).
  { intros E. rewrite E in EO. apply (app_inv_head (x_outs x)). rewrite app_nil_r. symmetry. exact EO. }
  destruct (flat_view (via_hdrs m)) as [|v1 [|v2 vrest]] eqn:FV; cbn [tl hd_error map] in SG |- *.
  1, 2: rewrite (NIL SG); reflexivity.
  destruct SG as (m4 & pins' & EX & ES & G4 & S4 & B4 & V4). subst x'.
  rewrite jc02_two_of, (Hdest v1 v2 vrest m4 pins' Hr eq_refl (eq_sym EO) (f_equal write_message ES)).
  cbn [negb].
  destruct (msgs_of (map B13.labelled (filter vis pre))) as [|[l ob] [|q qs]] eqn:Ems; try reflexivity.
  destruct (send_message_out_is e (hop_host v2) (hop_port v2) (v_transport v2) m4
              (ctx_with x (x_learned x) (with_pins (x_p x) pins'))) as (os & O1 & O2).
  cbn [ctx_with x_outs] in O1. rewrite EO in O1. apply app_inv_head in O1. subst os.
  rewrite (single_msg_payload _ _ _ _ _ O2 Ems).
  destruct (veq_sent_msg m4) as (Sa & Sb & Sv).
  apply jvias_accept.
  - unfold sent_msg. apply (gpres_mtry _ gpres_s_client_transaction). exact G4.
  - rewrite Sa, S4. exact Hst.
  - rewrite Sb, B4. exact Bd.
  - rewrite Sv, V4. exact FP.
Qed.

(* The judge of C02 accepts what proxy_step emits for a datagram as soon as its destination check
   holds of the visible outputs; the check is only asked for when the response has at least two Via
   entries, and may use what the model emitted: ONE sendMessage call for the entry v2 on top after
   the pop, on a message whose serialisation is [relayed_bytes]. *)
Theorem C02_judge_bridge_core :
  forall (pc : proxy_case) (stj : jstate) (fx : fixes) (now : Z) (br : bytes) (st : state) (li : nat)
         (lc : listen_cfg) (src : bytes) (sport : Z) (data : bytes) (jin : jmsg) (m : message) (rest : bytes)
         (p : pstate) (st' : state) (outs : list output) (vis : output -> bool) (closed : list nat),
  nth_opt (c_listens (pc_cfg pc)) li = Some lc -> nth_p (st_proxies st) li = Some p ->
  j_read data = Some jin -> parse_message data = Ok (m, rest) ->
  via_domain m ->
  proxy_step fx (pc_cfg pc) now br st (EvUdp li src sport data) = Ok (st', outs) ->
  (forall v1 v2 vrest m4 pins',
     is_response m = true ->
     flat_view (via_hdrs m) = v1 :: v2 :: vrest ->
     outs = x_outs (fst (send_message (step_env fx (pc_cfg pc) li lc now br) (hop_host v2) (hop_port v2)
                           (v_transport v2) m4 (pin_ctx st p pins'))) ->
     write_message (sent_msg m4) = relayed_bytes fx (pc_cfg pc) now br st li lc p src sport m ->
     dest_ok pc stj (j_dest (pc_cfg pc) (v_transport v2) (hop_host v2) (hop_port v2))
             (msgs_of (map B13.labelled (filter vis outs))) = true) ->
  judge_C02_event pc stj (EvUdp li src sport data) (map B13.labelled (filter vis outs)) closed = O.
Proof.
  intros pc stj fx now br st li lc src sport data jin m rest p st' outs vis closed
         EL EP HJ HP HV H Hdest.
  destruct (proxy_step_udp_single _ _ _ _ _ _ _ _ _ _ _ _ _ _ _ EL HP EP H) as (x' & E & _ & ->).
  rewrite judge_C02_event_in. cbn [j_input].
  eapply C02_judge_in_core; [exact HJ|exact HP|exact HV|exact E|reflexivity|exact Hdest].
Qed.

(* ====================================================================== Part 5: the destinations *)
(* Each kind of destination once, for ONE sendMessage call in any environment and context [x]; [pre] is
   what the call appends to the outputs. *)
Lemma j_dest_udp c tr host port ip :
  to_lower tr = s2b "udp" -> get_ip c host = Some ip -> j_dest c tr host port = JUdp ip port.
Proof. intros T G. unfold j_dest, lower_is. rewrite T, G. reflexivity. Qed.
Lemma j_dest_tcp c tr host port ip :
  to_lower tr = s2b "tcp" -> get_ip c host = Some ip -> j_dest c tr host port = JTcp ip port.
Proof. intros T G. unfold j_dest, lower_is. rewrite T, G. reflexivity. Qed.
Lemma j_dest_unsupported c tr host port :
  supported_proto (to_lower tr) = false -> j_dest c tr host port = JDrop.
Proof.
  intros U. unfold supported_proto in U. apply orb_false_iff in U. destruct U as [U1 U2].
  unfold j_dest, lower_is. rewrite U1, U2. reflexivity.
Qed.

Lemma msgs_len_le vis os :
  (List.length (msgs_of (map B13.labelled (filter vis os))) <= List.length (filter C06.is_msg os))%nat.
Proof.
  rewrite B13.msgs_of_labelled, map_length.
  induction os as [|a r IH]; [apply Nat.le_refl|]. cbn [filter].
  destruct (vis a); cbn [filter]; destruct (C06.is_msg a); cbn [List.length]; lia.
Qed.

Lemma dest_ok_udp_one pc st ip port b :
  dest_ok pc st (JUdp ip port)
    (msgs_of (map B13.labelled (filter (visible (pc_udp_endpoints pc)) [(DUdp ip port, b)]))) = true.
Proof.
  cbn [filter]. change (visible (pc_udp_endpoints pc) (DUdp ip port, b)) with (has_peer (pc_udp_endpoints pc) ip port).
  unfold dest_ok.
  destruct (has_peer (pc_udp_endpoints pc) ip port) eqn:HP; [|reflexivity].
  rewrite B13.msgs_of_labelled. unfold C06.is_msg. cbn [filter fst map]. unfold B13.labelled. cbn [fst snd].
  exact (beq_refl _).
Qed.

Lemma dest_udp pc stj e host port tr m4 x ip pre :
  to_lower tr = s2b "udp" -> get_ip (e_cfg e) host = Some ip -> resolvable ip port = true ->
  udp_slot_ok ip port (x_p x) -> fits_datagram (write_message (sent_msg m4)) = true ->
  x_outs x ++ pre = x_outs (fst (send_message e host port tr m4 x)) ->
  dest_ok pc stj (j_dest (e_cfg e) tr host port)
          (msgs_of (map B13.labelled (filter (visible (pc_udp_endpoints pc)) pre))) = true.
Proof.
  intros Htr Hip Hres Hslot Hfit EO.
  rewrite (C02_dest_udp e host port tr m4 x ip Htr Hip Hres Hslot Hfit) in EO. apply app_inv_head in EO. subst pre.
  rewrite (j_dest_udp _ _ _ _ _ Htr Hip). apply dest_ok_udp_one.
Qed.

Lemma dest_unsupported pc stj e host port tr m4 x pre vis :
  supported_proto (to_lower tr) = false ->
  x_outs x ++ pre = x_outs (fst (send_message e host port tr m4 x)) ->
  dest_ok pc stj (j_dest (e_cfg e) tr host port) (msgs_of (map B13.labelled (filter vis pre))) = true.
Proof.
  intros Hun EO. rewrite (C02_dest_unsupported _ _ _ _ _ _ Hun) in EO.
  assert (E : pre = []) by (apply (app_inv_head (x_outs x)); rewrite app_nil_r; exact EO).
  rewrite E, (j_dest_unsupported _ _ _ _ Hun). reflexivity.
Qed.

Lemma shape_one_msg b os :
  (os = [] \/ (exists ip p, os = [(DUdp ip p, b)]) \/ tcp_shape b os) ->
  (List.length (filter C06.is_msg os) <= 1)%nat.
Proof.
  intros [->|[(ip & pt & ->)|[->|[(c & ->)|[(h & pt & c & ->)|(h & pt & c & c' & ->)]]]]];
    cbn [filter C06.is_msg fst List.length]; lia.
Qed.

(* udp or tcp, the address cannot be told from the configuration (judge: JAny = at most one message,
   whose Via stack is then checked) *)
Lemma dest_unresolved pc stj e host port tr m4 x pre vis :
  get_ip (e_cfg e) host = None ->
  x_outs x ++ pre = x_outs (fst (send_message e host port tr m4 x)) ->
  dest_ok pc stj (j_dest (e_cfg e) tr host port) (msgs_of (map B13.labelled (filter vis pre))) = true.
Proof.
  intros Hip EO.
  destruct (supported_proto (to_lower tr)) eqn:S; [|exact (dest_unsupported pc stj e host port tr m4 x pre vis S EO)].
  destruct (send_message_outs e host port tr m4 x) as (_ & _ & os & O1 & O2).
  rewrite <- EO in O1. apply app_inv_head in O1. subst os.
  assert (JA : j_dest (e_cfg e) tr host port = JAny).
  { unfold supported_proto in S. apply orb_true_iff in S. unfold j_dest, lower_is. rewrite Hip.
    destruct S as [-> | ->]; [reflexivity|]. destruct (beq (to_lower tr) (s2b "udp")); reflexivity. }
  rewrite JA. unfold dest_ok. apply Nat.leb_le.
  exact (Nat.le_trans _ _ _ (msgs_len_le vis pre) (shape_one_msg _ _ O2)).
Qed.

(* does the judge's bookkeeping know a connection whose peer is ip:port ? *)
Definition jconn_to (st : jstate) (ip : bytes) (port : Z) : bool :=
  existsb (fun '(_, (_, i, p)) => beq i ip && Z.eqb p port) (js_conns st).
Lemma dest_ok_tcp_nil pc st ip port :
  dest_ok pc st (JTcp ip port) [] = negb (has_peer (pc_tcp_listeners pc) ip port) && negb (jconn_to st ip port).
Proof. reflexivity. Qed.

(* the agreement the judge needs for a TCP destination, stated on the outputs: when the model wrote
   nothing, the judge must know neither a listener nor an open connection for that address
   ("a TCP destination that neither listens nor has a connection open yields nothing") *)
Definition tcp_quiet_ok (pc : proxy_case) (stj : jstate) (ip : bytes) (port : Z) (outs : list output) : Prop :=
  filter C06.is_msg outs = [] ->
  has_peer (pc_tcp_listeners pc) ip port = false /\ jconn_to stj ip port = false.

(* the outputs of a send over TCP are all visible: nothing, a write, a dial, or a dial and a write *)
Lemma dest_ok_tcp pc st ip port b os ue :
  tcp_shape b os -> tcp_quiet_ok pc st ip port os ->
  dest_ok pc st (JTcp ip port) (msgs_of (map B13.labelled (filter (visible ue) os))) = true.
Proof.
  intros SH Q.
  assert (QN : filter C06.is_msg os = [] -> dest_ok pc st (JTcp ip port) [] = true).
  { intros E. destruct (Q E) as [Q1 Q2]. rewrite dest_ok_tcp_nil, Q1, Q2. reflexivity. }
  rewrite B13.msgs_of_labelled.
  destruct SH as [->|[(c & ->)|[(h & pt & c & ->)|(h & pt & c & c' & ->)]]];
    cbn [filter visible C06.is_msg fst map] in *.
  - apply QN. reflexivity.
  - reflexivity.
  - apply QN. reflexivity.
  - reflexivity.
Qed.

Lemma dest_tcp pc stj e host port tr m4 x ip pre :
  fx_udp_via_listener (e_fx e) = true -> to_lower tr = s2b "tcp" -> get_ip (e_cfg e) host = Some ip ->
  tcp_slot_ok (x_p x) ->
  x_outs x ++ pre = x_outs (fst (send_message e host port tr m4 x)) ->
  tcp_quiet_ok pc stj ip port pre ->
  dest_ok pc stj (j_dest (e_cfg e) tr host port)
          (msgs_of (map B13.labelled (filter (visible (pc_udp_endpoints pc)) pre))) = true.
Proof.
  intros Hfx Htr Hip Hslot EO HQ.
  destruct (C02_dest_tcp e host port tr m4 x Hfx Htr Hslot) as (os & O1 & O2).
  rewrite <- EO in O1. apply app_inv_head in O1. subst os.
  rewrite (j_dest_tcp _ _ _ _ _ Htr Hip). exact (dest_ok_tcp pc stj ip port _ pre _ O2 HQ).
Qed.

(* no slot for ip:port (with or without a transaction suffix), and the next client id is unused *)
Definition tcp_fresh (ip : bytes) (port : Z) (p : pstate) : Prop :=
  (forall tid, alookup (full_addr (s2b "tcp") ip port tid) (ps_table p) = None) /\
  find_client (List.length (ps_clients p)) (ps_clients p) = None.

Lemma find_client_snoc id l cl : find_client id l = None -> tc_id cl = id -> find_client id (l ++ [cl]) = Some cl.
Proof.
  unfold find_client. intros N E. induction l as [|x r IH]; cbn [app find] in *.
  - rewrite E, Nat.eqb_refl. reflexivity.
  - destruct (Nat.eqb (tc_id x) id); [discriminate N|]. exact (IH N).
Qed.
Lemma find_set_cached_some id v l cl : find_client id l = Some cl ->
  find_client id (set_client_cached id v l) =
    Some {| tc_id := id; tc_host := tc_host cl; tc_port := tc_port cl; tc_cached := v |}.
Proof. exact (find_set_cached_eq id v l cl). Qed.

(* TCPClientTransport.Send of a client that has no connection yet *)
Lemma tcs_fresh_outs li local rs b p cs w ip port id :
  find_client id (ps_clients p) = Some {| tc_id := id; tc_host := ip; tc_port := port; tc_cached := None |} ->
  snd (fst (tcp_client_send 2 li local rs id b p cs w [])) =
    if has_peer (w_tcp_listeners w) ip port
    then [(DDial ip port (w_next_conn w), []); (DConn (w_next_conn w), b)] else [].
Proof.
  intros F. cbn [tcp_client_send]. rewrite F. cbn [tc_cached tc_host tc_port].
  change (existsb (fun '(h, pt) => beq h ip && Z.eqb pt port) (w_tcp_listeners w))
    with (has_peer (w_tcp_listeners w) ip port).
  destruct (has_peer (w_tcp_listeners w) ip port); reflexivity.
Qed.

Lemma ps_clients_clean now p : ps_clients (clean_expired now p) = ps_clients p.
Proof. unfold clean_expired. destruct (Z.ltb _ 60); reflexivity. Qed.
Lemma ps_clients_remove proto host port tid p : ps_clients (remove_transport proto host port tid p) = ps_clients p.
Proof. unfold remove_transport. cbv zeta. destruct (negb _); reflexivity. Qed.

(* sendMessage over TCP to an address this listener has not used yet: the reconnectable client is
   created, dials when the address listens, and writes on the new connection; else nothing *)
Lemma send_message_tcp_fresh e host port tr m x ip :
  fx_udp_via_listener (e_fx e) = true -> to_lower tr = s2b "tcp" -> get_ip (e_cfg e) host = Some ip ->
  tcp_fresh ip port (x_p x) ->
  x_outs (fst (send_message e host port tr m x)) =
    x_outs x ++ (if has_peer (w_tcp_listeners (x_world x)) ip port
                 then [(DDial ip port (w_next_conn (x_world x)), []);
                       (DConn (w_next_conn (x_world x)), write_message (sent_msg m))]
                 else []).
Proof.
  intros Hfx Htr Hip (HT & HC). unfold send_message, sent_msg. rewrite Hip.
  destruct (mtry s_client_transaction m) as [m1 tid]. cbn [fst].
  set (trans_id := match tid with Ok (Some t) => t | _ => [] end).
  unfold get_transport. cbv zeta. rewrite Htr.
  change (negb (supported_proto (s2b "tcp"))) with false. cbv iota.
  rewrite (clean_lookup_none _ _ _ (HT trans_id)).
  change (beq (s2b "tcp") (s2b "udp")) with false. cbv iota.
  rewrite (clean_lookup_none _ _ _ (HT [])).
  cbv beta iota. cbn [ps_table with_table]. rewrite alookup_aset_same.
  rewrite Hfx. assert (EU : equal_fold tr (s2b "udp") = false) by (unfold equal_fold; rewrite Htr; reflexivity).
  rewrite EU. cbn [andb negb]. cbv iota. cbn [ps_table with_table]. rewrite alookup_aset_same.
  set (id := List.length (ps_clients (clean_expired (now_s e) (x_p x)))).
  match goal with |- context [failover_send ?a ?b ?c ?d ?bb ?p3 ?g ?h] =>
    assert (FC : find_client id (ps_clients p3) =
                 Some {| tc_id := id; tc_host := ip; tc_port := port; tc_cached := None |});
    [|unfold failover_send; cbn [fo_pri fo_sec];
      pose proof (tcs_fresh_outs a b c bb p3 g h ip port id FC) as TO;
      destruct (tcp_client_send 2 a b c id bb p3 g h []) as [[[[p4 cs4] w4] outs4] ok4]; cbn [fst snd] in TO;
      subst outs4 ]
  end.
  - destruct (is_final_response m1); rewrite ?ps_clients_remove; cbn [ps_clients with_table with_clients];
      (apply find_client_snoc; [subst id; rewrite ps_clients_clean; exact HC|reflexivity]).
  - destruct (alookup _ (ps_table p4)); reflexivity.
Qed.

(* the agreement between the judge's bookkeeping / the case and the model state, as weak as the
   judge needs for a TCP destination ip:port:
   - a peer the case lists as accepting TCP connections does so in the model's world;
   - every connection the judge has booked to ip:port belongs to a peer that listens there (true of
     the connections the proxy dialled: it could only dial a listening peer) *)
Definition tcp_agree (pc : proxy_case) (stj : jstate) (st : state) (ip : bytes) (port : Z) : Prop :=
  (has_peer (pc_tcp_listeners pc) ip port = true -> has_peer (w_tcp_listeners (st_world st)) ip port = true) /\
  (jconn_to stj ip port = true -> has_peer (w_tcp_listeners (st_world st)) ip port = true).

(* [tcp_agree], on the world of the context *)
Lemma dest_tcp_fresh pc stj e host port tr m4 x ip pre :
  (has_peer (pc_tcp_listeners pc) ip port = true -> has_peer (w_tcp_listeners (x_world x)) ip port = true) ->
  (jconn_to stj ip port = true -> has_peer (w_tcp_listeners (x_world x)) ip port = true) ->
  fx_udp_via_listener (e_fx e) = true -> to_lower tr = s2b "tcp" -> get_ip (e_cfg e) host = Some ip ->
  tcp_fresh ip port (x_p x) ->
  x_outs x ++ pre = x_outs (fst (send_message e host port tr m4 x)) ->
  dest_ok pc stj (j_dest (e_cfg e) tr host port)
          (msgs_of (map B13.labelled (filter (visible (pc_udp_endpoints pc)) pre))) = true.
Proof.
  intros AG1 AG2 Hfx Htr Hip Hfresh EO.
  rewrite (send_message_tcp_fresh e host port tr m4 x ip Hfx Htr Hip Hfresh) in EO. apply app_inv_head in EO.
  rewrite (j_dest_tcp _ _ _ _ _ Htr Hip).
  apply (dest_ok_tcp pc stj ip port (write_message (sent_msg m4))); subst pre;
    destruct (has_peer (w_tcp_listeners (x_world x)) ip port).
  - right. right. right. do 4 eexists. reflexivity.
  - left. reflexivity.
  - intros E. discriminate E.
  - intros _. split.
    + destruct (has_peer (pc_tcp_listeners pc) ip port); [discriminate (AG1 eq_refl)|reflexivity].
    + destruct (jconn_to stj ip port); [discriminate (AG2 eq_refl)|reflexivity].
Qed.

Lemma slots_fresh_init c now lc ip port : tcp_fresh ip port (init_pstate c now lc).
Proof. split; [intros tid; reflexivity|reflexivity]. Qed.

(* The next Via entry (after the proxy's own has been removed) says UDP.
   No agreement between judge state and model state is needed: for a UDP destination the judge's
   [dest_ok] reads only the case (the UDP endpoints the driver can observe), so [stj] is arbitrary.
   Conditions, all on the input / the configuration / the model state:
     via_domain m      Via header values are reference renderings of well-formed entry lists (C14 grammar)
     flat_view (via_hdrs m) = v1 :: v2 :: vrest   at least two Via entries (any layout)
     to_lower (v_transport v2) = "udp", get_ip = Some ip, resolvable ip port   (C02_dest_udp)
     udp_slot_ok       the table slot of that destination is free or holds a UDP client (C02_dest_udp; it can
                       hold a forgotten primary after a send to it FAILED, see C02.v)
     fits_datagram (relayed_bytes ...)   the re-encoded response fits a datagram (65507 bytes) *)
Theorem C02_judge_bridge_step_udp :
  forall (pc : proxy_case) (stj : jstate) (fx : fixes) (now : Z) (br : bytes) (st : state) (li : nat)
         (lc : listen_cfg) (src : bytes) (sport : Z) (data : bytes) (jin : jmsg) (m : message) (rest : bytes)
         (p : pstate) (st' : state) (outs : list output) (closed : list nat)
         (v1 v2 : via_param) (vrest : list via_param) (ip : bytes),
  nth_opt (c_listens (pc_cfg pc)) li = Some lc -> nth_p (st_proxies st) li = Some p ->
  j_read data = Some jin -> parse_message data = Ok (m, rest) ->
  via_domain m ->
  flat_view (via_hdrs m) = v1 :: v2 :: vrest ->
  to_lower (v_transport v2) = s2b "udp" ->
  get_ip (pc_cfg pc) (hop_host v2) = Some ip -> resolvable ip (hop_port v2) = true ->
  udp_slot_ok ip (hop_port v2) p ->
  fits_datagram (relayed_bytes fx (pc_cfg pc) now br st li lc p src sport m) = true ->
  proxy_step fx (pc_cfg pc) now br st (EvUdp li src sport data) = Ok (st', outs) ->
  judge_C02_event pc stj (EvUdp li src sport data)
    (map B13.labelled (filter (visible (pc_udp_endpoints pc)) outs)) closed = O.
Proof.
  intros pc stj fx now br st li lc src sport data jin m rest p st' outs closed v1 v2 vrest ip
         EL EP HJ HP HV FV Htr Hip Hres Hslot Hfit H.
  apply (C02_judge_bridge_core pc stj fx now br st li lc src sport data jin m rest p st' outs _ closed
           EL EP HJ HP HV H).
  intros v1' v2' vrest' m4 pins' Hr FV' EO EB. rewrite FV in FV'. injection FV' as <- <- <-.
  rewrite <- EB in Hfit.
  exact (dest_udp pc stj (step_env fx (pc_cfg pc) li lc now br) _ _ _ m4 (pin_ctx st p pins') ip outs
           Htr Hip Hres Hslot Hfit EO).
Qed.

(* a response with a single Via entry (the proxy's own) or none: nothing is relayed, the judge accepts *)
Theorem C02_judge_bridge_step_drop :
  forall (pc : proxy_case) (stj : jstate) (fx : fixes) (now : Z) (br : bytes) (st : state) (li : nat)
         (lc : listen_cfg) (src : bytes) (sport : Z) (data : bytes) (jin : jmsg) (m : message) (rest : bytes)
         (p : pstate) (st' : state) (outs : list output) (vis : output -> bool) (closed : list nat),
  nth_opt (c_listens (pc_cfg pc)) li = Some lc -> nth_p (st_proxies st) li = Some p ->
  j_read data = Some jin -> parse_message data = Ok (m, rest) ->
  via_domain m ->
  (List.length (flat_view (via_hdrs m)) <= 1)%nat ->
  proxy_step fx (pc_cfg pc) now br st (EvUdp li src sport data) = Ok (st', outs) ->
  judge_C02_event pc stj (EvUdp li src sport data) (map B13.labelled (filter vis outs)) closed = O.
Proof.
  intros pc stj fx now br st li lc src sport data jin m rest p st' outs vis closed EL EP HJ HP HV Hlen H.
  apply (C02_judge_bridge_core pc stj fx now br st li lc src sport data jin m rest p st' outs vis closed
           EL EP HJ HP HV H).
  intros v1 v2 vrest m4 pins' _ FV _ _. rewrite FV in Hlen. cbn [List.length] in Hlen. lia.
Qed.

Theorem C02_judge_bridge_step_unsupported :
  forall (pc : proxy_case) (stj : jstate) (fx : fixes) (now : Z) (br : bytes) (st : state) (li : nat)
         (lc : listen_cfg) (src : bytes) (sport : Z) (data : bytes) (jin : jmsg) (m : message) (rest : bytes)
         (p : pstate) (st' : state) (outs : list output) (vis : output -> bool) (closed : list nat)
         (v1 v2 : via_param) (vrest : list via_param),
  nth_opt (c_listens (pc_cfg pc)) li = Some lc -> nth_p (st_proxies st) li = Some p ->
  j_read data = Some jin -> parse_message data = Ok (m, rest) ->
  via_domain m ->
  flat_view (via_hdrs m) = v1 :: v2 :: vrest ->
  supported_proto (to_lower (v_transport v2)) = false ->
  proxy_step fx (pc_cfg pc) now br st (EvUdp li src sport data) = Ok (st', outs) ->
  judge_C02_event pc stj (EvUdp li src sport data) (map B13.labelled (filter vis outs)) closed = O.
Proof.
  intros pc stj fx now br st li lc src sport data jin m rest p st' outs vis closed v1 v2 vrest
         EL EP HJ HP HV FV Hun H.
  apply (C02_judge_bridge_core pc stj fx now br st li lc src sport data jin m rest p st' outs vis closed
           EL EP HJ HP HV H).
  intros v1' v2' vrest' m4 pins' Hr FV' EO EB. rewrite FV in FV'. injection FV' as <- <- <-.
  exact (dest_unsupported pc stj (step_env fx (pc_cfg pc) li lc now br) _ _ _ m4 (pin_ctx st p pins') outs vis Hun EO).
Qed.

Theorem C02_judge_bridge_step_unresolved :
  forall (pc : proxy_case) (stj : jstate) (fx : fixes) (now : Z) (br : bytes) (st : state) (li : nat)
         (lc : listen_cfg) (src : bytes) (sport : Z) (data : bytes) (jin : jmsg) (m : message) (rest : bytes)
         (p : pstate) (st' : state) (outs : list output) (vis : output -> bool) (closed : list nat)
         (v1 v2 : via_param) (vrest : list via_param),
  nth_opt (c_listens (pc_cfg pc)) li = Some lc -> nth_p (st_proxies st) li = Some p ->
  j_read data = Some jin -> parse_message data = Ok (m, rest) ->
  via_domain m ->
  flat_view (via_hdrs m) = v1 :: v2 :: vrest ->
  get_ip (pc_cfg pc) (hop_host v2) = None ->
  proxy_step fx (pc_cfg pc) now br st (EvUdp li src sport data) = Ok (st', outs) ->
  judge_C02_event pc stj (EvUdp li src sport data) (map B13.labelled (filter vis outs)) closed = O.
Proof.
  intros pc stj fx now br st li lc src sport data jin m rest p st' outs vis closed v1 v2 vrest
         EL EP HJ HP HV FV Hip H.
  apply (C02_judge_bridge_core pc stj fx now br st li lc src sport data jin m rest p st' outs vis closed
           EL EP HJ HP HV H).
  intros v1' v2' vrest' m4 pins' Hr FV' EO EB. rewrite FV in FV'. injection FV' as <- <- <-.
  exact (dest_unresolved pc stj (step_env fx (pc_cfg pc) li lc now br) _ _ _ m4 (pin_ctx st p pins') outs vis Hip EO).
Qed.

(* "partial": the agreement [tcp_quiet_ok] is stated on the OUTPUTS of the step, not on the two
   states.  The next Via entry says TCP and its host resolves.  The model emits, in every
   state of the repaired tree (tcp_slot_ok: C02_tcp_slot_reachable): nothing, or one write on a
   connection (remembered for the transaction / cached by the reconnectable client / just dialled,
   then preceded by the dial marker).  The judge accepts the write on any connection; when nothing
   was written it demands that the address neither listens (pc_tcp_listeners) nor has a connection
   open in its bookkeeping (js_conns): that is [tcp_quiet_ok].
   A statement on the states alone would need an invariant of the transport table saying that the
   secondary (reconnectable) client of every tcp://ip:port[-tid] slot exists, names ip:port and can
   dial as soon as ip:port is among the world's listeners, plus world-listeners = pc_tcp_listeners
   and "js_conns knows a connection to ip:port -> ip:port listens or the slot holds that connection".
   C02_judge_bridge_step_tcp_fresh below proves it from the states for the first use of an address. *)
Theorem C02_judge_bridge_step_tcp_partial :
  forall (pc : proxy_case) (stj : jstate) (fx : fixes) (now : Z) (br : bytes) (st : state) (li : nat)
         (lc : listen_cfg) (src : bytes) (sport : Z) (data : bytes) (jin : jmsg) (m : message) (rest : bytes)
         (p : pstate) (st' : state) (outs : list output) (closed : list nat)
         (v1 v2 : via_param) (vrest : list via_param) (ip : bytes),
  nth_opt (c_listens (pc_cfg pc)) li = Some lc -> nth_p (st_proxies st) li = Some p ->
  j_read data = Some jin -> parse_message data = Ok (m, rest) ->
  via_domain m ->
  flat_view (via_hdrs m) = v1 :: v2 :: vrest ->
  to_lower (v_transport v2) = s2b "tcp" ->
  get_ip (pc_cfg pc) (hop_host v2) = Some ip ->
  fx_udp_via_listener fx = true -> tcp_slot_ok p ->
  proxy_step fx (pc_cfg pc) now br st (EvUdp li src sport data) = Ok (st', outs) ->
  tcp_quiet_ok pc stj ip (hop_port v2) outs ->
  judge_C02_event pc stj (EvUdp li src sport data)
    (map B13.labelled (filter (visible (pc_udp_endpoints pc)) outs)) closed = O.
Proof.
  intros pc stj fx now br st li lc src sport data jin m rest p st' outs closed v1 v2 vrest ip
         EL EP HJ HP HV FV Htr Hip Hfx Hslot H HQ.
  apply (C02_judge_bridge_core pc stj fx now br st li lc src sport data jin m rest p st' outs _ closed
           EL EP HJ HP HV H).
  intros v1' v2' vrest' m4 pins' Hr FV' EO EB. rewrite FV in FV'. injection FV' as <- <- <-.
  exact (dest_tcp pc stj (step_env fx (pc_cfg pc) li lc now br) _ _ _ m4 (pin_ctx st p pins') ip outs
           Hfx Htr Hip Hslot EO HQ).
Qed.

(* ... in particular: whenever the model wrote the response on a connection, the judge accepts, whatever
   its bookkeeping says *)
Corollary C02_judge_bridge_step_tcp_sent :
  forall (pc : proxy_case) (stj : jstate) (fx : fixes) (now : Z) (br : bytes) (st : state) (li : nat)
         (lc : listen_cfg) (src : bytes) (sport : Z) (data : bytes) (jin : jmsg) (m : message) (rest : bytes)
         (p : pstate) (st' : state) (outs : list output) (closed : list nat)
         (v1 v2 : via_param) (vrest : list via_param) (ip : bytes),
  nth_opt (c_listens (pc_cfg pc)) li = Some lc -> nth_p (st_proxies st) li = Some p ->
  j_read data = Some jin -> parse_message data = Ok (m, rest) ->
  via_domain m ->
  flat_view (via_hdrs m) = v1 :: v2 :: vrest ->
  to_lower (v_transport v2) = s2b "tcp" ->
  get_ip (pc_cfg pc) (hop_host v2) = Some ip ->
  fx_udp_via_listener fx = true -> tcp_slot_ok p ->
  proxy_step fx (pc_cfg pc) now br st (EvUdp li src sport data) = Ok (st', outs) ->
  filter C06.is_msg outs <> [] ->
  judge_C02_event pc stj (EvUdp li src sport data)
    (map B13.labelled (filter (visible (pc_udp_endpoints pc)) outs)) closed = O.
Proof.
  intros pc stj fx now br st li lc src sport data jin m rest p st' outs closed v1 v2 vrest ip
         EL EP HJ HP HV FV Htr Hip Hfx Hslot H NE.
  apply (C02_judge_bridge_step_tcp_partial pc stj fx now br st li lc src sport data jin m rest p st' outs closed
           v1 v2 vrest ip EL EP HJ HP HV FV Htr Hip Hfx Hslot H).
  intros E. exfalso. exact (NE E).
Qed.

(* The first use of the address (tcp_fresh: true of a fresh proxy, slots_fresh_init).
   Dial + write when ip:port listens, nothing otherwise; the judge accepts under [tcp_agree]. *)
Theorem C02_judge_bridge_step_tcp_fresh :
  forall (pc : proxy_case) (stj : jstate) (fx : fixes) (now : Z) (br : bytes) (st : state) (li : nat)
         (lc : listen_cfg) (src : bytes) (sport : Z) (data : bytes) (jin : jmsg) (m : message) (rest : bytes)
         (p : pstate) (st' : state) (outs : list output) (closed : list nat)
         (v1 v2 : via_param) (vrest : list via_param) (ip : bytes),
  tcp_agree pc stj st ip (hop_port v2) ->
  nth_opt (c_listens (pc_cfg pc)) li = Some lc -> nth_p (st_proxies st) li = Some p ->
  j_read data = Some jin -> parse_message data = Ok (m, rest) ->
  via_domain m ->
  flat_view (via_hdrs m) = v1 :: v2 :: vrest ->
  to_lower (v_transport v2) = s2b "tcp" ->
  get_ip (pc_cfg pc) (hop_host v2) = Some ip ->
  fx_udp_via_listener fx = true -> tcp_fresh ip (hop_port v2) p ->
  proxy_step fx (pc_cfg pc) now br st (EvUdp li src sport data) = Ok (st', outs) ->
  judge_C02_event pc stj (EvUdp li src sport data)
    (map B13.labelled (filter (visible (pc_udp_endpoints pc)) outs)) closed = O.
Proof.
  intros pc stj fx now br st li lc src sport data jin m rest p st' outs closed v1 v2 vrest ip
         (AG1 & AG2) EL EP HJ HP HV FV Htr Hip Hfx Hfresh H.
  apply (C02_judge_bridge_core pc stj fx now br st li lc src sport data jin m rest p st' outs _ closed
           EL EP HJ HP HV H).
  intros v1' v2' vrest' m4 pins' Hr FV' EO EB. rewrite FV in FV'. injection FV' as <- <- <-.
  exact (dest_tcp_fresh pc stj (step_env fx (pc_cfg pc) li lc now br) _ _ _ m4 (pin_ctx st p pins') ip outs
           AG1 AG2 Hfx Htr Hip Hfresh EO).
Qed.

(* ====================================================================== Part 6: examples *)
Module C02_bridge_example.
Open Scope string_scope.
Open Scope list_scope.
Open Scope Z_scope.
Ltac vc := vm_compute; first [reflexivity | exact I].
Definition ex_lc : listen_cfg :=
  {| lc_addr := s2b "10.0.0.1"; lc_udp := 5060; lc_tcp := 5060; lc_backends := []; lc_dynamic := false;
     lc_no_received := false; lc_def_route := false; lc_must_rr := false |}.
Definition ex_cfg : cfg :=
  {| c_name := s2b "proxy.example"; c_keep_next_hop := false; c_dialog_timeout := 60; c_routes := [];
     c_hosts := [(s2b "ua.example", s2b "10.1.1.1")]; c_listens := [ex_lc] |}.
(* the driver owns a UDP socket at 127.0.0.9:40000 and accepts TCP connections at 10.8.8.8:5080 *)
Definition ex_pc : proxy_case :=
  {| pc_cfg := ex_cfg; pc_tcp_listeners := [(s2b "10.8.8.8", 5080)]; pc_udp_endpoints := [(s2b "127.0.0.9", 40000)];
     pc_events := []; pc_waits := [] |}.
Definition ln (s : string) : bytes := s2b s ++ crlf.
Definition resp (vias : list string) : bytes :=
  flat_map ln (["SIP/2.0 200 OK"] ++ vias ++
               ["From: <sip:a@example.com>;tag=1"; "To: <sip:bob@example.com>;tag=2"; "Call-ID: c1";
                "CSeq: 1 INVITE"; "Content-Length: 0"]) ++ crlf.
Definition own := "Via: SIP/2.0/UDP 10.0.0.1:5060;branch=z9hG4bKpx".
(* comma list (own entry, then an entry with received + numeric rport) and a compact-name line *)
Definition ex_data : bytes :=
  resp ["Via: SIP/2.0/UDP 10.0.0.1:5060;branch=z9hG4bKpx,SIP/2.0/UDP 10.9.9.9:5070;rport=40000;branch=z9hG4bKabc;received=127.0.0.9";
        "v: SIP/2.0/TCP 10.8.8.8;branch=z9hG4bKdef"].
Definition ex_src : bytes := s2b "10.0.0.2".
Definition ex_br : bytes := s2b "z9hG4bKpx".
Definition ex_st : state := init_state ex_cfg 0 (pc_tcp_listeners ex_pc).
Definition ex_p : pstate := init_pstate ex_cfg 0 ex_lc.
Definition dummy : message := {| m_start := SResp [] 0 []; m_headers := []; m_body := [] |}.
Definition parsed (b : bytes) : message := match parse_message b with Ok (m, _) => m | _ => dummy end.
Definition step (b : bytes) : res (state * list output) :=
  proxy_step all_fixed ex_cfg 0 ex_br ex_st (EvUdp 0 ex_src 5070 b).
Definition outs_of (b : bytes) : list output := match step b with Ok (_, o) => o | _ => [] end.
Definition dv : via_param :=
  {| v_name := []; v_version := []; v_transport := []; v_host := []; v_port := 0; v_params := [] |}.
Definition via_n (b : bytes) (n : nat) : via_param := nth n (flat_view (via_hdrs (parsed b))) dv.
Definition seen (b : bytes) : list (bytes * bytes) :=
  map B13.labelled (filter (visible (pc_udp_endpoints ex_pc)) (outs_of b)).
(* one run of [step], handed on in the words of the bridge theorems: left to find out by itself that
   [step b] is their proxy_step, the kernel runs the step *)
Lemma step_outs b s o : step b = Ok (s, o) ->
  proxy_step all_fixed (pc_cfg ex_pc) 0 ex_br ex_st (EvUdp 0 ex_src 5070 b) = Ok (s, outs_of b).
Proof.
  change (proxy_step all_fixed (pc_cfg ex_pc) 0 ex_br ex_st (EvUdp 0 ex_src 5070 b)) with (step b).
  unfold outs_of. intros ->. reflexivity.
Qed.

(* what leaves the proxy: one datagram to received:rport of the second entry *)
Example ex_output :
  map fst (seen ex_data) = [s2b "udp:127.0.0.9:40000"] /\
  map (fun o => option_map (fun om => j_flat_via (jm_headers om)) (j_read (snd o))) (seen ex_data) =
    [Some [s2b "SIP/2.0/UDP 10.9.9.9:5070;rport=40000;branch=z9hG4bKabc;received=127.0.0.9";
           s2b "SIP/2.0/TCP 10.8.8.8;branch=z9hG4bKdef"]].
Proof. (* as the argument of a function the step is run once *) pattern (seen ex_data). vm_compute. split; reflexivity. Qed.

(* the hypotheses of C02_judge_bridge_step_udp hold of this instance, hence the judge accepts *)
Example C02_bridge_ex_udp :
  judge_C02_event ex_pc (js_init ex_cfg) (EvUdp 0 ex_src 5070 ex_data) (seen ex_data) [] = O.
Proof.
  (* what the judge and the model read in the datagram, its Via entries and the state after the step are left
     to the computations below: each is run once, on what the earlier ones returned *)
  eapply (C02_judge_bridge_step_udp ex_pc (js_init ex_cfg) all_fixed 0 ex_br ex_st 0%nat ex_lc ex_src 5070 ex_data
            _ _ _ ex_p _ (outs_of ex_data) [] _ _ _ (s2b "127.0.0.9")).
  - reflexivity.
  - vc.
  - vc.
  - vc.
  - apply via_domain_b_sound. vc.
  - vc.
  - vc.
  - vc.
  - vc.
  - vc.
  - vc.
  - eapply step_outs. vc.
Qed.

(* the judge does look: the same bytes at another address are rejected (1), the received response
   relayed unchanged to the right address is rejected for its Via stack (2) *)
Example C02_bridge_ex_sensitive :
  judge_C02_event ex_pc (js_init ex_cfg) (EvUdp 0 ex_src 5070 ex_data)
    [(s2b "udp:10.9.9.9:5070", match outs_of ex_data with (_, b) :: _ => b | [] => [] end)] [] = 1%nat /\
  judge_C02_event ex_pc (js_init ex_cfg) (EvUdp 0 ex_src 5070 ex_data)
    [(s2b "udp:127.0.0.9:40000", ex_data)] [] = 2%nat.
Proof. split; vm_compute; reflexivity. Qed.

(* a single Via entry: dropped *)
Definition ex_single : bytes := resp [own].
Example C02_bridge_ex_drop :
  outs_of ex_single = [] /\
  judge_C02_event ex_pc (js_init ex_cfg) (EvUdp 0 ex_src 5070 ex_single) (seen ex_single) [] = O.
Proof.
  split; [vc|].
  eapply (C02_judge_bridge_step_drop ex_pc (js_init ex_cfg) all_fixed 0 ex_br ex_st 0%nat ex_lc ex_src 5070 ex_single
            _ _ _ ex_p _ (outs_of ex_single) (visible (pc_udp_endpoints ex_pc)) []).
  - reflexivity.
  - vc.
  - vc.
  - vc.
  - apply via_domain_b_sound. vc.
  - vm_compute. lia.
  - eapply step_outs. vc.
Qed.

(* TCP next hop, first use of the address: the peer listens (dial + write) / does not (nothing) *)
Definition ex_tcp : bytes := resp [own; "Via: SIP/2.0/TCP 10.8.8.8:5080;branch=z9hG4bKdef"].
Definition ex_tcp_quiet : bytes := resp [own; "Via: SIP/2.0/tcp 10.7.7.7:5090;branch=z9hG4bKdef"].
Example ex_tcp_outputs :
  map fst (seen ex_tcp) = [s2b "dial:10.8.8.8:5080"; s2b "conn:0"] /\ seen ex_tcp_quiet = [].
Proof. split; vm_compute; reflexivity. Qed.
Example C02_bridge_ex_tcp :
  judge_C02_event ex_pc (js_init ex_cfg) (EvUdp 0 ex_src 5070 ex_tcp) (seen ex_tcp) [] = O.
Proof.
  eapply (C02_judge_bridge_step_tcp_fresh ex_pc (js_init ex_cfg) all_fixed 0 ex_br ex_st 0%nat ex_lc ex_src 5070 ex_tcp
            _ _ _ ex_p _ (outs_of ex_tcp) [] _ _ _ (s2b "10.8.8.8")); cycle 1.
  - reflexivity.
  - vc.
  - vc.
  - vc.
  - apply via_domain_b_sound. vc.
  - vc.
  - vc.
  - vc.
  - reflexivity.
  - apply slots_fresh_init.
  - eapply step_outs. vc.
  - split; intros _; vc.
Qed.
Example C02_bridge_ex_tcp_quiet :
  judge_C02_event ex_pc (js_init ex_cfg) (EvUdp 0 ex_src 5070 ex_tcp_quiet) (seen ex_tcp_quiet) [] = O.
Proof.
  eapply (C02_judge_bridge_step_tcp_fresh ex_pc (js_init ex_cfg) all_fixed 0 ex_br ex_st 0%nat ex_lc ex_src 5070 ex_tcp_quiet
            _ _ _ ex_p _ (outs_of ex_tcp_quiet) [] _ _ _ (s2b "10.7.7.7")); cycle 1.
  - reflexivity.
  - vc.
  - vc.
  - vc.
  - apply via_domain_b_sound. vc.
  - vc.
  - vc.
  - vc.
  - reflexivity.
  - apply slots_fresh_init.
  - eapply step_outs. vc.
  - split; intros X; vm_compute in X; discriminate X.
Qed.

(* The second entry of the comma list begins with U+0085 (bytes C2 85: Unicode white space for
   strings.TrimSpace, but neither a blank of the Via grammar nor ASCII).  The model relays the response
   to the right address with that entry FIRST in its header value.  j_header reads header values through
   TrimSpace, so a judge that trimmed the entries of a comma list with the ASCII-only trim_space would
   keep the two bytes on the input side (entry after a comma), lose them on the output side (entry first
   in its value) and reject its own expectation; SpecProxy.j_flat_via trims the LEFT end of every Via entry
   like strings.TrimSpace, and on this input the judge answers 0.  ([via_lead_ok]: the hypothesis on the
   left end of the second entry that the theorems would need with the ASCII-only trim; they do not carry it.) *)
Definition nel : bytes := [ascii_of_nat 194; ascii_of_nat 133].
Definition ex_nel : bytes :=
  ln "SIP/2.0 200 OK" ++
  s2b "Via: SIP/2.0/UDP 10.0.0.1:5060;branch=z9hG4bKpx," ++ nel ++
  s2b "SIP/2.0/UDP 127.0.0.9:40000;branch=z9hG4bKabc" ++ crlf ++
  flat_map ln ["From: <sip:a@example.com>;tag=1"; "To: <sip:bob@example.com>;tag=2"; "Call-ID: c1";
               "CSeq: 1 INVITE"; "Content-Length: 0"] ++ crlf.
(* parse_via_param splits with strings.Fields (Bytes.fields_go): the sent-protocol / sent-by text of
   an entry is split at Unicode white space too, so the leading U+0085 of the second entry is DROPPED by
   the decoder (the decoded protocol name is "SIP"), decode-then-encode is not the identity on this value
   and the response is outside [via_domain] ([wf_via] excludes Unicode-space sequences inside the protocol
   name: SpecC14.via_no_usp).  The relayed entry is printed without the two bytes; the judge still
   answers 0 (by computation; the bridge theorem does not apply to this input). *)
Example via_lead_ok_needed :
  via_domain_b (parsed ex_nel) = false /\
  via_print (tl (flat_view (via_hdrs (parsed ex_nel)))) = s2b "SIP/2.0/UDP 127.0.0.9:40000;branch=z9hG4bKabc" /\
  map fst (seen ex_nel) = [s2b "udp:127.0.0.9:40000"] /\
  map (fun o => option_map (fun om => j_flat_via (jm_headers om)) (j_read (snd o))) (seen ex_nel) =
    [Some [s2b "SIP/2.0/UDP 127.0.0.9:40000;branch=z9hG4bKabc"]] /\
  judge_C02_event ex_pc (js_init ex_cfg) (EvUdp 0 ex_src 5070 ex_nel) (seen ex_nel) [] = O.
Proof.
  eassert (E : seen ex_nel = _) by vc. rewrite E. repeat apply conj; vm_compute; reflexivity.
Qed.
Example via_lead_ok_needed_by_theorem :
  judge_C02_event ex_pc (js_init ex_cfg) (EvUdp 0 ex_src 5070 ex_nel) (seen ex_nel) [] = O.
Proof. (* the input is outside [via_domain] now (see above): the verdict computed there *)
  exact (proj2 (proj2 (proj2 (proj2 via_lead_ok_needed)))).
Qed.

(* WHY THE RIGHT END OF A VIA ENTRY IS NOT READ THROUGH strings.TrimSpace (SpecProxy.j_flat_via: left end
   TrimSpace, right end ASCII blanks only).  The second entry is followed by a comma and its last parameter,
   received, ends with U+00A0 (bytes C2 A0; inside [via_domain]: [val_char] allows bytes >= 128).  ParseVia
   keeps the parameter as it stands: the proxy looks up the host "127.0.0.9" C2 A0, which it does not
   know, and sends nothing.  The judge reads the same host and accepts.  A reader that trimmed the right
   end of the entry with TrimSpace semantics would read received=127.0.0.9, rport=40000 - an address the
   driver observes - and demand a datagram there (reason 1 on a correct run). *)
Definition nbsp : bytes := [ascii_of_nat 194; ascii_of_nat 160].
Definition ex_e2 : bytes := s2b "SIP/2.0/UDP 10.9.9.9:5070;rport=40000;received=127.0.0.9" ++ nbsp.
Definition ex_tail : bytes :=
  ln "SIP/2.0 200 OK" ++
  s2b "Via: SIP/2.0/UDP 10.0.0.1:5060;branch=z9hG4bKpx," ++ ex_e2 ++ s2b ",SIP/2.0/TCP 10.8.8.8;branch=z9hG4bKdef" ++ crlf ++
  flat_map ln ["From: <sip:a@example.com>;tag=1"; "To: <sip:bob@example.com>;tag=2"; "Call-ID: c1";
               "CSeq: 1 INVITE"; "Content-Length: 0"] ++ crlf.
Example via_tail_kept :
  via_domain (parsed ex_tail) /\
  hop_host (via_n ex_tail 1) = s2b "127.0.0.9" ++ nbsp /\
  seen ex_tail = [] /\
  judge_C02_event ex_pc (js_init ex_cfg) (EvUdp 0 ex_src 5070 ex_tail) (seen ex_tail) [] = O /\
  option_map (fun v => j_get (s2b "received") (jv_params v)) (j_via (j_trim_via ex_e2)) =
    Some (Some (s2b "127.0.0.9" ++ nbsp)) /\
  option_map (fun v => j_get (s2b "received") (jv_params v)) (j_via (trim_space_go ex_e2)) =
    Some (Some (s2b "127.0.0.9")) /\
  dest_ok ex_pc (js_init ex_cfg) (j_dest ex_cfg (s2b "UDP") (s2b "127.0.0.9") 40000) (msgs_of (seen ex_tail)) = false.
Proof.
  assert (E : seen ex_tail = []) by vc. rewrite E.
  split; [apply via_domain_b_sound; vc|]. repeat apply conj; vm_compute; reflexivity.
Qed.
End C02_bridge_example.

Print Assumptions jhop_of.
Print Assumptions good_pop_via.
Print Assumptions handle_response_good.
Print Assumptions C02_judge_bridge_core.
Print Assumptions C02_judge_bridge_step_udp.
Print Assumptions C02_judge_bridge_step_drop.
Print Assumptions C02_judge_bridge_step_unsupported.
Print Assumptions C02_judge_bridge_step_unresolved.
Print Assumptions C02_judge_bridge_step_tcp_partial.
Print Assumptions C02_judge_bridge_step_tcp_sent.
Print Assumptions send_message_tcp_fresh.
Print Assumptions C02_judge_bridge_step_tcp_fresh.
Print Assumptions C02_bridge_example.C02_bridge_ex_udp.
Print Assumptions C02_bridge_example.C02_bridge_ex_tcp.
Print Assumptions C02_bridge_example.via_lead_ok_needed.
Print Assumptions C02_bridge_example.via_lead_ok_needed_by_theorem.
