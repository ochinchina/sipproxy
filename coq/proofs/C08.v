(* C08, the whole-pipeline part: for ALL byte strings, events, configurations and states
   (reachable or not) the modelled pipeline -- decode, learn, stamp, register the connection,
   route, pin, relay, serialise -- never evaluates a guarded Go operation out of bounds
   (never [Panic]), never fails as a whole (never [Err]: every input is either processed or
   discarded), discards what it cannot decode without touching the routing state (TCP: the
   connection is closed) and then serves the traffic that follows as if the bad input had not
   occurred; every message in the input causes at most one relayed message.
   The decode-level part (bufio reader, allocation bound) is C08_parse.v. *)
From Coq Require Import List Ascii String ZArith Bool Arith Lia.
From Model Require Import Bytes Uri Hdr Message Msg Rx Glob StaticRoute RoundRobin Pins Proxy.
From Model.proofs Require Import Pipeline NoPanic C03.
From Model.proofs Require C06.
Import ListNotations.
Local Open Scope nat_scope.

(* No decoder of a typed header can panic (the URI, name-addr and Route decoders: NoPanic.v), so no
   state-passing getter can: the [Panic] branches that the proxy swallows (`x, _ := f()`) are dead
   for every input. *)
Lemma parse_via_param_no_panic s : parse_via_param s <> Panic.
Proof.
  unfold parse_via_param. destruct (split_byte ";"%char s) as [|t0 ps]; [discriminate|].
  destruct (fields_go t0) as [|proto [|sentby [|x y]]]; try discriminate.
  destruct (split_byte "/"%char proto) as [|n [|v [|t [|z w]]]]; try discriminate.
  destruct (split_byte ":"%char sentby) as [|h [|p [|z w]]]; try discriminate.
  destruct (atoi p); discriminate.
Qed.
Lemma parse_via_no_panic s : parse_via s <> Panic.
Proof. apply parse_all_no_panic, parse_via_param_no_panic. Qed.
Lemma parse_fromto_no_panic s : parse_fromto s <> Panic.
Proof.
  unfold parse_fromto, parse_fromto_with.
  assert (F : forall a params,
    match params with
    | [] => Ok {| ft_addr_of := a; ft_params := [] |}
    | _ => let! ps := parse_generic_params (split_byte ";"%char params) in
           Ok {| ft_addr_of := a; ft_params := ps |}
    end <> Panic).
  { intros a [|c r]; [discriminate|]. apply rbind_no_panic; [apply parse_generic_params_no_panic|discriminate]. }
  destruct (index_byte "<"%char s) as [la|].
  - destruct (index_byte ">"%char s) as [ra|]; [|discriminate]. destruct (Nat.ltb ra la); [discriminate|].
    apply rbind_no_panic; [apply parse_name_addr_no_panic|]. intros na.
    destruct (index_byte ";"%char (skipn (S ra) s)); [apply F|exact (F _ [])].
  - destruct (index_byte ";"%char s) as [pos|];
      (apply rbind_no_panic; [apply (parse_addr_spec_no_panic parse_uri_parameters)|intros a]); [apply F|exact (F _ [])].
Qed.
Lemma parse_cseq_no_panic s : parse_cseq s <> Panic.
Proof.
  unfold parse_cseq. destruct (fields_go s) as [|n [|m [|x y]]]; try discriminate.
  destruct (atoi n); discriminate.
Qed.

Definition nopanic {A} (x : M A) : Prop := forall m, snd (x m) <> Panic.

Lemma nopanic_mret {A} (a : A) : nopanic (mret a).
Proof. intros m; discriminate. Qed.
Lemma nopanic_merr {A} : nopanic (@merr A).
Proof. intros m; discriminate. Qed.
Lemma nopanic_mlift {A} (r : res A) : r <> Panic -> nopanic (mlift r).
Proof. intros H m; exact H. Qed.
Lemma nopanic_mmodify f : nopanic (mmodify f).
Proof. intros m; discriminate. Qed.
Lemma nopanic_mbind {A B} (x : M A) (f : A -> M B) :
  nopanic x -> (forall a, nopanic (f a)) -> nopanic (mbind x f).
Proof.
  intros Hx Hf m. unfold mbind. specialize (Hx m). destruct (x m) as [m1 [a| |]]; cbn [snd] in *;
    [apply Hf|discriminate|contradiction].
Qed.
Lemma nopanic_mtry {A} (x : M A) : nopanic x -> nopanic (mtry x).
Proof.
  intros Hx m. unfold mtry. specialize (Hx m). destruct (x m) as [m1 [a| |]]; cbn [snd] in *;
    [discriminate|discriminate|contradiction].
Qed.
Lemma nopanic_typed_get {A} name (proj : hval -> option A) parse inj :
  (forall s, parse s <> Panic) -> nopanic (typed_get name proj parse inj).
Proof.
  intros Hp m. unfold typed_get. destruct (get_header name (m_headers m)) as [h|]; [|discriminate].
  destruct (proj (h_val h)); [discriminate|].
  destruct (h_val h); try discriminate.
  specialize (Hp s). destruct (parse s); cbn [snd]; [discriminate|discriminate|contradiction].
Qed.
Lemma of_opt_no_panic {A} (o : option A) : of_opt o <> Panic.
Proof. destruct o; discriminate. Qed.

Lemma nopanic_s_get_via : nopanic s_get_via.
Proof. apply nopanic_typed_get, parse_via_no_panic. Qed.
Lemma nopanic_s_get_from : nopanic s_get_from.
Proof. apply nopanic_typed_get, parse_fromto_no_panic. Qed.
Lemma nopanic_s_get_to : nopanic s_get_to.
Proof. apply nopanic_typed_get, parse_fromto_no_panic. Qed.
Lemma nopanic_s_get_cseq : nopanic s_get_cseq.
Proof. apply nopanic_typed_get, parse_cseq_no_panic. Qed.
Lemma nopanic_s_get_raw name : nopanic (s_get_raw name).
Proof.
  intros m. unfold s_get_raw, get_raw. cbn [snd]. destruct (get_header name (m_headers m)) as [h|]; [|discriminate].
  destruct (h_val h); discriminate.
Qed.
Lemma nopanic_s_get_method : nopanic s_get_method.
Proof.
  intros m. unfold s_get_method. destruct (m_start m); [discriminate|].
  apply nopanic_mbind; [apply nopanic_s_get_cseq|intros; apply nopanic_mret].
Qed.
Lemma nopanic_s_top_via : nopanic s_top_via.
Proof.
  apply nopanic_mbind; [apply nopanic_s_get_via|]. intros [|v r]; [apply nopanic_merr|apply nopanic_mret].
Qed.
Lemma nopanic_s_client_transaction : nopanic s_client_transaction.
Proof.
  apply nopanic_mbind; [apply nopanic_s_get_cseq|]. intros c.
  apply nopanic_mbind; [apply nopanic_s_top_via|]. intros v.
  apply nopanic_mbind; [apply nopanic_mlift, of_opt_no_panic|]. intros b. apply nopanic_mret.
Qed.
Lemma nopanic_s_pop_via : nopanic s_pop_via.
Proof.
  apply nopanic_mbind; [apply nopanic_s_get_via|]. intros [|a [|b r]]; apply nopanic_mmodify.
Qed.
Lemma nopanic_s_pop_route : nopanic s_pop_route.
Proof.
  apply nopanic_mbind; [exact s_get_route_no_panic|]. intros [|a [|b r]]; apply nopanic_mmodify.
Qed.
Lemma nopanic_s_set_received peer port : nopanic (s_set_received peer port).
Proof.
  apply nopanic_mbind; [apply nopanic_s_get_via|]. intros [|v r]; [apply nopanic_merr|apply nopanic_mmodify].
Qed.
Lemma nopanic_s_all_via_params : nopanic s_all_via_params.
Proof. intros m. unfold s_all_via_params. destruct (decode_all_vias (m_headers m)); discriminate. Qed.
Lemma nopanic_s_get_dialog : nopanic s_get_dialog.
Proof.
  apply nopanic_mbind; [apply nopanic_s_get_raw|]. intros cid.
  apply nopanic_mbind; [apply nopanic_s_get_from|]. intros f.
  apply nopanic_mbind; [apply nopanic_mlift, of_opt_no_panic|]. intros ft.
  apply nopanic_mbind; [apply nopanic_s_get_to|]. intros t.
  apply nopanic_mbind; [apply nopanic_mlift, of_opt_no_panic|]. intros tt. apply nopanic_mret.
Qed.
Lemma nopanic_next_response_hop : nopanic next_response_hop.
Proof.
  apply nopanic_mbind; [apply nopanic_s_top_via|]. intros v.
  destruct (via_get_received v); apply nopanic_mret.
Qed.
Lemma nopanic_next_hop_by_config rt : nopanic (next_hop_by_config rt).
Proof.
  apply nopanic_mbind; [apply nopanic_s_get_to|]. intros t.
  destruct (fromto_host t); [|apply nopanic_merr]. destruct (find_route rt b); [apply nopanic_mret|apply nopanic_merr].
Qed.
Lemma nopanic_next_request_hop keep rt : nopanic (next_request_hop keep rt).
Proof.
  intros m. unfold next_request_hop. pose proof (next_hop_by_route_no_panic keep m) as H.
  destruct (next_hop_by_route keep m) as [m1 [v| |]]; cbn [snd] in *; [discriminate| |contradiction].
  apply nopanic_next_hop_by_config.
Qed.
Lemma nopanic_try_remove_top_route c from : nopanic (try_remove_top_route c from).
Proof.
  apply nopanic_mbind; [exact s_get_route_no_panic|]. intros [|rp r]; [apply nopanic_mret|].
  destruct (na_addr (r_addr rp)); [|apply nopanic_mret].
  destruct (_ && _)%bool; [apply nopanic_s_pop_route|apply nopanic_mret].
Qed.
Lemma nopanic_find_backend_by_dialog e p : nopanic (find_backend_by_dialog e p).
Proof.
  apply nopanic_mbind; [apply nopanic_s_get_method|]. intros meth.
  destruct (_ && _)%bool; [apply nopanic_mret|].
  apply nopanic_mbind; [apply nopanic_mtry, nopanic_s_get_dialog|]. intros [d|]; [|apply nopanic_mret].
  destruct (pins_get (e_now e) d (ps_pins p)) as [pins1 ob]. cbv zeta.
  destruct (_ && _)%bool; [apply nopanic_mret|].
  apply nopanic_mbind; [apply nopanic_mtry, nopanic_s_get_raw|]. intros ss. apply nopanic_mret.
Qed.
Lemma nopanic_handle_dialog e peer pp p : nopanic (handle_dialog e peer pp p).
Proof.
  unfold handle_dialog. apply nopanic_mbind.
  - destruct (alookup _ (ps_backends p)); [apply nopanic_mret|].
    apply nopanic_mbind; [apply nopanic_s_client_transaction|]. intros tid.
    destruct (pins_get (e_now e) tid (ps_pins p)) as [pins1 ob].
    apply nopanic_mbind; [intros m; discriminate|]. intros fin. apply nopanic_mret.
  - intros [p1 [b|]]; [|apply nopanic_mret].
    apply nopanic_mbind; [apply nopanic_mtry, nopanic_s_get_method|]. intros [meth|]; [|apply nopanic_mret].
    destruct (beq meth (s2b "INVITE")).
    + apply nopanic_mbind; [apply nopanic_mtry, nopanic_s_get_dialog|]. intros od.
      apply nopanic_mbind; [intros m; discriminate|]. intros ex. destruct od; apply nopanic_mret.
    + destruct (beq meth (s2b "BYE")); [|apply nopanic_mret].
      apply nopanic_mbind; [apply nopanic_mtry, nopanic_s_get_dialog|]. intros od. destruct od; apply nopanic_mret.
Qed.

(* the guarded slice expression host[1:len(host)-1] *)
Lemma unbracket_ok e host0 : fx_bracket_host (e_fx e) = true -> exists host, unbracket e host0 = Ok host.
Proof.
  intros Hfx. unfold unbracket. rewrite Hfx. destruct (has_prefix (s2b "[") host0); [|eexists; reflexivity].
  destruct (has_suffix (s2b "]") host0); cbn [andb negb]; [|eexists; reflexivity].
  destruct (Nat.leb 2 (List.length host0)) eqn:E; cbn [negb]; [|eexists; reflexivity].
  apply Nat.leb_le in E. unfold slice_chk.
  assert (H : (Nat.leb 1 (List.length host0 - 1) && Nat.leb (List.length host0 - 1) (List.length host0))%bool = true).
  { apply andb_true_iff; split; apply Nat.leb_le; lia. }
  rewrite H. eexists; reflexivity.
Qed.
Lemma stage_conn_ok e tcp m2 p : fx_bracket_host (e_fx e) = true -> exists m3 p1, stage_conn e tcp m2 p = (m3, Ok p1).
Proof.
  intros Hfx. unfold stage_conn. destruct tcp as [c|]; [|eexists; eexists; reflexivity].
  destruct (is_request m2); [|eexists; eexists; reflexivity].
  destruct (mtry next_response_hop m2) as [m' [[[[h0 p0] t0]|]| |]]; try (eexists; eexists; reflexivity).
  destruct (unbracket_ok e h0 Hfx) as [host ->]. destruct (mtry s_client_transaction m') as [m'' tid].
  eexists; eexists; reflexivity.
Qed.

(* with the guard in place a decoded message is always processed to the end *)
Theorem C08_process_message_ok : forall e peer pp from rs tcp m0 x,
  fx_bracket_host (e_fx e) = true ->
  exists x', process_message e peer pp from rs tcp m0 x = Ok x'.
Proof.
  intros e peer pp from rs tcp m0 x Hfx. rewrite process_message_reach. unfold reach.
  destruct (stage_learn peer from m0 x) as [m1 l1].
  destruct (stage_conn_ok e tcp (stage_stamp peer pp rs m1) (x_p x) Hfx) as (m3 & p1 & ->).
  destruct (stage_dialog e peer pp p1 (stage_route e from m3)) as [m5 p2]. eexists; reflexivity.
Qed.

Lemma ok_no_panic {A} (r : res A) : (exists a, r = Ok a) -> r <> Panic.
Proof. intros [a ->]. discriminate. Qed.
Corollary C08_process_message_no_panic : forall e peer pp from rs tcp m0 x,
  fx_bracket_host (e_fx e) = true -> process_message e peer pp from rs tcp m0 x <> Panic.
Proof. intros e peer pp from rs tcp m0 x H. apply ok_no_panic, C08_process_message_ok, H. Qed.

(* what the per-connection loop extracts from a chunk: the decodable messages, and whether it
   stopped on a decode error (true) or on the end of the data / keep-alive blank lines (false) *)
Fixpoint stream_msgs (fuel : nat) (s : bytes) : list message * bool :=
  match fuel with
  | O => ([], false)
  | S f =>
      match trim_left s with
      | [] => ([], false)
      | _ => match parse_message s with
             | Ok (m, rest) => let '(l, b) := stream_msgs f rest in (m :: l, b)
             | _ => ([], true)
             end
      end
  end.
Fixpoint process_all (e : env) (c : conn) (ms : list message) (x : ctx) : res ctx :=
  match ms with
  | [] => Ok x
  | m :: r =>
      let! x1 := process_message e (cn_peer c) (cn_peer_port c) (cn_from c) (cn_received_support c)
                                 (Some (cn_id c)) m x in
      process_all e c r x1
  end.
Definition close_ctx (c : nat) (x : ctx) : ctx :=
  {| x_learned := x_learned x; x_p := x_p x; x_conns := close_conn c (x_conns x);
     x_world := x_world x; x_outs := x_outs x |}.

Lemma close_ctx_eq : close_ctx = Pipeline.close_ctx.
Proof. reflexivity. Qed.

Lemma tcp_messages_spec : forall fuel e c s x,
  tcp_messages fuel e c s x =
  let! x' := process_all e c (fst (stream_msgs fuel s)) x in
  Ok (if snd (stream_msgs fuel s) then close_ctx (cn_id c) x' else x').
Proof.
  induction fuel as [|f IH]; intros e c s x; [reflexivity|].
  cbn [tcp_messages stream_msgs]. destruct (trim_left s) as [|a t]; [reflexivity|].
  destruct (parse_message s) as [[m rest]| |]; try reflexivity.
  destruct (stream_msgs f rest) as [l b] eqn:E. cbn [fst snd process_all].
  destruct (process_message _ _ _ _ _ _ m x) as [x1| |]; cbn [rbind]; try reflexivity.
  rewrite IH, E. reflexivity.
Qed.

Lemma process_all_ok e c ms : fx_bracket_host (e_fx e) = true ->
  forall x, exists x', process_all e c ms x = Ok x'.
Proof.
  intros H. induction ms as [|m r IH]; intros x; [eexists; reflexivity|].
  cbn [process_all].
  destruct (C08_process_message_ok e (cn_peer c) (cn_peer_port c) (cn_from c) (cn_received_support c)
              (Some (cn_id c)) m x H) as [x1 ->].
  cbn [rbind]. apply IH.
Qed.

Theorem C08_tcp_messages_ok : forall fuel e c s x,
  fx_bracket_host (e_fx e) = true -> exists x', tcp_messages fuel e c s x = Ok x'.
Proof.
  intros fuel e c s x H. rewrite tcp_messages_spec.
  destruct (process_all_ok e c (fst (stream_msgs fuel s)) H x) as [x' ->]. eexists; reflexivity.
Qed.
Corollary C08_tcp_messages_no_panic : forall fuel e c s x,
  fx_bracket_host (e_fx e) = true -> tcp_messages fuel e c s x <> Panic.
Proof. intros fuel e c s x H. apply ok_no_panic, C08_tcp_messages_ok, H. Qed.

Lemma run_ctx_ok st li f :
  (forall p x, exists x', f p x = Ok x') -> exists st' outs, run_ctx st li f = Ok (st', outs).
Proof.
  intros Hf. unfold run_ctx. destruct (nth_p (st_proxies st) li) as [p|]; [|eexists; eexists; reflexivity].
  destruct (Hf p {| x_learned := st_learned st; x_p := p; x_conns := st_conns st; x_world := st_world st; x_outs := [] |})
    as [x' ->]. eexists; eexists; reflexivity.
Qed.

Definition no_data (ev : event) : Prop := match ev with EvUdp _ _ _ _ | EvTcpData _ _ => False | _ => True end.
Lemma proxy_step_no_data fx c now branch st ev : no_data ev -> exists st', proxy_step fx c now branch st ev = Ok (st', []).
Proof.
  destruct ev as [li src sport data|li src sport|cid data|cid|li addr|li addr]; try contradiction; intros _; cbn [proxy_step].
  - destruct (nth_opt (c_listens c) li) as [lc|]; [|eexists; reflexivity].
    destruct (nth_p (st_proxies st) li) as [p|]; [|eexists; reflexivity].
    cbv zeta. destruct (get_transport _ _ _ _ _ _) as [p1 rk]. eexists; reflexivity.
  - eexists; reflexivity.
  - destruct (nth_p (st_proxies st) li) as [p|]; eexists; reflexivity.
  - destruct (nth_p (st_proxies st) li) as [p|]; [|eexists; reflexivity].
    destruct (rr_remove addr (ps_rr p)) as [r' closed]. eexists; reflexivity.
Qed.

(* every event is either processed or discarded: never Err, never Panic -- for every fix
   set that contains the bracket guard *)
Theorem C08_never_err_gen : forall fx c now branch st ev, fx_bracket_host fx = true ->
  exists st' outs, proxy_step fx c now branch st ev = Ok (st', outs).
Proof.
  intros fx c now branch st ev Hfx.
  assert (N : no_data ev -> exists st' outs, proxy_step fx c now branch st ev = Ok (st', outs)).
  { intros H. destruct (proxy_step_no_data fx c now branch st ev H) as [st' ->]. eexists; eexists; reflexivity. }
  destruct ev as [li src sport data|li src sport|cid data|cid|li addr|li addr]; try exact (N I); clear N; cbn [proxy_step].
  - destruct (nth_opt (c_listens c) li) as [lc|]; [|eexists; eexists; reflexivity].
    destruct (parse_message data) as [[m r]| |]; try (eexists; eexists; reflexivity).
    apply run_ctx_ok. intros p x. apply C08_process_message_ok. exact Hfx.
  - destruct (find _ (st_conns st)) as [cn|]; [|eexists; eexists; reflexivity].
    destruct (cn_open cn); [|eexists; eexists; reflexivity].
    destruct (nth_opt (c_listens c) (cn_li cn)) as [lc|]; [|eexists; eexists; reflexivity].
    apply run_ctx_ok. intros p x. apply C08_tcp_messages_ok. exact Hfx.
Qed.

Theorem C08_never_err : forall c now branch st ev,
  exists st' outs, proxy_step all_fixed c now branch st ev = Ok (st', outs).
Proof. intros. apply C08_never_err_gen. reflexivity. Qed.

(* no datagram, no TCP chunk, no membership event makes the pipeline panic *)
Theorem C08_no_panic_gen : forall fx c now branch st ev, fx_bracket_host fx = true ->
  proxy_step fx c now branch st ev <> Panic.
Proof.
  intros fx c now branch st ev H. destruct (C08_never_err_gen fx c now branch st ev H) as (st' & outs & ->).
  discriminate.
Qed.
Theorem C08_no_panic : forall c now branch st ev, proxy_step all_fixed c now branch st ev <> Panic.
Proof. intros. apply C08_no_panic_gen. reflexivity. Qed.

(* without the bracket guard the pipeline does panic: a witness *)
Definition crlf_s : string := String (ascii_of_nat 13) (String (ascii_of_nat 10) EmptyString).
Definition lines (l : list string) : bytes := flat_map (fun s => s2b s ++ s2b crlf_s) l.

Definition wit_lc : listen_cfg :=
  {| lc_addr := s2b "10.0.0.1"; lc_udp := 5060%Z; lc_tcp := 5060%Z; lc_backends := []; lc_dynamic := false;
     lc_no_received := true; lc_def_route := false; lc_must_rr := false |}.
Definition wit_cfg : cfg :=
  {| c_name := s2b "proxy.example.org"; c_keep_next_hop := false; c_dialog_timeout := 3600%Z;
     c_routes := []; c_hosts := []; c_listens := [wit_lc] |}.
Definition legacy_bracket : fixes :=
  {| fx_wiring := true; fx_udp_via_listener := true; fx_indialog_invite := true; fx_bracket_host := false; fx_resolved_key := true; fx_stale_pin := true |}.
(* a TCP request whose top Via has the sent-by host "[" (received-support off, so the host is
   not replaced by the peer address) *)
Definition bracket_request : bytes :=
  lines ["OPTIONS sip:bob@example.net SIP/2.0"; "Via: SIP/2.0/TCP [;branch=z9hG4bK1"; "CSeq: 1 OPTIONS";
         "Content-Length: 0"; ""]%string.

Definition step2 (fx : fixes) : res (state * list output) :=
  let! (st1, _) := proxy_step fx wit_cfg 0%Z (s2b "z9hG4bKa") (init_state wit_cfg 0%Z []) (EvTcpAccept 0 (s2b "10.0.0.9") 40000%Z) in
  proxy_step fx wit_cfg 1000000%Z (s2b "z9hG4bKb") st1 (EvTcpData 0 bracket_request).

Theorem C08_legacy_refuted :
  step2 legacy_bracket = Panic /\
  (exists st', step2 all_fixed = Ok (st', []) /\ conn_open (st_conns st') 0 = true).
Proof. split; [vm_compute; reflexivity|]. eexists; split; vm_compute; reflexivity. Qed.

Definition undecodable (s : bytes) : Prop := forall m r, parse_message s <> Ok (m, r).
(* a chunk that does not start (after leading white space) with a decodable message *)
Definition garbage (s : bytes) : Prop := trim_left s <> [] /\ undecodable s.

Theorem C08_discard_udp : forall fx c now branch st li src sport data, undecodable data ->
  proxy_step fx c now branch st (EvUdp li src sport data) = Ok (st, []).
Proof.
  intros fx c now branch st li src sport data H. cbn [proxy_step].
  destruct (nth_opt (c_listens c) li); [|reflexivity].
  destruct (parse_message data) as [[m r]| |] eqn:E; try reflexivity. exfalso; exact (H _ _ E).
Qed.

Lemma stream_msgs_garbage n s : garbage s -> stream_msgs (S n) s = ([], true).
Proof.
  intros [Ht Hu]. cbn [stream_msgs]. destruct (trim_left s) as [|a t]; [contradiction|].
  destruct (parse_message s) as [[m r]| |] eqn:E; try reflexivity. exfalso; exact (Hu _ _ E).
Qed.

Definition close_state (cid : nat) (st : state) : state :=
  {| st_learned := st_learned st; st_proxies := st_proxies st; st_conns := close_conn cid (st_conns st);
     st_world := st_world st |}.
Lemma close_state_eq : close_state = Pipeline.close_state.
Proof. reflexivity. Qed.
(* the connection exists, is open and belongs to a configured listener *)
Definition tcp_live (c : cfg) (st : state) (cid : nat) : bool :=
  match find (fun x => Nat.eqb (cn_id x) cid) (st_conns st) with
  | Some cn => cn_open cn &&
               match nth_opt (c_listens c) (cn_li cn), nth_p (st_proxies st) (cn_li cn) with
               | Some _, Some _ => true | _, _ => false end
  | None => false
  end.

Lemma state_eta st : {| st_learned := st_learned st; st_proxies := st_proxies st; st_conns := st_conns st;
                        st_world := st_world st |} = st.
Proof. destruct st; reflexivity. Qed.

(* garbage on a connection: nothing is sent, the connection is marked closed, every other
   component of the state is unchanged (on a dead connection: nothing at all) *)
Theorem C08_discard_tcp : forall fx c now branch st cid data, garbage data ->
  proxy_step fx c now branch st (EvTcpData cid data) =
  Ok (if tcp_live c st cid then close_state cid st else st, []).
Proof.
  intros fx c now branch st cid data Hg. cbn [proxy_step]. unfold tcp_live.
  destruct (find _ (st_conns st)) as [cn|] eqn:Ef; [|reflexivity].
  destruct (cn_open cn); [|reflexivity]. cbn [andb].
  destruct (nth_opt (c_listens c) (cn_li cn)) as [lc|]; [|reflexivity].
  unfold run_ctx. destruct (nth_p (st_proxies st) (cn_li cn)) as [p|] eqn:Ep; [|reflexivity].
  rewrite tcp_messages_spec, (stream_msgs_garbage _ _ Hg). cbn [fst snd process_all rbind close_ctx x_learned x_p x_conns x_world x_outs].
  apply find_some in Ef. destruct Ef as [_ Ef]. apply Nat.eqb_eq in Ef. rewrite Ef.
  rewrite (set_nth_unchanged _ _ _ Ep). reflexivity.
Qed.

(* ... which is exactly what the peer closing the connection does *)
Corollary C08_garbage_is_close : forall fx c now branch st cid data, garbage data -> tcp_live c st cid = true ->
  proxy_step fx c now branch st (EvTcpData cid data) = proxy_step fx c now branch st (EvTcpClose cid).
Proof. intros fx c now branch st cid data Hg Hl. rewrite (C08_discard_tcp _ _ _ _ _ _ _ Hg), Hl. reflexivity. Qed.

(* a chunk  m ++ garbage : the effect of m alone, then the connection is closed *)
Lemma stream_msgs_one_garbage d m rest : parse_message d = Ok (m, rest) -> garbage rest ->
  stream_msgs (S (List.length d)) d = ([m], true).
Proof.
  intros Hp Hg. pose proof (parse_message_nonblank _ _ _ Hp) as Ht. cbn [stream_msgs].
  destruct (trim_left d) as [|a t] eqn:E; [contradiction|]. rewrite Hp.
  destruct d as [|b d']; [discriminate|]. cbn [List.length]. rewrite (stream_msgs_garbage _ _ Hg). reflexivity.
Qed.
Lemma stream_msgs_one_clean d m rest : parse_message d = Ok (m, rest) -> trim_left rest = [] ->
  stream_msgs (S (List.length d)) d = ([m], false).
Proof.
  intros Hp Hr. pose proof (parse_message_nonblank _ _ _ Hp) as Ht. cbn [stream_msgs].
  destruct (trim_left d) as [|a t] eqn:E; [contradiction|]. rewrite Hp.
  destruct d as [|b d']; [discriminate|]. cbn [List.length stream_msgs]. rewrite Hr. reflexivity.
Qed.

Theorem C08_tcp_garbage_after : forall d d1 m rest rest1 e c x,
  parse_message d = Ok (m, rest) -> garbage rest ->
  parse_message d1 = Ok (m, rest1) -> trim_left rest1 = [] ->
  tcp_messages (S (List.length d)) e c d x =
  rmap (close_ctx (cn_id c)) (tcp_messages (S (List.length d1)) e c d1 x).
Proof.
  intros d d1 m rest rest1 e c x Hp Hg Hp1 Hr. rewrite !tcp_messages_spec.
  rewrite (stream_msgs_one_garbage _ _ _ Hp Hg), (stream_msgs_one_clean _ _ _ Hp1 Hr).
  cbn [fst snd]. destruct (process_all e c [m] x); reflexivity.
Qed.

Theorem C08_discard_tcp_after : forall fx c now branch st cid d d1 m rest rest1 st1 outs1,
  parse_message d = Ok (m, rest) -> garbage rest ->
  parse_message d1 = Ok (m, rest1) -> trim_left rest1 = [] ->
  tcp_live c st cid = true ->
  proxy_step fx c now branch st (EvTcpData cid d1) = Ok (st1, outs1) ->
  proxy_step fx c now branch st (EvTcpData cid d) = Ok (close_state cid st1, outs1).
Proof.
  intros fx c now branch st cid d d1 m rest rest1 st1 outs1 Hp Hg Hp1 Hr Hl. unfold tcp_live in Hl.
  destruct (find _ (st_conns st)) as [cn|] eqn:Ef; [|discriminate].
  destruct (cn_open cn) eqn:Eo; [|discriminate]. cbn [andb] in Hl.
  destruct (nth_opt (c_listens c) (cn_li cn)) as [lc|] eqn:El; [|discriminate].
  destruct (nth_p (st_proxies st) (cn_li cn)) as [p|] eqn:Ep; [|discriminate].
  rewrite !(proxy_step_tcp_eq _ _ _ _ _ _ _ _ _ _ Ef Eo El Ep), (C08_tcp_garbage_after d d1 m rest rest1 _ _ _ Hp Hg Hp1 Hr).
  apply find_some in Ef. destruct Ef as [_ Ef]. apply Nat.eqb_eq in Ef. rewrite Ef.
  destruct (tcp_messages (S (List.length d1)) _ cn d1 _) as [x1| |]; cbn [rmap]; try discriminate.
  intros H. injection H as <- <-. reflexivity.
Qed.

(* the proxy keeps serving: a run with explicit time and branch per event (so that removing an
   event does not shift the branches of the others) *)
Fixpoint run_steps (fx : fixes) (c : cfg) (st : state) (evs : list (Z * bytes * event))
  : res (state * list (list output)) :=
  match evs with
  | [] => Ok (st, [])
  | (now, branch, ev) :: r =>
      let! (st1, o) := proxy_step fx c now branch st ev in
      let! (st2, os) := run_steps fx c st1 r in
      Ok (st2, o :: os)
  end.

Lemma run_steps_skip fx c tev evs2 :
  (forall st, proxy_step fx c (fst (fst tev)) (snd (fst tev)) st (snd tev) = Ok (st, [])) ->
  forall evs1 st,
  run_steps fx c st (evs1 ++ tev :: evs2) =
  rmap (fun '(st', os) => (st', insert_at (List.length evs1) [] os)) (run_steps fx c st (evs1 ++ evs2)).
Proof.
  intros H. induction evs1 as [|[[n b] ev] evs1 IH]; intros st.
  - destruct tev as [[n b] ev]. cbn [app run_steps List.length]. cbn [fst snd] in H. rewrite H. cbn [rbind].
    destruct (run_steps fx c st evs2) as [[st2 os]| |]; reflexivity.
  - cbn [app run_steps List.length]. destruct (proxy_step fx c n b st ev) as [[st1 o]| |]; cbn [rbind rmap]; try reflexivity.
    rewrite IH. destruct (run_steps fx c st1 (evs1 ++ evs2)) as [[st2 os]| |]; reflexivity.
Qed.

(* an undecodable datagram anywhere in a run: same final state, same outputs for every other
   event, nothing for the datagram itself *)
Theorem C08_serves_after : forall fx c st evs1 evs2 now branch li src sport d, undecodable d ->
  run_steps fx c st (evs1 ++ (now, branch, EvUdp li src sport d) :: evs2) =
  rmap (fun '(st', os) => (st', insert_at (List.length evs1) [] os)) (run_steps fx c st (evs1 ++ evs2)).
Proof.
  intros fx c st evs1 evs2 now branch li src sport d H. apply run_steps_skip.
  intros st0. apply C08_discard_udp. exact H.
Qed.
(* garbage on a TCP connection: the run continues as after a close of that connection *)
Theorem C08_serves_after_tcp : forall fx c st evs1 evs2 now branch cid d st1 os1, garbage d ->
  run_steps fx c st evs1 = Ok (st1, os1) ->
  run_steps fx c st (evs1 ++ (now, branch, EvTcpData cid d) :: evs2) =
  run_steps fx c st (evs1 ++ (if tcp_live c st1 cid then [(now, branch, EvTcpClose cid)]
                              else [(now, branch, EvUdp 0 [] 0%Z [])]) ++ evs2).
Proof.
  intros fx c st evs1. revert st. induction evs1 as [|[[n b] ev] evs1 IH]; intros st evs2 now branch cid d st1 os1 Hg Hr.
  - cbn [run_steps] in Hr. injection Hr as <- <-. cbn [app run_steps]. rewrite (C08_discard_tcp _ _ _ _ _ _ _ Hg).
    destruct (tcp_live c st cid); cbn [app run_steps]; [reflexivity|].
    rewrite C08_discard_udp; [reflexivity|]. intros m r. vm_compute. discriminate.
  - cbn [app run_steps] in *. destruct (proxy_step fx c n b st ev) as [[st0 o]| |]; cbn [rbind] in *; try discriminate.
    destruct (run_steps fx c st0 evs1) as [[st2 os]| |] eqn:E; cbn [rbind] in Hr; try discriminate.
    injection Hr as <- <-. rewrite (IH st0 evs2 now branch cid d st2 os Hg E). reflexivity.
Qed.

(* outputs that carry a message (a [DDial] only records that a connection was opened) *)
Definition carries (o : output) : bool := match fst o with DDial _ _ _ => false | _ => true end.
Definition count_msg (outs : list output) : nat := List.length (filter carries outs).
Lemma count_msg_eq : count_msg = C06.msg_count.
Proof. reflexivity. Qed.
Lemma count_msg_app a b : count_msg (a ++ b) = count_msg a + count_msg b.
Proof. exact (C06.msg_count_app a b). Qed.

(* two outputs do occur, even with one unit of fuel: the round of TCPClientTransport.Send that dials
   also writes, so a fresh client emits the dial and the write in ONE round *)
Example tcp_client_send_count_fuel1 : forall p0 : pstate,
  let p := with_clients p0 [{| tc_id := 0; tc_host := []; tc_port := 0%Z; tc_cached := None |}] in
  let w := {| w_tcp_listeners := [([], 0%Z)]; w_next_conn := 0 |} in
  List.length (snd (fst (tcp_client_send 1 0 [] false 0 [] p [] w []))) = 2.
Proof. intros p0. reflexivity. Qed.

Lemma process_message_count e peer pp from rs tcp m0 x x' :
  process_message e peer pp from rs tcp m0 x = Ok x' ->
  count_msg (x_outs x') <= count_msg (x_outs x) + 1 /\ List.length (x_outs x') <= List.length (x_outs x) + 2.
Proof.
  intros H. destruct (process_message_sends _ _ _ _ _ _ _ _ _ H) as (_ & b & extra & -> & S).
  apply send_shape_bounds in S. change (count_msg extra <= 1 /\ List.length extra <= 2) in S.
  rewrite count_msg_app, app_length. lia.
Qed.

Lemma process_all_count e c ms : forall x x', process_all e c ms x = Ok x' ->
  count_msg (x_outs x') <= count_msg (x_outs x) + List.length ms /\
  List.length (x_outs x') <= List.length (x_outs x) + 2 * List.length ms.
Proof.
  induction ms as [|m r IH]; intros x x' H; cbn [process_all] in H.
  - injection H as <-. cbn. lia.
  - destruct (process_message _ _ _ _ _ _ m x) as [x1| |] eqn:E; cbn [rbind] in H; try discriminate.
    apply process_message_count in E. apply IH in H. cbn [List.length]. lia.
Qed.

(* the messages an event carries *)
Definition msgs_in (ev : event) : nat :=
  match ev with
  | EvUdp _ _ _ d => if is_ok (parse_message d) then 1 else 0
  | EvTcpData _ d => List.length (fst (stream_msgs (S (List.length d)) d))
  | _ => 0
  end.

(* every event relays at most as many messages as it carries (a datagram at most one), and
   produces at most two outputs per message (a relayed message may be preceded by the record of
   the connection that was opened for it) -- for every fix set, state and configuration *)
Theorem C08_output_bounded : forall fx c now branch st ev st' outs,
  proxy_step fx c now branch st ev = Ok (st', outs) ->
  count_msg outs <= msgs_in ev /\ List.length outs <= 2 * msgs_in ev.
Proof.
  intros fx c now branch st ev st' outs H.
  assert (N : no_data ev -> count_msg outs <= msgs_in ev /\ List.length outs <= 2 * msgs_in ev).
  { intros Hn. destruct (proxy_step_no_data fx c now branch st ev Hn) as [st0 E]. rewrite E in H. injection H as _ <-. cbn. lia. }
  destruct ev as [li src sport data|li src sport|cid data|cid|li addr|li addr]; try exact (N I); clear N; cbn [msgs_in].
  - apply proxy_step_udp_inv in H. destruct H as [(_ & ->)|(lc & m & rest & p & x' & _ & P & _ & E & _ & ->)]; [cbn; lia|].
    rewrite P. apply process_message_count in E. cbn in E. cbn [is_ok]. lia.
  - apply proxy_step_tcp_inv in H. destruct H as [(_ & ->)|(cn & lc & p & x' & _ & _ & _ & _ & _ & E & _ & ->)]; [cbn; lia|].
    rewrite tcp_messages_spec in E. set (sm := stream_msgs (S (List.length data)) data) in *. clearbody sm.
    destruct (process_all _ cn _ _) as [x1| |] eqn:PA; cbn [rbind] in E; try discriminate.
    apply process_all_count in PA. cbn in PA. injection E as <-.
    destruct (snd sm); cbn [close_ctx x_outs]; lia.
Qed.
(* a chunk of n bytes carries fewer than n messages *)
Lemma stream_msgs_length : forall fuel s, List.length (fst (stream_msgs fuel s)) <= fuel.
Proof.
  induction fuel as [|f IH]; intros s; cbn [stream_msgs]; [cbn; lia|].
  destruct (trim_left s); [cbn; lia|]. destruct (parse_message s) as [[m rest]| |]; try (cbn; lia).
  specialize (IH rest). destruct (stream_msgs f rest) as [l0 b0]. cbn [fst List.length] in *. lia.
Qed.

Definition routed_request : bytes :=
  lines ["OPTIONS sip:bob@example.net SIP/2.0"; "Via: SIP/2.0/UDP 10.0.0.9:5070;branch=z9hG4bK1";
         "Route: <sip:10.0.0.7:5062;lr>"; "CSeq: 1 OPTIONS"; "Content-Length: 0"; ""]%string.

Example C08_ex_undecodable : undecodable (s2b "hello") /\ garbage (s2b "hello") /\
  garbage (lines ["INVITE sip:a@h SIP/2.0"; "Content-Length: -1"; ""]%string).
Proof.
  split; [intros m r; vm_compute; discriminate|].
  split; (split; [vm_compute; discriminate|intros m r; vm_compute; discriminate]).
Qed.
Example C08_ex_chunk : exists m rest rest1,
  parse_message (bracket_request ++ s2b "hello") = Ok (m, rest) /\ garbage rest /\
  parse_message bracket_request = Ok (m, rest1) /\ trim_left rest1 = [].
Proof.
  eexists; eexists; eexists. split; [vm_compute; reflexivity|].
  split; [split; [vm_compute; discriminate|intros m r; vm_compute; discriminate]|].
  split; vm_compute; reflexivity.
Qed.
(* a routed datagram is relayed (one output, bound attained); the same run with an undecodable
   datagram in the middle relays the same *)
Example C08_ex_run :
  let ev := (0%Z, s2b "z9hG4bKa", EvUdp 0 (s2b "10.0.0.9") 5070%Z routed_request) in
  let bad := (1%Z, s2b "z9hG4bKb", EvUdp 0 (s2b "10.0.0.66") 5070%Z (s2b "hello")) in
  exists st' o, run_steps all_fixed wit_cfg (init_state wit_cfg 0%Z []) [ev; ev] = Ok (st', [[o]; [o]]) /\
                fst o = DUdp (s2b "10.0.0.7") 5062%Z /\
                run_steps all_fixed wit_cfg (init_state wit_cfg 0%Z []) [ev; bad; ev] = Ok (st', [[o]; []; [o]]) /\
                msgs_in (snd ev) = 1.
Proof.
  cbv zeta. eexists; eexists. split; [vm_compute; reflexivity|].
  split; [reflexivity|]. split; vm_compute; reflexivity.
Qed.
Example C08_ex_live :
  exists st1 o, proxy_step all_fixed wit_cfg 0%Z (s2b "z9hG4bKa") (init_state wit_cfg 0%Z []) (EvTcpAccept 0 (s2b "10.0.0.9") 40000%Z) = Ok (st1, o) /\
             tcp_live wit_cfg st1 0 = true.
Proof. eexists; eexists. split; vm_compute; reflexivity. Qed.

Print Assumptions C08_process_message_ok.
Print Assumptions C08_tcp_messages_ok.
Print Assumptions C08_no_panic.
Print Assumptions C08_no_panic_gen.
Print Assumptions C08_never_err.
Print Assumptions C08_legacy_refuted.
Print Assumptions C08_discard_udp.
Print Assumptions C08_discard_tcp.
Print Assumptions C08_garbage_is_close.
Print Assumptions C08_tcp_garbage_after.
Print Assumptions C08_discard_tcp_after.
Print Assumptions C08_serves_after.
Print Assumptions C08_serves_after_tcp.
Print Assumptions C08_output_bounded.
Print Assumptions nopanic_handle_dialog.
