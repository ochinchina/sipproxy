(* proofs/C15.v — property C15 (dialog pins: honoured for their lifetime, never after,
   dissolved on termination, expired pins purged so the table stays bounded) proved of the
   model Pins.v for ALL histories, and the executable judge SpecC15.judge_C15 proved to accept
   every observation the model produces.  No axioms, no admits.

   One simulation carries everything: along a history of the domain the model's table and the
   judge's specification state stay related (INV: the table's own invariant pinv, plus "k's entry
   is k's binding, or the binding has run out and the entry is gone").  What a look-up answers,
   how large the table is and that it was swept are read off that relation; what happens to one
   key along a history is then a fact about the specification state alone. *)
From Coq Require Import List Ascii String ZArith Bool Lia.
From Model Require Import Bytes BytesLemmas Pins SpecC15.
Import ListNotations.
Open Scope Z_scope.

Lemma Forall_aset {V} (Q : V -> Prop) k v (m : list (bytes * V)) :
  Forall (fun kv => Q (snd kv)) m -> Q v -> Forall (fun kv => Q (snd kv)) (aset k v m).
Proof.
  intros HF Hv. induction m as [|[k' v'] r IH]; cbn.
  - constructor; [exact Hv|constructor].
  - inversion HF as [|x l Hx Hl]; subst.
    destruct (beq k k'); constructor; try assumption.
    apply IH. exact Hl.
Qed.

Lemma Forall_filter {A} (P : A -> Prop) f (m : list A) : Forall P m -> Forall P (filter f m).
Proof. apply incl_Forall, incl_filter. Qed.

Lemma filter_all {A} (m : list A) : filter (fun _ => true) m = m.
Proof. induction m as [|x m IH]; cbn; [reflexivity|]. rewrite IH. reflexivity. Qed.

(* the sweep, seen through look-ups *)
Lemma alookup_clean now k tab : NoDup (map fst tab) ->
  alookup k (pins_clean now tab) =
  match alookup k tab with
  | Some e => if Z.ltb (pin_expire e) now then None else Some e
  | None => None
  end.
Proof.
  intros ND. unfold pins_clean. rewrite alookup_filter by exact ND.
  destruct (alookup k tab) as [e|]; [|reflexivity]. cbn [snd].
  destruct (Z.ltb (pin_expire e) now); reflexivity.
Qed.

Lemma alookup_clean_none now k tab :
  alookup k tab = None -> alookup k (pins_clean now tab) = None.
Proof.
  rewrite !alookup_none. intros H H1. apply H.
  exact (incl_map fst (incl_filter _ tab) _ H1).
Qed.

Lemma wrap64_small z : 0 <= z < two63 -> wrap64 z = z.
Proof.
  intros H. unfold wrap64. rewrite Z.mod_small; [lia|]. unfold two63 in *. lia.
Qed.

Lemma second_ns s : s * second = c15_ns s.
Proof. reflexivity. Qed.

Lemma ns_small s : 0 <= s <= c15_max_seconds -> 0 <= c15_ns s < two63.
Proof. unfold c15_max_seconds, c15_ns, two63. lia. Qed.

Lemma new_timeout ts now : 0 <= ts <= c15_max_seconds -> p_timeout (pins_new ts now) = c15_ns ts.
Proof.
  intros H. unfold pins_new. cbn [p_timeout]. rewrite second_ns.
  apply wrap64_small. apply ns_small. exact H.
Qed.

(* in the domain of C15 no product wraps and the lifetime is max(timeout, Expires) *)
Lemma lifetime_domain ts p e :
  0 <= e <= c15_max_seconds -> p_timeout p = c15_ns ts ->
  pins_lifetime p e = c15_ns (Z.max ts e).
Proof.
  intros He HT. unfold pins_lifetime. rewrite HT, second_ns.
  rewrite (wrap64_small (c15_ns e)) by (apply ns_small; exact He).
  unfold c15_ns. destruct (Z.ltb_spec (ts * 1000000000) (e * 1000000000)) as [H|H]; lia.
Qed.

(* the lifetime is at least the configured timeout and at least the Expires value *)
Lemma C15_lifetime_ge ts e : c15_ns ts <= c15_ns (Z.max ts e) /\ c15_ns e <= c15_ns (Z.max ts e).
Proof. unfold c15_ns. lia. Qed.

Lemma pins_step_get now p k :
  pins_step (now, p) (PGet k) = ((now, fst (pins_get now k p)), PGot (snd (pins_get now k p))).
Proof. cbn [pins_step]. destruct (pins_get now k p). reflexivity. Qed.

Lemma pins_run_cons st o r :
  pins_run st (o :: r) =
  (fst (pins_run (fst (pins_step st o)) r),
   (snd (pins_step st o), List.length (p_tab (snd (fst (pins_step st o)))))
     :: snd (pins_run (fst (pins_step st o)) r)).
Proof.
  cbn [pins_run]. destruct (pins_step st o) as [st1 x]. cbn [fst snd].
  destruct (pins_run st1 r). reflexivity.
Qed.

Definition pins_exec (st : Z * pins) (ops : list pin_op) : Z * pins :=
  fold_left (fun s o => fst (pins_step s o)) ops st.

Lemma run_exec ops : forall st, fst (pins_run st ops) = pins_exec st ops.
Proof.
  induction ops as [|o r IH]; intros st; [reflexivity|]. rewrite pins_run_cons. apply IH.
Qed.

Lemma exec_app st a b : pins_exec st (a ++ b) = pins_exec (pins_exec st a) b.
Proof. unfold pins_exec. apply fold_left_app. Qed.

(* the state reached by a history from the initial state *)
Definition after (ts : Z) (ops : list pin_op) : Z * pins :=
  fst (pins_run (0, pins_new ts 0) ops).

Lemma after_exec ts ops : after ts ops = pins_exec (0, pins_new ts 0) ops.
Proof. apply run_exec. Qed.

Lemma domain_split ts ops :
  pins_domain ts ops = true <-> 0 <= ts <= c15_max_seconds /\ forallb pin_op_ok ops = true.
Proof. unfold pins_domain. rewrite !andb_true_iff, !Z.leb_le. tauto. Qed.

Lemma add_ok k b e : pin_op_ok (PAdd k b e) = true <-> 0 <= e <= c15_max_seconds.
Proof. cbn [pin_op_ok]. rewrite andb_true_iff, !Z.leb_le. reflexivity. Qed.

Lemma domain_snoc ts pre o :
  pins_domain ts (pre ++ [o]) = true -> pins_domain ts pre = true /\ pin_op_ok o = true.
Proof.
  rewrite !domain_split, forallb_app. cbn [forallb]. rewrite !andb_true_iff. tauto.
Qed.

Lemma after_snoc ts pre o : after ts (pre ++ [o]) = fst (pins_step (after ts pre) o).
Proof. rewrite !after_exec, exec_app. reflexivity. Qed.

(* time that passes during a history *)
Definition elapsed (ops : list pin_op) : Z :=
  fold_right (fun o acc => match o with PAdvance dt => dt + acc | _ => acc end) 0 ops.

Lemma elapsed_nonneg ops : forallb pin_op_ok ops = true -> 0 <= elapsed ops.
Proof.
  induction ops as [|o r IH]; cbn [elapsed fold_right forallb]; intros H; [lia|].
  apply andb_true_iff in H. destruct H as [Ho Hr]. specialize (IH Hr). fold (elapsed r).
  destruct o; cbn [pin_op_ok] in Ho; try exact IH. apply Z.leb_le in Ho. lia.
Qed.

(* the next sweep is never further away than one timeout, and nothing in the table expired
   before the instant "one timeout before the next sweep" *)
Definition pinv (now : Z) (p : pins) : Prop :=
  0 <= p_timeout p /\
  p_next_clean p <= now + p_timeout p /\
  NoDup (map fst (p_tab p)) /\
  Forall (fun kv => p_next_clean p - p_timeout p <= pin_expire (snd kv)) (p_tab p).

Lemma pinv_add now k b e p :
  pinv now p -> p_timeout p <= pins_lifetime p e -> pinv now (pins_add now k b e p).
Proof.
  intros (HT & HN & HD & HF) HL. unfold pins_add.
  set (ent := {| pin_backend := b; pin_expire := now + pins_lifetime p e |}).
  assert (HD' : NoDup (map fst (aset k ent (p_tab p)))) by (apply aset_keys_nodup; exact HD).
  destruct (Z.ltb_spec (p_next_clean p) now) as [Hc|Hc]; unfold pinv;
    cbn [p_timeout p_tab p_next_clean].
  - split; [lia|]. split; [lia|]. split.
    + apply NoDup_map_filter. exact HD'.
    + unfold pins_clean. apply Forall_forall. intros kv Hkv.
      apply filter_In in Hkv. destruct Hkv as [_ Hkv]. lia.
  - split; [lia|]. split; [lia|]. split; [exact HD'|].
    apply (Forall_aset (fun e0 => p_next_clean p - p_timeout p <= pin_expire e0)); [exact HF|].
    unfold ent. cbn [pin_expire]. lia.
Qed.

(* deleting a key: GetBackend on an expired entry, and RemoveBackend *)
Lemma pinv_adel now k p : pinv now p ->
  pinv now {| p_timeout := p_timeout p; p_tab := adel k (p_tab p); p_next_clean := p_next_clean p |}.
Proof.
  intros (HT & HN & HD & HF). unfold pinv. cbn [p_timeout p_tab p_next_clean]. rewrite adel_filter.
  split; [exact HT|]. split; [exact HN|]. split; [apply NoDup_map_filter; exact HD|].
  apply Forall_filter. exact HF.
Qed.

Lemma pinv_get now k p : pinv now p -> pinv now (fst (pins_get now k p)).
Proof.
  intros HI. unfold pins_get. destruct (alookup k (p_tab p)) as [e|]; [|exact HI].
  destruct (Z.ltb now (pin_expire e)); [exact HI|apply pinv_adel; exact HI].
Qed.

Lemma pinv_mono now now' p : now <= now' -> pinv now p -> pinv now' p.
Proof.
  intros Hle (HT & HN & HD & HF). unfold pinv.
  split; [lia|]. split; [lia|]. split; assumption.
Qed.

Lemma add_timeout now k b e p : p_timeout (pins_add now k b e p) = p_timeout p.
Proof. unfold pins_add. destruct (Z.ltb (p_next_clean p) now); reflexivity. Qed.

Lemma step_timeout now p o : p_timeout (snd (fst (pins_step (now, p) o))) = p_timeout p.
Proof.
  destruct o as [k b e|k|k|dt];
    [cbn [pins_step fst snd]|rewrite pins_step_get; cbn [fst snd]|reflexivity|reflexivity].
  - apply add_timeout.
  - unfold pins_get. destruct (alookup k (p_tab p)) as [e|]; [|reflexivity].
    destruct (Z.ltb now (pin_expire e)); reflexivity.
Qed.

(* the invariant together with "the configured timeout is timeout_s seconds" *)
Definition pinvT (ts now : Z) (p : pins) : Prop := p_timeout p = c15_ns ts /\ pinv now p.

Lemma pinvT_new ts : 0 <= ts <= c15_max_seconds -> pinvT ts 0 (pins_new ts 0).
Proof.
  intros H. pose proof (new_timeout ts 0 H) as HT. pose proof (ns_small ts H) as Hs.
  split; [exact HT|]. unfold pinv. rewrite HT.
  unfold pins_new in *. cbn [p_timeout p_next_clean p_tab map] in *. rewrite HT.
  split; [lia|]. split; [lia|]. split; constructor.
Qed.

Lemma pinvT_lifetime ts now p k b e :
  pinvT ts now p -> pin_op_ok (PAdd k b e) = true ->
  pins_lifetime p e = c15_ns (Z.max ts e) /\ p_timeout p <= pins_lifetime p e.
Proof.
  intros [HT _] Hok. apply add_ok in Hok.
  rewrite (lifetime_domain ts p e Hok HT), HT. split; [reflexivity|apply C15_lifetime_ge].
Qed.

Lemma pinvT_step ts now p o :
  pin_op_ok o = true -> pinvT ts now p ->
  pinvT ts (fst (fst (pins_step (now, p) o))) (snd (fst (pins_step (now, p) o))).
Proof.
  intros Hok HP. split; [rewrite step_timeout; apply HP|].
  destruct o as [k b e|k|k|dt]; [| rewrite pins_step_get| |]; cbn [pins_step fst snd].
  - apply pinv_add; [apply HP|]. apply (pinvT_lifetime ts now p k b e HP Hok).
  - apply pinv_get, HP.
  - apply pinv_adel, HP.
  - apply Z.leb_le in Hok. apply (pinv_mono now); [lia|apply HP].
Qed.

Definition swept (st : Z * pins) : Prop :=
  Forall (fun kv => fst st <= pin_expire (snd kv) + p_timeout (snd st)) (p_tab (snd st)).

(* right after an add the next sweep lies ahead, so by pinv nothing older than one timeout is left *)
Lemma swept_add now k b e p :
  pinv now p -> p_timeout p <= pins_lifetime p e -> swept (now, pins_add now k b e p).
Proof.
  intros HI HL. pose proof (pinv_add now k b e p HI HL) as (HT & _ & _ & HF).
  assert (HC : now <= p_next_clean (pins_add now k b e p)).
  { destruct HI as (HT0 & _). unfold pins_add.
    destruct (Z.ltb_spec (p_next_clean p) now); cbn [p_next_clean]; lia. }
  unfold swept. cbn [fst snd]. revert HF. apply Forall_impl. intros kv H. lia.
Qed.

(* k's binding in the judge's specification state against k's entry in the model table: the
   entry is the binding (same backend, expiring at created + lifetime), or the binding has run
   out and the entry is gone (swept, or dropped by a look-up) *)
Definition rel1 (now : Z) (sb : option c15_binding) (me : option pin) : Prop :=
  match sb with
  | None => me = None
  | Some bd =>
      me = Some {| pin_backend := cb_backend bd;
                   pin_expire := cb_created bd + cb_lifetime bd |} \/
      (me = None /\ cb_created bd + cb_lifetime bd <= now)
  end.

Definition rel (now : Z) (p : pins) (bs : c15_bindings) : Prop :=
  forall k, rel1 now (alookup k bs) (alookup k (p_tab p)).

Definition INV (ts now : Z) (p : pins) (bs : c15_bindings) : Prop :=
  0 <= ts <= c15_max_seconds /\ pinvT ts now p /\ rel now p bs.

Lemma rel1_mono now now' sb me : now <= now' -> rel1 now sb me -> rel1 now' sb me.
Proof.
  intros Hle. destruct sb as [bd|]; cbn [rel1]; [|tauto].
  intros [H|[H1 H2]]; [left; exact H|right; split; [exact H1|lia]].
Qed.

Lemma rel1_expired now sb e : rel1 now sb (Some e) -> pin_expire e <= now -> rel1 now sb None.
Proof.
  destruct sb as [bd|]; cbn [rel1]; [|discriminate].
  intros [H|[H _]] Hx; [|discriminate]. injection H as ->. right. split; [reflexivity|exact Hx].
Qed.

Lemma rel1_clean now sb me : rel1 now sb me ->
  rel1 now sb (match me with
               | Some e => if Z.ltb (pin_expire e) now then None else Some e
               | None => None end).
Proof.
  intros H. destruct me as [e|]; [|exact H].
  destruct (Z.ltb_spec (pin_expire e) now); [apply (rel1_expired now sb e H); lia|exact H].
Qed.

Lemma INV_init ts : 0 <= ts <= c15_max_seconds -> INV ts 0 (pins_new ts 0) [].
Proof.
  intros Hts. split; [exact Hts|]. split; [apply pinvT_new; exact Hts|].
  intros k. reflexivity.
Qed.

Lemma INV_step ts now p bs o : INV ts now p bs -> pin_op_ok o = true ->
  let st1 := fst (pins_step (now, p) o) in
  let sp1 := c15_next ts (now, bs) o in
  fst sp1 = fst st1 /\ INV ts (fst st1) (snd st1) (snd sp1).
Proof.
  intros (Hts & HP & HR) Hok. cbv zeta.
  pose proof (pinvT_step ts now p o Hok HP) as HP1.
  assert (HND : NoDup (map fst (p_tab p))) by apply HP.
  destruct o as [k b e|k|k|dt]; [| rewrite pins_step_get in *| |];
    cbn [pins_step c15_next fst snd] in *.
  - split; [reflexivity|]. split; [exact Hts|]. split; [exact HP1|].
    destruct (pinvT_lifetime ts now p k b e HP Hok) as [HL _]. intros k0.
    assert (R' : rel1 now (alookup k0 (aset k {| cb_backend := b; cb_created := now;
                                                 cb_lifetime := c15_ns (Z.max ts e) |} bs))
                          (alookup k0 (aset k {| pin_backend := b; pin_expire := now + pins_lifetime p e |}
                                            (p_tab p)))).
    { rewrite !alookup_aset. destruct (beq k0 k); [left; rewrite HL; reflexivity|apply HR]. }
    unfold pins_add. destruct (Z.ltb (p_next_clean p) now); cbn [p_tab]; [|exact R'].
    rewrite alookup_clean by (apply aset_keys_nodup; exact HND). apply rel1_clean. exact R'.
  - split; [reflexivity|]. split; [exact Hts|]. split; [exact HP1|].
    unfold pins_get. destruct (alookup k (p_tab p)) as [e1|] eqn:E1; [|exact HR].
    destruct (Z.ltb_spec now (pin_expire e1)) as [Hx|Hx]; [exact HR|].
    intros k0. cbn [fst p_tab]. rewrite alookup_adel. destruct (beq_spec k0 k) as [->|_]; [|apply HR].
    apply (rel1_expired now _ e1); [rewrite <- E1; apply HR|exact Hx].
  - split; [reflexivity|]. split; [exact Hts|]. split; [exact HP1|].
    intros k0. cbn [pins_remove p_tab]. rewrite !alookup_adel. destruct (beq k0 k); [reflexivity|apply HR].
  - apply Z.leb_le in Hok. split; [lia|]. split; [exact Hts|]. split; [exact HP1|].
    intros k0. apply (rel1_mono now); [lia|apply HR].
Qed.

Lemma INV_after ts ops : pins_domain ts ops = true ->
  fst (c15_after ts ops) = fst (after ts ops) /\
  INV ts (fst (after ts ops)) (snd (after ts ops)) (snd (c15_after ts ops)).
Proof.
  intros HD. apply domain_split in HD. destruct HD as [Hts Hok].
  rewrite after_exec. unfold c15_after, pins_exec.
  apply (fold_left_sim (fun st sp => fst sp = fst st /\ INV ts (fst st) (snd st) (snd sp))
                       (fun _ l => forallb pin_op_ok l = true)); [|split; [reflexivity|apply INV_init; exact Hts]|exact Hok].
  intros [now p] [t bs] o l [E HI] Hl. cbn [fst snd] in E, HI. subst t.
  cbn [forallb] in Hl. apply andb_true_iff in Hl. split; [apply INV_step; [exact HI|apply Hl]|apply Hl].
Qed.

(* what the model answers is what C15 prescribes *)
Lemma get_expected now k p bs : rel now p bs -> snd (pins_get now k p) = c15_expected now k bs.
Proof.
  intros HR. specialize (HR k). unfold c15_expected, pins_get.
  destruct (alookup k bs) as [bd|]; cbn [rel1] in HR; [destruct HR as [HR|[HR Hx]]|]; rewrite HR;
    cbn [pin_expire pin_backend snd].
  - destruct (Z.ltb now (cb_created bd + cb_lifetime bd)); reflexivity.
  - destruct (Z.ltb_spec now (cb_created bd + cb_lifetime bd)); [lia|reflexivity].
  - reflexivity.
Qed.

(* sizes: the table never holds more pins than the judge counts *)
Lemma size_le_filter f now p bs : NoDup (map fst (p_tab p)) -> rel now p bs ->
  (forall k bd, In (k, {| pin_backend := cb_backend bd;
                          pin_expire := cb_created bd + cb_lifetime bd |}) (p_tab p) ->
                f (k, bd) = true) ->
  (List.length (p_tab p) <= List.length (filter f bs))%nat.
Proof.
  intros HND HR Hf.
  rewrite <- (map_length fst (p_tab p)), <- (map_length fst (filter f bs)).
  apply NoDup_incl_length; [exact HND|].
  intros k Hk. apply in_map_iff in Hk. destruct Hk as [[k' ent] [E Hin]]. cbn [fst] in E. subst k'.
  pose proof (in_alookup _ _ _ HND Hin) as HS.
  specialize (HR k). rewrite HS in HR.
  destruct (alookup k bs) as [bd|] eqn:Eb; cbn [rel1] in HR; [|discriminate].
  destruct HR as [HR|[HR _]]; [|discriminate]. injection HR as ->.
  change k with (fst (k, bd)). apply in_map. apply filter_In. split.
  - apply alookup_in. exact Eb.
  - apply Hf. exact Hin.
Qed.

Lemma size_le now p bs : NoDup (map fst (p_tab p)) -> rel now p bs ->
  (List.length (p_tab p) <= List.length bs)%nat.
Proof.
  intros HND HR. rewrite <- (filter_all bs) at 1.
  apply (size_le_filter (fun _ => true) now); [exact HND|exact HR|reflexivity].
Qed.

Lemma size_le_recent ts t p bs : NoDup (map fst (p_tab p)) -> rel t p bs -> p_timeout p = c15_ns ts ->
  swept (t, p) -> (List.length (p_tab p) <= List.length (filter (c15_recent ts t) bs))%nat.
Proof.
  intros HND HR HT HS. apply (size_le_filter _ t); [exact HND|exact HR|].
  intros k bd Hin. unfold swept in HS. cbn [fst snd] in HS.
  pose proof (proj1 (Forall_forall _ _) HS _ Hin) as H. cbn [snd pin_expire] in H.
  unfold c15_recent. cbn [snd]. rewrite HT in H. apply Z.leb_le. lia.
Qed.

Lemma opt_eqb_refl x : c15_opt_eqb x x = true.
Proof. destruct x as [b|]; cbn; [apply beq_refl|reflexivity]. Qed.

Lemma swept_step ts now p bs k b e : INV ts now p bs -> pin_op_ok (PAdd k b e) = true ->
  swept (fst (pins_step (now, p) (PAdd k b e))).
Proof.
  intros (_ & HP & _) Hok. cbn [pins_step fst].
  apply swept_add; [apply HP|apply (pinvT_lifetime ts now p k b e HP Hok)].
Qed.

(* one step of the model is accepted by one step of the judge *)
Lemma step_judged ts now p bs o : INV ts now p bs -> pin_op_ok o = true ->
  c15_out_ok ts (now, bs) o
    (snd (pins_step (now, p) o), List.length (p_tab (snd (fst (pins_step (now, p) o))))) = true.
Proof.
  intros HI Hok. pose proof (INV_step ts now p bs o HI Hok) as [_ (_ & [HT1 HP1] & HR1)].
  assert (HND1 : NoDup (map fst (p_tab (snd (fst (pins_step (now, p) o)))))) by apply HP1.
  unfold c15_out_ok. apply andb_true_iff. split; [apply Nat.leb_le, (size_le _ _ _ HND1 HR1)|].
  destruct o as [k b e|k|k|dt]; try reflexivity.
  - cbn [c15_out_eqb andb]. apply Nat.leb_le.
    apply size_le_recent; [exact HND1|exact HR1|exact HT1|exact (swept_step ts now p bs k b e HI Hok)].
  - rewrite pins_step_get. cbn [snd c15_out_eqb].
    rewrite (get_expected now k p bs) by apply HI. apply opt_eqb_refl.
Qed.

Lemma judged_gen ts ops : forall now p bs, INV ts now p bs -> forallb pin_op_ok ops = true ->
  c15_check ts (now, bs) ops (snd (pins_run (now, p) ops)) = true.
Proof.
  induction ops as [|o r IH]; intros now p bs HI Hok; [reflexivity|].
  cbn [forallb] in Hok. apply andb_true_iff in Hok. destruct Hok as [Ho Hr].
  rewrite pins_run_cons. cbn [snd c15_check].
  rewrite (step_judged ts now p bs o HI Ho). cbn [andb].
  destruct (INV_step ts now p bs o HI Ho) as [H1 H2].
  destruct (fst (pins_step (now, p) o)) as [now1 p1].
  destruct (c15_next ts (now, bs) o) as [t1 bs1]. cbn [fst snd] in H1, H2. subst t1.
  apply IH; assumption.
Qed.

(* Every observation the model produces on a history of the domain is accepted by the judge. *)
Theorem C15_judged : forall timeout_s ops, pins_domain timeout_s ops = true ->
  judge_C15 timeout_s ops (snd (pins_run (0, pins_new timeout_s 0) ops)) = true.
Proof.
  intros ts ops HD. apply domain_split in HD. destruct HD as [Hts Hok].
  unfold judge_C15. apply judged_gen; [apply INV_init; exact Hts|exact Hok].
Qed.

(* Right after any add, in any history of the domain, every pin still in the table expired at
   most one dialog timeout ago: pin_expire + timeout >= now. *)
Theorem C15_swept ts pre k b e :
  pins_domain ts (pre ++ [PAdd k b e]) = true ->
  swept (after ts (pre ++ [PAdd k b e])).
Proof.
  intros HD. apply domain_snoc in HD. destruct HD as [Dpre Hok].
  destruct (INV_after ts pre Dpre) as [_ HI]. rewrite after_snoc.
  destruct (after ts pre) as [now p]. exact (swept_step ts now p _ k b e HI Hok).
Qed.

(* The table never holds more pins than there are keys bound and not terminated ... *)
Theorem C15_size_le ts ops : pins_domain ts ops = true ->
  (List.length (p_tab (snd (after ts ops))) <= List.length (snd (c15_after ts ops)))%nat.
Proof.
  intros HD. destruct (INV_after ts ops HD) as [_ (_ & [_ HP] & HR)].
  apply (size_le (fst (after ts ops))); [apply HP|exact HR].
Qed.

(* ... and right after an add (at time t) no more than there are keys whose current binding
   had not been expired for more than one dialog timeout: created + lifetime + timeout >= t.
   Bindings whose lifetime ended earlier have been purged, whatever their Expires was. *)
Theorem C15_bounded ts pre k b e :
  let ops := pre ++ [PAdd k b e] in
  pins_domain ts ops = true ->
  let t := fst (after ts ops) in
  fst (c15_after ts ops) = t /\
  (List.length (p_tab (snd (after ts ops))) <=
   List.length (filter (c15_recent ts t) (snd (c15_after ts ops))))%nat.
Proof.
  cbv zeta. intros HD. destruct (INV_after ts _ HD) as [Ht (_ & [HT HP] & HR)].
  split; [exact Ht|].
  pose proof (C15_swept ts pre k b e HD) as HS.
  destruct (after ts (pre ++ [PAdd k b e])) as [t p]. cbn [fst snd] in *.
  apply size_le_recent; [apply HP|exact HR|exact HT|exact HS].
Qed.

(* steps that (re)bind or terminate key k *)
Definition touches (k : bytes) (o : pin_op) : bool :=
  match o with PAdd k' _ _ | PRemove k' => beq k k' | PGet _ | PAdvance _ => false end.
Definition adds (k : bytes) (o : pin_op) : bool :=
  match o with PAdd k' _ _ => beq k k' | _ => false end.

(* On the specification side nothing is ever swept: the clock advances by what has elapsed,
   and the binding of a key that is not touched stays what it was. *)
Lemma spec_time ts ops : forall sp, fst (fold_left (c15_next ts) ops sp) = fst sp + elapsed ops.
Proof.
  induction ops as [|o r IH]; intros [t bs]; cbn [fold_left elapsed fold_right fst]; [lia|].
  rewrite IH. fold (elapsed r). destruct o; cbn [c15_next fst]; lia.
Qed.

Lemma spec_untouched ts k ops sp : existsb (touches k) ops = false ->
  alookup k (snd (fold_left (c15_next ts) ops sp)) = alookup k (snd sp).
Proof.
  intros Hun. apply (fold_left_inv (fun sp' => alookup k (snd sp') = alookup k (snd sp))); [|reflexivity].
  intros [t bs] o Ho <-.
  assert (Ht : touches k o = false).
  { destruct (touches k o) eqn:E; [|reflexivity].
    rewrite (proj2 (existsb_exists _ _) (ex_intro _ o (conj Ho E))) in Hun. discriminate. }
  destruct o as [k' b e|k'|k'|dt]; cbn [c15_next snd touches] in *;
    [rewrite alookup_aset, Ht|reflexivity|rewrite alookup_adel, Ht|reflexivity]; reflexivity.
Qed.

(* the clock of the model after a history of the domain *)
Theorem C15_clock ts ops : pins_domain ts ops = true -> fst (after ts ops) = elapsed ops.
Proof.
  intros HD. rewrite <- (proj1 (INV_after ts ops HD)). unfold c15_after. apply spec_time.
Qed.

(* At the end of every history of the domain, a look-up of any key answers what C15 prescribes
   for the judge's specification state. *)
Theorem C15_answers ts ops k : pins_domain ts ops = true ->
  snd (pins_get (fst (after ts ops)) k (snd (after ts ops))) =
  c15_expected (fst (c15_after ts ops)) k (snd (c15_after ts ops)).
Proof.
  intros HD. destruct (INV_after ts ops HD) as [Ht (_ & _ & HR)]. rewrite Ht. apply get_expected, HR.
Qed.

(* After "pre; add k b e; mid" with mid neither re-adding nor terminating k, a look-up of k at
   the end answers by the binding the add made at t0: b while less than max(timeout, e) seconds
   have elapsed since, nothing from then on. *)
Lemma pinned_answer ts pre k b e mid :
  pins_domain ts (pre ++ PAdd k b e :: mid) = true ->
  existsb (touches k) mid = false ->
  let st := after ts (pre ++ PAdd k b e :: mid) in
  snd (pins_get (fst st) k (snd st)) =
  if Z.ltb (elapsed mid) (c15_ns (Z.max ts e)) then Some b else None.
Proof.
  intros HD Hun. cbv zeta. rewrite (C15_answers ts _ k HD). unfold c15_expected, c15_after.
  rewrite fold_left_app. cbn [fold_left].
  destruct (fold_left (c15_next ts) pre (0, [])) as [t0 bs0]. cbn [c15_next].
  rewrite spec_time, (spec_untouched ts k mid _ Hun). cbn [fst snd].
  rewrite alookup_aset_same. cbn [cb_created cb_lifetime cb_backend].
  destruct (Z.ltb_spec (elapsed mid) (c15_ns (Z.max ts e))), (Z.ltb_spec (t0 + elapsed mid) (t0 + c15_ns (Z.max ts e)));
    try reflexivity; lia.
Qed.

(* A pin made at time t0 with lifetime L = max(timeout, Expires) seconds is honoured by every
   look-up made while less than L has elapsed, whatever else happened in between (other keys
   added, looked up, terminated, sweeps run), provided k itself was not re-added or terminated. *)
Theorem C15_honoured ts pre k b e mid :
  pins_domain ts (pre ++ PAdd k b e :: mid) = true ->
  existsb (touches k) mid = false ->
  elapsed mid < c15_ns (Z.max ts e) ->
  let st := after ts (pre ++ PAdd k b e :: mid) in
  snd (pins_get (fst st) k (snd st)) = Some b.
Proof.
  intros HD Hun Hlt. cbv zeta. rewrite (pinned_answer ts pre k b e mid HD Hun).
  apply Z.ltb_lt in Hlt. rewrite Hlt. reflexivity.
Qed.

(* ... and by no look-up made once L has elapsed. *)
Theorem C15_never_after ts pre k b e mid :
  pins_domain ts (pre ++ PAdd k b e :: mid) = true ->
  existsb (touches k) mid = false ->
  c15_ns (Z.max ts e) <= elapsed mid ->
  let st := after ts (pre ++ PAdd k b e :: mid) in
  snd (pins_get (fst st) k (snd st)) = None.
Proof.
  intros HD Hun Hge. cbv zeta. rewrite (pinned_answer ts pre k b e mid HD Hun).
  apply Z.ltb_ge in Hge. rewrite Hge. reflexivity.
Qed.

(* an absent key stays absent until it is added (model side: no domain hypothesis) *)
Lemma step_none k now p o : adds k o = false -> alookup k (p_tab p) = None ->
  alookup k (p_tab (snd (fst (pins_step (now, p) o)))) = None.
Proof.
  intros Ha HN. destruct o as [k1 b e|k1|k1|dt]; [| rewrite pins_step_get| |];
    cbn [pins_step adds fst snd] in *.
  - assert (HN' : forall v, alookup k (aset k1 v (p_tab p)) = None) by (intros v; rewrite alookup_aset, Ha; exact HN).
    unfold pins_add. destruct (Z.ltb (p_next_clean p) now); cbn [p_tab]; [apply alookup_clean_none|]; apply HN'.
  - unfold pins_get. destruct (alookup k1 (p_tab p)) as [e1|]; [|exact HN].
    destruct (Z.ltb now (pin_expire e1)); cbn [fst p_tab]; [exact HN|].
    rewrite alookup_adel, HN. destruct (beq k k1); reflexivity.
  - cbn [pins_remove p_tab]. rewrite alookup_adel, HN. destruct (beq k k1); reflexivity.
  - exact HN.
Qed.

(* After a terminate, the key is not honoured until it is added again (any history, no domain
   hypothesis needed). *)
Theorem C15_removed ts pre k mid :
  existsb (adds k) mid = false ->
  let st := after ts (pre ++ PRemove k :: mid) in
  snd (pins_get (fst st) k (snd st)) = None.
Proof.
  intros Hun. cbv zeta.
  assert (HN : alookup k (p_tab (snd (after ts (pre ++ PRemove k :: mid)))) = None).
  { rewrite after_exec, exec_app. destruct (pins_exec (0, pins_new ts 0) pre) as [now p].
    unfold pins_exec. cbn [fold_left].
    apply (fold_left_inv (fun st => alookup k (p_tab (snd st)) = None)).
    - intros [now1 p1] o Ho HN. apply step_none; [|exact HN].
      destruct (adds k o) eqn:E; [|reflexivity].
      rewrite (proj2 (existsb_exists _ _) (ex_intro _ o (conj Ho E))) in Hun. discriminate.
    - cbn [pins_step fst snd pins_remove p_tab]. apply alookup_adel_same. }
  unfold pins_get. rewrite HN. reflexivity.
Qed.

(* The pre-fix AddBackend (pins_add_legacy: next sweep = expiry of the entry just added).
   One add carrying a huge Expires pushes the next sweep decades away; pins made afterwards
   are never purged. *)
Definition legacy_step (st : Z * pins) (o : pin_op) : (Z * pins) * pin_out :=
  match o with
  | PAdd k b e => ((fst st, pins_add_legacy (fst st) k b e (snd st)), PNone)
  | _ => pins_step st o
  end.

Fixpoint legacy_run (st : Z * pins) (ops : list pin_op) : (Z * pins) * list (pin_out * nat) :=
  match ops with
  | [] => (st, [])
  | o :: r => let '(st1, x) := legacy_step st o in
              let '(st2, xs) := legacy_run st1 r in
              (st2, (x, List.length (p_tab (snd st1))) :: xs)
  end.

Definition legacy_after (ts : Z) (ops : list pin_op) : Z * pins :=
  fst (legacy_run (0, pins_new ts 0) ops).

Definition swept_b (st : Z * pins) : bool :=
  forallb (fun kv => Z.leb (fst st) (pin_expire (snd kv) + p_timeout (snd st))) (p_tab (snd st)).

Lemma swept_b_spec st : swept st <-> swept_b st = true.
Proof.
  unfold swept, swept_b. rewrite forallb_forall, Forall_forall.
  split; intros H x Hx; apply Z.leb_le, H, Hx.
Qed.

(* timeout 10 s.  t = 11 s: dialog "a" pinned with Expires 2^31-1, dialog "b" pinned (lifetime
   10 s, over at t = 21 s).  100 s of silence.  t = 111 s: dialog "c" pinned. *)
Definition legacy_pre : list pin_op :=
  [ PAdvance (c15_ns 11); PAdd (s2b "a") (s2b "B1") 2147483647; PAdd (s2b "b") (s2b "B2") 0;
    PAdvance (c15_ns 100) ].

(* With the legacy code "b", expired for 90 s = nine timeouts, is still in the table right
   after the add: the swept property (C15_swept) fails, and the judge rejects the run. *)
Theorem C15_legacy_refuted :
  exists ts pre k b e,
    pins_domain ts (pre ++ [PAdd k b e]) = true /\
    ~ swept (legacy_after ts (pre ++ [PAdd k b e])) /\
    judge_C15 ts (pre ++ [PAdd k b e])
              (snd (legacy_run (0, pins_new ts 0) (pre ++ [PAdd k b e]))) = false.
Proof.
  exists 10, legacy_pre, (s2b "c"), (s2b "B3"), 0.
  split; [vm_compute; reflexivity|]. split.
  - intros H. apply swept_b_spec in H. vm_compute in H. discriminate.
  - vm_compute. reflexivity.
Qed.

(* the same history under the fixed code: swept (instance of C15_swept), "b" is gone *)
Example C15_fixed_same_history :
  swept (after 10 (legacy_pre ++ [PAdd (s2b "c") (s2b "B3") 0])) /\
  map fst (p_tab (snd (after 10 (legacy_pre ++ [PAdd (s2b "c") (s2b "B3") 0]))))
    = [s2b "a"; s2b "c"] /\
  map fst (p_tab (snd (legacy_after 10 (legacy_pre ++ [PAdd (s2b "c") (s2b "B3") 0]))))
    = [s2b "a"; s2b "b"; s2b "c"].
Proof.
  split; [apply C15_swept; vm_compute; reflexivity|].
  split; vm_compute; reflexivity.
Qed.

(* timeout 30 s; dialog "d1" pinned to B1 by a response with Expires 3600; meanwhile other
   dialogs come and go and a sweep runs (the add of "y" at t = 100 s > next_clean = 30 s). *)
Definition ex_pre : list pin_op := [ PAdd (s2b "x") (s2b "B0") 0; PAdvance (c15_ns 5) ].
Definition ex_mid (last : Z) : list pin_op :=
  [ PAdvance (c15_ns 95); PAdd (s2b "y") (s2b "B2") 0; PGet (s2b "d1"); PRemove (s2b "x");
    PAdvance last ].

Example C15_honoured_example :
  let ops := ex_pre ++ PAdd (s2b "d1") (s2b "B1") 3600 :: ex_mid (c15_ns 3505 - 1) in
  pins_domain 30 ops = true /\
  existsb (touches (s2b "d1")) (ex_mid (c15_ns 3505 - 1)) = false /\
  elapsed (ex_mid (c15_ns 3505 - 1)) = c15_ns 3600 - 1 /\
  snd (pins_get (fst (after 30 ops)) (s2b "d1") (snd (after 30 ops))) = Some (s2b "B1").
Proof.
  cbv zeta.
  assert (D : pins_domain 30 (ex_pre ++ PAdd (s2b "d1") (s2b "B1") 3600 :: ex_mid (c15_ns 3505 - 1)) = true)
    by (vm_compute; reflexivity).
  assert (T : existsb (touches (s2b "d1")) (ex_mid (c15_ns 3505 - 1)) = false) by (vm_compute; reflexivity).
  assert (E : elapsed (ex_mid (c15_ns 3505 - 1)) = c15_ns 3600 - 1) by (vm_compute; reflexivity).
  split; [exact D|]. split; [exact T|]. split; [exact E|].
  apply C15_honoured; [exact D|exact T|rewrite E; reflexivity].
Qed.

Example C15_never_after_example :
  let ops := ex_pre ++ PAdd (s2b "d1") (s2b "B1") 3600 :: ex_mid (c15_ns 3505) in
  pins_domain 30 ops = true /\
  existsb (touches (s2b "d1")) (ex_mid (c15_ns 3505)) = false /\
  elapsed (ex_mid (c15_ns 3505)) = c15_ns 3600 /\
  snd (pins_get (fst (after 30 ops)) (s2b "d1") (snd (after 30 ops))) = None.
Proof.
  cbv zeta.
  assert (D : pins_domain 30 (ex_pre ++ PAdd (s2b "d1") (s2b "B1") 3600 :: ex_mid (c15_ns 3505)) = true)
    by (vm_compute; reflexivity).
  assert (T : existsb (touches (s2b "d1")) (ex_mid (c15_ns 3505)) = false) by (vm_compute; reflexivity).
  assert (E : elapsed (ex_mid (c15_ns 3505)) = c15_ns 3600) by (vm_compute; reflexivity).
  split; [exact D|]. split; [exact T|]. split; [exact E|].
  apply C15_never_after; [exact D|exact T|rewrite E; discriminate].
Qed.

(* with Expires below the timeout the timeout governs: honoured at 30 s - 1 ns, not at 30 s *)
Example C15_timeout_governs :
  snd (pins_run (0, pins_new 30 0)
         [PAdd (s2b "d") (s2b "B") 5; PAdvance (c15_ns 30 - 1); PGet (s2b "d");
          PAdvance 1; PGet (s2b "d"); PGet (s2b "d")])
  = [(PNone, 1%nat); (PNone, 1%nat); (PGot (Some (s2b "B")), 1%nat);
     (PNone, 1%nat); (PGot None, 0%nat); (PGot None, 0%nat)].
Proof. vm_compute. reflexivity. Qed.

Example C15_removed_example :
  let ops := [PAdd (s2b "d") (s2b "B") 100] ++ PRemove (s2b "d")
             :: [PAdvance 5; PAdd (s2b "other") (s2b "B") 0] in
  existsb (adds (s2b "d")) [PAdvance 5; PAdd (s2b "other") (s2b "B") 0] = false /\
  snd (pins_get (fst (after 30 ops)) (s2b "d") (snd (after 30 ops))) = None.
Proof.
  cbv zeta.
  assert (A : existsb (adds (s2b "d")) [PAdvance 5; PAdd (s2b "other") (s2b "B") 0] = false)
    by (vm_compute; reflexivity).
  split; [exact A|apply C15_removed; exact A].
Qed.

(* C15_swept / C15_bounded: 3 short-lived pins, a long pause, one more add: only the long-lived
   pin and the new one remain, though three further keys are still "bound" in the spec state *)
Definition ex_burst : list pin_op :=
  [ PAdd (s2b "long") (s2b "B") 2147483647;
    PAdd (s2b "s1") (s2b "B") 0; PAdd (s2b "s2") (s2b "B") 40; PAdd (s2b "s3") (s2b "B") 0;
    PAdvance (c15_ns 71) ].

Example C15_swept_example :
  let ops := ex_burst ++ [PAdd (s2b "new") (s2b "B") 0] in
  pins_domain 30 ops = true /\
  List.length (snd (c15_after 30 ops)) = 5%nat /\
  List.length (filter (c15_recent 30 (fst (after 30 ops))) (snd (c15_after 30 ops))) = 2%nat /\
  map fst (p_tab (snd (after 30 ops))) = [s2b "long"; s2b "new"].
Proof. cbv zeta. repeat apply conj; vm_compute; reflexivity. Qed.

(* C15_judged, and the judge is not trivially true: it rejects a pin honoured at its expiry
   instant, a pin not honoured one nanosecond earlier, an answer after a terminate, a wrong
   backend, a table that kept a long-expired pin across an add, and a truncated observation;
   for an expired pin that was looked up it accepts both "forgotten" and "still counted". *)
Definition ex_ops : list pin_op :=
  [ PAdd (s2b "d") (s2b "B") 0; PAdvance (c15_ns 10 - 1); PGet (s2b "d"); PAdvance 1;
    PGet (s2b "d"); PAdd (s2b "d") (s2b "C") 20; PRemove (s2b "d"); PGet (s2b "d");
    PAdd (s2b "e") (s2b "B") 0; PAdvance (c15_ns 21); PAdd (s2b "f") (s2b "B") 0 ].
Definition ex_obs (r3 r5 r8 : option bytes) (n5 n11 : nat) : list (pin_out * nat) :=
  [ (PNone, 1%nat); (PNone, 1%nat); (PGot r3, 1%nat); (PNone, 1%nat); (PGot r5, n5);
    (PNone, 1%nat); (PNone, 0%nat); (PGot r8, 0%nat); (PNone, 1%nat); (PNone, 1%nat);
    (PNone, n11) ].

Example C15_judged_example :
  pins_domain 10 ex_ops = true /\
  snd (pins_run (0, pins_new 10 0) ex_ops) = ex_obs (Some (s2b "B")) None None 0 1 /\
  judge_C15 10 ex_ops (ex_obs (Some (s2b "B")) None None 0 1) = true /\
  judge_C15 10 ex_ops (ex_obs (Some (s2b "B")) None None 1 1) = true /\   (* no lazy delete *)
  judge_C15 10 ex_ops (ex_obs (Some (s2b "B")) (Some (s2b "B")) None 1 1) = false /\
  judge_C15 10 ex_ops (ex_obs None None None 0 1) = false /\
  judge_C15 10 ex_ops (ex_obs (Some (s2b "C")) None None 0 1) = false /\
  judge_C15 10 ex_ops (ex_obs (Some (s2b "B")) None (Some (s2b "C")) 0 1) = false /\
  judge_C15 10 ex_ops (ex_obs (Some (s2b "B")) None None 0 2) = false /\
  judge_C15 10 ex_ops (removelast (ex_obs (Some (s2b "B")) None None 0 1)) = false.
Proof. repeat apply conj; vm_compute; reflexivity. Qed.

Print Assumptions C15_judged.
Print Assumptions C15_honoured.
Print Assumptions C15_never_after.
Print Assumptions C15_removed.
Print Assumptions C15_swept.
Print Assumptions C15_size_le.
Print Assumptions C15_bounded.
Print Assumptions C15_clock.
Print Assumptions C15_legacy_refuted.
Print Assumptions C15_judged_example.
