(* Pipeline.v — the shape of what the proxy does with one message and with one event, stated once
   for the property proofs: process_message as a chain of stages ending in HandleMessage
   ([reach], [dispatch], [respond]), what one send can append to the outputs ([send_shape]),
   the sends opened once ([tcp_client_send_inv], [failover_send_eq], [send_message_io] for
   connections and outputs, [send_message_rel] for the proxy object),
   tcp_messages and proxy_step as iterations of process_message, and the transport of an
   invariant from process_message to tcp_messages and proxy_step. *)
From Coq Require Import List Ascii String ZArith Bool Arith Lia.
From Model Require Import Bytes BytesLemmas Uri Hdr Message Msg Rx Glob StaticRoute RoundRobin Pins Proxy.
Import ListNotations.
Open Scope Z_scope.

(* Proxy.process_message is written as one function, as handleRawMessage is in the Go code (it is
   the function that is extracted and run against the proxy); the stages below are its parts under
   names of their own, so that a statement can speak of the message between two of them.  process_message_reach is the proof
   that chained together they are process_message. *)
Definition ctx_with (x : ctx) (l : learned) (p : pstate) : ctx :=
  {| x_learned := l; x_p := p; x_conns := x_conns x; x_world := x_world x; x_outs := x_outs x |}.

Definition stage_learn (peer : bytes) (from : stransport) (m0 : message) (x : ctx) : message * learned :=
  if (is_request m0 && negb (amem peer (ps_backends (x_p x))))%bool then
    let '(m', vs) := s_all_via_params m0 in
    (m', fold_left (fun l v => learn (v_host v) from l)
                   (match vs with Ok l => l | _ => [] end) (learn peer from (x_learned x)))
  else (m0, x_learned x).

Definition stage_stamp (peer : bytes) (port : Z) (rs : bool) (m1 : message) : message :=
  if (is_request m1 && rs)%bool then fst (s_set_received peer port m1) else m1.

(* host[1:len(host)-1] of a bracketed host *)
Definition unbracket (e : env) (host0 : bytes) : res bytes :=
  if has_prefix (s2b "[") host0
  then (if (fx_bracket_host (e_fx e) && negb (has_suffix (s2b "]") host0 && Nat.leb 2 (List.length host0)))%bool
        then Ok host0 else slice_chk host0 1 (List.length host0 - 1))
  else Ok host0.

(* connection [c] becomes the primary of the client transport for (tcp, host, port, transaction) *)
Definition register_conn (e : env) (c : nat) (host : bytes) (port : Z) (t : bytes) (p : pstate) : pstate :=
  let host_r := if fx_resolved_key (e_fx e)
                then match get_ip (e_cfg e) host with Some i => i | None => host end else host in
  let '(p1, rk) := get_transport (now_s e) (s2b "tcp") host_r port t p in
  match rk with
  | Ok key => set_primary key (PConn c (now_s e + 3600)) p1
  | _ => p1
  end.

(* a request that arrived on a connection: the connection is remembered for the responses *)
Definition stage_conn (e : env) (tcp : option nat) (m2 : message) (p : pstate) : message * res pstate :=
  match tcp with
  | Some c =>
      if is_request m2 then
        let '(m', hop) := mtry next_response_hop m2 in
        match hop with
        | Ok (Some (host0, port, _)) =>
            match unbracket e host0 with
            | Ok host =>
                let '(m'', tid) := mtry s_client_transaction m' in
                (m'', Ok match tid with Ok (Some t) => register_conn e c host port t p | _ => p end)
            | Err => (m', Err)
            | Panic => (m', Panic)
            end
        | _ => (m', Ok p)
        end
      else (m2, Ok p)
  | None => (m2, Ok p)
  end.

(* tryRemoveTopRoute: the proxy's own Route entry goes *)
Definition stage_route (e : env) (from : stransport) (m3 : message) : message :=
  fst (mtry (try_remove_top_route (e_cfg e) from) m3).

Definition stage_dialog (e : env) (peer : bytes) (port : Z) (p1 : pstate) (m4 : message) : message * pstate :=
  if is_response m4 then
    let '(m', r) := handle_dialog e peer port p1 m4 in
    (m', match r with Ok p' => p' | _ => p1 end)
  else (m4, p1).

(* the message and the context that reach HandleMessage *)
Definition reach (e : env) (peer : bytes) (port : Z) (from : stransport) (rs : bool) (tcp : option nat)
           (m0 : message) (x : ctx) : res (message * ctx) :=
  let '(m1, l1) := stage_learn peer from m0 x in
  let '(m3, rp) := stage_conn e tcp (stage_stamp peer port rs m1) (x_p x) in
  match rp with
  | Ok p1 => let '(m5, p2) := stage_dialog e peer port p1 (stage_route e from m3) in Ok (m5, ctx_with x l1 p2)
  | Err => Err
  | Panic => Panic
  end.

Lemma process_message_reach e peer port from rs tcp m0 x :
  process_message e peer port from rs tcp m0 x =
  match reach e peer port from rs tcp m0 x with
  | Ok (m5, x1) => Ok (fst (handle_message e from m5 x1))
  | Err => Err
  | Panic => Panic
  end.
Proof.
  unfold process_message, reach, stage_learn.
  destruct (if (is_request m0 && negb (amem peer (ps_backends (x_p x))))%bool then _ else _) as [m1 l1].
  cbv zeta. fold (stage_stamp peer port rs m1). generalize (stage_stamp peer port rs m1). intros m2.
  (* the tail is the same after every way through the connection stage *)
  assert (T : forall m3 p1,
    (let '(m5, p2) := if is_response (fst (mtry (try_remove_top_route (e_cfg e) from) m3))
                      then let '(m', r) := handle_dialog e peer port p1 (fst (mtry (try_remove_top_route (e_cfg e) from) m3)) in
                           (m', match r with Ok p' => p' | _ => p1 end)
                      else (fst (mtry (try_remove_top_route (e_cfg e) from) m3), p1) in
     Ok (fst (handle_message e from m5 (ctx_with x l1 p2)))) =
    match (let '(m5, p2) := stage_dialog e peer port p1 (stage_route e from m3) in Ok (m5, ctx_with x l1 p2)) with
    | Ok (m5, x1) => Ok (fst (handle_message e from m5 x1))
    | Err => Err
    | Panic => Panic
    end).
  { intros m3 p1. unfold stage_dialog, stage_route. destruct (is_response _); [|reflexivity].
    destruct (handle_dialog e peer port p1 _) as [m' r]. reflexivity. }
  unfold stage_conn. destruct tcp as [c|]; [|apply T].
  destruct (is_request m2); [|apply T].
  destruct (mtry next_response_hop m2) as [m' hop].
  destruct hop as [[[[host0 pt] tr]|]| |]; try apply T.
  fold (unbracket e host0). destruct (unbracket e host0) as [host| |]; try reflexivity.
  destruct (mtry s_client_transaction m') as [m'' tid].
  destruct tid as [[t|]| |]; try apply T.
  unfold register_conn. destruct (get_transport _ _ _ _ _ _) as [p1 rk]. destruct rk; apply T.
Qed.

Lemma stage_conn_cases e tcp m2 p :
  let m' := fst (mtry next_response_hop m2) in
  let m'' := fst (mtry s_client_transaction m') in
  stage_conn e tcp m2 p = (m2, Ok p) \/
  exists c, tcp = Some c /\ is_request m2 = true /\
    (stage_conn e tcp m2 p = (m', Ok p) \/ stage_conn e tcp m2 p = (m', Err) \/ stage_conn e tcp m2 p = (m', Panic) \/
     stage_conn e tcp m2 p = (m'', Ok p) \/
     exists host port t, stage_conn e tcp m2 p = (m'', Ok (register_conn e c host port t p))).
Proof.
  cbv zeta. unfold stage_conn. destruct tcp as [c|]; [|left; reflexivity].
  destruct (is_request m2); [|left; reflexivity]. right. exists c. split; [reflexivity|]. split; [reflexivity|].
  destruct (mtry next_response_hop m2) as [m' hop]. cbn [fst].
  destruct hop as [[[[host0 pt] tr]|]| |]; try (left; reflexivity).
  destruct (unbracket e host0) as [host| |]; [|right; left; reflexivity|right; right; left; reflexivity].
  destruct (mtry s_client_transaction m') as [m'' tid]. cbn [fst].
  destruct tid as [[t|]| |]; try (right; right; right; left; reflexivity).
  right. right. right. right. exists host, pt, t. reflexivity.
Qed.

(* the proxy object it hands on is the old one, or the old one with the connection registered *)
Lemma stage_conn_state e tcp m2 p p1 : snd (stage_conn e tcp m2 p) = Ok p1 ->
  p1 = p \/ exists c host port t, tcp = Some c /\ p1 = register_conn e c host port t p.
Proof.
  intros H. destruct (stage_conn_cases e tcp m2 p) as [E|(c & -> & _ & D)].
  - rewrite E in H. injection H as <-. left. reflexivity.
  - destruct D as [E|[E|[E|[E|(h & pt & t & E)]]]]; rewrite E in H; try discriminate H; injection H as <-.
    + left. reflexivity.
    + left. reflexivity.
    + right. exists c, h, pt, t. split; reflexivity.
Qed.

Lemma register_conn_cases e c host port t p :
  let host_r := if fx_resolved_key (e_fx e)
                then match get_ip (e_cfg e) host with Some i => i | None => host end else host in
  let g := get_transport (now_s e) (s2b "tcp") host_r port t p in
  register_conn e c host port t p = fst g \/
  exists key, snd g = Ok key /\ register_conn e c host port t p = set_primary key (PConn c (now_s e + 3600)) (fst g).
Proof.
  cbv zeta. unfold register_conn. destruct (get_transport _ _ _ _ _ _) as [p1 rk]. cbn [fst snd].
  destruct rk as [key| |]; [right; exists key; split; reflexivity|left; reflexivity|left; reflexivity].
Qed.

(* what looking up a tcp client transport and making a connection its primary keep, the
   connection stage keeps *)
Lemma stage_conn_inv (P : pstate -> Prop) e tcp m2 p p1 :
  (forall host port t, P (fst (get_transport (now_s e) (s2b "tcp") host port t p))) ->
  (forall host port t key c ex, snd (get_transport (now_s e) (s2b "tcp") host port t p) = Ok key ->
     P (set_primary key (PConn c ex) (fst (get_transport (now_s e) (s2b "tcp") host port t p)))) ->
  P p -> snd (stage_conn e tcp m2 p) = Ok p1 -> P p1.
Proof.
  intros G S Pp H. destruct (stage_conn_state _ _ _ _ _ H) as [->|(c & h & pt & t & _ & ->)]; [exact Pp|].
  destruct (register_conn_cases e c h pt t p) as [->|(key & GK & ->)]; [apply G|apply S, GK].
Qed.

(* what a preorder on messages that holds across the steps of a stage says of the stage *)
Section ReachRel.
  Variable R : message -> message -> Prop.
  Hypothesis R_refl : forall m, R m m.
  Hypothesis R_trans : forall m1 m2 m3, R m1 m2 -> R m2 m3 -> R m1 m3.

  Lemma stage_learn_rel peer from x : (forall m, R m (fst (s_all_via_params m))) ->
    forall m0, R m0 (fst (stage_learn peer from m0 x)).
  Proof.
    intros H m0. unfold stage_learn. destruct (_ && _)%bool; [|apply R_refl].
    specialize (H m0). destruct (s_all_via_params m0) as [m' vs]. exact H.
  Qed.
  Lemma stage_stamp_rel peer port rs : (forall m, R m (fst (s_set_received peer port m))) ->
    forall m1, R m1 (stage_stamp peer port rs m1).
  Proof. intros H m1. unfold stage_stamp. destruct (_ && _)%bool; [apply H|apply R_refl]. Qed.
  Lemma stage_conn_rel e tcp p :
    (forall m, R m (fst (mtry next_response_hop m))) -> (forall m, R m (fst (mtry s_client_transaction m))) ->
    forall m2, R m2 (fst (stage_conn e tcp m2 p)).
  Proof.
    intros H1 H2 m2. pose proof (H1 m2) as A. pose proof (H2 (fst (mtry next_response_hop m2))) as B.
    pose proof (R_trans _ _ _ A B) as C.
    destruct (stage_conn_cases e tcp m2 p) as [E|(c & _ & _ & [E|[E|[E|[E|(h & pt & t & E)]]]])];
      rewrite E; cbn [fst]; first [apply R_refl|exact A|exact C].
  Qed.
  Lemma stage_dialog_rel e peer port p1 : (forall m, R m (fst (handle_dialog e peer port p1 m))) ->
    forall m4, R m4 (fst (stage_dialog e peer port p1 m4)).
  Proof.
    intros H m4. unfold stage_dialog. destruct (is_response m4); [|apply R_refl].
    specialize (H m4). destruct (handle_dialog e peer port p1 m4) as [m' r]. exact H.
  Qed.

End ReachRel.

(* the context that reaches HandleMessage differs from the received one in the learned table and
   the proxy object only *)
Lemma reach_ctx e peer port from rs tcp m0 x m5 x1 :
  reach e peer port from rs tcp m0 x = Ok (m5, x1) ->
  x1 = ctx_with x (snd (stage_learn peer from m0 x)) (x_p x1).
Proof.
  unfold reach. destruct (stage_learn peer from m0 x) as [m1 l1].
  destruct (stage_conn e tcp _ (x_p x)) as [m3 [p1| |]]; try discriminate.
  destruct (stage_dialog e peer port p1 _) as [m5' p2]. intros E. injection E as _ <-. reflexivity.
Qed.

(* Via + Record-Route of the transport through which the next-hop host was learned *)
Definition stage_decorate (e : env) (l : learned) (host : bytes) (m : message) : message :=
  match alookup host l with
  | Some t => px_add_record_route (pa_must_rr (wire_proxy (e_lc e))) t (px_add_via e t m)
  | None => m
  end.

Definition dispatch (e : env) (from : stransport) (x : ctx) (m1 : message) (r : res (bytes * Z * bytes))
  : ctx * message :=
  match r with
  | Ok (host, port, transport) => send_message e host port transport (stage_decorate e (x_learned x) host m1) x
  | _ => if is_my_message (new_my_name (c_name (e_cfg e))) from m1 then send_to_backend e m1 x else (x, m1)
  end.

Lemma handle_message_request e from m x : is_request m = true ->
  handle_message e from m x =
  let '(m1, r) := next_request_hop (c_keep_next_hop (e_cfg e)) (route_table_of (e_cfg e)) m in
  dispatch e from x m1 r.
Proof. intros R. unfold handle_message, dispatch, stage_decorate. rewrite R. reflexivity. Qed.

(* a response to SUBSCRIBE that goes to a backend address pins the dialog to that backend *)
Definition subscribe_pin (e : env) (p : pstate) (hop : res (option (bytes * Z * bytes))) (ometh : res (option bytes))
           (m3 : message) : message * pstate :=
  match hop, ometh with
  | Ok (Some (host, port, _)), Ok (Some meth) =>
      if beq meth (s2b "SUBSCRIBE") then
        let addr := host ++ ":"%char :: itoa port in
        match alookup addr (ps_backends p) with
        | Some g =>
            let '(m', od) := mtry s_get_dialog m3 in
            match od with
            | Ok (Some d) => (m', with_pins p (pins_add (e_now e) d (pin_val_backend addr g) (get_expires m' 0) (ps_pins p)))
            | _ => (m', p)
            end
        | None => (m3, p)
        end
      else (m3, p)
  | _, _ => (m3, p)
  end.

(* a response, once the hop has been read from the Via beneath the popped one *)
Definition respond (e : env) (x1 : ctx) (m4 : message) (hop : res (option (bytes * Z * bytes))) : ctx * message :=
  match hop with
  | Ok (Some (host, port, transport)) => send_message e host port transport m4 x1
  | _ => (x1, m4)
  end.

Lemma handle_message_response e from m x : is_request m = false ->
  handle_message e from m x =
  let '(m1, _) := mtry s_pop_via m in
  let '(m2, hop) := mtry next_response_hop m1 in
  let '(m3, ometh) := mtry s_get_method m2 in
  let '(m4, p1) := subscribe_pin e (x_p x) hop ometh m3 in
  respond e (ctx_with x (x_learned x) p1) m4 hop.
Proof. intros R. unfold handle_message, subscribe_pin, respond. rewrite R. reflexivity. Qed.

Lemma subscribe_pin_cases e p hop ometh m3 :
  subscribe_pin e p hop ometh m3 = (m3, p) \/
  let m' := fst (mtry s_get_dialog m3) in
  subscribe_pin e p hop ometh m3 = (m', p) \/
  exists host port tr g d, hop = Ok (Some (host, port, tr)) /\ ometh = Ok (Some (s2b "SUBSCRIBE")) /\
    alookup (host ++ ":"%char :: itoa port) (ps_backends p) = Some g /\ snd (mtry s_get_dialog m3) = Ok (Some d) /\
    subscribe_pin e p hop ometh m3 =
      (m', with_pins p (pins_add (e_now e) d (pin_val_backend (host ++ ":"%char :: itoa port) g) (get_expires m' 0) (ps_pins p))).
Proof.
  unfold subscribe_pin. destruct hop as [[[[host port] tr]|]| |]; try (left; reflexivity).
  destruct ometh as [[meth|]| |]; try (left; reflexivity).
  destruct (beq meth (s2b "SUBSCRIBE")) eqn:B; [|left; reflexivity]. apply beq_eq in B. subst meth.
  destruct (alookup _ (ps_backends p)) as [g|] eqn:A; [|left; reflexivity]. right. cbv zeta.
  destruct (mtry s_get_dialog m3) as [m' od]. cbn [fst snd].
  destruct od as [[d|]| |]; try (left; reflexivity). right. exists host, port, tr, g, d. repeat split. exact A.
Qed.

Definition dialled_conn (li : nat) (local : bytes) (rs : bool) (c : nat) (h : bytes) (pt : Z) : conn :=
  {| cn_id := c; cn_li := li; cn_open := true; cn_peer := h; cn_peer_port := pt;
     cn_from := {| t_kind := KTcpConn; t_addr := local; t_port := 0 |}; cn_received_support := rs |}.

Lemma with_clients_same p : with_clients p (ps_clients p) = p.
Proof. destruct p; reflexivity. Qed.

(* TCPClientTransport.Send: only the client list of the proxy object changes; nothing else
   happens, or bytes go out on the cached connection, or a connection is dialled and written *)
Lemma tcp_client_send_inv n : forall li local rs id b p cs w outs p' cs' w' outs' ok,
  tcp_client_send n li local rs id b p cs w outs = (p', cs', w', outs', ok) ->
  (exists cls, p' = with_clients p cls) /\
  ((cs' = cs /\ w' = w /\ ((outs' = outs /\ ok = false) \/ exists c, outs' = outs ++ [(DConn c, b)] /\ ok = true)) \/
   exists h pt, cs' = cs ++ [dialled_conn li local rs (w_next_conn w) h pt] /\
                w' = {| w_tcp_listeners := w_tcp_listeners w; w_next_conn := S (w_next_conn w) |} /\
                outs' = outs ++ [(DDial h pt (w_next_conn w), []); (DConn (w_next_conn w), b)] /\ ok = true).
Proof.
  assert (Same : forall p : pstate, exists cls, p = with_clients p cls)
    by (intros p; exists (ps_clients p); symmetry; apply with_clients_same).
  induction n as [|n IH]; intros li local rs id b p cs w outs p' cs' w' outs' ok H; cbn [tcp_client_send] in H.
  - injection H as <- <- <- <- <-. split; [apply Same|]. left. auto.
  - destruct (find_client id (ps_clients p)) as [cl|]; [|injection H as <- <- <- <- <-; split; [apply Same|]; left; auto].
    destruct (tc_cached cl) as [c|].
    + destruct (conn_open cs c).
      * injection H as <- <- <- <- <-. split; [apply Same|].
        left. split; [reflexivity|]. split; [reflexivity|]. right. exists c. auto.
      * (* the stale cache entry is cleared and the next round runs *)
        apply IH in H. destruct H as ((cls & ->) & K). split; [exists cls; reflexivity|exact K].
    + destruct (existsb _ (w_tcp_listeners w)).
      * injection H as <- <- <- <- <-. split; [eexists; reflexivity|]. right. exists (tc_host cl), (tc_port cl). auto.
      * injection H as <- <- <- <- <-. split; [apply Same|]. left. auto.
Qed.

(* FailOverClientTransport.Send: the primary takes the bytes ... *)
Definition pri_out (f : failover) (b : bytes) (cs : list conn) : option dest :=
  match fo_pri f with
  | Some (PUdp ip port) | Some (PUdpVia ip port) => if fits_datagram b then Some (DUdp ip port) else None
  | Some (PConn c _) => if conn_open cs c then Some (DConn c) else None
  | None => None
  end.
(* ... or it is forgotten and the secondary client, if there is one, is tried (the local
   [try_sec] of Proxy.failover_send, called with no output yet and without the entry object) *)
Definition try_sec (li : nat) (local : bytes) (rs : bool) (b : bytes) (p : pstate) (cs : list conn) (w : world)
           (sec : option nat) : pstate * list conn * world * list output * bool :=
  match sec with
  | Some id => tcp_client_send 2 li local rs id b p cs w []
  | None => (p, cs, w, [], false)
  end.

Lemma failover_send_eq li local rs f b p cs w :
  failover_send li local rs f b p cs w =
  match pri_out f b cs with
  | Some o => (p, cs, w, [(o, b)], true, f)
  | None => (try_sec li local rs b p cs w (fo_sec f), {| fo_pri := None; fo_sec := fo_sec f |})
  end.
Proof.
  assert (S : forall sec,
    match sec with
    | Some id => let '(p2, cs2, w2, outs2, ok) := tcp_client_send 2 li local rs id b p cs w [] in
                 (p2, cs2, w2, outs2, ok, {| fo_pri := None; fo_sec := sec |})
    | None => (p, cs, w, [], false, {| fo_pri := None; fo_sec := sec |})
    end = (try_sec li local rs b p cs w sec, {| fo_pri := None; fo_sec := sec |})).
  { intros [id|]; [|reflexivity]. unfold try_sec.
    destruct (tcp_client_send 2 li local rs id b p cs w []) as [[[[p2 cs2] w2] outs2] ok2]. reflexivity. }
  unfold failover_send, pri_out. destruct f as [[[ip port|ip port|c ex]|] sec]; cbn [fo_pri fo_sec].
  - destruct (fits_datagram b); [reflexivity|apply S].
  - destruct (fits_datagram b); [reflexivity|apply S].
  - destruct (conn_open cs c); [reflexivity|apply S].
  - apply S.
Qed.

Lemma pri_out_cases f b cs :
  match pri_out f b cs with
  | Some (DUdp ip port) => (fo_pri f = Some (PUdp ip port) \/ fo_pri f = Some (PUdpVia ip port)) /\ fits_datagram b = true
  | Some (DConn c) => (exists ex, fo_pri f = Some (PConn c ex)) /\ conn_open cs c = true
  | Some (DDial _ _ _) => False
  | None => True
  end.
Proof.
  unfold pri_out. destruct (fo_pri f) as [[i q|i q|c ex]|]; [| | |exact I].
  - destruct (fits_datagram b); [auto|exact I].
  - destruct (fits_datagram b); [auto|exact I].
  - destruct (conn_open cs c) eqn:O; [|exact I]. split; [exists ex; reflexivity|exact O].
Qed.

(* what holds of doing nothing and of every run of the secondary client holds of the fallback *)
Lemma try_sec_inv (P : pstate * list conn * world * list output * bool -> Prop) li local rs b p cs w sec :
  P (p, cs, w, [], false) -> (forall id, P (tcp_client_send 2 li local rs id b p cs w [])) ->
  P (try_sec li local rs b p cs w sec).
Proof. intros H0 H1. destruct sec as [id|]; [apply H1|exact H0]. Qed.

(* nothing; one datagram; bytes on an open connection; or a dial followed by bytes on the
   connection just opened (the round that dials also writes) *)
Inductive send_shape (b : bytes) : list output -> Prop :=
| shape_none : send_shape b []
| shape_udp ip port : send_shape b [(DUdp ip port, b)]
| shape_conn c : send_shape b [(DConn c, b)]
| shape_dial h p c : send_shape b [(DDial h p c, []); (DConn c, b)].

(* at most one output that carries bytes, at most two outputs *)
Lemma send_shape_bounds b extra : send_shape b extra ->
  (List.length (filter (fun o : output => match fst o with DDial _ _ _ => false | _ => true end) extra) <= 1)%nat /\
  (List.length extra <= 2)%nat.
Proof. destruct 1; cbn; lia. Qed.

(* the connections whose dialling a list of outputs reports, as the dial files them *)
Definition dial_conns (li : nat) (local : bytes) (rs : bool) (outs : list output) : list conn :=
  flat_map (fun o => match fst o with
                     | DDial ip port c => [dialled_conn li local rs c ip port]
                     | _ => []
                     end) outs.
Lemma dial_conns_app li local rs a b : dial_conns li local rs (a ++ b) = dial_conns li local rs a ++ dial_conns li local rs b.
Proof. apply flat_map_app. Qed.

Lemma dial_conns_in li local rs outs cn : In cn (dial_conns li local rs outs) -> cn_li cn = li /\ cn_received_support cn = rs.
Proof.
  intros H. apply in_flat_map in H. destruct H as ([d b] & _ & H). cbn [fst] in H.
  destruct d as [ip pt|c|ip pt c]; try contradiction. destruct H as [<-|[]]. split; reflexivity.
Qed.

(* FailOverClientTransport.Send appends one shape, nothing when it fails; it never closes a
   connection: the table grows by exactly the connections reported dialled *)
Lemma failover_send_spec li local rs f b p cs w p' cs' w' outs ok f' :
  failover_send li local rs f b p cs w = (p', cs', w', outs, ok, f') ->
  send_shape b outs /\ (ok = false -> outs = []) /\ cs' = cs ++ dial_conns li local rs outs.
Proof.
  rewrite failover_send_eq. pose proof (pri_out_cases f b cs) as PC. destruct (pri_out f b cs) as [o|].
  - intros H. injection H as <- <- <- <- <- <-.
    destruct o as [ip port|c|h pt c]; [| |contradiction];
      (split; [constructor|]); (split; [discriminate|symmetry; apply app_nil_r]).
  - intros H. injection H as H _. revert p' cs' w' outs ok H. apply try_sec_inv.
    + intros p' cs' w' outs ok H. injection H as <- <- <- <- <-.
      split; [constructor|]. split; [reflexivity|symmetry; apply app_nil_r].
    + intros id p' cs' w' outs ok H. apply tcp_client_send_inv in H.
      destruct H as (_ & [(-> & _ & [(-> & ->)|(c & -> & ->)])|(h & pt & -> & _ & -> & ->)]).
      * split; [constructor|]. split; [reflexivity|symmetry; apply app_nil_r].
      * split; [constructor|]. split; [discriminate|symmetry; apply app_nil_r].
      * split; [constructor|]. split; [discriminate|reflexivity].
Qed.
(* ... of the proxy object it changes the client list only, and the entry comes back as it was
   or without its primary *)
Lemma failover_send_p li local rs f b p cs w p' cs' w' outs ok f' :
  failover_send li local rs f b p cs w = (p', cs', w', outs, ok, f') ->
  (exists cls, p' = with_clients p cls) /\ (f' = f \/ f' = {| fo_pri := None; fo_sec := fo_sec f |}).
Proof.
  rewrite failover_send_eq. destruct (pri_out f b cs); intros H.
  - injection H as <- _ _ _ _ <-. split; [exists (ps_clients p); symmetry; apply with_clients_same|left; reflexivity].
  - injection H as H <-. split; [|right; reflexivity]. revert p' cs' w' outs ok H. apply try_sec_inv.
    + intros p' cs' w' outs ok H. injection H as <- _ _ _ _. exists (ps_clients p). symmetry. apply with_clients_same.
    + intros id p' cs' w' outs ok H. exact (proj1 (tcp_client_send_inv _ _ _ _ _ _ _ _ _ _ _ _ _ _ _ H)).
Qed.
Lemma failover_send_shape li local rs f b p cs w p' cs' w' outs ok f' :
  failover_send li local rs f b p cs w = (p', cs', w', outs, ok, f') ->
  send_shape b outs /\ (ok = false -> outs = []).
Proof. intros H. destruct (failover_send_spec _ _ _ _ _ _ _ _ _ _ _ _ _ _ H) as (S & K & _). auto. Qed.
Lemma failover_send_step li local rs f b p cs w p' cs' w' outs ok f' :
  failover_send li local rs f b p cs w = (p', cs', w', outs, ok, f') -> cs' = cs ++ dial_conns li local rs outs.
Proof. intros H. exact (proj2 (proj2 (failover_send_spec _ _ _ _ _ _ _ _ _ _ _ _ _ _ H))). Qed.

(* a backend gets a datagram or nothing, and nothing when the send fails *)
Lemma backend_send_udp b bs p p' outs ok : backend_send b bs p = (p', outs, ok) ->
  (outs = [] \/ exists ip port, outs = [(DUdp ip port, bs)]) /\ (ok = false -> outs = []).
Proof.
  unfold backend_send.
  assert (A : forall a, match last_index_byte ":"%char a with
                        | Some pos => [(DUdp (firstn pos a) (atoi_val (skipn (S pos) a)), bs)]
                        | None => [] end = [] \/
                        exists ip port, match last_index_byte ":"%char a with
                        | Some pos => [(DUdp (firstn pos a) (atoi_val (skipn (S pos) a)), bs)]
                        | None => [] end = [(DUdp ip port, bs)]).
  { intros a. destruct (last_index_byte ":"%char a); [right; eexists; eexists; reflexivity|left; reflexivity]. }
  destruct b as [a g|].
  - destruct (_ && _)%bool; intros H; injection H as <- <- <-.
    + split; [apply A|discriminate].
    + split; [left|]; reflexivity.
  - destruct (rr_dispatch (ps_rr p)) as [r' o]. destruct o as [a|].
    + destruct (fits_datagram bs); intros H; injection H as <- <- <-.
      * split; [apply A|discriminate].
      * split; [left|]; reflexivity.
    + intros H. injection H as <- <- <-. split; [left|]; reflexivity.
Qed.
Lemma backend_send_shape b bs p p' outs ok :
  backend_send b bs p = (p', outs, ok) -> send_shape bs outs /\ (ok = false -> outs = []).
Proof.
  intros H. destruct (backend_send_udp _ _ _ _ _ _ H) as ([->|(ip & pt & ->)] & K); (split; [constructor|exact K]).
Qed.

(* sendMessage: the message that leaves is the argument after GetClientTransaction has decoded
   CSeq and the top Via in place; only the proxy object, the connections and the outputs change *)
Lemma send_message_shape e host port transport m x :
  let r := send_message e host port transport m x in
  snd r = fst (mtry s_client_transaction m) /\
  x_learned (fst r) = x_learned x /\
  exists extra, x_outs (fst r) = x_outs x ++ extra /\ send_shape (write_message (snd r)) extra /\
                (supported_proto (to_lower transport) = false -> extra = []).
Proof.
  unfold send_message. destruct (mtry s_client_transaction m) as [m1 tid]. cbn [fst].
  destruct (get_transport (now_s e) transport _ port _ (x_p x)) as [p1 rkey] eqn:G.
  assert (U : supported_proto (to_lower transport) = false -> is_ok rkey = false).
  { intros S. unfold get_transport in G. rewrite S in G. cbn [negb] in G. injection G as _ <-. reflexivity. }
  assert (N : forall x0 : ctx, x_outs x0 = x_outs x -> exists extra, x_outs x0 = x_outs x ++ extra /\
                send_shape (write_message m1) extra /\ (supported_proto (to_lower transport) = false -> extra = [])).
  { intros x0 ->. exists []. rewrite app_nil_r. split; [reflexivity|]. split; [constructor|reflexivity]. }
  destruct rkey as [key| |]; [|cbn [fst snd x_learned]; repeat split; apply N; reflexivity..].
  cbv zeta.
  set (p2 := match alookup key (ps_table p1) with Some _ => _ | None => _ end).
  destruct (alookup key (ps_table p2)) as [f|]; [|cbn [fst snd x_learned]; repeat split; apply N; reflexivity].
  destruct (failover_send _ _ _ f (write_message m1) _ (x_conns x) (x_world x)) as [[[[[p4 cs] w] outs] ok] f'] eqn:F.
  cbn [fst snd x_learned x_outs]. repeat split. exists outs. split; [reflexivity|].
  split; [exact (proj1 (failover_send_shape _ _ _ _ _ _ _ _ _ _ _ _ _ _ F))|].
  intros S. apply U in S. discriminate.
Qed.

(* [x'] is [x] after at most one send: same learned table, the outputs extended by one shape *)
Definition sends (x x' : ctx) : Prop :=
  x_learned x' = x_learned x /\ exists b extra, x_outs x' = x_outs x ++ extra /\ send_shape b extra.

Lemma sends_nothing (x x' : ctx) : x_learned x' = x_learned x -> x_outs x' = x_outs x -> sends x x'.
Proof. intros L O. split; [exact L|]. exists [], []. rewrite app_nil_r. split; [exact O|constructor]. Qed.

Lemma send_message_sends e host port transport m x : sends x (fst (send_message e host port transport m x)).
Proof.
  destruct (send_message_shape e host port transport m x) as (_ & L & extra & O & S & _).
  split; [exact L|]. eexists _, extra. split; [exact O|exact S].
Qed.

(* the message sendToBackend hands over: Via, then Record-Route, of the listener's first
   transport on what findBackendByDialog leaves *)
Definition backend_msg (e : env) (t0 : stransport) (p : pstate) (m : message) : message :=
  px_add_record_route (pa_must_rr (wire_proxy (e_lc e))) t0 (px_add_via e t0 (fst (find_backend_by_dialog e p m))).

Lemma send_to_backend_msg e m x :
  let r := send_to_backend e m x in
  x_learned (fst r) = x_learned x /\ x_conns (fst r) = x_conns x /\ x_world (fst r) = x_world x /\
  exists extra, x_outs (fst r) = x_outs x ++ extra /\
    (extra = [] \/ exists t0, first_transport (e_lc e) = Some t0 /\ ps_has_rr (x_p x) = true /\
                              send_shape (write_message (backend_msg e t0 (x_p x) m)) extra).
Proof.
  assert (N : forall (x0 : ctx) (P : list output -> Prop), x_outs x0 = x_outs x ->
            exists extra, x_outs x0 = x_outs x ++ extra /\ (extra = [] \/ P extra)).
  { intros x0 P ->. exists []. rewrite app_nil_r. auto. }
  unfold send_to_backend, backend_msg. destruct (ps_has_rr (x_p x)); cbn [negb]; [|repeat split; apply N; reflexivity].
  destruct (first_transport (e_lc e)) as [t0|]; [|repeat split; apply N; reflexivity].
  destruct (find_backend_by_dialog e (x_p x) m) as [m1 r]. cbn [fst].
  destruct (match r with Ok v => v | _ => (x_p x, None) end) as [p1 ob].
  destruct (backend_send _ _ p1) as [[p2 outs] ok] eqn:B. apply backend_send_shape in B.
  destruct ok; [|cbn [fst x_learned x_conns x_world]; repeat split; apply N; reflexivity].
  destruct (mtry s_client_transaction _) as [m3 tid]. cbn [fst x_learned x_conns x_world x_outs]. repeat split.
  exists outs. split; [reflexivity|]. right. exists t0. repeat split. exact (proj1 B).
Qed.

Lemma send_to_backend_sends e m x : sends x (fst (send_to_backend e m x)).
Proof.
  destruct (send_to_backend_msg e m x) as (L & _ & _ & extra & O & [->|(t0 & _ & _ & S)]).
  - apply sends_nothing; [exact L|rewrite O; apply app_nil_r].
  - split; [exact L|]. eexists _, extra. split; [exact O|exact S].
Qed.

Lemma dispatch_sends e from x m1 r : sends x (fst (dispatch e from x m1 r)).
Proof.
  unfold dispatch. destruct r as [[[host port] transport]| |]; [apply send_message_sends| |];
    (destruct (is_my_message _ from m1); [apply send_to_backend_sends|apply sends_nothing; reflexivity]).
Qed.

Lemma handle_message_sends e from m x : sends x (fst (handle_message e from m x)).
Proof.
  destruct (is_request m) eqn:R.
  - rewrite (handle_message_request e from m x R). destruct (next_request_hop _ _ m) as [m1 r]. apply dispatch_sends.
  - rewrite (handle_message_response e from m x R).
    destruct (mtry s_pop_via m) as [m1 r1]. destruct (mtry next_response_hop m1) as [m2 hop].
    destruct (mtry s_get_method m2) as [m3 ometh]. destruct (subscribe_pin e (x_p x) hop ometh m3) as [m4 p1].
    unfold respond. destruct hop as [[[[host port] transport]|]| |]; try (apply sends_nothing; reflexivity).
    exact (send_message_sends e host port transport m4 (ctx_with x (x_learned x) p1)).
Qed.

(* one message in: the learned table of the learning stage, and at most one send *)
Lemma process_message_sends e peer port from rs tcp m0 x x' :
  process_message e peer port from rs tcp m0 x = Ok x' ->
  x_learned x' = snd (stage_learn peer from m0 x) /\
  exists b extra, x_outs x' = x_outs x ++ extra /\ send_shape b extra.
Proof.
  rewrite process_message_reach. destruct (reach e peer port from rs tcp m0 x) as [[m5 x1]| |] eqn:E; try discriminate.
  intros H. injection H as <-. rewrite (reach_ctx _ _ _ _ _ _ _ _ _ _ E).
  exact (handle_message_sends e from m5 (ctx_with x (snd (stage_learn peer from m0 x)) (x_p x1))).
Qed.


(* [x'] is [x] with more outputs and the connections they report dialled *)
Definition ctx_grows (e : env) (x x' : ctx) : Prop :=
  exists extra, x_outs x' = x_outs x ++ extra /\
    x_conns x' = x_conns x ++ dial_conns (e_li e) (lc_addr (e_lc e)) (pa_received_support (wire_proxy (e_lc e))) extra.
Lemma ctx_grows_same e (x y : ctx) : x_outs y = x_outs x -> x_conns y = x_conns x -> ctx_grows e x y.
Proof. intros A B. exists []. rewrite A, B. split; symmetry; apply app_nil_r. Qed.
Lemma ctx_grows_refl e x : ctx_grows e x x.
Proof. apply ctx_grows_same; reflexivity. Qed.
Lemma ctx_grows_trans e x y z : ctx_grows e x y -> ctx_grows e y z -> ctx_grows e x z.
Proof.
  intros (a & A1 & A2) (b & B1 & B2). exists (a ++ b).
  rewrite B1, A1, B2, A2, dial_conns_app, !app_assoc. split; reflexivity.
Qed.

(* sendMessage, opened once: nothing is sent and connections, world and outputs are those of [x];
   or FailOverClientTransport.Send ran once, on the connections and the world of [x] *)
Lemma send_message_io e host port tr m x :
  let x' := fst (send_message e host port tr m x) in
  x_learned x' = x_learned x /\
  ((x_conns x' = x_conns x /\ x_world x' = x_world x /\ x_outs x' = x_outs x) \/
   exists f p3 p4 outs ok f',
     failover_send (e_li e) (lc_addr (e_lc e)) (pa_received_support (wire_proxy (e_lc e))) f
                   (write_message (fst (mtry s_client_transaction m))) p3 (x_conns x) (x_world x)
       = (p4, x_conns x', x_world x', outs, ok, f') /\ x_outs x' = x_outs x ++ outs).
Proof.
  unfold send_message. destruct (mtry s_client_transaction m) as [m1 tid]. cbn [fst].
  destruct (get_transport _ _ _ _ _ _) as [p1 rkey].
  destruct rkey as [key| |]; try (split; [reflexivity|left; repeat split]).
  match goal with |- context [alookup key (ps_table ?p2)] => set (P2 := p2) end.
  destruct (alookup key (ps_table P2)) as [f|]; [|split; [reflexivity|left; repeat split]].
  match goal with |- context [failover_send ?a ?b ?c ?d ?e ?f ?g ?h] =>
    destruct (failover_send a b c d e f g h) as [[[[[p4 cs] w] outs] ok] f'] eqn:EF end.
  split; [reflexivity|]. right. do 6 eexists. split; [exact EF|reflexivity].
Qed.

(* GetTransport returns the key it was asked for *)
Lemma get_transport_key now_s pr h pt t p key :
  snd (get_transport now_s pr h pt t p) = Ok key -> key = full_addr (to_lower pr) h pt t.
Proof.
  unfold get_transport. cbv zeta. destruct (negb _); [discriminate|].
  destruct (alookup _ _); [intros H; injection H as <-; reflexivity|].
  destruct (beq _ (s2b "udp")); [destruct (resolvable h pt); [intros H; injection H as <-; reflexivity|discriminate]|].
  destruct (alookup _ _); intros H; injection H as <-; reflexivity.
Qed.

(* the proxy object on its way through sendMessage.  A relation that holds across GetTransport, the
   repair of a forgotten primary (UDP through the listener's socket), the removal of the entry after
   a final response, FailOverClientTransport.Send and the filing of the entry Send has changed,
   holds across sendMessage.  [ip] is the resolved host, [kh] the host of the removed key, [t] the
   transaction id, [key] the look-up key. *)
Section SendMessageRel.
  Variables (e : env) (host : bytes) (port : Z) (tr : bytes) (m : message).
  Let ip := match get_ip (e_cfg e) host with Some i => i | None => host end.
  Let kh := if fx_resolved_key (e_fx e) then ip else host.
  Let t := match snd (mtry s_client_transaction m) with Ok (Some t) => t | _ => [] end.
  Let key := full_addr (to_lower tr) ip port t.
  Variable R : pstate -> pstate -> Prop.
  Hypothesis R_trans : forall a b c, R a b -> R b c -> R a c.
  Hypothesis R_get : forall p, R p (fst (get_transport (now_s e) tr ip port t p)).
  Hypothesis R_repair : forall p, resolvable ip port = true -> R p (set_primary key (PUdpVia ip port) p).
  Hypothesis R_remove : forall p, R p (remove_transport tr kh port t p).
  Hypothesis R_send : forall f b p cs w p' cs' w' outs ok f',
    failover_send (e_li e) (lc_addr (e_lc e)) (pa_received_support (wire_proxy (e_lc e))) f b p cs w
      = (p', cs', w', outs, ok, f') -> R p p'.
  Hypothesis R_file : forall f p, R p (with_table p (aset key f (ps_table p))).

  Lemma send_message_rel x : R (x_p x) (x_p (fst (send_message e host port tr m x))).
  Proof.
    unfold send_message. fold ip. subst t. destruct (mtry s_client_transaction m) as [m1 tid]. cbn [snd] in *.
    set (t := match tid with Ok (Some t) => t | _ => [] end) in *.
    pose proof (R_get (x_p x)) as G. pose proof (get_transport_key (now_s e) tr ip port t (x_p x)) as GK.
    destruct (get_transport (now_s e) tr ip port t (x_p x)) as [p1 rkey]. cbn [fst snd] in G, GK.
    destruct rkey as [k| |]; cbn [fst x_p]; try exact G.
    rewrite (GK k eq_refl). fold key.
    set (p2 := match alookup key (ps_table p1) with Some {| fo_pri := None |} => _ | _ => p1 end).
    assert (G2 : R (x_p x) p2).
    { subst p2. pose proof (R_repair p1) as RP. destruct (alookup key (ps_table p1)) as [[[pr|] sec]|]; try exact G.
      destruct (_ && _)%bool; [exact G|].
      destruct (alookup ip (x_learned x)) as [[[| |] a pt]|]; try exact G.
      destruct (resolvable ip port); [|exact G]. exact (R_trans _ _ _ G (RP eq_refl)). }
    clearbody p2.
    destruct (alookup key (ps_table p2)) as [f|]; cbn [fst x_p]; [|exact G2].
    fold kh.
    set (p3 := if is_final_response m1 then remove_transport tr kh port t p2 else p2).
    assert (G3 : R (x_p x) p3).
    { subst p3. destruct (is_final_response m1); [|exact G2]. exact (R_trans _ _ _ G2 (R_remove p2)). }
    clearbody p3.
    destruct (failover_send _ _ _ f (write_message m1) p3 (x_conns x) (x_world x)) as [[[[[p4 cs] w] outs] ok] f'] eqn:EF.
    cbn [fst x_p]. pose proof (R_trans _ _ _ G3 (R_send _ _ _ _ _ _ _ _ _ _ _ EF)) as G4.
    destruct (alookup key (ps_table p4)); [|exact G4]. exact (R_trans _ _ _ G4 (R_file f' p4)).
  Qed.
End SendMessageRel.

Lemma send_message_conns e host port tr m x : ctx_grows e x (fst (send_message e host port tr m x)).
Proof.
  destruct (send_message_io e host port tr m x) as (_ & [(C & _ & O)|(f & p3 & p4 & outs & ok & f' & EF & O)]).
  - apply ctx_grows_same; assumption.
  - exists outs. split; [exact O|exact (failover_send_step _ _ _ _ _ _ _ _ _ _ _ _ _ _ EF)].
Qed.

Lemma send_to_backend_conns e m x : ctx_grows e x (fst (send_to_backend e m x)).
Proof.
  unfold send_to_backend. destruct (negb (ps_has_rr (x_p x))); [apply ctx_grows_refl|].
  destruct (first_transport (e_lc e)) as [t0|]; [|apply ctx_grows_refl].
  destruct (find_backend_by_dialog e (x_p x) m) as [m1 r].
  destruct (match r with Ok v => v | _ => (x_p x, None) end) as [p1 ob].
  destruct (backend_send _ _ p1) as [[p2 outs] ok] eqn:B. apply backend_send_udp in B.
  destruct ok; [|apply ctx_grows_same; reflexivity].
  destruct (mtry s_client_transaction _) as [m3 tid]. exists outs. split; [reflexivity|].
  destruct B as ([->|(ip & pt & ->)] & _); symmetry; apply app_nil_r.
Qed.

Definition close_ctx (c : nat) (x : ctx) : ctx :=
  {| x_learned := x_learned x; x_p := x_p x; x_conns := close_conn c (x_conns x); x_world := x_world x;
     x_outs := x_outs x |}.

(* only keep-alive blanks left: the reader waits *)
Lemma tcp_messages_blank f e cn s x : trim_left s = [] -> tcp_messages f e cn s x = Ok x.
Proof. intros T. destruct f as [|f]; cbn [tcp_messages]; [reflexivity|]. rewrite T. reflexivity. Qed.

Lemma parse_message_nonblank data m rest : parse_message data = Ok (m, rest) -> trim_left data <> [].
Proof.
  intros P E. unfold parse_message in P. rewrite E in P.
  cbv beta iota zeta delta [read_line] in P. discriminate P.
Qed.

Lemma tcp_messages_single e cn data x m rest :
  parse_message data = Ok (m, rest) -> trim_left rest = [] ->
  tcp_messages (S (List.length data)) e cn data x =
  process_message e (cn_peer cn) (cn_peer_port cn) (cn_from cn) (cn_received_support cn) (Some (cn_id cn)) m x.
Proof.
  intros P T. cbn [tcp_messages].
  destruct (trim_left data) as [|c0 r0] eqn:TD; [exfalso; exact (parse_message_nonblank _ _ _ P TD)|].
  rewrite P.
  destruct (process_message e (cn_peer cn) (cn_peer_port cn) (cn_from cn) (cn_received_support cn)
                            (Some (cn_id cn)) m x) as [x1| |]; [|reflexivity|reflexivity].
  apply tcp_messages_blank. exact T.
Qed.

(* what every message of the chunk keeps, and closing the connection keeps, the chunk keeps *)
Lemma tcp_messages_inv (I : ctx -> Prop) e cn :
  (forall m x x', I x -> process_message e (cn_peer cn) (cn_peer_port cn) (cn_from cn) (cn_received_support cn)
                                         (Some (cn_id cn)) m x = Ok x' -> I x') ->
  (forall x, I x -> I (close_ctx (cn_id cn) x)) ->
  forall fuel s x x', I x -> tcp_messages fuel e cn s x = Ok x' -> I x'.
Proof.
  intros PM CL. induction fuel as [|f IH]; intros s x x' Ix H; cbn [tcp_messages] in H.
  - injection H as <-. exact Ix.
  - destruct (trim_left s); [injection H as <-; exact Ix|].
    destruct (parse_message s) as [[m rest]| |]; try (injection H as <-; apply CL; exact Ix).
    destruct (process_message e (cn_peer cn) (cn_peer_port cn) (cn_from cn) (cn_received_support cn)
                              (Some (cn_id cn)) m x) as [x1| |] eqn:E; try discriminate.
    exact (IH rest x1 x' (PM m x x1 Ix E) H).
Qed.


(* the outputs of a chunk, message by message: the messages handled are a prefix of the chunk's
   message stream, and each appends outputs that satisfy the per-message statement [Q] *)
Lemma tcp_messages_outs (Q : message -> list output -> Prop) e c :
  (forall m x x', process_message e (cn_peer c) (cn_peer_port c) (cn_from c) (cn_received_support c)
                                  (Some (cn_id c)) m x = Ok x' ->
                  exists os, x_outs x' = x_outs x ++ os /\ Q m os) ->
  forall f s x x', tcp_messages f e c s x = Ok x' ->
  exists oss, x_outs x' = x_outs x ++ List.concat oss /\
              Forall2 Q (firstn (List.length oss) (parse_stream f s)) oss.
Proof.
  intros HQ. induction f as [|f IH]; intros s x x'; cbn [tcp_messages].
  - intros H. injection H as <-. exists []. split; [symmetry; apply app_nil_r|constructor].
  - destruct (trim_left s); [intros H; injection H as <-; exists []; split; [symmetry; apply app_nil_r|constructor]|].
    cbn [parse_stream]. destruct (parse_message s) as [[m rest]| |].
    + destruct (process_message e _ _ _ _ _ m x) as [x1| |] eqn:EP; try discriminate.
      intros H. destruct (HQ _ _ _ EP) as (os & H1 & H2). destruct (IH _ _ _ H) as (oss & H3 & H4).
      exists (os :: oss). split.
      * cbn [List.concat]. rewrite H3, H1, app_assoc. reflexivity.
      * cbn [List.length firstn]. constructor; assumption.
    + intros H. injection H as <-. exists []. split; [symmetry; apply app_nil_r|constructor].
    + intros H. injection H as <-. exists []. split; [symmetry; apply app_nil_r|constructor].
Qed.

Definition listener_env (fx : fixes) (c : cfg) (now : Z) (br : bytes) (li : nat) (lc : listen_cfg) : env :=
  mk_env fx c (item_rs_of (fx_wiring fx)) li lc now br.
Definition udp_transport (lc : listen_cfg) : stransport :=
  {| t_kind := KUdp; t_addr := lc_addr lc; t_port := lc_udp lc |}.
(* the context a listener's proxy object starts an event with, and the state it leaves *)
Definition start_ctx (st : state) (p : pstate) : ctx :=
  {| x_learned := st_learned st; x_p := p; x_conns := st_conns st; x_world := st_world st; x_outs := [] |}.
Definition ctx_state (st : state) (li : nat) (x : ctx) : state :=
  {| st_learned := x_learned x; st_proxies := set_nth_p (st_proxies st) li (x_p x);
     st_conns := x_conns x; st_world := x_world x |}.
Definition close_state (cid : nat) (st : state) : state :=
  {| st_learned := st_learned st; st_proxies := st_proxies st; st_conns := close_conn cid (st_conns st);
     st_world := st_world st |}.

Lemma run_ctx_inv st li f st' outs : run_ctx st li f = Ok (st', outs) ->
  (nth_p (st_proxies st) li = None /\ st' = st /\ outs = []) \/
  exists p x', nth_p (st_proxies st) li = Some p /\ f p (start_ctx st p) = Ok x' /\
               st' = ctx_state st li x' /\ outs = x_outs x'.
Proof.
  unfold run_ctx. destruct (nth_p (st_proxies st) li) as [p|].
  - fold (start_ctx st p). destruct (f p (start_ctx st p)) as [x'| |] eqn:E; try discriminate.
    intros H. injection H as <- <-. right. exists p, x'. auto.
  - intros H. injection H as <- <-. left. auto.
Qed.

(* the step of an event that carries data, when the listen entry, the proxy object and (for a
   chunk) the open connection are there *)
Lemma proxy_step_udp_eq fx c now br st li lc p src sport data m rest :
  nth_opt (c_listens c) li = Some lc -> parse_message data = Ok (m, rest) -> nth_p (st_proxies st) li = Some p ->
  proxy_step fx c now br st (EvUdp li src sport data) =
  match process_message (listener_env fx c now br li lc) src sport (udp_transport lc)
                        (e_item_rs (listener_env fx c now br li lc)) None m (start_ctx st p) with
  | Ok x' => Ok (ctx_state st li x', x_outs x')
  | Err => Err
  | Panic => Panic
  end.
Proof. intros N P Np. cbn [proxy_step]. rewrite N, P. unfold run_ctx. rewrite Np. reflexivity. Qed.

Lemma proxy_step_tcp_eq fx c now br st cid cn lc p data :
  find (fun y => Nat.eqb (cn_id y) cid) (st_conns st) = Some cn -> cn_open cn = true ->
  nth_opt (c_listens c) (cn_li cn) = Some lc -> nth_p (st_proxies st) (cn_li cn) = Some p ->
  proxy_step fx c now br st (EvTcpData cid data) =
  match tcp_messages (S (List.length data)) (listener_env fx c now br (cn_li cn) lc) cn data (start_ctx st p) with
  | Ok x' => Ok (ctx_state st (cn_li cn) x', x_outs x')
  | Err => Err
  | Panic => Panic
  end.
Proof. intros F O N Np. cbn [proxy_step]. rewrite F, O. cbv zeta. rewrite N. unfold run_ctx. rewrite Np. reflexivity. Qed.

Lemma proxy_step_udp_inv fx c now br st li src sport data st' outs :
  proxy_step fx c now br st (EvUdp li src sport data) = Ok (st', outs) ->
  (st' = st /\ outs = []) \/
  exists lc m rest p x',
    nth_opt (c_listens c) li = Some lc /\ parse_message data = Ok (m, rest) /\ nth_p (st_proxies st) li = Some p /\
    process_message (listener_env fx c now br li lc) src sport (udp_transport lc)
                    (e_item_rs (listener_env fx c now br li lc)) None m (start_ctx st p) = Ok x' /\
    st' = ctx_state st li x' /\ outs = x_outs x'.
Proof.
  cbn [proxy_step]. destruct (nth_opt (c_listens c) li) as [lc|]; [|intros H; injection H as <- <-; left; auto].
  destruct (parse_message data) as [[m rest]| |]; try (intros H; injection H as <- <-; left; auto).
  intros H. apply run_ctx_inv in H. destruct H as [(_ & -> & ->)|(p & x' & N & E & -> & ->)]; [left; auto|right].
  exists lc, m, rest, p, x'. repeat split; [exact N|exact E].
Qed.

Lemma proxy_step_udp_single fx c now br st li lc p src sport data m rest st' outs :
  nth_opt (c_listens c) li = Some lc -> parse_message data = Ok (m, rest) -> nth_p (st_proxies st) li = Some p ->
  proxy_step fx c now br st (EvUdp li src sport data) = Ok (st', outs) ->
  exists x', process_message (listener_env fx c now br li lc) src sport (udp_transport lc)
               (e_item_rs (listener_env fx c now br li lc)) None m (start_ctx st p) = Ok x' /\
             st' = ctx_state st li x' /\ outs = x_outs x'.
Proof.
  intros N P Np H. rewrite (proxy_step_udp_eq _ _ _ _ _ _ _ _ _ _ _ _ _ N P Np) in H.
  destruct (process_message _ _ _ _ _ _ _ _) as [x'| |]; try discriminate.
  injection H as <- <-. exists x'. repeat split.
Qed.

Lemma proxy_step_tcp_inv fx c now br st cid data st' outs :
  proxy_step fx c now br st (EvTcpData cid data) = Ok (st', outs) ->
  (st' = st /\ outs = []) \/
  exists cn lc p x',
    find (fun y => Nat.eqb (cn_id y) cid) (st_conns st) = Some cn /\ cn_id cn = cid /\ cn_open cn = true /\
    nth_opt (c_listens c) (cn_li cn) = Some lc /\ nth_p (st_proxies st) (cn_li cn) = Some p /\
    tcp_messages (S (List.length data)) (listener_env fx c now br (cn_li cn) lc) cn data (start_ctx st p) = Ok x' /\
    st' = ctx_state st (cn_li cn) x' /\ outs = x_outs x'.
Proof.
  cbn [proxy_step].
  destruct (find _ (st_conns st)) as [cn|] eqn:F; [|intros H; injection H as <- <-; left; auto].
  destruct (cn_open cn) eqn:O; [|intros H; injection H as <- <-; left; auto].
  destruct (nth_opt (c_listens c) (cn_li cn)) as [lc|] eqn:EL; [|intros H; injection H as <- <-; left; auto].
  intros H. apply run_ctx_inv in H. destruct H as [(_ & -> & ->)|(p & x' & N & E & -> & ->)]; [left; auto|right].
  exists cn, lc, p, x'. repeat split; try assumption.
  apply find_some in F. apply Nat.eqb_eq, (proj2 F).
Qed.

Lemma proxy_step_tcp_single fx c now br st cid cn lc p data m rest st' outs :
  find (fun y => Nat.eqb (cn_id y) cid) (st_conns st) = Some cn -> cn_open cn = true ->
  nth_opt (c_listens c) (cn_li cn) = Some lc -> nth_p (st_proxies st) (cn_li cn) = Some p ->
  parse_message data = Ok (m, rest) -> trim_left rest = [] ->
  proxy_step fx c now br st (EvTcpData cid data) = Ok (st', outs) ->
  exists x', process_message (listener_env fx c now br (cn_li cn) lc) (cn_peer cn) (cn_peer_port cn) (cn_from cn)
               (cn_received_support cn) (Some (cn_id cn)) m (start_ctx st p) = Ok x' /\
             st' = ctx_state st (cn_li cn) x' /\ outs = x_outs x'.
Proof.
  intros HF HO EL EP HP HT H. rewrite (proxy_step_tcp_eq _ _ _ _ _ _ _ _ _ _ HF HO EL EP) in H.
  rewrite (tcp_messages_single _ cn data _ m rest HP HT) in H.
  destruct (process_message _ _ _ _ _ _ _ _) as [x'| |]; try discriminate.
  injection H as <- <-. exists x'. repeat split.
Qed.

Lemma set_primary_other K K' pr p : K <> K' -> alookup K (ps_table (set_primary K' pr p)) = alookup K (ps_table p).
Proof.
  intros N. unfold set_primary. destruct (alookup K' (ps_table p)); [|reflexivity].
  cbn [ps_table with_table]. apply alookup_aset_other. exact N.
Qed.

Lemma nth_set_same l : forall i p q, nth_p l i = Some q -> nth_p (set_nth_p l i p) i = Some p.
Proof.
  unfold nth_p. induction l as [|a l IH]; intros [|i] p q H; cbn in *; try discriminate; [reflexivity|].
  eapply IH. exact H.
Qed.
Lemma nth_set_other l : forall i j p, i <> j -> nth_p (set_nth_p l i p) j = nth_p l j.
Proof.
  unfold nth_p. induction l as [|a l IH]; intros [|i] [|j] p NE; cbn; try reflexivity; try congruence.
  apply IH. congruence.
Qed.
Lemma set_nth_unchanged l : forall i p, nth_p l i = Some p -> set_nth_p l i p = l.
Proof.
  unfold nth_p. induction l as [|a l IH]; intros [|i] p H; cbn in *; try discriminate.
  - injection H as ->. reflexivity.
  - f_equal. apply IH. exact H.
Qed.

Lemma ctx_state_start st li p : nth_p (st_proxies st) li = Some p -> ctx_state st li (start_ctx st p) = st.
Proof. intros H. unfold ctx_state, start_ctx. cbn. rewrite (set_nth_unchanged _ _ _ H). destruct st; reflexivity. Qed.

(* the proxy object of listener [li] satisfies [P] *)
Definition at_li (li : nat) (P : pstate -> Prop) (st : state) : Prop :=
  exists p, nth_p (st_proxies st) li = Some p /\ P p.
Lemma at_li_nth li P st p : at_li li P st -> nth_p (st_proxies st) li = Some p -> P p.
Proof. intros (q & N & Pq) H. rewrite H in N. injection N as <-. exact Pq. Qed.
Lemma at_li_set li P st st' li' p' : at_li li P st -> st_proxies st' = set_nth_p (st_proxies st) li' p' ->
  (li' = li -> P p') -> at_li li P st'.
Proof.
  intros (p & N & Pp) E H. unfold at_li. rewrite E. destruct (Nat.eq_dec li' li) as [->|NE].
  - exists p'. split; [exact (nth_set_same _ _ _ _ N)|apply H; reflexivity].
  - exists p. split; [rewrite nth_set_other by exact NE; exact N|exact Pp].
Qed.
Lemma at_li_ctx_state li P st li' x :
  at_li li P st -> (li' = li -> P (x_p x)) -> at_li li P (ctx_state st li' x).
Proof. intros Q H. exact (at_li_set li P st (ctx_state st li' x) li' (x_p x) Q eq_refl H). Qed.

(* A predicate on states that every message keeps (whatever the context the earlier messages of
   the same chunk have left), that closing a connection keeps, and that the events which carry no
   message keep, is kept by every event. *)
Section StepInv.
  Variables (fx : fixes) (c : cfg) (now : Z) (br : bytes).
  Variable Inv : state -> Prop.
  Hypothesis Inv_msg : forall st li lc peer port from rs tcp m x x',
    nth_opt (c_listens c) li = Some lc -> Inv (ctx_state st li x) ->
    process_message (listener_env fx c now br li lc) peer port from rs tcp m x = Ok x' ->
    Inv (ctx_state st li x').
  Hypothesis Inv_close : forall st cid, Inv st -> Inv (close_state cid st).
  Hypothesis Inv_other : forall ev st st' outs,
    match ev with EvTcpAccept _ _ _ | EvBackendAdd _ _ | EvBackendRemove _ _ => True | _ => False end ->
    Inv st -> proxy_step fx c now br st ev = Ok (st', outs) -> Inv st'.

  Theorem proxy_step_inv st ev st' outs : Inv st -> proxy_step fx c now br st ev = Ok (st', outs) -> Inv st'.
  Proof.
    intros Ist H. destruct ev as [li src sport data|li src sport|cid data|cid|li addr|li addr];
      try (refine (Inv_other _ _ _ _ _ Ist H); exact I).
    - apply proxy_step_udp_inv in H. destruct H as [(-> & _)|(lc & m & rest & p & x' & EL & _ & N & E & -> & _)]; [exact Ist|].
      refine (Inv_msg st li lc _ _ _ _ _ m _ x' EL _ E).
      rewrite (ctx_state_start _ _ _ N). exact Ist.
    - apply proxy_step_tcp_inv in H.
      destruct H as [(-> & _)|(cn & lc & p & x' & _ & _ & _ & EL & N & E & -> & _)]; [exact Ist|].
      refine (tcp_messages_inv (fun x => Inv (ctx_state st (cn_li cn) x)) _ cn _ _ _ _ _ x' _ E).
      + intros m x y Ix Ey. exact (Inv_msg st _ lc _ _ _ _ _ m x y EL Ix Ey).
      + intros x Ix. exact (Inv_close _ (cn_id cn) Ix).
      + rewrite (ctx_state_start _ _ _ N). exact Ist.
    - cbn [proxy_step] in H. injection H as <- _. exact (Inv_close st cid Ist).
  Qed.
End StepInv.
