(* proofs/C02_bridge_tcp.v — the judge bridge of C02 for a response read on a TCP connection ([EvTcpData cid data]):
   instances of C02_bridge.C02_judge_in_core and of its lemmas per kind of destination, for one process_message and
   for one proxy_step; then what EvTcpAccept records, then examples.  Of a TCP event the judge only uses that the
   connection is in its bookkeeping (else it answers 0 without looking: C02_bridge_tcp_ex_unknown_conn) and that the
   chunk is a single message; the record it finds, the transport that read the response and the received-support
   flag do not matter (a response is never stamped and is relayed alike on accepted and on dialled connections), so
   _tcp_msg and _tcp_step name js_conns, cn_id and cn_from only to say when the judge looks at all.  New premises:
   the model's record [cn] of the connection, that it is open (on a closed one the model emits nothing while the
   judge may demand the relay: C02_bridge_tcp_open_needed), one message in the chunk (trim_left rest = []), and the
   judge's [single_message jin]: it takes the body length from the first Content-Length / l header, the model from
   get_header_int. *)
From Coq Require Import List Ascii String ZArith NArith Bool Arith Lia.
From Model Require Import Bytes BytesLemmas Uri Hdr Message Msg Rx Glob StaticRoute RoundRobin Pins Wire
     Proxy RunProxy SpecProxy SpecC14.
From Model.proofs Require C06.
From Model.proofs Require Import MsgLemmas Pipeline C14_via C01 C07 C02 C07_bridge C02_bridge.
Import ListNotations.
Open Scope Z_scope.
Open Scope list_scope.

(* the context handed to sendMessage: only the pins may have changed *)
Definition pins_ctx (x : ctx) (pins' : pins) : ctx :=
  {| x_learned := x_learned x; x_p := with_pins (x_p x) pins'; x_conns := x_conns x; x_world := x_world x;
     x_outs := x_outs x |}.

(* ====================================================================== Part 1: one message *)
(* THE CORE, process_message level, minimal hypotheses: C02_bridge.C02_judge_in_core on the input the judge
   extracts from an [EvTcpData] event (a connection that is not in its bookkeeping is not judged). *)
Theorem C02_judge_bridge_tcp_core_msg :
  forall (pc : proxy_case) (stj : jstate) (e : env) (cid : nat) (peer : bytes) (pport : Z) (from : stransport)
         (rs : bool) (tcp : option nat) (data : bytes) (jin : jmsg) (m : message) (rest : bytes)
         (x x' : ctx) (pre : list output) (vis : output -> bool) (closed : list nat),
  j_read data = Some jin -> parse_message data = Ok (m, rest) ->
  via_domain m ->
  process_message e peer pport from rs tcp m x = Ok x' ->
  x_outs x' = x_outs x ++ pre ->
  (forall v1 v2 vrest m4 pins',
     is_response m = true ->
     flat_view (via_hdrs m) = v1 :: v2 :: vrest ->
     x_outs x ++ pre = x_outs (fst (send_message e (hop_host v2) (hop_port v2) (v_transport v2) m4
                                      (pins_ctx x pins'))) ->
     write_message (sent_msg m4) = write_message (relayed_response e peer pport from x m) ->
     dest_ok pc stj (j_dest (pc_cfg pc) (v_transport v2) (hop_host v2) (hop_port v2))
             (msgs_of (map B13.labelled (filter vis pre))) = true) ->
  judge_C02_event pc stj (EvTcpData cid data) (map B13.labelled (filter vis pre)) closed = O.
Proof.
  intros pc stj e cid peer pport from rs tcp data jin m rest x x' pre vis closed HJ HP HV EP EO Hdest.
  rewrite judge_C02_event_in. cbn [j_input].
  destruct (find (fun y => Nat.eqb (fst y) cid) (js_conns stj)) as [[c0 [[li ip] port]]|]; [|reflexivity].
  eapply C02_judge_in_core; [exact HJ|exact HP|exact HV|exact EP|exact EO|exact Hdest].
Qed.

(* One message in a chunk (for C02 the UDP bridge is a core + one theorem per kind of
   destination, so the destination check stays a hypothesis here as in C02_judge_bridge_core; the closed
   forms follow).  [cn] is the model's record of an accepted connection, the judge's bookkeeping files the
   connection [cid] under the same listen entry and peer, the chunk holds exactly that one message.  The
   hypotheses on [js_conns], cn_li, cn_id, cn_from and [trim_left rest = []] are NOT used (see the head of
   the file); nothing is needed about cn_received_support. *)
Theorem C02_judge_bridge_tcp_msg :
  forall (pc : proxy_case) (stj : jstate) (fx : fixes) (now : Z) (br : bytes) (cid li : nat) (lc : listen_cfg)
         (cn : conn) (data : bytes) (jin : jmsg) (m : message) (rest : bytes)
         (x x' : ctx) (pre : list output) (vis : output -> bool) (closed : list nat),
  let c := pc_cfg pc in
  let e := mk_env fx c (item_rs_of (fx_wiring fx)) li lc now br in
  nth_opt (c_listens c) li = Some lc ->
  find (fun y => Nat.eqb (fst y) cid) (js_conns stj) = Some (cid, (li, cn_peer cn, cn_peer_port cn)) ->
  cn_li cn = li -> cn_id cn = cid ->
  cn_from cn = {| t_kind := KTcpListen; t_addr := lc_addr lc; t_port := lc_tcp lc |} ->
  j_read data = Some jin -> parse_message data = Ok (m, rest) -> trim_left rest = [] ->
  via_domain m ->
  process_message e (cn_peer cn) (cn_peer_port cn) (cn_from cn) (cn_received_support cn) (Some (cn_id cn)) m x
    = Ok x' ->
  x_outs x' = x_outs x ++ pre ->
  (forall v1 v2 vrest m4 pins',
     is_response m = true ->
     flat_view (via_hdrs m) = v1 :: v2 :: vrest ->
     x_outs x ++ pre = x_outs (fst (send_message e (hop_host v2) (hop_port v2) (v_transport v2) m4
                                      (pins_ctx x pins'))) ->
     write_message (sent_msg m4) =
       write_message (relayed_response e (cn_peer cn) (cn_peer_port cn) (cn_from cn) x m) ->
     dest_ok pc stj (j_dest c (v_transport v2) (hop_host v2) (hop_port v2))
             (msgs_of (map B13.labelled (filter vis pre))) = true) ->
  judge_C02_event pc stj (EvTcpData cid data) (map B13.labelled (filter vis pre)) closed = O.
Proof.
  intros pc stj fx now br cid li lc cn data jin m rest x x' pre vis closed c e
         _ _ _ _ _ HJ HP _ HV EP EO Hdest.
  exact (C02_judge_bridge_tcp_core_msg pc stj e cid (cn_peer cn) (cn_peer_port cn) (cn_from cn)
           (cn_received_support cn) (Some (cn_id cn)) data jin m rest x x' pre vis closed HJ HP HV EP EO Hdest).
Qed.

(* closed form (a): the next Via entry says UDP and its host resolves.  Conditions as in
   C02_judge_bridge_step_udp, on the context [x] the message is processed in. *)
Theorem C02_judge_bridge_tcp_msg_udp :
  forall (pc : proxy_case) (stj : jstate) (e : env) (cid : nat) (peer : bytes) (pport : Z) (from : stransport)
         (rs : bool) (tcp : option nat) (data : bytes) (jin : jmsg) (m : message) (rest : bytes)
         (x x' : ctx) (pre : list output) (closed : list nat)
         (v1 v2 : via_param) (vrest : list via_param) (ip : bytes),
  e_cfg e = pc_cfg pc ->
  j_read data = Some jin -> parse_message data = Ok (m, rest) ->
  via_domain m ->
  flat_view (via_hdrs m) = v1 :: v2 :: vrest ->
  to_lower (v_transport v2) = s2b "udp" ->
  get_ip (pc_cfg pc) (hop_host v2) = Some ip -> resolvable ip (hop_port v2) = true ->
  udp_slot_ok ip (hop_port v2) (x_p x) ->
  fits_datagram (write_message (relayed_response e peer pport from x m)) = true ->
  process_message e peer pport from rs tcp m x = Ok x' ->
  x_outs x' = x_outs x ++ pre ->
  judge_C02_event pc stj (EvTcpData cid data)
    (map B13.labelled (filter (visible (pc_udp_endpoints pc)) pre)) closed = O.
Proof.
  intros pc stj e cid peer pport from rs tcp data jin m rest x x' pre closed v1 v2 vrest ip
         He HJ HP HV FV Htr Hip Hres Hslot Hfit EP EO.
  apply (C02_judge_bridge_tcp_core_msg pc stj e cid peer pport from rs tcp data jin m rest x x' pre _ closed
           HJ HP HV EP EO).
  intros v1' v2' vrest' m4 pins' Hr FV' EO' EB. rewrite FV in FV'. injection FV' as <- <- <-.
  rewrite <- EB in Hfit. rewrite <- He in Hip |- *.
  exact (dest_udp pc stj e _ _ _ m4 (pins_ctx x pins') ip pre Htr Hip Hres Hslot Hfit EO').
Qed.

(* closed form (b): at most one Via entry: nothing is relayed *)
Theorem C02_judge_bridge_tcp_msg_drop :
  forall (pc : proxy_case) (stj : jstate) (e : env) (cid : nat) (peer : bytes) (pport : Z) (from : stransport)
         (rs : bool) (tcp : option nat) (data : bytes) (jin : jmsg) (m : message) (rest : bytes)
         (x x' : ctx) (pre : list output) (vis : output -> bool) (closed : list nat),
  j_read data = Some jin -> parse_message data = Ok (m, rest) ->
  via_domain m ->
  (List.length (flat_view (via_hdrs m)) <= 1)%nat ->
  process_message e peer pport from rs tcp m x = Ok x' ->
  x_outs x' = x_outs x ++ pre ->
  judge_C02_event pc stj (EvTcpData cid data) (map B13.labelled (filter vis pre)) closed = O.
Proof.
  intros pc stj e cid peer pport from rs tcp data jin m rest x x' pre vis closed HJ HP HV Hlen EP EO.
  apply (C02_judge_bridge_tcp_core_msg pc stj e cid peer pport from rs tcp data jin m rest x x' pre vis closed
           HJ HP HV EP EO).
  intros v1 v2 vrest m4 pins' _ FV _ _. rewrite FV in Hlen. cbn [List.length] in Hlen. lia.
Qed.

(* ====================================================================== Part 2: one step of the proxy *)
Lemma find_conn_id cid cs cn : find (fun y => Nat.eqb (cn_id y) cid) cs = Some cn -> cn_id cn = cid.
Proof. intros H. apply find_some in H. destruct H as [_ H]. apply Nat.eqb_eq in H. exact H. Qed.

(* the bytes of the relayed response, as a function of the input (for the datagram size limit) *)
Definition relayed_bytes_tcp (fx : fixes) (c : cfg) (now : Z) (br : bytes) (st : state) (lc : listen_cfg)
           (p : pstate) (cn : conn) (m : message) : bytes :=
  write_message (relayed_response (step_env fx c (cn_li cn) lc now br) (cn_peer cn) (cn_peer_port cn) (cn_from cn)
                   (step_ctx st p) m).

(* THE CORE, proxy_step level, minimal hypotheses (the analogue of C02_judge_bridge_core for EvTcpData): a chunk
   holding one message, read on an open connection, is one process_message (Pipeline.proxy_step_tcp_single). *)
Theorem C02_judge_bridge_tcp_core_step :
  forall (pc : proxy_case) (stj : jstate) (fx : fixes) (now : Z) (br : bytes) (st : state) (cid : nat)
         (lc : listen_cfg) (cn : conn) (p : pstate) (data : bytes) (jin : jmsg) (m : message) (rest : bytes)
         (st' : state) (outs : list output) (vis : output -> bool) (closed : list nat),
  find (fun y => Nat.eqb (cn_id y) cid) (st_conns st) = Some cn -> cn_open cn = true ->
  nth_opt (c_listens (pc_cfg pc)) (cn_li cn) = Some lc -> nth_p (st_proxies st) (cn_li cn) = Some p ->
  j_read data = Some jin -> parse_message data = Ok (m, rest) -> trim_left rest = [] ->
  via_domain m ->
  proxy_step fx (pc_cfg pc) now br st (EvTcpData cid data) = Ok (st', outs) ->
  (forall v1 v2 vrest m4 pins',
     is_response m = true ->
     flat_view (via_hdrs m) = v1 :: v2 :: vrest ->
     outs = x_outs (fst (send_message (step_env fx (pc_cfg pc) (cn_li cn) lc now br) (hop_host v2) (hop_port v2)
                           (v_transport v2) m4 (pin_ctx st p pins'))) ->
     write_message (sent_msg m4) = relayed_bytes_tcp fx (pc_cfg pc) now br st lc p cn m ->
     dest_ok pc stj (j_dest (pc_cfg pc) (v_transport v2) (hop_host v2) (hop_port v2))
             (msgs_of (map B13.labelled (filter vis outs))) = true) ->
  judge_C02_event pc stj (EvTcpData cid data) (map B13.labelled (filter vis outs)) closed = O.
Proof.
  intros pc stj fx now br st cid lc cn p data jin m rest st' outs vis closed
         HF HO EL EP HJ HP HT HV H Hdest.
  destruct (proxy_step_tcp_single _ _ _ _ _ _ _ _ _ _ _ _ _ _ HF HO EL EP HP HT H) as (x' & E & _ & ->).
  exact (C02_judge_bridge_tcp_core_msg pc stj (step_env fx (pc_cfg pc) (cn_li cn) lc now br) cid
           (cn_peer cn) (cn_peer_port cn) (cn_from cn) (cn_received_support cn) (Some (cn_id cn))
           data jin m rest (step_ctx st p) x' (x_outs x') vis closed HJ HP HV E eq_refl Hdest).
Qed.

(* The hypotheses on [js_conns] and cn_from are not used. *)
Theorem C02_judge_bridge_tcp_step :
  forall (pc : proxy_case) (stj : jstate) (fx : fixes) (now : Z) (br : bytes) (st : state) (cid li : nat)
         (lc : listen_cfg) (cn : conn) (p : pstate) (data : bytes) (jin : jmsg) (m : message) (rest : bytes)
         (st' : state) (outs : list output) (vis : output -> bool) (closed : list nat),
  nth_opt (c_listens (pc_cfg pc)) li = Some lc ->
  find (fun y => Nat.eqb (cn_id y) cid) (st_conns st) = Some cn ->
  find (fun y => Nat.eqb (fst y) cid) (js_conns stj) = Some (cid, (li, cn_peer cn, cn_peer_port cn)) ->
  cn_li cn = li -> cn_open cn = true ->
  cn_from cn = {| t_kind := KTcpListen; t_addr := lc_addr lc; t_port := lc_tcp lc |} ->
  nth_p (st_proxies st) li = Some p ->
  j_read data = Some jin -> parse_message data = Ok (m, rest) -> trim_left rest = [] ->
  via_domain m ->
  proxy_step fx (pc_cfg pc) now br st (EvTcpData cid data) = Ok (st', outs) ->
  (forall v1 v2 vrest m4 pins',
     is_response m = true ->
     flat_view (via_hdrs m) = v1 :: v2 :: vrest ->
     outs = x_outs (fst (send_message (step_env fx (pc_cfg pc) li lc now br) (hop_host v2) (hop_port v2)
                           (v_transport v2) m4 (pin_ctx st p pins'))) ->
     write_message (sent_msg m4) = relayed_bytes_tcp fx (pc_cfg pc) now br st lc p cn m ->
     dest_ok pc stj (j_dest (pc_cfg pc) (v_transport v2) (hop_host v2) (hop_port v2))
             (msgs_of (map B13.labelled (filter vis outs))) = true) ->
  judge_C02_event pc stj (EvTcpData cid data) (map B13.labelled (filter vis outs)) closed = O.
Proof.
  intros pc stj fx now br st cid li lc cn p data jin m rest st' outs vis closed
         EL HF _ HLi HO _ EP HJ HP HT HV H Hdest. subst li.
  exact (C02_judge_bridge_tcp_core_step pc stj fx now br st cid lc cn p data jin m rest st' outs vis closed
           HF HO EL EP HJ HP HT HV H Hdest).
Qed.

(* ---------------------------------------------------------------- the destinations, as in C02_bridge.v Part 5 *)
(* (a) the next Via entry says UDP, host resolvable.  No agreement between judge state and model state. *)
Theorem C02_judge_bridge_tcp_step_udp :
  forall (pc : proxy_case) (stj : jstate) (fx : fixes) (now : Z) (br : bytes) (st : state) (cid : nat)
         (lc : listen_cfg) (cn : conn) (p : pstate) (data : bytes) (jin : jmsg) (m : message) (rest : bytes)
         (st' : state) (outs : list output) (closed : list nat)
         (v1 v2 : via_param) (vrest : list via_param) (ip : bytes),
  find (fun y => Nat.eqb (cn_id y) cid) (st_conns st) = Some cn -> cn_open cn = true ->
  nth_opt (c_listens (pc_cfg pc)) (cn_li cn) = Some lc -> nth_p (st_proxies st) (cn_li cn) = Some p ->
  j_read data = Some jin -> parse_message data = Ok (m, rest) -> trim_left rest = [] ->
  via_domain m ->
  flat_view (via_hdrs m) = v1 :: v2 :: vrest ->
  to_lower (v_transport v2) = s2b "udp" ->
  get_ip (pc_cfg pc) (hop_host v2) = Some ip -> resolvable ip (hop_port v2) = true ->
  udp_slot_ok ip (hop_port v2) p ->
  fits_datagram (relayed_bytes_tcp fx (pc_cfg pc) now br st lc p cn m) = true ->
  proxy_step fx (pc_cfg pc) now br st (EvTcpData cid data) = Ok (st', outs) ->
  judge_C02_event pc stj (EvTcpData cid data)
    (map B13.labelled (filter (visible (pc_udp_endpoints pc)) outs)) closed = O.
Proof.
  intros pc stj fx now br st cid lc cn p data jin m rest st' outs closed v1 v2 vrest ip
         HF HO EL EP HJ HP HT HV FV Htr Hip Hres Hslot Hfit H.
  apply (C02_judge_bridge_tcp_core_step pc stj fx now br st cid lc cn p data jin m rest st' outs _ closed
           HF HO EL EP HJ HP HT HV H).
  intros v1' v2' vrest' m4 pins' Hr FV' EO EB. rewrite FV in FV'. injection FV' as <- <- <-.
  rewrite <- EB in Hfit.
  exact (dest_udp pc stj (step_env fx (pc_cfg pc) (cn_li cn) lc now br) _ _ _ m4 (pin_ctx st p pins') ip outs
           Htr Hip Hres Hslot Hfit EO).
Qed.

(* (b) at most one Via entry: nothing is relayed *)
Theorem C02_judge_bridge_tcp_step_drop :
  forall (pc : proxy_case) (stj : jstate) (fx : fixes) (now : Z) (br : bytes) (st : state) (cid : nat)
         (lc : listen_cfg) (cn : conn) (p : pstate) (data : bytes) (jin : jmsg) (m : message) (rest : bytes)
         (st' : state) (outs : list output) (vis : output -> bool) (closed : list nat),
  find (fun y => Nat.eqb (cn_id y) cid) (st_conns st) = Some cn -> cn_open cn = true ->
  nth_opt (c_listens (pc_cfg pc)) (cn_li cn) = Some lc -> nth_p (st_proxies st) (cn_li cn) = Some p ->
  j_read data = Some jin -> parse_message data = Ok (m, rest) -> trim_left rest = [] ->
  via_domain m ->
  (List.length (flat_view (via_hdrs m)) <= 1)%nat ->
  proxy_step fx (pc_cfg pc) now br st (EvTcpData cid data) = Ok (st', outs) ->
  judge_C02_event pc stj (EvTcpData cid data) (map B13.labelled (filter vis outs)) closed = O.
Proof.
  intros pc stj fx now br st cid lc cn p data jin m rest st' outs vis closed
         HF HO EL EP HJ HP HT HV Hlen H.
  apply (C02_judge_bridge_tcp_core_step pc stj fx now br st cid lc cn p data jin m rest st' outs vis closed
           HF HO EL EP HJ HP HT HV H).
  intros v1 v2 vrest m4 pins' _ FV _ _. rewrite FV in Hlen. cbn [List.length] in Hlen. lia.
Qed.

(* (c) a transport that is neither udp nor tcp *)
Theorem C02_judge_bridge_tcp_step_unsupported :
  forall (pc : proxy_case) (stj : jstate) (fx : fixes) (now : Z) (br : bytes) (st : state) (cid : nat)
         (lc : listen_cfg) (cn : conn) (p : pstate) (data : bytes) (jin : jmsg) (m : message) (rest : bytes)
         (st' : state) (outs : list output) (vis : output -> bool) (closed : list nat)
         (v1 v2 : via_param) (vrest : list via_param),
  find (fun y => Nat.eqb (cn_id y) cid) (st_conns st) = Some cn -> cn_open cn = true ->
  nth_opt (c_listens (pc_cfg pc)) (cn_li cn) = Some lc -> nth_p (st_proxies st) (cn_li cn) = Some p ->
  j_read data = Some jin -> parse_message data = Ok (m, rest) -> trim_left rest = [] ->
  via_domain m ->
  flat_view (via_hdrs m) = v1 :: v2 :: vrest ->
  supported_proto (to_lower (v_transport v2)) = false ->
  proxy_step fx (pc_cfg pc) now br st (EvTcpData cid data) = Ok (st', outs) ->
  judge_C02_event pc stj (EvTcpData cid data) (map B13.labelled (filter vis outs)) closed = O.
Proof.
  intros pc stj fx now br st cid lc cn p data jin m rest st' outs vis closed v1 v2 vrest
         HF HO EL EP HJ HP HT HV FV Hun H.
  apply (C02_judge_bridge_tcp_core_step pc stj fx now br st cid lc cn p data jin m rest st' outs vis closed
           HF HO EL EP HJ HP HT HV H).
  intros v1' v2' vrest' m4 pins' Hr FV' EO EB. rewrite FV in FV'. injection FV' as <- <- <-.
  exact (dest_unsupported pc stj (step_env fx (pc_cfg pc) (cn_li cn) lc now br) _ _ _ m4 (pin_ctx st p pins') outs vis Hun EO).
Qed.

(* (d) udp or tcp, the host is not in the host table (judge: JAny = at most one message, whose Via stack is
   then checked) *)
Theorem C02_judge_bridge_tcp_step_unresolved :
  forall (pc : proxy_case) (stj : jstate) (fx : fixes) (now : Z) (br : bytes) (st : state) (cid : nat)
         (lc : listen_cfg) (cn : conn) (p : pstate) (data : bytes) (jin : jmsg) (m : message) (rest : bytes)
         (st' : state) (outs : list output) (vis : output -> bool) (closed : list nat)
         (v1 v2 : via_param) (vrest : list via_param),
  find (fun y => Nat.eqb (cn_id y) cid) (st_conns st) = Some cn -> cn_open cn = true ->
  nth_opt (c_listens (pc_cfg pc)) (cn_li cn) = Some lc -> nth_p (st_proxies st) (cn_li cn) = Some p ->
  j_read data = Some jin -> parse_message data = Ok (m, rest) -> trim_left rest = [] ->
  via_domain m ->
  flat_view (via_hdrs m) = v1 :: v2 :: vrest ->
  get_ip (pc_cfg pc) (hop_host v2) = None ->
  proxy_step fx (pc_cfg pc) now br st (EvTcpData cid data) = Ok (st', outs) ->
  judge_C02_event pc stj (EvTcpData cid data) (map B13.labelled (filter vis outs)) closed = O.
Proof.
  intros pc stj fx now br st cid lc cn p data jin m rest st' outs vis closed v1 v2 vrest
         HF HO EL EP HJ HP HT HV FV Hip H.
  apply (C02_judge_bridge_tcp_core_step pc stj fx now br st cid lc cn p data jin m rest st' outs vis closed
           HF HO EL EP HJ HP HT HV H).
  intros v1' v2' vrest' m4 pins' Hr FV' EO EB. rewrite FV in FV'. injection FV' as <- <- <-.
  exact (dest_unresolved pc stj (step_env fx (pc_cfg pc) (cn_li cn) lc now br) _ _ _ m4 (pin_ctx st p pins') outs vis Hip EO).
Qed.

(* (e) TCP.  PARTIAL in the sense of C02_judge_bridge_step_tcp_partial: the agreement [tcp_quiet_ok] is stated on
   the OUTPUTS of the step (when nothing was written the judge must know neither a listener nor an open
   connection for that address); what is missing for a statement on the states alone is described there.
   Note that on a TCP event the judge's bookkeeping is never empty (it holds at least the connection the
   chunk came on), so [tcp_quiet_ok] has content: e.g. a response whose next hop is the very peer of the
   connection is NOT written by the model while the judge demands it (see [tcp_quiet_ok_needed] in Part 4). *)
Theorem C02_judge_bridge_tcp_step_tcp_partial :
  forall (pc : proxy_case) (stj : jstate) (fx : fixes) (now : Z) (br : bytes) (st : state) (cid : nat)
         (lc : listen_cfg) (cn : conn) (p : pstate) (data : bytes) (jin : jmsg) (m : message) (rest : bytes)
         (st' : state) (outs : list output) (closed : list nat)
         (v1 v2 : via_param) (vrest : list via_param) (ip : bytes),
  find (fun y => Nat.eqb (cn_id y) cid) (st_conns st) = Some cn -> cn_open cn = true ->
  nth_opt (c_listens (pc_cfg pc)) (cn_li cn) = Some lc -> nth_p (st_proxies st) (cn_li cn) = Some p ->
  j_read data = Some jin -> parse_message data = Ok (m, rest) -> trim_left rest = [] ->
  via_domain m ->
  flat_view (via_hdrs m) = v1 :: v2 :: vrest ->
  to_lower (v_transport v2) = s2b "tcp" ->
  get_ip (pc_cfg pc) (hop_host v2) = Some ip ->
  fx_udp_via_listener fx = true -> tcp_slot_ok p ->
  proxy_step fx (pc_cfg pc) now br st (EvTcpData cid data) = Ok (st', outs) ->
  tcp_quiet_ok pc stj ip (hop_port v2) outs ->
  judge_C02_event pc stj (EvTcpData cid data)
    (map B13.labelled (filter (visible (pc_udp_endpoints pc)) outs)) closed = O.
Proof.
  intros pc stj fx now br st cid lc cn p data jin m rest st' outs closed v1 v2 vrest ip
         HF HO EL EP HJ HP HT HV FV Htr Hip Hfx Hslot H HQ.
  apply (C02_judge_bridge_tcp_core_step pc stj fx now br st cid lc cn p data jin m rest st' outs _ closed
           HF HO EL EP HJ HP HT HV H).
  intros v1' v2' vrest' m4 pins' Hr FV' EO EB. rewrite FV in FV'. injection FV' as <- <- <-.
  exact (dest_tcp pc stj (step_env fx (pc_cfg pc) (cn_li cn) lc now br) _ _ _ m4 (pin_ctx st p pins') ip outs
           Hfx Htr Hip Hslot EO HQ).
Qed.

(* ... in particular: whenever the model wrote the response on a connection, the judge accepts *)
Corollary C02_judge_bridge_tcp_step_tcp_sent :
  forall (pc : proxy_case) (stj : jstate) (fx : fixes) (now : Z) (br : bytes) (st : state) (cid : nat)
         (lc : listen_cfg) (cn : conn) (p : pstate) (data : bytes) (jin : jmsg) (m : message) (rest : bytes)
         (st' : state) (outs : list output) (closed : list nat)
         (v1 v2 : via_param) (vrest : list via_param) (ip : bytes),
  find (fun y => Nat.eqb (cn_id y) cid) (st_conns st) = Some cn -> cn_open cn = true ->
  nth_opt (c_listens (pc_cfg pc)) (cn_li cn) = Some lc -> nth_p (st_proxies st) (cn_li cn) = Some p ->
  j_read data = Some jin -> parse_message data = Ok (m, rest) -> trim_left rest = [] ->
  via_domain m ->
  flat_view (via_hdrs m) = v1 :: v2 :: vrest ->
  to_lower (v_transport v2) = s2b "tcp" ->
  get_ip (pc_cfg pc) (hop_host v2) = Some ip ->
  fx_udp_via_listener fx = true -> tcp_slot_ok p ->
  proxy_step fx (pc_cfg pc) now br st (EvTcpData cid data) = Ok (st', outs) ->
  filter C06.is_msg outs <> [] ->
  judge_C02_event pc stj (EvTcpData cid data)
    (map B13.labelled (filter (visible (pc_udp_endpoints pc)) outs)) closed = O.
Proof.
  intros pc stj fx now br st cid lc cn p data jin m rest st' outs closed v1 v2 vrest ip
         HF HO EL EP HJ HP HT HV FV Htr Hip Hfx Hslot H NE.
  apply (C02_judge_bridge_tcp_step_tcp_partial pc stj fx now br st cid lc cn p data jin m rest st' outs closed
           v1 v2 vrest ip HF HO EL EP HJ HP HT HV FV Htr Hip Hfx Hslot H).
  intros E. exfalso. exact (NE E).
Qed.

(* first use of a TCP address by this listener: everything from the states ([tcp_fresh], [tcp_agree] of
   C02_bridge.v).  On a TCP event [tcp_agree] says in particular: when the judge has booked a connection to
   ip:port (for instance the one the chunk came on), ip:port listens in the model's world. *)
Theorem C02_judge_bridge_tcp_step_tcp_fresh :
  forall (pc : proxy_case) (stj : jstate) (fx : fixes) (now : Z) (br : bytes) (st : state) (cid : nat)
         (lc : listen_cfg) (cn : conn) (p : pstate) (data : bytes) (jin : jmsg) (m : message) (rest : bytes)
         (st' : state) (outs : list output) (closed : list nat)
         (v1 v2 : via_param) (vrest : list via_param) (ip : bytes),
  tcp_agree pc stj st ip (hop_port v2) ->
  find (fun y => Nat.eqb (cn_id y) cid) (st_conns st) = Some cn -> cn_open cn = true ->
  nth_opt (c_listens (pc_cfg pc)) (cn_li cn) = Some lc -> nth_p (st_proxies st) (cn_li cn) = Some p ->
  j_read data = Some jin -> parse_message data = Ok (m, rest) -> trim_left rest = [] ->
  via_domain m ->
  flat_view (via_hdrs m) = v1 :: v2 :: vrest ->
  to_lower (v_transport v2) = s2b "tcp" ->
  get_ip (pc_cfg pc) (hop_host v2) = Some ip ->
  fx_udp_via_listener fx = true -> tcp_fresh ip (hop_port v2) p ->
  proxy_step fx (pc_cfg pc) now br st (EvTcpData cid data) = Ok (st', outs) ->
  judge_C02_event pc stj (EvTcpData cid data)
    (map B13.labelled (filter (visible (pc_udp_endpoints pc)) outs)) closed = O.
Proof.
  intros pc stj fx now br st cid lc cn p data jin m rest st' outs closed v1 v2 vrest ip
         (AG1 & AG2) HF HO EL EP HJ HP HT HV FV Htr Hip Hfx Hfresh H.
  apply (C02_judge_bridge_tcp_core_step pc stj fx now br st cid lc cn p data jin m rest st' outs _ closed
           HF HO EL EP HJ HP HT HV H).
  intros v1' v2' vrest' m4 pins' Hr FV' EO EB. rewrite FV in FV'. injection FV' as <- <- <-.
  exact (dest_tcp_fresh pc stj (step_env fx (pc_cfg pc) (cn_li cn) lc now br) _ _ _ m4 (pin_ctx st p pins') ip outs
           AG1 AG2 Hfx Htr Hip Hfresh EO).
Qed.

(* ====================================================================== Part 3: what EvTcpAccept records *)
(* The record the model files for an accepted connection is open, carries the listen entry of the accept, the
   peer and port of the event, and the listener's KTcpListen transport; the judge's bookkeeping [js_step]
   files (js_next_conn, (li, src, sport)) for the same event.  So the hypotheses of the step theorems on the
   model's record (found, open, listen entry) are those of a connection the model itself accepted (and the
   unused hypotheses of _tcp_msg / _tcp_step hold of it as well). *)
Lemma C02_tcp_accept_records fx c now br st li src sport lc p :
  nth_opt (c_listens c) li = Some lc -> nth_p (st_proxies st) li = Some p ->
  exists st' rs, proxy_step fx c now br st (EvTcpAccept li src sport) = Ok (st', []) /\
    st_conns st' = st_conns st ++
      [{| cn_id := w_next_conn (st_world st); cn_li := li; cn_open := true; cn_peer := src; cn_peer_port := sport;
          cn_from := {| t_kind := KTcpListen; t_addr := lc_addr lc; t_port := lc_tcp lc |};
          cn_received_support := rs |}].
Proof.
  intros EL EP. cbn [proxy_step]. rewrite EL, EP. cbv zeta.
  destruct (get_transport _ _ _ _ _ _) as [p1 rk].
  eexists. eexists. split; reflexivity.
Qed.

Lemma js_step_accept_records stj li src sport outs :
  js_conns (js_step stj (EvTcpAccept li src sport) outs) =
  (js_conns stj ++ [(js_next_conn stj, (li, src, sport))]) ++ dialled O outs.
Proof. reflexivity. Qed.

(* ====================================================================== Part 4: examples *)
(* a decidable form of [tcp_slot_ok], for concrete states *)
Definition tcp_slot_ok_b (p : pstate) : bool :=
  forallb (fun kf => negb (has_prefix (s2b "tcp://") (fst kf)) ||
                     match fo_pri (snd kf) with
                     | Some (PUdp _ _) | Some (PUdpVia _ _) => false
                     | _ => true
                     end) (ps_table p).
Lemma tcp_slot_ok_b_sound p : tcp_slot_ok_b p = true -> tcp_slot_ok p.
Proof.
  unfold tcp_slot_ok_b, tcp_slot_ok. intros H k f I Hk ip port. rewrite forallb_forall in H.
  specialize (H (k, f) I). cbn [fst snd] in H. rewrite Hk in H. cbn [negb orb] in H.
  destruct (fo_pri f) as [[a b|a b|c0 ex]|]; try discriminate H; split; discriminate.
Qed.

Module C02_bridge_tcp_example.
Import C02_bridge_example.
Open Scope string_scope.
Open Scope list_scope.
Open Scope Z_scope.

(* the peer 10.0.0.2:5070 connects to the listener; then sends on the connection the response of
   C02_bridge_example.ex_data (three Via entries: the proxy's own and one with received=127.0.0.9;rport=40000 in
   a comma list, a third under the compact name) followed by a keep-alive CR LF *)
Definition tx_accept : event := EvTcpAccept 0 ex_src 5070.
Definition tx_data : bytes := ex_data ++ crlf.
Definition tx_ev : event := EvTcpData 0 tx_data.
Definition tx_st1 : state :=
  match proxy_step all_fixed ex_cfg 0 ex_br ex_st tx_accept with Ok (s, _) => s | _ => ex_st end.
Definition tx_p : pstate := match nth_p (st_proxies tx_st1) 0 with Some p => p | None => ex_p end.
Definition tx_step (b : bytes) : res (state * list output) :=
  proxy_step all_fixed ex_cfg 0 ex_br tx_st1 (EvTcpData 0 b).
Definition tx_outs_of (b : bytes) : list output := match tx_step b with Ok (_, o) => o | _ => [] end.
Definition tx_seen (b : bytes) : list (bytes * bytes) :=
  map B13.labelled (filter (visible (pc_udp_endpoints ex_pc)) (tx_outs_of b)).
(* one run of [tx_step], handed on in the words of the step theorems (see C02_bridge_example.step_outs) *)
Lemma tx_step_outs b s o : tx_step b = Ok (s, o) ->
  proxy_step all_fixed (pc_cfg ex_pc) 0 ex_br tx_st1 (EvTcpData 0 b) = Ok (s, tx_outs_of b).
Proof.
  change (proxy_step all_fixed (pc_cfg ex_pc) 0 ex_br tx_st1 (EvTcpData 0 b)) with (tx_step b).
  unfold tx_outs_of. intros ->. reflexivity.
Qed.
(* judge: the bookkeeping after the accept *)
Definition tx_stj1 : jstate := js_step_c (js_init ex_cfg) tx_accept [] [].
(* the model's record of the connection *)
Definition tx_cn : conn :=
  {| cn_id := 0; cn_li := 0; cn_open := true; cn_peer := ex_src; cn_peer_port := 5070;
     cn_from := {| t_kind := KTcpListen; t_addr := lc_addr ex_lc; t_port := lc_tcp ex_lc |};
     cn_received_support := received_on ex_lc |}.

Example tx_accept_ok : proxy_step all_fixed ex_cfg 0 ex_br ex_st tx_accept = Ok (tx_st1, []).
Proof. vm_compute. reflexivity. Qed.
Example tx_conn_found : find (fun y => Nat.eqb (cn_id y) 0) (st_conns tx_st1) = Some tx_cn.
Proof. vm_compute. reflexivity. Qed.
Example tx_judge_conn :
  find (fun y => Nat.eqb (fst y) 0%nat) (js_conns tx_stj1) = Some (0%nat, (0%nat, cn_peer tx_cn, cn_peer_port tx_cn)).
Proof. vm_compute. reflexivity. Qed.
Example tx_p_found : nth_p (st_proxies tx_st1) (cn_li tx_cn) = Some tx_p.
Proof. vm_compute. reflexivity. Qed.
Example tx_parse : parse_message tx_data = Ok (parsed tx_data, crlf).
Proof. vm_compute. reflexivity. Qed.
Example tx_read :
  option_map (fun jin => (j_is_response jin, jm_has_cl jin, single_message jin)) (j_read tx_data)
  = Some (true, true, true).
Proof. vm_compute. reflexivity. Qed.
Example tx_three_vias : List.length (flat_view (via_hdrs (parsed tx_data))) = 3%nat.
Proof. vm_compute. reflexivity. Qed.

(* what leaves the proxy: one datagram to received:rport of the second entry, carrying the two entries left *)
Example tx_output :
  map fst (tx_seen tx_data) = [s2b "udp:127.0.0.9:40000"] /\
  map (fun o => option_map (fun om => j_flat_via (jm_headers om)) (j_read (snd o))) (tx_seen tx_data) =
    [Some [s2b "SIP/2.0/UDP 10.9.9.9:5070;rport=40000;branch=z9hG4bKabc;received=127.0.0.9";
           s2b "SIP/2.0/TCP 10.8.8.8;branch=z9hG4bKdef"]].
Proof. pattern (tx_seen tx_data). vm_compute. split; reflexivity. Qed.

(* the hypotheses of C02_judge_bridge_tcp_step_udp hold of this instance, hence the judge accepts *)
Example C02_bridge_tcp_ex_udp :
  judge_C02_event ex_pc tx_stj1 tx_ev (tx_seen tx_data) [] = O.
Proof.
  eapply (C02_judge_bridge_tcp_step_udp ex_pc tx_stj1 all_fixed 0 ex_br tx_st1 0%nat ex_lc tx_cn tx_p tx_data
            _ _ _ _ (tx_outs_of tx_data) [] _ _ _ (s2b "127.0.0.9")).
  - exact tx_conn_found.
  - reflexivity.
  - reflexivity.
  - exact tx_p_found.
  - vc.
  - vc.
  - reflexivity.
  - apply via_domain_b_sound. vc.
  - vc.
  - vc.
  - vc.
  - vc.
  - vc.
  - vc.
  - eapply tx_step_outs. vc.
Qed.
(* ... the verdict computed directly *)
Example C02_bridge_tcp_ex_computed : judge_C02_event ex_pc tx_stj1 tx_ev (tx_seen tx_data) [] = O.
Proof. vm_compute. reflexivity. Qed.

(* C02_judge_bridge_tcp_step on the same instance (every hypothesis, the unused ones included); the
   destination check is discharged by computation on the outputs *)
Example C02_bridge_tcp_ex_step :
  judge_C02_event ex_pc tx_stj1 tx_ev (tx_seen tx_data) [] = O.
Proof.
  eapply (C02_judge_bridge_tcp_step ex_pc tx_stj1 all_fixed 0 ex_br tx_st1 0%nat 0%nat ex_lc tx_cn tx_p tx_data
            _ _ _ _ (tx_outs_of tx_data) (visible (pc_udp_endpoints ex_pc)) []).
  - reflexivity.
  - exact tx_conn_found.
  - exact tx_judge_conn.
  - reflexivity.
  - reflexivity.
  - reflexivity.
  - exact tx_p_found.
  - vc.
  - vc.
  - reflexivity.
  - apply via_domain_b_sound. vc.
  - eapply tx_step_outs. vc.
  - intros v1 v2 vrest m4 pins' _ FV _ _. vm_compute in FV. injection FV as _ <- _. vm_compute. reflexivity.
Qed.

(* the message-level theorem on the same instance *)
Definition tx_e : env := step_env all_fixed ex_cfg 0 ex_lc 0 ex_br.
Definition tx_x : ctx := step_ctx tx_st1 tx_p.
Definition tx_x' : ctx :=
  match process_message tx_e (cn_peer tx_cn) (cn_peer_port tx_cn) (cn_from tx_cn) (cn_received_support tx_cn)
                        (Some (cn_id tx_cn)) (parsed tx_data) tx_x
  with Ok y => y | _ => tx_x end.
Example C02_bridge_tcp_ex_msg :
  judge_C02_event ex_pc tx_stj1 tx_ev
    (map B13.labelled (filter (visible (pc_udp_endpoints ex_pc)) (x_outs tx_x'))) [] = O.
Proof.
  eapply (C02_judge_bridge_tcp_msg_udp ex_pc tx_stj1 tx_e 0%nat (cn_peer tx_cn) (cn_peer_port tx_cn) (cn_from tx_cn)
            (cn_received_support tx_cn) (Some (cn_id tx_cn)) tx_data _ _ _
            tx_x tx_x' (x_outs tx_x') [] _ _ _ (s2b "127.0.0.9")).
  - reflexivity.
  - vc.
  - vc.
  - apply via_domain_b_sound. vc.
  - vc.
  - vc.
  - vc.
  - vc.
  - vc.
  - vc.
  - vc.
  - cbn [tx_x step_ctx x_outs app]. reflexivity.
Qed.
Example tx_msg_outs : x_outs tx_x' = tx_outs_of tx_data.
Proof. vm_compute. reflexivity. Qed.

(* SENSITIVITY.  The judge does look: the same bytes at another address are rejected (1), the received
   response relayed unchanged to the right address is rejected for its Via stack (2), nothing relayed at
   all is rejected (1: the destination is observed) *)
Example C02_bridge_tcp_ex_sensitive :
  judge_C02_event ex_pc tx_stj1 tx_ev
    [(s2b "udp:10.9.9.9:5070", match tx_outs_of tx_data with (_, b) :: _ => b | [] => [] end)] [] = 1%nat /\
  judge_C02_event ex_pc tx_stj1 tx_ev [(s2b "udp:127.0.0.9:40000", ex_data)] [] = 2%nat /\
  judge_C02_event ex_pc tx_stj1 tx_ev [] [] = 1%nat.
Proof. repeat apply conj; vm_compute; reflexivity. Qed.
(* without the judge's record of the connection there is no verdict *)
Example C02_bridge_tcp_ex_unknown_conn :
  judge_C02_event ex_pc (js_init ex_cfg) tx_ev [(s2b "udp:10.9.9.9:5070", ex_data)] [] = O.
Proof. vm_compute. reflexivity. Qed.
(* [cn_open cn = true] is needed: the same chunk on the same connection once the model holds it for closed yields no
   output, and the judge (bookkeeping unchanged) answers 1 *)
Definition tx_st1_closed : state :=
  {| st_learned := st_learned tx_st1; st_proxies := st_proxies tx_st1; st_conns := close_conn 0 (st_conns tx_st1);
     st_world := st_world tx_st1 |}.
Example C02_bridge_tcp_open_needed :
  match proxy_step all_fixed ex_cfg 0 ex_br tx_st1_closed tx_ev with
  | Ok (_, o) => judge_C02_event ex_pc tx_stj1 tx_ev (map B13.labelled (filter (visible (pc_udp_endpoints ex_pc)) o)) []
  | _ => O
  end = 1%nat.
Proof. vm_compute. reflexivity. Qed.

(* A TCP NEXT HOP.  The next Via entry names TCP and 10.8.8.8:5080, which listens: the model dials and writes
   on the new connection (conn:1; conn:0 is the accepted one).  C02_judge_bridge_tcp_step_tcp_sent applies, and
   so does C02_judge_bridge_tcp_step_tcp_fresh (first use of that address; the table holds the slot of the
   accepted connection only). *)
Definition tx_tcp : bytes := ex_tcp ++ crlf.
Example tx_tcp_outputs : map fst (tx_seen tx_tcp) = [s2b "dial:10.8.8.8:5080"; s2b "conn:1"].
Proof. vm_compute. reflexivity. Qed.
Example C02_bridge_tcp_ex_tcp_sent :
  judge_C02_event ex_pc tx_stj1 (EvTcpData 0 tx_tcp) (tx_seen tx_tcp) [] = O.
Proof.
  eapply (C02_judge_bridge_tcp_step_tcp_sent ex_pc tx_stj1 all_fixed 0 ex_br tx_st1 0%nat ex_lc tx_cn tx_p tx_tcp
            _ _ _ _ (tx_outs_of tx_tcp) [] _ _ _ (s2b "10.8.8.8")).
  - exact tx_conn_found.
  - reflexivity.
  - reflexivity.
  - exact tx_p_found.
  - vc.
  - vc.
  - reflexivity.
  - apply via_domain_b_sound. vc.
  - vc.
  - vc.
  - vc.
  - reflexivity.
  - apply tcp_slot_ok_b_sound. vc.
  - eapply tx_step_outs. vc.
  - intros X. vm_compute in X. discriminate X.
Qed.
Example C02_bridge_tcp_ex_tcp_fresh :
  judge_C02_event ex_pc tx_stj1 (EvTcpData 0 tx_tcp) (tx_seen tx_tcp) [] = O.
Proof.
  eapply (C02_judge_bridge_tcp_step_tcp_fresh ex_pc tx_stj1 all_fixed 0 ex_br tx_st1 0%nat ex_lc tx_cn tx_p tx_tcp
            _ _ _ _ (tx_outs_of tx_tcp) [] _ _ _ (s2b "10.8.8.8")); cycle 1.
  - exact tx_conn_found.
  - reflexivity.
  - reflexivity.
  - exact tx_p_found.
  - vc.
  - vc.
  - reflexivity.
  - apply via_domain_b_sound. vc.
  - vc.
  - vc.
  - vc.
  - reflexivity.
  - split; [intros tid; destruct tid; vm_compute; reflexivity|vm_compute; reflexivity].
  - eapply tx_step_outs. vc.
  - split; intros _; vc.
Qed.

(* [tcp_quiet_ok] IS NOT IDLE ON A TCP EVENT (a disagreement between model and judge that the hypothesis
   excludes).  The next Via entry names TCP and the very peer of the accepted connection (10.0.0.2:5070).  The
   accept filed the connection as the PRIMARY of the slot tcp://10.0.0.2:5070; sendMessage looks the
   transaction's slot tcp://10.0.0.2:5070-<tid> up, does not find it, and creates it with the SECONDARY of the
   address slot only (get_transport: fo_pri := None, fo_sec := fo_sec f): the reconnectable client dials
   10.0.0.2:5070, nobody listens there, nothing is written.  (Only a REQUEST read on the connection files the
   connection under its transaction: pm_conn.)  The judge's bookkeeping knows a connection to that address
   (the one the chunk came on) and demands a write: reason 1.  Every hypothesis of
   C02_judge_bridge_tcp_step_tcp_partial but [tcp_quiet_ok] holds of this instance. *)
Definition tx_back : bytes := resp [own; "Via: SIP/2.0/TCP 10.0.0.2:5070;branch=z9hG4bKdef"] ++ crlf.
Example tcp_quiet_ok_needed :
  tx_outs_of tx_back = [] /\
  tcp_slot_ok tx_p /\
  to_lower (v_transport (via_n tx_back 1)) = s2b "tcp" /\
  get_ip ex_cfg (hop_host (via_n tx_back 1)) = Some (s2b "10.0.0.2") /\ hop_port (via_n tx_back 1) = 5070 /\
  jconn_to tx_stj1 (s2b "10.0.0.2") 5070 = true /\
  judge_C02_event ex_pc tx_stj1 (EvTcpData 0 tx_back) (tx_seen tx_back) [] = 1%nat.
Proof.
  assert (E : tx_outs_of tx_back = []) by vc. eassert (V : via_n tx_back 1 = _) by vc.
  unfold tx_seen. rewrite E, V.
  split; [reflexivity|]. split; [apply tcp_slot_ok_b_sound; vc|]. repeat apply conj; vm_compute; reflexivity.
Qed.

(* a single Via entry on the connection: dropped *)
Definition tx_single : bytes := ex_single ++ crlf.
Example C02_bridge_tcp_ex_drop :
  tx_outs_of tx_single = [] /\
  judge_C02_event ex_pc tx_stj1 (EvTcpData 0 tx_single) (tx_seen tx_single) [] = O.
Proof.
  split; [vc|].
  eapply (C02_judge_bridge_tcp_step_drop ex_pc tx_stj1 all_fixed 0 ex_br tx_st1 0%nat ex_lc tx_cn tx_p tx_single
            _ _ _ _ (tx_outs_of tx_single) (visible (pc_udp_endpoints ex_pc)) []).
  - exact tx_conn_found.
  - reflexivity.
  - reflexivity.
  - exact tx_p_found.
  - vc.
  - vc.
  - reflexivity.
  - apply via_domain_b_sound. vc.
  - vm_compute. lia.
  - eapply tx_step_outs. vc.
Qed.

(* Part 3 on this instance *)
Example tx_accept_records : st_conns tx_st1 = st_conns ex_st ++ [tx_cn].
Proof. vm_compute. reflexivity. Qed.
End C02_bridge_tcp_example.

Print Assumptions tcp_messages_single.
Print Assumptions C02_judge_bridge_tcp_core_msg.
Print Assumptions C02_judge_bridge_tcp_msg.
Print Assumptions C02_judge_bridge_tcp_msg_udp.
Print Assumptions C02_judge_bridge_tcp_msg_drop.
Print Assumptions C02_judge_bridge_tcp_core_step.
Print Assumptions C02_judge_bridge_tcp_step.
Print Assumptions C02_judge_bridge_tcp_step_udp.
Print Assumptions C02_judge_bridge_tcp_step_drop.
Print Assumptions C02_judge_bridge_tcp_step_unsupported.
Print Assumptions C02_judge_bridge_tcp_step_unresolved.
Print Assumptions C02_judge_bridge_tcp_step_tcp_partial.
Print Assumptions C02_judge_bridge_tcp_step_tcp_sent.
Print Assumptions C02_judge_bridge_tcp_step_tcp_fresh.
Print Assumptions C02_tcp_accept_records.
Print Assumptions C02_bridge_tcp_example.C02_bridge_tcp_ex_udp.
Print Assumptions C02_bridge_tcp_example.C02_bridge_tcp_ex_step.
Print Assumptions C02_bridge_tcp_example.C02_bridge_tcp_ex_tcp_sent.
Print Assumptions C02_bridge_tcp_example.C02_bridge_tcp_ex_tcp_fresh.
