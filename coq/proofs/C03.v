(* C03.v — "each request goes to exactly one next hop chosen by fixed precedence" (property C03).

   Main statements: C03_at_most_one, C03_at_most_one_udp, C03_at_most_one_tcp, C03_choice,
   C03_choice_outputs, C03_non_sip_route, C03_backend_member, C03_backend_member_event,
   C03_unsupported_transport_dropped, C03_unsupported_transport_event, C06_relayed_request. *)
From Coq Require Import List Ascii String ZArith Bool Arith Lia.
From Model Require Import Bytes BytesLemmas Uri Hdr Message Msg Rx Glob StaticRoute RoundRobin Pins Proxy RunProxy.
From Model.proofs Require Import MsgLemmas Pipeline MsgStages NoPanic C06 C13.
Import ListNotations.
Open Scope Z_scope.

(* ANY decoded message (request or response), any state and configuration: the outputs appended
   while it is processed contain at most one byte-carrying output *)
Theorem C03_at_most_one : forall e peer peer_port from rs tcp m x x',
  process_message e peer peer_port from rs tcp m x = Ok x' ->
  exists extra, x_outs x' = x_outs x ++ extra /\ (msg_count extra <= 1)%nat.
Proof.
  intros e peer pp from rs tcp m x x' H. destruct (process_message_sends _ _ _ _ _ _ _ _ _ H) as (_ & b & extra & O & S).
  exists extra. split; [exact O|exact (send_shape_count b extra S)].
Qed.

(* one datagram in, at most one message out *)
Theorem C03_at_most_one_udp : forall fx c now branch st li src sport data st' outs,
  proxy_step fx c now branch st (EvUdp li src sport data) = Ok (st', outs) -> (msg_count outs <= 1)%nat.
Proof.
  intros fx c now branch st li src sport data st' outs H. apply proxy_step_udp_inv in H.
  destruct H as [(_ & ->)|(lc & m & rest & p & x' & _ & _ & _ & PM & _ & ->)]; [apply Nat.le_0_l|].
  apply C03_at_most_one in PM. destruct PM as (extra & -> & C). exact C.
Qed.

Lemma Forall2_const {A B} (P : B -> Prop) (l : list A) (l' : list B) :
  Forall2 (fun _ b => P b) l l' -> List.length l = List.length l' /\ Forall P l'.
Proof.
  induction 1 as [|a b l l' Pb _ (L & F)]; [split; [reflexivity|constructor]|].
  split; [cbn; congruence|constructor; assumption].
Qed.

(* a TCP chunk: the outputs split into one group per processed message, each group with at most
   one byte-carrying output; there are no more groups than messages in the chunk *)
Theorem C03_at_most_one_tcp : forall fx c now branch st cid data st' outs,
  proxy_step fx c now branch st (EvTcpData cid data) = Ok (st', outs) ->
  exists chunks, outs = List.concat chunks /\
                 (List.length chunks <= List.length (parse_stream (S (List.length data)) data))%nat /\
                 Forall (fun ch => (msg_count ch <= 1)%nat) chunks.
Proof.
  intros fx c now branch st cid data st' outs H. apply proxy_step_tcp_inv in H.
  destruct H as [(_ & ->)|(cn & lc & p & x' & _ & _ & _ & _ & _ & TM & _ & ->)].
  - exists []. split; [reflexivity|]. split; [apply Nat.le_0_l|constructor].
  - apply (tcp_messages_outs (fun _ ch => (msg_count ch <= 1)%nat)) in TM; [|intros m x y E; exact (C03_at_most_one _ _ _ _ _ _ _ _ _ E)].
    destruct TM as (chunks & O & F). apply Forall2_const in F. destruct F as (L & F).
    exists chunks. split; [exact O|]. split; [|exact F].
    rewrite <- L, firstn_length. apply Nat.le_min_r.
Qed.

Inductive hop :=
| HopAddr (host : bytes) (port : Z) (transport : bytes)   (* relay to this address *)
| HopBackend                                              (* hand to the service's backends *)
| HopNone                                                 (* drop *)
| HopOut.                                                 (* outside the property's quantifier *)

(* the decoded To header *)
Definition decoded_to (m : message) : option fromto :=
  match get_header (s2b "To") (m_headers m) with
  | Some h => match h_val h with
              | HTo f => Some f
              | HRaw s => match parse_fromto s with Ok f => Some f | _ => None end
              | _ => None
              end
  | None => None
  end.

(* (2) the static route configured for the host of the To SIP URI *)
Definition static_hop (rt : route_table) (m : message) : option (bytes * Z * bytes) :=
  match decoded_to m with
  | Some t => match fromto_host t with
              | Some h => match find_route rt h with
                          | Some it => Some (ri_host it, ri_port it, ri_proto it)
                          | None => None
                          end
              | None => None
              end
  | None => None
  end.

(* (2) then (3): a backend if the Request-URI names the service or the receiving listener *)
Definition lower_choice (c : cfg) (from : stransport) (m : message) : hop :=
  match static_hop (route_table_of c) m with
  | Some (h, p, t) => HopAddr h p t
  | None => if is_my_message (new_my_name (c_name c)) from m then HopBackend else HopNone
  end.

(* the Route entries that remain once the proxy's own entry has been consumed *)
Definition remaining_routes (c : cfg) (from : stransport) (m : message) : list rentry :=
  drop_own c from (route_view m).

(* the hop property C03 (properties.jsonl) prescribes.  (1) the SIP URI of the first remaining Route entry:
   host, port or 5060 (5061 for transport=tls), transport parameter or udp; (2); (3); else none.
   The quantifier of the property only has sip: Route URIs: a first remaining entry that is not
   a SIP URI, or a Route header that does not decode, is [HopOut]. *)
Definition choose_hop (c : cfg) (from : stransport) (m : message) : hop :=
  match remaining_routes c from m with
  | EDec rp :: _ =>
      match na_addr (r_addr rp) with
      | ASip u => HopAddr (u_host u) (sip_uri_get_port u) (sip_uri_transport u)
      | AAbs _ => HopOut
      end
  | EOpaque _ :: _ => HopOut
  | [] => lower_choice c from m
  end.

(* what the code does: in the [HopOut] cases it goes on with (2) and (3) (and, for a decodable
   non-SIP entry, has already popped that entry when keep-next-hop-route is off: C13_route) *)
Definition effective_hop (c : cfg) (from : stransport) (m : message) : hop :=
  match choose_hop c from m with HopOut => lower_choice c from m | h => h end.

Lemma effective_hop_spec c from m :
  effective_hop c from m =
  match drop_own c from (route_view m) with
  | EDec rp :: _ => match na_addr (r_addr rp) with
                    | ASip u => HopAddr (u_host u) (sip_uri_get_port u) (sip_uri_transport u)
                    | AAbs _ => lower_choice c from m
                    end
  | _ => lower_choice c from m
  end.
Proof.
  unfold effective_hop, choose_hop, remaining_routes.
  destruct (drop_own c from (route_view m)) as [|[rp|v] rest];
    [destruct (lower_choice c from m); reflexivity|destruct (na_addr (r_addr rp)); reflexivity|reflexivity].
Qed.

Lemma effective_hop_in_domain c from m : choose_hop c from m <> HopOut -> effective_hop c from m = choose_hop c from m.
Proof. unfold effective_hop. destruct (choose_hop c from m); try reflexivity. intros H. contradiction. Qed.

(* ---- no decoder of the Route header panics (NoPanic.v), so neither do the getters ---- *)
Lemma s_get_route_no_panic m : snd (s_get_route m) <> Panic.
Proof.
  unfold s_get_route, typed_get. destruct (get_header (s2b "Route") (m_headers m)) as [h|]; [|discriminate].
  destruct (h_val h); try discriminate.
  pose proof (parse_all_no_panic parse_route_param (split_byte ","%char s) parse_route_param_no_panic) as H.
  unfold parse_route. destruct (parse_all parse_route_param (split_byte ","%char s)); try discriminate. contradiction.
Qed.
Lemma next_hop_by_route_no_panic keep m : snd (next_hop_by_route keep m) <> Panic.
Proof.
  unfold next_hop_by_route, mbind. pose proof (s_get_route_no_panic m) as H.
  destruct (s_get_route m) as [m1 [l| |]]; cbn [snd] in *; try discriminate; [|contradiction].
  destruct l as [|rp l]; [discriminate|].
  destruct keep.
  - unfold mret. destruct (na_addr (r_addr rp)); discriminate.
  - unfold mtry, s_pop_route, mbind. pose proof (s_get_route_no_panic m1) as H1.
    destruct (s_get_route m1) as [m2 [l2| |]]; cbn [snd] in *; try contradiction.
    + destruct l2 as [|a [|b l2]]; unfold mmodify; destruct (na_addr (r_addr rp)); discriminate.
    + destruct (na_addr (r_addr rp)); discriminate.
Qed.

(* ---- the static-route step ---- *)
Lemma decoded_to_frame m m' : frame (s2b "To") m m' -> decoded_to m' = decoded_to m.
Proof. intros (S & _). unfold decoded_to. rewrite !get_header_sel, S. reflexivity. Qed.

Lemma s_get_to_decoded m :
  match decoded_to m with Some t => snd (s_get_to m) = Ok t | None => is_ok (snd (s_get_to m)) = false end.
Proof.
  unfold decoded_to, s_get_to, typed_get. destruct (get_header (s2b "To") (m_headers m)) as [h|]; [|reflexivity].
  destruct (h_val h); try reflexivity. destruct (parse_fromto s); reflexivity.
Qed.

Lemma next_hop_by_config_spec rt m :
  match static_hop rt m with
  | Some v => snd (next_hop_by_config rt m) = Ok v
  | None => is_ok (snd (next_hop_by_config rt m)) = false
  end.
Proof.
  unfold static_hop, next_hop_by_config, mbind. pose proof (s_get_to_decoded m) as D.
  destruct (s_get_to m) as [m1 r]. cbn [snd] in D. destruct (decoded_to m) as [t|].
  - subst r. destruct (fromto_host t) as [h|]; [|reflexivity]. destruct (find_route rt h); reflexivity.
  - destruct r; try discriminate; reflexivity.
Qed.

(* getNextRequestHop as a function of the Route set and the decoded To *)
Lemma next_request_hop_choice keep rt m :
  let r := snd (next_request_hop keep rt m) in
  let by_config := match static_hop rt m with Some v => r = Ok v | None => is_ok r = false end in
  match route_view m with
  | EDec rp :: _ =>
      match na_addr (r_addr rp) with
      | ASip u => r = Ok (u_host u, sip_uri_get_port u, sip_uri_transport u)
      | AAbs _ => by_config
      end
  | _ => by_config
  end.
Proof.
  cbv zeta. unfold next_request_hop.
  pose proof (next_hop_by_route_pops_iff_not_keep keep m) as H.
  pose proof (next_hop_by_route_no_panic keep m) as NP.
  pose proof (mpres_next_hop_by_route _ _ (frame_edits (s2b "To")) keep dj_To_Route (frame_pop_route _ dj_To_Route) m) as F.
  destruct (next_hop_by_route keep m) as [m1 r]. cbn [fst snd] in *.
  assert (BC : r = Err -> match static_hop rt m with
                          | Some v => snd (next_hop_by_config rt m1) = Ok v
                          | None => is_ok (snd (next_hop_by_config rt m1)) = false end).
  { intros _. pose proof (next_hop_by_config_spec rt m1) as C. unfold static_hop in *.
    rewrite (decoded_to_frame m m1 F) in C. exact C. }
  destruct (route_view m) as [|[rp|v] rest].
  - destruct H as (_ & H). destruct r; try discriminate; [|contradiction]. apply BC. reflexivity.
  - destruct H as (_ & ->). destruct (na_addr (r_addr rp)); [reflexivity|]. apply BC. reflexivity.
  - destruct H as (_ & H). destruct r; try discriminate; [|contradiction]. apply BC. reflexivity.
Qed.

Lemma is_my_message_start n from m m' : m_start m' = m_start m -> is_my_message n from m' = is_my_message n from m.
Proof. intros E. unfold is_my_message. rewrite E. reflexivity. Qed.

(* what the event does when the hop is [h] *)
Definition hop_goal (e : env) (x1 : ctx) (m1 : message) (h : hop) (x' : ctx) : Prop :=
  match h with
  | HopAddr host port transport =>
      x' = fst (send_message e host port transport (decorate e (x_learned x1) host m1) x1)
  | HopBackend => x' = fst (send_to_backend e m1 x1)
  | HopNone => x' = x1
  | HopOut => False
  end.
(* the answer of getNextRequestHop and the service test on the routed message, for hop [h] *)
Definition hop_result (c : cfg) (from : stransport) (m1 : message) (r : res (bytes * Z * bytes)) (h : hop) : Prop :=
  match h with
  | HopAddr host port transport => r = Ok (host, port, transport)
  | HopBackend => is_ok r = false /\ is_my_message (new_my_name (c_name c)) from m1 = true
  | HopNone => is_ok r = false /\ is_my_message (new_my_name (c_name c)) from m1 = false
  | HopOut => False
  end.

(* what HandleMessage does with the routed message [m1] when the hop is [h] *)
Definition hop_run (e : env) (x : ctx) (m1 : message) (h : hop) : ctx * message :=
  match h with
  | HopAddr host port tr => send_message e host port tr (decorate e (x_learned x) host m1) x
  | HopBackend => send_to_backend e m1 x
  | _ => (x, m1)
  end.

Lemma dispatch_run e from x m1 r h :
  hop_result (e_cfg e) from m1 r h -> dispatch e from x m1 r = hop_run e x m1 h.
Proof.
  destruct h as [host port transport| | |]; cbn [hop_result hop_run]; [intros ->; reflexivity| | |intros []];
    intros (NK & MY); unfold dispatch; rewrite MY; destruct r; try discriminate; reflexivity.
Qed.

Lemma lower_result c from m0 m1 r :
  match static_hop (route_table_of c) m0 with Some v => r = Ok v | None => is_ok r = false end ->
  is_my_message (new_my_name (c_name c)) from m1 = is_my_message (new_my_name (c_name c)) from m0 ->
  hop_result c from m1 r (lower_choice c from m0).
Proof.
  intros BC MY. unfold lower_choice. destruct (static_hop (route_table_of c) m0) as [[[h p] t]|]; [exact BC|].
  rewrite <- MY. destruct (is_my_message _ from m1) eqn:E; split; assumption.
Qed.

(* getNextRequestHop on a message with the To header and start line of the request [m0] and its
   Route set without the own entry answers what [effective_hop] of [m0] prescribes *)
Lemma request_hop_result c from keep m0 m4 :
  route_view m4 = drop_own c from (route_view m0) -> frame (s2b "To") m0 m4 ->
  hop_result c from (fst (next_request_hop keep (route_table_of c) m4)) (snd (next_request_hop keep (route_table_of c) m4))
             (effective_hop c from m0).
Proof.
  intros V4 FT. set (rt := route_table_of c).
  pose proof (next_request_hop_choice keep rt m4) as CH. cbv zeta in CH.
  pose proof (frame_next_request_hop (s2b "Via") keep rt m4 dj_Via_Route dj_Via_To) as FN.
  destruct (next_request_hop keep rt m4) as [m1 r]. cbn [fst snd] in *.
  assert (LC : match static_hop rt m4 with Some v => r = Ok v | None => is_ok r = false end ->
               hop_result c from m1 r (lower_choice c from m0)).
  { unfold static_hop. rewrite (decoded_to_frame m0 m4 FT). intros BC. apply lower_result; [exact BC|].
    apply is_my_message_start. rewrite (proj1 (proj2 FN)). exact (proj1 (proj2 FT)). }
  rewrite effective_hop_spec, <- V4.
  destruct (route_view m4) as [|[rp|v] rest]; [apply LC, CH| |apply LC, CH].
  destruct (na_addr (r_addr rp)) as [u|s]; [exact CH|apply LC, CH].
Qed.

(* HandleMessage on a request does what [effective_hop] of the received request says; [m1] is the
   message getNextRequestHop leaves *)
Lemma request_dispatch e from m0 m4 x :
  is_request m4 = true -> route_view m4 = drop_own (e_cfg e) from (route_view m0) -> frame (s2b "To") m0 m4 ->
  let m1 := fst (next_request_hop (c_keep_next_hop (e_cfg e)) (route_table_of (e_cfg e)) m4) in
  handle_message e from m4 x =
  match effective_hop (e_cfg e) from m0 with
  | HopAddr host port tr => send_message e host port tr (decorate e (x_learned x) host m1) x
  | HopBackend => send_to_backend e m1 x
  | _ => (x, m1)
  end.
Proof.
  intros R4 V4 FT. cbv zeta. rewrite (handle_message_request e from m4 x R4).
  pose proof (request_hop_result (e_cfg e) from (c_keep_next_hop (e_cfg e)) m0 m4 V4 FT) as HR.
  destruct (next_request_hop _ _ m4) as [m1 r]. exact (dispatch_run e from x m1 r _ HR).
Qed.

(* The request as HandleMessage routes it.  [m1] is the message that is relayed: start line and
   body of [m0], the Route set after consumption (C13), all headers other than Via / CSeq / Route /
   To untouched; it is handled as [effective_hop] prescribes. *)
Lemma request_routed e peer peer_port from rs tcp m0 x x' :
  is_request m0 = true ->
  process_message e peer peer_port from rs tcp m0 x = Ok x' ->
  let c := stage_conn e tcp (stage_stamp peer peer_port rs (fst (stage_learn peer from m0 x))) (x_p x) in
  let m1 := fst (next_request_hop (c_keep_next_hop (e_cfg e)) (route_table_of (e_cfg e)) (stage_route e from (fst c))) in
  exists p1, snd c = Ok p1 /\
    same_rr (x_p x) p1 /\
    (forall nm, disjoint_names nm (s2b "Via") -> disjoint_names nm (s2b "CSeq") ->
                disjoint_names nm (s2b "Route") -> disjoint_names nm (s2b "To") -> frame nm m0 m1) /\
    via_rel m0 m1 /\
    route_view m1 = skipn (route_consumed (e_cfg e) from (c_keep_next_hop (e_cfg e)) (route_view m0)) (route_view m0) /\
    x' = fst (hop_run e (ctx_with x (learned_after peer from m0 x) p1) m1 (effective_hop (e_cfg e) from m0)).
Proof.
  intros R H. destruct (request_pipeline _ _ _ _ _ _ _ _ _ R H) as (p1 & SC & F4 & VR & V4 & SR & ->). cbv zeta in *.
  set (m4 := stage_route e from _) in *.
  set (keep := c_keep_next_hop (e_cfg e)) in *. set (rt := route_table_of (e_cfg e)) in *.
  pose proof (request_hop_result (e_cfg e) from keep m0 m4 V4 (F4 _ dj_To_Via dj_To_CSeq dj_To_Route)) as HR.
  pose proof (next_request_hop_route keep rt m4) as NR.
  pose proof (fun nm D1 D2 => frame_next_request_hop nm keep rt m4 D1 D2) as FN.
  fold rt in HR. destruct (next_request_hop keep rt m4) as [m1 r]. cbn [fst snd] in *. exists p1.
  split; [exact SC|]. split; [exact SR|].
  split; [intros nm D1 D2 D3 D4; eapply frame_trans; [apply F4; assumption|apply FN; assumption]|].
  split; [exact (via_rel_trans _ _ _ VR (via_rel_frame _ _ (FN _ dj_Via_Route dj_Via_To)))|].
  split; [rewrite NR, V4; apply (route_consumed_skipn (e_cfg e) from keep (route_view m0))|].
  rewrite (dispatch_run _ _ _ _ _ _ HR). reflexivity.
Qed.

Lemma effective_hop_not_out c from m : effective_hop c from m <> HopOut.
Proof.
  rewrite effective_hop_spec. unfold lower_choice.
  destruct (drop_own c from (route_view m)) as [|[rp|v] rest]; [|destruct (na_addr (r_addr rp)); [discriminate|]|];
    (destruct (static_hop _ m) as [[[h p] t]|]; [discriminate|destruct (is_my_message _ from m); discriminate]).
Qed.
Lemma hop_run_goal e x m1 h : h <> HopOut -> hop_goal e x m1 h (fst (hop_run e x m1 h)).
Proof. destruct h; try reflexivity. intros N. exact (N eq_refl). Qed.

(* C03_choice.  For EVERY request, state, configuration and fixes record: the event is exactly
   one call of sendMessage with the (host, port, transport) of [effective_hop], or one call of
   sendToBackend, or nothing, according to [effective_hop] — which is [choose_hop] (the property
   text) on the property's domain.  keep-next-hop-route does not occur in [choose_hop]: the flag
   has no influence on the choice.  The layout of the Route set (one comma list, several headers,
   a first header holding a single entry) is hidden in [route_view]: the entry after the own one
   is the next hop wherever it stands.
   [m1] is the message that is relayed: start line and body of [m0], the Route set after
   consumption (C13), all headers other than Via / CSeq / Route / To untouched. *)
Theorem C03_choice : forall e peer peer_port from rs tcp m0 x x',
  is_request m0 = true ->
  process_message e peer peer_port from rs tcp m0 x = Ok x' ->
  exists m1 p1,
    let x1 := {| x_learned := learned_after peer from m0 x; x_p := p1; x_conns := x_conns x;
                 x_world := x_world x; x_outs := x_outs x |} in
    same_rr (x_p x) p1 /\
    (forall nm, disjoint_names nm (s2b "Via") -> disjoint_names nm (s2b "CSeq") ->
                disjoint_names nm (s2b "Route") -> disjoint_names nm (s2b "To") -> frame nm m0 m1) /\
    via_rel m0 m1 /\
    route_view m1 = skipn (route_consumed (e_cfg e) from (c_keep_next_hop (e_cfg e)) (route_view m0)) (route_view m0) /\
    match effective_hop (e_cfg e) from m0 with
    | HopAddr host port transport =>
        x' = fst (send_message e host port transport (decorate e (x_learned x1) host m1) x1)
    | HopBackend => x' = fst (send_to_backend e m1 x1)
    | HopNone => x' = x1
    | HopOut => False
    end.
Proof.
  intros e peer pp from rs tcp m0 x x' R H.
  destruct (request_routed _ _ _ _ _ _ _ _ _ R H) as (p1 & _ & SR & F & VR & V & ->).
  eexists _, p1. cbv zeta. split; [exact SR|]. split; [exact F|]. split; [exact VR|]. split; [exact V|].
  apply hop_run_goal, effective_hop_not_out.
Qed.

(* consequence on the wire: where the (at most one) message of the event goes *)
Theorem C03_choice_outputs : forall e peer peer_port from rs tcp m0 x x',
  is_request m0 = true ->
  process_message e peer peer_port from rs tcp m0 x = Ok x' ->
  exists extra, x_outs x' = x_outs x ++ extra /\ (msg_count extra <= 1)%nat /\
    match effective_hop (e_cfg e) from m0 with
    | HopAddr host port transport =>
        (* only through the client transport for (transport, host, port); nothing for a
           transport other than udp / tcp *)
        supported_proto (to_lower transport) = false -> extra = []
    | HopBackend =>
        extra = [] \/ exists a d b, extra = [(d, b)] /\ backend_dest a = Some d /\
                                    (In a (rr_backends (ps_rr (x_p x))) \/ exists g, backend_alive a g (x_p x) = true)
    | HopNone => extra = []
    | HopOut => False
    end.
Proof.
  intros e peer pp from rs tcp m0 x x' R H.
  destruct (C03_choice _ _ _ _ _ _ _ _ _ R H) as (m1 & p1 & SR & _ & _ & _ & CH). cbv zeta in CH.
  set (x1 := {| x_learned := learned_after peer from m0 x; x_p := p1; x_conns := x_conns x;
                x_world := x_world x; x_outs := x_outs x |}) in *.
  destruct (effective_hop (e_cfg e) from m0) as [host port transport| | |].
  - subst x'. destruct (send_message_one_msg e host port transport (decorate e (x_learned x1) host m1) x1)
      as (_ & _ & extra & O & (C & _) & U). exists extra. auto.
  - subst x'. destruct (send_to_backend_shape e m1 x1) as (_ & extra & O & D). exists extra. split; [exact O|].
    destruct SR as (R1 & R2 & _).
    destruct D as [->|(t0 & a & d & _ & _ & -> & BD & PB)].
    + split; [apply Nat.le_0_l|]. left. reflexivity.
    + split; [unfold msg_count; cbn [filter]; destruct (is_msg _); cbn [List.length]; lia|].
      right. exists a, d. eexists. split; [reflexivity|]. split; [exact BD|].
      cbn [x_p x1] in PB. destruct (pinned_backend e p1 m1) as [[a' g|]|].
      * right. exists g. unfold backend_alive in *. rewrite <- R2. exact (proj2 PB).
      * left. rewrite <- R1. exact PB.
      * left. rewrite <- R1. exact PB.
  - subst x'. exists []. cbn [x_outs x1]. rewrite app_nil_r. split; [reflexivity|]. split; [apply Nat.le_0_l|reflexivity].
  - contradiction.
Qed.

(* The case the code handles differently from a literal reading of the text, and that the
   quantifier of the property excludes (Route URIs are sip:): the first remaining entry is
   decodable but NOT a SIP URI (tel:, urn:).  The code pops that entry when keep-next-hop-route
   is off (C13_route counts it in route_consumed) and then uses the static route / the backends. *)
Theorem C03_non_sip_route : forall c from m rp rest s,
  remaining_routes c from m = EDec rp :: rest -> na_addr (r_addr rp) = AAbs s ->
  choose_hop c from m = HopOut /\ effective_hop c from m = lower_choice c from m /\
  forall keep, route_consumed c from keep (route_view m) =
               ((match route_view m with EDec e1 :: _ => if designates c from e1 then 1 else 0 | _ => 0 end) +
                (if keep then 0 else 1))%nat.
Proof.
  intros c from m rp rest s RR A. unfold effective_hop, choose_hop. rewrite RR, A. split; [reflexivity|].
  split; [reflexivity|]. intros keep. unfold route_consumed. unfold remaining_routes, drop_own in RR.
  destruct (route_view m) as [|[e1|v] r]; try discriminate.
  destruct (designates c from e1); cbn [skipn]; [rewrite RR; reflexivity|reflexivity].
Qed.

(* sendToBackend without a live pin to a backend object (no pin, or a pin to the rotation): the
   output, if any, goes to the address of an element of the rotation as it is at that moment;
   nothing is sent when the rotation is empty *)
Theorem C03_backend_member : forall e m x,
  (forall a g, pinned_backend e (x_p x) m <> Some (BObj a g)) ->
  exists extra, x_outs (fst (send_to_backend e m x)) = x_outs x ++ extra /\
    (extra = [] \/ exists a d b, extra = [(d, b)] /\ In a (rr_backends (ps_rr (x_p x))) /\ backend_dest a = Some d) /\
    (rr_backends (ps_rr (x_p x)) = [] -> extra = []).
Proof.
  intros e m x NP. destruct (send_to_backend_shape e m x) as (_ & extra & O & D). exists extra. split; [exact O|].
  assert (D' : extra = [] \/ exists a d b, extra = [(d, b)] /\ In a (rr_backends (ps_rr (x_p x))) /\ backend_dest a = Some d).
  { destruct D as [->|(t0 & a & d & _ & _ & -> & BD & PB)]; [left; reflexivity|right].
    exists a, d. eexists. split; [reflexivity|]. split; [|exact BD].
    destruct (pinned_backend e (x_p x) m) as [[a' g|]|] eqn:PE; try exact PB. exfalso. exact (NP a' g eq_refl). }
  split; [exact D'|]. intros Em. destruct D' as [->|(a & d & b & _ & I & _)]; [reflexivity|].
  rewrite Em in I. contradiction.
Qed.

(* the same at the level of the event, with the rotation of the state BEFORE the event *)
Theorem C03_backend_member_event : forall e peer peer_port from rs tcp m0 x x',
  is_request m0 = true ->
  process_message e peer peer_port from rs tcp m0 x = Ok x' ->
  effective_hop (e_cfg e) from m0 = HopBackend ->
  exists m1 p1, same_rr (x_p x) p1 /\
    ((forall a g, pinned_backend e p1 m1 <> Some (BObj a g)) ->
     exists extra, x_outs x' = x_outs x ++ extra /\
       (extra = [] \/ exists a d b, extra = [(d, b)] /\ In a (rr_backends (ps_rr (x_p x))) /\ backend_dest a = Some d) /\
       (rr_backends (ps_rr (x_p x)) = [] -> extra = [])).
Proof.
  intros e peer pp from rs tcp m0 x x' R H EH.
  destruct (C03_choice _ _ _ _ _ _ _ _ _ R H) as (m1 & p1 & SR & _ & _ & _ & CH). cbv zeta in CH. rewrite EH in CH.
  exists m1, p1. split; [exact SR|]. intros NP. subst x'.
  set (x1 := {| x_learned := learned_after peer from m0 x; x_p := p1; x_conns := x_conns x;
                x_world := x_world x; x_outs := x_outs x |}).
  destruct (C03_backend_member e m1 x1 NP) as (extra & O & D & Em). cbn [x_p x1 x_outs] in *.
  destruct SR as (R1 & _). rewrite R1 in D, Em. exists extra. auto.
Qed.

Theorem C03_unsupported_transport_dropped : forall e host port transport m x,
  to_lower transport <> s2b "udp" -> to_lower transport <> s2b "tcp" ->
  x_outs (fst (send_message e host port transport m x)) = x_outs x.
Proof.
  intros e host port transport m x N1 N2.
  destruct (send_message_one_msg e host port transport m x) as (_ & _ & extra & O & _ & U).
  rewrite O, U, app_nil_r; [reflexivity|]. unfold supported_proto.
  apply beq_neq in N1. apply beq_neq in N2. rewrite N1, N2. reflexivity.
Qed.

Theorem C03_unsupported_transport_event : forall e peer peer_port from rs tcp m0 x x' host port transport,
  is_request m0 = true ->
  process_message e peer peer_port from rs tcp m0 x = Ok x' ->
  effective_hop (e_cfg e) from m0 = HopAddr host port transport ->
  to_lower transport <> s2b "udp" -> to_lower transport <> s2b "tcp" ->
  x_outs x' = x_outs x.
Proof.
  intros e peer pp from rs tcp m0 x x' host port transport R H EH N1 N2.
  destruct (C03_choice _ _ _ _ _ _ _ _ _ R H) as (m1 & p1 & _ & _ & _ & _ & CH). cbv zeta in CH. rewrite EH in CH.
  subst x'. rewrite C03_unsupported_transport_dropped by assumption. reflexivity.
Qed.

(* The message that leaves for a request, against the received one.  [m1] is the routed message
   before the proxy inserts itself: its Via stack is the received one (entries beneath the top
   identical, the top with the same sent-by: only received / rport may have been stamped on it).
   Relayed to a next hop learned through transport t: exactly one Via of t (branch e_branch e) on
   top of that stack, Record-Route of t ahead of the received ones iff the request carried a
   Record-Route or must-record-route is set.  Next hop not learned: neither.  Backend: the same
   with the first transport of the listener. *)
Theorem C06_relayed_request : forall e peer peer_port from rs tcp m0 x x',
  is_request m0 = true ->
  process_message e peer peer_port from rs tcp m0 x = Ok x' ->
  exists m1 extra, x_outs x' = x_outs x ++ extra /\ (msg_count extra <= 1)%nat /\ via_rel m0 m1 /\
    let rr_of t := if (has_header (s2b "Record-Route") m0 || pa_must_rr (wire_proxy (e_lc e)))%bool
                   then own_record_route t :: all_rr (m_headers m0) else all_rr (m_headers m0) in
    forall o, In o extra -> is_msg o = true ->
      exists mo, snd o = write_message mo /\
        match effective_hop (e_cfg e) from m0 with
        | HopAddr host _ _ =>
            match alookup host (learned_after peer from m0 x) with
            | Some t => all_vias (m_headers mo) = pushed_via e t :: all_vias (m_headers m1) /\
                        all_rr (m_headers mo) = rr_of t
            | None => all_vias (m_headers mo) = all_vias (m_headers m1) /\
                      all_rr (m_headers mo) = all_rr (m_headers m0)
            end
        | HopBackend =>
            exists t0, first_transport (e_lc e) = Some t0 /\
                       all_vias (m_headers mo) = pushed_via e t0 :: all_vias (m_headers m1) /\
                       all_rr (m_headers mo) = rr_of t0
        | _ => False
        end.
Proof.
  intros e peer pp from rs tcp m0 x x' R H.
  destruct (request_routed _ _ _ _ _ _ _ _ _ R H) as (p1 & _ & _ & F & VR & _ & ->). cbv zeta in *.
  set (m1 := fst (next_request_hop _ _ _)) in *. set (x1 := ctx_with x (learned_after peer from m0 x) p1).
  pose proof (F _ dj_RR_Via dj_RR_CSeq dj_RR_Route dj_RR_To) as FR.
  assert (HH : has_header (s2b "Record-Route") m1 = has_header (s2b "Record-Route") m0) by (apply has_header_frame, FR).
  assert (AR : all_rr (m_headers m1) = all_rr (m_headers m0)) by (apply all_rr_sel, FR).
  assert (NIL : exists extra, x_outs x1 = x_outs x ++ extra /\ (msg_count extra <= 1)%nat /\ via_rel m0 m1 /\
                  forall o, In o extra -> is_msg o = true -> exists mo : message, snd o = write_message mo /\ False).
  { exists []. rewrite app_nil_r. split; [reflexivity|]. split; [apply Nat.le_0_l|]. split; [exact VR|intros o []]. }
  exists m1. destruct (effective_hop (e_cfg e) from m0) as [host port transport| | |]; cbn [hop_run fst]; try exact NIL.
  - destruct (send_message_one_msg e host port transport (decorate e (x_learned x1) host m1) x1)
      as (Sm & _ & extra & O & (C & Fo) & _).
    exists extra. split; [exact O|]. split; [exact C|]. split; [exact VR|]. intros o Io Mo.
    rewrite Forall_forall in Fo. eexists. split; [exact (Fo o Io Mo)|]. rewrite Sm. cbn [x_learned x1 ctx_with].
    rewrite all_vias_client_transaction.
    rewrite (all_rr_sel _ _ (proj1 (mframe_try _ _ (mframe_client_transaction _ dj_RR_Via dj_RR_CSeq) _))).
    destruct (alookup host (learned_after peer from m0 x)) as [t|] eqn:A.
    + destruct (C06_decorate_learned e _ host t m1 A) as (AV & ARR & _). rewrite AV, ARR, HH, AR. split; reflexivity.
    + rewrite (C06_not_learned_untouched e _ host m1 A), AR. split; reflexivity.
  - destruct (send_to_backend_shape e m1 x1) as (_ & extra & O & D). exists extra. split; [exact O|].
    destruct D as [->|(t0 & a & d & FT & _ & -> & _)].
    + split; [apply Nat.le_0_l|]. split; [exact VR|]. intros o [].
    + split; [apply msg_count_single|]. split; [exact VR|]. intros o [<-|[]] _. eexists. split; [reflexivity|].
      exists t0. split; [exact FT|].
      destruct (C06_backend_decorates e t0 (x_p x1) m1) as (AV & ARR). rewrite AV, ARR, HH, AR. split; reflexivity.
Qed.

Definition hop_of (c : cfg) (ruri : string) (routes : list string) (to : string) : hop :=
  choose_hop c ex_from (msg_of (req ruri [] routes to [])).
Definition cfgA := ex_cfg false true false.     (* with a default static route *)
Definition cfgB := ex_cfg false false false.    (* without *)
Definition dests (l : list (dest * string)) : list dest := map fst l.

(* (1) Route: own entry by alias (default port) then the next hop with explicit port and transport;
   own entry by address and explicit port, next hop by name with default port and transport *)
Example ex_hop_own_next :
  hop_of cfgA "sip:bob@svc.example.com" ["Route: <sip:proxy.example.com;lr>, <sip:10.0.0.9:5070;transport=tcp;lr>"%string]
         "<sip:bob@exact.example.com>" = HopAddr (s2b "10.0.0.9") 5070 (s2b "tcp") /\
  hop_of cfgA "sip:bob@svc.example.com" ["Route: <sip:10.0.0.1:5060;lr>"; "Route: <sip:next.example.com;lr>"]%string
         "<sip:bob@exact.example.com>" = HopAddr (s2b "next.example.com") 5060 (s2b "udp").
Proof. vm_compute. split; reflexivity. Qed.
(* near misses are next hops, not own entries *)
Example ex_hop_near_miss :
  hop_of cfgA "sip:bob@svc.example.com" ["Route: <sip:10.0.0.1:5061;lr>, <sip:10.0.0.9;lr>"%string] "<sip:b@x.example>"
    = HopAddr (s2b "10.0.0.1") 5061 (s2b "udp") /\
  hop_of cfgA "sip:bob@svc.example.com" ["Route: <sip:10.0.0.77:5060;lr>, <sip:10.0.0.9;lr>"%string] "<sip:b@x.example>"
    = HopAddr (s2b "10.0.0.77") 5060 (s2b "udp").
Proof. vm_compute. split; reflexivity. Qed.
(* (2) static routes: exact, wildcard, default; also when only the own Route entry was present *)
Example ex_hop_static :
  hop_of cfgA "sip:bob@svc.example.com" [] "<sip:bob@exact.example.com>" = HopAddr (s2b "10.0.2.1") 5070 (s2b "udp") /\
  hop_of cfgA "sip:bob@svc.example.com" [] "Bob <sip:bob@a.wild.example.com>;tag=9" = HopAddr (s2b "10.0.2.2") 5060 (s2b "tcp") /\
  hop_of cfgA "sip:bob@svc.example.com" [] "<sip:bob@other.example.org>" = HopAddr (s2b "10.0.2.3") 5090 (s2b "udp") /\
  hop_of cfgA "sip:bob@svc.example.com" ["Route: <sip:proxy.example.com:5060;lr>"%string] "<sip:bob@exact.example.com>"
    = HopAddr (s2b "10.0.2.1") 5070 (s2b "udp").
Proof. vm_compute. repeat split. Qed.
(* (3) service match: literal host, regular expression only, user@host, urn, listener address:port;
   a foreign Request-URI is dropped *)
Example ex_hop_backend :
  hop_of cfgB "sip:bob@svc.example.com" [] "<sip:bob@other.example.org>" = HopBackend /\
  hop_of cfgB "sip:room42@conf.example.com" [] "<sip:bob@other.example.org>" = HopBackend /\
  hop_of cfgB "sip:alice@users.example.com" [] "<sip:bob@other.example.org>" = HopBackend /\
  hop_of cfgB "urn:service:sos" [] "<sip:bob@other.example.org>" = HopBackend /\
  hop_of cfgB "sip:anyone@10.0.0.1:5060" [] "<sip:bob@other.example.org>" = HopBackend /\
  hop_of cfgB "sip:anyone@10.0.0.1" [] "<urn:service:x>" = HopBackend /\
  hop_of cfgB "sip:bob@users.example.com" [] "<sip:bob@other.example.org>" = HopNone /\
  hop_of cfgB "sip:anyone@10.0.0.1:5070" [] "<sip:bob@other.example.org>" = HopNone /\
  hop_of cfgB "tel:+15550100" [] "<sip:bob@other.example.org>" = HopNone.
Proof. vm_compute. repeat split. Qed.
(* outside the quantifier: a tel: entry after the own one *)
Example ex_hop_out :
  hop_of cfgA "sip:bob@svc.example.com" ["Route: <sip:proxy.example.com;lr>, <tel:+15550100>"%string] "<sip:bob@exact.example.com>"
    = HopOut /\
  effective_hop cfgA ex_from (msg_of (req "sip:bob@svc.example.com" []
      ["Route: <sip:proxy.example.com;lr>, <tel:+15550100>"%string] "<sip:bob@exact.example.com>" []))
    = HopAddr (s2b "10.0.2.1") 5070 (s2b "udp").
Proof. vm_compute. split; reflexivity. Qed.

(* end to end, one datagram each: where the message goes *)
Example ex_run_route_tcp :    (* transport=tcp next hop: a connection is dialled and written *)
  dests (run1 all_fixed cfgA [(s2b "10.0.0.9", 5070)]
           (req "sip:bob@svc.example.com" [] ["Route: <sip:proxy.example.com;lr>, <sip:10.0.0.9:5070;transport=TCP;lr>"%string]
                "<sip:bob@exact.example.com>" []))
  = [DDial (s2b "10.0.0.9") 5070 0; DConn 0].
Proof. vm_compute. reflexivity. Qed.
Example ex_run_static : dests (run1 all_fixed cfgA [] (req "sip:bob@svc.example.com" [] [] "<sip:bob@exact.example.com>" []))
  = [DUdp (s2b "10.0.2.1") 5070].
Proof. vm_compute. reflexivity. Qed.
(* the pool: the rotation holds 10.0.1.1:5080, 10.0.1.2:5080; index 0 -> element 1 *)
Example ex_run_backend : dests (run1 all_fixed cfgB [] (req "sip:room42@conf.example.com" [] [] "<sip:bob@other.example.org>" []))
  = [DUdp (s2b "10.0.1.2") 5080].
Proof. vm_compute. reflexivity. Qed.
Example ex_run_backend_empty_pool :
  let c := {| c_name := c_name cfgB; c_keep_next_hop := false; c_dialog_timeout := 3600; c_routes := []; c_hosts := [];
              c_listens := [{| lc_addr := s2b "10.0.0.1"; lc_udp := 5060; lc_tcp := 0; lc_backends := []; lc_dynamic := true;
                               lc_no_received := false; lc_def_route := false; lc_must_rr := false |}] |} in
  run1 all_fixed c [] (req "sip:room42@conf.example.com" [] [] "<sip:bob@other.example.org>" []) = [].
Proof. vm_compute. reflexivity. Qed.
Example ex_run_dropped : run1 all_fixed cfgB [] (req "sip:bob@users.example.com" [] [] "<sip:bob@other.example.org>" []) = [].
Proof. vm_compute. reflexivity. Qed.
(* unsupported transports, any case *)
Example ex_run_unsupported :
  run1 all_fixed cfgA [] (req "sip:bob@svc.example.com" [] ["Route: <sip:10.0.0.9:5070;transport=sctp;lr>"%string] "<sip:b@x.example>" []) = [] /\
  run1 all_fixed cfgA [] (req "sip:bob@svc.example.com" [] ["Route: <sip:10.0.0.9:5070;transport=TLS;lr>"%string] "<sip:b@x.example>" []) = [] /\
  dests (run1 all_fixed cfgA [] (req "sip:bob@svc.example.com" [] ["Route: <sip:10.0.0.9:5070;transport=UdP;lr>"%string] "<sip:b@x.example>" []))
    = [DUdp (s2b "10.0.0.9") 5070].
Proof. vm_compute. repeat split. Qed.

(* ---- where the fixes record matters (defect B1: findClientTransport reused the listener's UDP
   socket for ANY next hop whose host was learned through a UDP listener).  The request comes
   from 10.0.0.5 over UDP and its Route names 10.0.0.5:5070 with transport=tcp; 10.0.0.5 accepts
   TCP connections on 5070. *)
Definition b1_fixes : fixes :=
  {| fx_wiring := true; fx_udp_via_listener := false; fx_indialog_invite := true; fx_bracket_host := true; fx_resolved_key := true; fx_stale_pin := true |}.
Definition b1_req : list string :=
  req "sip:bob@elsewhere.example" [] ["Route: <sip:10.0.0.5:5070;transport=tcp;lr>"%string] "<sip:bob@elsewhere.example>" [].
Theorem C03_b1_legacy_refuted :
  effective_hop cfgA ex_from (msg_of b1_req) = HopAddr (s2b "10.0.0.5") 5070 (s2b "tcp") /\
  dests (run1 b1_fixes cfgA [(s2b "10.0.0.5", 5070)] b1_req) = [DUdp (s2b "10.0.0.5") 5070] /\
  dests (run1 all_fixed cfgA [(s2b "10.0.0.5", 5070)] b1_req) = [DDial (s2b "10.0.0.5") 5070 0; DConn 0].
Proof. vm_compute. repeat split. Qed.

(* the hypotheses of the process_message-level theorems are satisfiable: a request, processed *)
Example ex_c03_hypotheses :
  let c := cfgA in let lc := ex_lc false in
  let m0 := msg_of b1_req in
  let x := {| x_learned := []; x_p := init_pstate c 0 lc; x_conns := []; x_world := {| w_tcp_listeners := []; w_next_conn := 0 |};
              x_outs := [] |} in
  is_request m0 = true /\
  is_ok (process_message (ex_env all_fixed c 0) (s2b "10.0.0.5") 5060 ex_from true None m0 x) = true.
Proof. vm_compute. split; reflexivity. Qed.

Print Assumptions C03_at_most_one.
Print Assumptions C03_at_most_one_udp.
Print Assumptions C03_at_most_one_tcp.
Print Assumptions C03_choice.
Print Assumptions C03_choice_outputs.
Print Assumptions C03_non_sip_route.
Print Assumptions C03_backend_member.
Print Assumptions C03_backend_member_event.
Print Assumptions C03_unsupported_transport_dropped.
Print Assumptions C03_unsupported_transport_event.
Print Assumptions C06_relayed_request.
Print Assumptions C03_b1_legacy_refuted.
