(* C13.v — Route handling (property C13): tryRemoveTopRoute consumes the first Route entry iff
   it designates the receiving transport, getNextRequestHopByRoute strips the next-hop entry
   iff keep-next-hop-route is off, every further entry is relayed as it is and in order.

   Main statements: try_remove_top_route_pops_iff_own, next_hop_by_route_pops_iff_not_keep,
   next_request_hop_route, C13_route, C13_route_decoded, route_view_grammar, route_header_text. *)
From Coq Require Import List Ascii String ZArith Bool Arith.
From Model Require Import Bytes BytesLemmas Uri Hdr Message Msg Rx Glob StaticRoute RoundRobin Pins Proxy RunProxy SpecC14.
From Model.proofs Require Import MsgLemmas Pipeline MsgStages C06.
From Model.proofs Require C14_hdr.
Import ListNotations.
Open Scope Z_scope.

(* One element per Route ENTRY, flattened over all Route headers in order.  A header that is
   decoded, or raw and decodable, contributes its entries as route_param values (that is what
   the proxy re-encodes with route_print once it has looked at the header); a header that does
   not decode is one opaque element.  The view does not change when a header is decoded in place. *)
Inductive rentry := EDec (r : route_param) | EOpaque (v : hval).

Definition dec_route (v : hval) : option (list route_param) :=
  match v with
  | HRoute l => Some l
  | HRaw s => match parse_route s with Ok l => Some l | _ => None end
  | _ => None
  end.
Definition hval_entries (v : hval) : list rentry :=
  match dec_route v with Some (r :: l) => map EDec (r :: l) | _ => [EOpaque v] end.
Definition entries_of (hs : list header) : list rentry := flat_map (fun h => hval_entries (h_val h)) hs.
Definition route_view (m : message) : list rentry := entries_of (sel (s2b "Route") (m_headers m)).

(* the entry designates the receiving transport: SIP URI, same (default) port, host equal to the
   transport address or resolving to the same IP through the host table *)
Definition designates (c : cfg) (from : stransport) (rp : route_param) : bool :=
  match na_addr (r_addr rp) with
  | ASip u => Z.eqb (sip_uri_get_port u) (t_port from) && is_same_address c (u_host u) (t_addr from)
  | AAbs _ => false
  end.

Lemma route_view_frame m m' : frame (s2b "Route") m m' -> route_view m' = route_view m.
Proof. intros (S & _). unfold route_view. rewrite S. reflexivity. Qed.

Lemma parse_all_nonempty {A} (f : bytes -> res A) l r : l <> [] -> parse_all f l = Ok r -> r <> [].
Proof.
  destruct l as [|s t]; [contradiction|]. intros _. cbn [parse_all]. destruct (f s); cbn [rbind]; try discriminate.
  destruct (parse_all f t); cbn [rbind]; try discriminate. intros H. injection H as <-. discriminate.
Qed.
Lemma parse_route_nonempty s l : parse_route s = Ok l -> l <> [].
Proof. apply parse_all_nonempty. apply split_byte_nonempty. Qed.

(* GetRoute leaves the Route set as it is; when it answers, the first Route header holds the answer
   decoded ("normal form"); when it does not, the set does not start with a decodable entry *)
Lemma s_get_route_norm m :
  route_view (fst (s_get_route m)) = route_view m /\
  match snd (s_get_route m) with
  | Ok l => exists n rest, sel (s2b "Route") (m_headers (fst (s_get_route m)))
                           = {| h_name := n; h_val := HRoute l |} :: rest
  | _ => fst (s_get_route m) = m /\ match route_view m with EDec _ :: _ => False | _ => True end
  end.
Proof.
  unfold s_get_route, typed_get, route_view. rewrite get_header_sel.
  destruct (sel (s2b "Route") (m_headers m)) as [|h rest] eqn:S; cbn [hd_error fst snd].
  { rewrite S. cbn. auto. }
  destruct (h_val h) eqn:V; cbn [fst snd]; rewrite ?S; cbn [entries_of flat_map];
    try (rewrite V; cbn; auto; fail).
  - (* raw *)
    destruct (parse_route s) as [l| |] eqn:P; cbn [fst snd]; rewrite ?S; cbn [entries_of flat_map];
      try (rewrite V; unfold hval_entries; cbn [dec_route]; rewrite P; cbn; auto; fail).
    cbn [set_val with_headers m_headers]. rewrite sel_update_same, S. split.
    + cbn [flat_map h_val]. rewrite V. unfold hval_entries. cbn [dec_route]. rewrite P.
      destruct l as [|r l]; [|reflexivity]. exfalso. exact (parse_route_nonempty _ _ P eq_refl).
    + eexists _, _. reflexivity.
  - (* already decoded *)
    split; [reflexivity|]. exists (h_name h), rest. destruct h as [n v]. cbn in *. subst v. reflexivity.
Qed.

Lemma entries_norm n l rest :
  entries_of ({| h_name := n; h_val := HRoute l |} :: rest) =
  match l with [] => [EOpaque (HRoute [])] | _ => map EDec l end ++ entries_of rest.
Proof. destruct l; reflexivity. Qed.

(* PopRoute on that normal form drops exactly the first entry *)
Lemma s_pop_route_norm m n a l rest :
  sel (s2b "Route") (m_headers m) = {| h_name := n; h_val := HRoute (a :: l) |} :: rest ->
  snd (s_pop_route m) = Ok tt /\ route_view (fst (s_pop_route m)) = map EDec l ++ entries_of rest.
Proof.
  intros S. unfold s_pop_route, mbind, s_get_route, typed_get. rewrite get_header_sel, S. cbn [hd_error h_val].
  destruct l as [|b l]; cbn [mmodify fst snd]; (split; [reflexivity|]); unfold route_view;
    cbn [set_val with_headers m_headers].
  - rewrite sel_remove_same, S. reflexivity.
  - rewrite sel_update_same, S. reflexivity.
Qed.

(* tryRemoveTopRoute pops exactly the first entry, and does so iff that entry is decodable and
   designates the receiving transport (near misses — right host wrong port, right port foreign
   host — are the [designates = false] branch) *)
Theorem try_remove_top_route_pops_iff_own : forall c from m,
  route_view (fst (mtry (try_remove_top_route c from) m)) =
  match route_view m with
  | EDec e1 :: rest => if designates c from e1 then rest else route_view m
  | _ => route_view m
  end.
Proof.
  intros c from m. unfold mtry, try_remove_top_route, mbind.
  destruct (s_get_route_norm m) as (V & N). destruct (s_get_route m) as [m1 r1]. cbn [fst snd] in V, N.
  rewrite <- V. destruct r1 as [l| |]; cbn [fst].
  2,3: destruct N as (-> & N); destruct (route_view m) as [|[e1|v] r]; try reflexivity; contradiction.
  destruct N as (n & rest & S). unfold route_view at 2 3. rewrite S, entries_norm.
  destruct l as [|a l]; cbn [app]; [reflexivity|]. cbn [map app]. unfold designates.
  destruct (na_addr (r_addr a)) as [u|s]; unfold mret; cbn [fst].
  - destruct (Z.eqb (sip_uri_get_port u) (t_port from) && is_same_address c (u_host u) (t_addr from))%bool.
    + destruct (s_pop_route_norm m1 n a l rest S) as (_ & P). destruct (s_pop_route m1) as [m2 [| |]]; exact P.
    + unfold route_view. cbn [fst]. rewrite S. reflexivity.
  - unfold route_view. cbn [fst]. rewrite S. reflexivity.
Qed.

(* getNextRequestHopByRoute: when the first entry is decodable it is the next hop; it is popped
   iff keep-next-hop-route is off — also when it is not a SIP URI, in which case no hop results *)
Theorem next_hop_by_route_pops_iff_not_keep : forall keep m,
  match route_view m with
  | EDec rp :: rest =>
      route_view (fst (next_hop_by_route keep m)) = (if keep then EDec rp :: rest else rest) /\
      snd (next_hop_by_route keep m) =
        match na_addr (r_addr rp) with
        | ASip u => Ok (u_host u, sip_uri_get_port u, sip_uri_transport u)
        | AAbs _ => Err
        end
  | _ => route_view (fst (next_hop_by_route keep m)) = route_view m /\ is_ok (snd (next_hop_by_route keep m)) = false
  end.
Proof.
  intros keep m. unfold next_hop_by_route, mbind.
  destruct (s_get_route_norm m) as (V & N). destruct (s_get_route m) as [m1 r1]. cbn [fst snd] in V, N.
  rewrite <- V. destruct r1 as [l| |]; cbn [fst snd].
  2,3: destruct N as (-> & N); destruct (route_view m) as [|[e1|v] r]; try (split; reflexivity); contradiction.
  destruct N as (n & rest & S). unfold route_view at 1. rewrite S, entries_norm.
  destruct l as [|a l]; unfold merr, mret, mtry; cbn [app map fst snd].
  { unfold route_view. rewrite S. split; reflexivity. }
  destruct keep.
  - destruct (na_addr (r_addr a)); cbn [fst snd]; (split; [|reflexivity]);
      unfold route_view; rewrite S; reflexivity.
  - destruct (s_pop_route_norm m1 n a l rest S) as (R & P). destruct (s_pop_route m1) as [m2 r2].
    cbn [fst snd] in R, P. subst r2. destruct (na_addr (r_addr a)); cbn [fst snd]; (split; [exact P|reflexivity]).
Qed.

Lemma mframe_next_hop_by_config nm rt : disjoint_names nm (s2b "To") -> mframe nm (next_hop_by_config rt).
Proof. exact (mpres_next_hop_by_config _ _ (frame_edits nm) rt). Qed.
Lemma frame_next_request_hop nm keep rt m :
  disjoint_names nm (s2b "Route") -> disjoint_names nm (s2b "To") -> frame nm m (fst (next_request_hop keep rt m)).
Proof. intros DR DT. exact (mpres_next_request_hop _ _ (frame_edits nm) keep rt DR DT (frame_pop_route nm DR) m). Qed.

(* getNextRequestHop on the Route set: the static-route look-up never touches it *)
Theorem next_request_hop_route : forall keep rt m,
  route_view (fst (next_request_hop keep rt m)) =
  match route_view m with
  | EDec rp :: rest => if keep then route_view m else rest
  | _ => route_view m
  end.
Proof.
  intros keep rt m. unfold next_request_hop.
  pose proof (next_hop_by_route_pops_iff_not_keep keep m) as H.
  destruct (next_hop_by_route keep m) as [m1 r]. cbn [fst snd] in H.
  assert (E : route_view m1 = match route_view m with
                              | EDec rp :: rest => if keep then route_view m else rest
                              | _ => route_view m end).
  { destruct (route_view m) as [|[rp|v] rest]; destruct H as (H & _); exact H. }
  destruct r; cbn [fst]; try exact E. rewrite <- E.
  apply route_view_frame, (mframe_next_hop_by_config _ rt dj_Route_To).
Qed.

Definition drop_own (c : cfg) (from : stransport) (v : list rentry) : list rentry :=
  match v with EDec e1 :: rest => if designates c from e1 then rest else v | _ => v end.
Definition drop_next (keep : bool) (v : list rentry) : list rentry :=
  match v with EDec _ :: rest => if keep then v else rest | _ => v end.

(* A received request, as far as routing is concerned: [m4] enters HandleMessage with the start
   line, body and all headers other than Via / CSeq / Route of [m0]; its Route set is that of
   [m0] without the own entry; the hop is looked up; the result goes to sendMessage (decorated
   when the hop host is learned), to sendToBackend, or nowhere. *)
Lemma request_pipeline e peer peer_port from rs tcp m0 x x' :
  is_request m0 = true ->
  process_message e peer peer_port from rs tcp m0 x = Ok x' ->
  let c := stage_conn e tcp (stage_stamp peer peer_port rs (fst (stage_learn peer from m0 x))) (x_p x) in
  let m4 := stage_route e from (fst c) in
  exists p1, snd c = Ok p1 /\
    (forall nm, disjoint_names nm (s2b "Via") -> disjoint_names nm (s2b "CSeq") ->
                disjoint_names nm (s2b "Route") -> frame nm m0 m4) /\
    via_rel m0 m4 /\
    route_view m4 = drop_own (e_cfg e) from (route_view m0) /\
    same_rr (x_p x) p1 /\
    x' = fst (let '(m1, r) := next_request_hop (c_keep_next_hop (e_cfg e)) (route_table_of (e_cfg e)) m4 in
              dispatch e from (ctx_with x (learned_after peer from m0 x) p1) m1 r).
Proof.
  intros R. rewrite (process_request _ _ _ _ _ _ _ _ R). cbv zeta.
  destruct (pre_rel_conn e peer peer_port from rs tcp m0 x) as (F & VR).
  pose proof (stage_conn_same_rr e tcp (stage_stamp peer peer_port rs (fst (stage_learn peer from m0 x))) (x_p x)) as SR.
  destruct (request_stages e peer peer_port from rs tcp m0 x) as (_ & _ & S4). cbv zeta in S4.
  rewrite <- (stage_learn_learned peer from m0 x).
  destruct (stage_learn peer from m0 x) as [m1 l1]. cbn [fst snd] in *.
  destruct (stage_conn e tcp (stage_stamp peer peer_port rs m1) (x_p x)) as [m3 [p1| |]]; try discriminate.
  cbn [fst snd] in *. intros H. injection H as <-. exists p1. split; [reflexivity|].
  assert (F4 : forall nm, disjoint_names nm (s2b "Route") -> frame nm m3 (stage_route e from m3)).
  { intros nm D. apply (mframe_try _ _ (mframe_try_remove_top_route nm (e_cfg e) from D)). }
  split; [intros nm D1 D2 D3; eapply frame_trans; [apply F; assumption|apply F4; assumption]|].
  split; [exact (via_rel_trans _ _ _ VR (via_rel_frame _ _ (F4 _ dj_Via_Route)))|].
  split; [|split; [exact (SR p1 eq_refl)|]].
  - unfold stage_route. rewrite try_remove_top_route_pops_iff_own.
    rewrite (route_view_frame m0 m3 (F _ dj_Route_Via dj_Route_CSeq)). reflexivity.
  - rewrite (handle_message_request e from _ _); [reflexivity|].
    rewrite (same_start_request _ _ S4). exact R.
Qed.

(* how many leading entries of the Route set are consumed *)
Definition route_consumed (c : cfg) (from : stransport) (keep : bool) (v : list rentry) : nat :=
  let k1 := match v with EDec e1 :: _ => if designates c from e1 then 1%nat else 0%nat | _ => 0%nat end in
  let k2 := match skipn k1 v with EDec _ :: _ => if keep then 0%nat else 1%nat | _ => 0%nat end in
  (k1 + k2)%nat.

Lemma route_consumed_skipn c from keep v :
  drop_next keep (drop_own c from v) = skipn (route_consumed c from keep v) v.
Proof.
  unfold route_consumed, drop_next, drop_own. destruct v as [|[e1|o] rest]; try reflexivity.
  destruct (designates c from e1).
  - cbn [skipn]. destruct rest as [|[e2|o] rest']; try reflexivity. destruct keep; reflexivity.
  - cbn [skipn Nat.add]. destruct keep; reflexivity.
Qed.

Lemma route_view_add_own e t m :
  route_view (px_add_record_route (pa_must_rr (wire_proxy (e_lc e))) t (px_add_via e t m)) = route_view m.
Proof. destruct (add_own_spec e t m) as (_ & _ & _ & _ & F). apply route_view_frame, F; reflexivity. Qed.
Lemma route_view_decorate e l host m : route_view (decorate e l host m) = route_view m.
Proof. unfold decorate. destruct (alookup host l) as [t|]; [apply route_view_add_own|reflexivity]. Qed.
Lemma route_view_backend_message e t0 p m : route_view (backend_message e t0 p m) = route_view m.
Proof.
  unfold backend_message. rewrite route_view_add_own. apply route_view_frame.
  apply (mframe_find_backend_by_dialog _ dj_Route_CSeq dj_Route_From dj_Route_To).
Qed.

(* For EVERY request, layout of the Route set, transport, host table, flag and state: each
   byte-carrying output of the event is the serialisation of a message whose Route set is the
   received one minus its first [route_consumed] entries: one on the "own" ground iff the first
   entry designates the receiving transport, then one more iff a decodable entry remains and
   keep-next-hop-route is off; all further entries are the same route_param values (or the same
   undecoded header values), in order.  There is at most one such output. *)
Theorem C13_route : forall e peer peer_port from rs tcp m0 x x',
  is_request m0 = true ->
  process_message e peer peer_port from rs tcp m0 x = Ok x' ->
  exists extra, x_outs x' = x_outs x ++ extra /\ (msg_count extra <= 1)%nat /\
    forall o, In o extra -> is_msg o = true ->
      exists mo, snd o = write_message mo /\
                 route_view mo = skipn (route_consumed (e_cfg e) from (c_keep_next_hop (e_cfg e)) (route_view m0))
                                       (route_view m0).
Proof.
  intros e peer pp from rs tcp m0 x x' R H.
  destruct (request_pipeline _ _ _ _ _ _ _ _ _ R H) as (p1 & _ & _ & _ & V4 & _ & ->). cbv zeta in V4 |- *.
  set (m4 := stage_route e from _) in *.
  pose proof (next_request_hop_route (c_keep_next_hop (e_cfg e)) (route_table_of (e_cfg e)) m4) as NR.
  destruct (next_request_hop _ _ m4) as [m1 r]. cbn [fst] in NR.
  destruct (dispatch_outputs e from (ctx_with x (learned_after peer from m0 x) p1) m1 r) as (extra & O & C & W).
  exists extra. split; [exact O|]. split; [exact C|]. intros o Io Mo. specialize (W o Io Mo).
  rewrite <- (route_consumed_skipn (e_cfg e) from (c_keep_next_hop (e_cfg e)) (route_view m0)).
  fold (drop_next (c_keep_next_hop (e_cfg e)) (route_view m4)) in NR. rewrite <- V4, <- NR.
  destruct r as [[[host port] transport]| |].
  1:{ eexists. split; [exact W|].
      rewrite (route_view_frame _ _ (mframe_try _ _ (mframe_client_transaction _ dj_Route_Via dj_Route_CSeq) _)).
      apply route_view_decorate. }
  all: destruct W as (_ & t0 & _ & W); eexists; (split; [exact W|]); apply route_view_backend_message.
Qed.

(* the statement in the words of property C13 (properties.jsonl), for a Route set all of whose headers decode:
   entries e1 :: ... as route_param values *)
Definition own_of (c : cfg) (from : stransport) (entries : list route_param) : bool :=
  match entries with e1 :: _ => designates c from e1 | [] => false end.

Corollary C13_route_decoded : forall e peer peer_port from rs tcp m0 x x' entries,
  is_request m0 = true ->
  route_view m0 = map EDec entries ->
  process_message e peer peer_port from rs tcp m0 x = Ok x' ->
  let own := own_of (e_cfg e) from entries in
  let remaining := if own then tl entries else entries in
  let k := ((if own then 1 else 0) +
            (match remaining with _ :: _ => if c_keep_next_hop (e_cfg e) then 0 else 1 | [] => 0 end))%nat in
  exists extra, x_outs x' = x_outs x ++ extra /\ (msg_count extra <= 1)%nat /\
    forall o, In o extra -> is_msg o = true ->
      exists mo, snd o = write_message mo /\ route_view mo = map EDec (skipn k entries).
Proof.
  intros e peer pp from rs tcp m0 x x' entries R V H own remaining k.
  destruct (C13_route _ _ _ _ _ _ _ _ _ R H) as (extra & O & C & W). exists extra. split; [exact O|]. split; [exact C|].
  intros o Io Mo. destruct (W o Io Mo) as (mo & B & VO). exists mo. split; [exact B|]. rewrite VO, V.
  replace (route_consumed (e_cfg e) from (c_keep_next_hop (e_cfg e)) (map EDec entries)) with k.
  - apply skipn_map.
  - subst k remaining own. unfold route_consumed, own_of. destruct entries as [|e1 rest]; [reflexivity|].
    cbn [map]. destruct (designates (e_cfg e) from e1); cbn [tl skipn Nat.add map].
    + destruct rest; reflexivity.
    + reflexivity.
Qed.

(* For entries in the grammar domain of C14 (SpecC14.wf_relem), a raw Route header holding their
   reference text decodes to their embedding, and a decoded header prints as the reference
   text of what it holds: the relayed entries are byte-identical to the received ones. *)
Theorem route_view_grammar : forall l, l <> [] -> forallb wf_relem l = true ->
  hval_entries (HRaw (rp_route l)) = map EDec (map C14_hdr.embed_relem l).
Proof.
  intros l N W. unfold hval_entries. cbn [dec_route]. rewrite (C14_hdr.parse_route_rp l N W).
  destruct l as [|a l]; [contradiction|reflexivity].
Qed.
Theorem route_header_text : forall l, forallb wf_relem l = true ->
  hval_print (HRoute (map C14_hdr.embed_relem l)) = rp_route l.
Proof. intros l W. cbn [hval_print]. apply C14_hdr.route_print_embed. exact W. Qed.

Definition ex_routes (routes : list string) : message :=
  msg_of (req "sip:bob@elsewhere.example" [] routes "<sip:bob@elsewhere.example>" []).
Definition consumed (keep : bool) (routes : list string) : nat :=
  route_consumed (ex_cfg keep true false) ex_from keep (route_view (ex_routes routes)).
(* the Route entries of the (only) message sent for a datagram carrying these Route headers *)
Definition relayed_routes (keep : bool) (routes : list string) : list (list string) :=
  map (fun o => match parse_message (list_ascii_of_string (snd o)) with
                | Ok (m, _) => map (fun en => match en with
                                              | EDec r => string_of_list_ascii (route_param_print r)
                                              | EOpaque _ => "?"%string end) (route_view m)
                | _ => ["unreadable"%string] end)
      (run1 all_fixed (ex_cfg keep true false) [] (req "sip:bob@elsewhere.example" [] routes "<sip:bob@elsewhere.example>" [])).

(* own entry by configured alias with the default port, one comma list: own + next consumed *)
Example ex_c13_alias_default_port :
  consumed false ["Route: <sip:proxy.example.com;lr>,<sip:10.0.0.9:5070;lr>,<sip:far.example.com;lr;x=1>;hp=2"%string] = 2%nat /\
  relayed_routes false ["Route: <sip:proxy.example.com;lr>,<sip:10.0.0.9:5070;lr>,<sip:far.example.com;lr;x=1>;hp=2"%string]
  = [["<sip:far.example.com;lr;x=1>;hp=2"%string]].
Proof. vm_compute. split; reflexivity. Qed.
(* keep-next-hop-route on: only the own entry goes *)
Example ex_c13_keep :
  consumed true ["Route: <sip:proxy.example.com;lr>,<sip:10.0.0.9:5070;lr>,<sip:far.example.com;lr>"%string] = 1%nat /\
  relayed_routes true ["Route: <sip:proxy.example.com;lr>,<sip:10.0.0.9:5070;lr>,<sip:far.example.com;lr>"%string]
  = [["<sip:10.0.0.9:5070;lr>"; "<sip:far.example.com;lr>"]%string].
Proof. vm_compute. split; reflexivity. Qed.
(* own entry by address and explicit port, alone in its header: the header disappears and the
   next Route header supplies the next hop *)
Example ex_c13_two_headers :
  consumed false ["Route: <sip:10.0.0.1:5060;lr>"; "Route: <sip:10.0.0.9:5070;lr>"; "Route: ""Far"" <sip:far.example.com;lr>"]%string = 2%nat /\
  relayed_routes false ["Route: <sip:10.0.0.1:5060;lr>"; "Route: <sip:10.0.0.9:5070;lr>"; "Route: ""Far"" <sip:far.example.com;lr>"]%string
  = [["""Far"" <sip:far.example.com;lr>"%string]].
Proof. vm_compute. split; reflexivity. Qed.
(* near misses: right host wrong port; right port foreign host; nothing is consumed on the "own"
   ground, the first entry is the next hop *)
Example ex_c13_wrong_port :
  consumed true ["Route: <sip:10.0.0.1:5061;lr>,<sip:10.0.0.9:5070;lr>"%string] = 0%nat /\
  consumed false ["Route: <sip:10.0.0.1:5061;lr>,<sip:10.0.0.9:5070;lr>"%string] = 1%nat /\
  relayed_routes false ["Route: <sip:10.0.0.1:5061;lr>,<sip:10.0.0.9:5070;lr>"%string] = [["<sip:10.0.0.9:5070;lr>"%string]].
Proof. vm_compute. repeat split. Qed.
Example ex_c13_foreign_host :
  consumed true ["Route: <sip:10.0.0.77:5060;lr>,<sip:10.0.0.9:5070;lr>"%string] = 0%nat /\
  consumed false ["Route: <sip:10.0.0.77;lr>,<sip:10.0.0.9:5070;lr>"%string] = 1%nat /\
  relayed_routes true ["Route: <sip:10.0.0.77:5060;lr>,<sip:10.0.0.9:5070;lr>"%string]
  = [["<sip:10.0.0.77:5060;lr>"; "<sip:10.0.0.9:5070;lr>"]%string].
Proof. vm_compute. repeat split. Qed.
(* the hypotheses of C13_route / C13_route_decoded hold for such a request *)
Example ex_c13_hypotheses :
  let m0 := ex_routes ["Route: <sip:proxy.example.com;lr>,<sip:10.0.0.9:5070;lr>"%string] in
  is_request m0 = true /\ exists entries, route_view m0 = map EDec entries /\ List.length entries = 2%nat.
Proof.
  intros m0. split; [vm_compute; reflexivity|].
  exists (flat_map (fun en => match en with EDec r => [r] | EOpaque _ => [] end) (route_view m0)).
  vm_compute. split; reflexivity.
Qed.

(* ---- where "the service's keep-next-hop-route setting" comes from (main.go toKeepNextHopRoute): the service's own
        text decides whenever it is not empty, whatever the environment says; only an empty text falls back to the
        environment variable ---- *)
Theorem C13_keep_setting_decides : forall setting env, setting <> [] ->
  to_keep_next_hop_route setting env = truthy setting.
Proof. intros setting env N. unfold to_keep_next_hop_route. destruct setting; [contradiction|reflexivity]. Qed.
Theorem C13_keep_env_default : forall env, to_keep_next_hop_route [] env = truthy env.
Proof. reflexivity. Qed.
Example ex_keep_setting :
  to_keep_next_hop_route (s2b "false") (s2b "true") = false /\ to_keep_next_hop_route (s2b "Yes") (s2b "0") = true /\
  to_keep_next_hop_route [] (s2b "ON") = true /\ to_keep_next_hop_route [] [] = false /\ to_keep_next_hop_route (s2b "maybe") (s2b "1") = false.
Proof. vm_compute. repeat split; reflexivity. Qed.

Print Assumptions C13_keep_setting_decides.
Print Assumptions try_remove_top_route_pops_iff_own.
Print Assumptions next_hop_by_route_pops_iff_not_keep.
Print Assumptions next_request_hop_route.
Print Assumptions request_pipeline.
Print Assumptions C13_route.
Print Assumptions C13_route_decoded.
Print Assumptions route_view_grammar.
Print Assumptions route_header_text.
