(* C07 — received / rport record the packet's true source when received-support is enabled.
   SetParam and SetReceived exactly (C07_kv_set_char, C07_stamp); the Via view of a message
   ([via_hdrs]) and the relation [veq] that every reading stage keeps; what process_message sends
   for a request (C07_pipeline) and one proxy_step (C07_step_udp, C07_step_tcp); the wiring of
   startProxy and the invariant [wired] over all reachable states.
   No axioms, no admits. *)
From Coq Require Import List Ascii String ZArith Bool.
From Model Require Import Bytes BytesLemmas Uri Hdr Message Msg Rx Glob StaticRoute RoundRobin Pins Proxy.
From Model.proofs Require Import MsgLemmas Pipeline MsgStages.
Import ListNotations.
Open Scope Z_scope.

Lemma kv_get_set_same k v l : kv_get k (kv_set k v l) = Some v.
Proof.
  induction l as [|p r IH]; cbn.
  - rewrite beq_refl. reflexivity.
  - destruct (beq (k_key p) k) eqn:E; cbn; rewrite E; [reflexivity|exact IH].
Qed.

Lemma kv_get_set_other k k' v l : k' <> k -> kv_get k' (kv_set k v l) = kv_get k' l.
Proof.
  intros NE. induction l as [|p r IH]; cbn.
  - assert (E : beq k k' = false) by (apply beq_neq; congruence). rewrite E. reflexivity.
  - destruct (beq (k_key p) k) eqn:E; cbn.
    + apply beq_eq in E. assert (E' : beq (k_key p) k' = false) by (apply beq_neq; congruence).
      rewrite E'. reflexivity.
    + destruct (beq (k_key p) k'); [reflexivity|exact IH].
Qed.

Lemma kv_has_set_same k v l : kv_has k (kv_set k v l) = true.
Proof. unfold kv_has. rewrite kv_get_set_same. reflexivity. Qed.

Lemma kv_has_set_other k k' v l : k' <> k -> kv_has k' (kv_set k v l) = kv_has k' l.
Proof. intros NE. unfold kv_has. rewrite kv_get_set_other by exact NE. reflexivity. Qed.

(* present: the FIRST entry with that key is overwritten in place *)
Lemma kv_set_present k v l : kv_has k l = true ->
  exists a p b, l = a ++ p :: b /\ k_key p = k /\ kv_get k a = None /\
                kv_set k v l = a ++ {| k_key := k_key p; k_val := v |} :: b.
Proof.
  unfold kv_has. induction l as [|p r IH]; cbn; [discriminate|].
  destruct (beq (k_key p) k) eqn:E.
  - intros _. exists [], p, r. apply beq_eq in E. repeat split; assumption.
  - intros H. destruct (IH H) as (a & q & b & H1 & H2 & H3 & H4).
    exists (p :: a), q, b. cbn. rewrite E, H4. subst r. repeat split; assumption.
Qed.

(* absent: appended at the end *)
Lemma kv_set_absent k v l : kv_has k l = false ->
  kv_set k v l = l ++ [{| k_key := k; k_val := v |}].
Proof.
  unfold kv_has. induction l as [|p r IH]; cbn; [reflexivity|].
  destruct (beq (k_key p) k) eqn:E; [discriminate|]. intros H. rewrite IH by exact H. reflexivity.
Qed.

(* the other entries keep their values and their order *)
Lemma kv_set_others k v l :
  filter (fun p => negb (beq (k_key p) k)) (kv_set k v l) = filter (fun p => negb (beq (k_key p) k)) l.
Proof.
  induction l as [|p r IH]; cbn.
  - rewrite beq_refl. reflexivity.
  - destruct (beq (k_key p) k) eqn:E; cbn; rewrite E; cbn; [reflexivity|]. rewrite IH. reflexivity.
Qed.

Lemma kv_set_keys k v l : kv_has k l = true -> map k_key (kv_set k v l) = map k_key l.
Proof.
  intros H. destruct (kv_set_present k v l H) as (a & p & b & H1 & _ & _ & H4).
  rewrite H4, H1, !map_app. reflexivity.
Qed.

(* ---- SetReceived on one entry ---- *)
Definition stamp_params (peer : bytes) (port : Z) (ps : list kv) : list kv :=
  if kv_has (s2b "rport") (kv_set (s2b "received") peer ps)
  then kv_set (s2b "rport") (itoa port) (kv_set (s2b "received") peer ps)
  else kv_set (s2b "received") peer ps.
Definition stamp (peer : bytes) (port : Z) (v : via_param) : via_param :=
  {| v_name := v_name v; v_version := v_version v; v_transport := v_transport v; v_host := v_host v;
     v_port := v_port v; v_params := stamp_params peer port (v_params v) |}.

Lemma rport_neq_received : s2b "rport" <> s2b "received".
Proof. discriminate. Qed.
Lemma received_neq_rport : s2b "received" <> s2b "rport".
Proof. discriminate. Qed.

(* rport is written iff the sender's entry carried an rport parameter (valued or not) *)
Lemma stamp_params_rport peer port ps :
  stamp_params peer port ps =
  if kv_has (s2b "rport") ps then kv_set (s2b "rport") (itoa port) (kv_set (s2b "received") peer ps)
  else kv_set (s2b "received") peer ps.
Proof. unfold stamp_params. rewrite kv_has_set_other by exact rport_neq_received. reflexivity. Qed.

Lemma stamp_received peer port v : via_get_received (stamp peer port v) = Some peer.
Proof.
  unfold via_get_received, stamp. cbn [v_params]. unfold stamp_params.
  destruct (kv_has _ _).
  - rewrite kv_get_set_other by exact received_neq_rport. apply kv_get_set_same.
  - apply kv_get_set_same.
Qed.

Lemma stamp_rport peer port v : (int_min <= port <= int_max)%Z ->
  via_get_rport (stamp peer port v) = if kv_has (s2b "rport") (v_params v) then Some port else None.
Proof.
  intros Hp. unfold via_get_rport, stamp. cbn [v_params]. rewrite stamp_params_rport.
  destruct (kv_has (s2b "rport") (v_params v)) eqn:E.
  - rewrite kv_get_set_same. apply atoi_itoa. exact Hp.
  - rewrite kv_get_set_other by exact rport_neq_received.
    unfold kv_has in E. destruct (kv_get (s2b "rport") (v_params v)); [discriminate|reflexivity].
Qed.

Lemma stamp_other_param peer port v k : k <> s2b "received" -> k <> s2b "rport" ->
  kv_get k (v_params (stamp peer port v)) = kv_get k (v_params v).
Proof.
  intros N1 N2. cbn [stamp v_params]. unfold stamp_params. destruct (kv_has _ _).
  - rewrite kv_get_set_other by exact N2. apply kv_get_set_other. exact N1.
  - apply kv_get_set_other. exact N1.
Qed.

Lemma stamp_eq peer port v :
  (if kv_has (s2b "rport") (v_params (via_set_param (s2b "received") peer v))
   then via_set_param (s2b "rport") (itoa port) (via_set_param (s2b "received") peer v)
   else via_set_param (s2b "received") peer v) = stamp peer port v.
Proof.
  unfold stamp, stamp_params, via_set_param. cbn [v_params v_name v_version v_transport v_host v_port].
  destruct (kv_has _ _); reflexivity.
Qed.

Lemma stamp_port peer port v : via_get_port (stamp peer port v) = via_get_port v.
Proof. reflexivity. Qed.

Definition VIA : bytes := s2b "Via".
Definition is_via_name (n : bytes) : bool := same_header n VIA.
Definition not_via (name : bytes) : Prop := names_disjoint name VIA = true.
Lemma not_via_false name n : not_via name -> same_header n name = true -> is_via_name n = false.
Proof. intros D H. exact (same_header_disjoint _ _ _ D H). Qed.
Lemma nv_cseq : not_via (s2b "CSeq"). Proof. vm_compute. reflexivity. Qed.
Lemma nv_from : not_via (s2b "From"). Proof. vm_compute. reflexivity. Qed.
Lemma nv_to : not_via (s2b "To"). Proof. vm_compute. reflexivity. Qed.
Lemma nv_route : not_via (s2b "Route"). Proof. vm_compute. reflexivity. Qed.

(* ---- first header with a given name ---- *)
Definition nomatch (name : bytes) (pre : list header) : Prop :=
  forallb (fun h => negb (same_header (h_name h) name)) pre = true.

(* [nomatch] is the boolean reading of "no header of that name", which MsgLemmas.v states as
   get_header = None; the facts below are those of MsgLemmas.v in this form *)
Lemma nomatch_none name pre : nomatch name pre <-> get_header name pre = None.
Proof.
  unfold nomatch. rewrite MsgLemmas.get_header_none, forallb_forall, Forall_forall.
  split; intros H x I; apply negb_true_iff, H, I.
Qed.

Lemma get_header_split name hs h : get_header name hs = Some h ->
  exists pre post, hs = pre ++ h :: post /\ nomatch name pre /\ same_header (h_name h) name = true.
Proof.
  intros G. destruct (MsgLemmas.get_header_split _ _ _ G) as (pre & post & E & F & S & _).
  exists pre, post. split; [exact E|]. split; [|exact S]. apply nomatch_none, MsgLemmas.get_header_none, F.
Qed.
Lemma get_header_none name hs : get_header name hs = None -> nomatch name hs.
Proof. apply nomatch_none. Qed.
Lemma get_header_at name pre h post : nomatch name pre -> same_header (h_name h) name = true ->
  get_header name (pre ++ h :: post) = Some h.
Proof. intros H. apply MsgLemmas.get_header_at, nomatch_none, H. Qed.
Lemma update_header_at name f pre h post : nomatch name pre -> same_header (h_name h) name = true ->
  update_header name f (pre ++ h :: post) = pre ++ {| h_name := h_name h; h_val := f (h_val h) |} :: post.
Proof. intros H. apply MsgLemmas.update_header_at, nomatch_none, H. Qed.
Lemma update_header_nomatch name f hs : nomatch name hs -> update_header name f hs = hs.
Proof. intros H. apply update_header_none, nomatch_none, H. Qed.
Lemma remove_header_at name pre h post : nomatch name pre -> same_header (h_name h) name = true ->
  remove_header name (pre ++ h :: post) = pre ++ post.
Proof. intros H. apply MsgLemmas.remove_header_at, nomatch_none, H. Qed.
Lemma remove_header_nomatch name hs : nomatch name hs -> remove_header name hs = hs.
Proof. intros H. apply remove_header_none, nomatch_none, H. Qed.
Lemma find_pos_from_at name pre h post i : nomatch name pre -> same_header (h_name h) name = true ->
  find_header_pos_from name (pre ++ h :: post) i = Some (i + List.length pre)%nat.
Proof.
  intros H1 H2. rewrite find_header_pos_from_app_none by (apply nomatch_none, H1).
  cbn [find_header_pos_from]. rewrite H2. reflexivity.
Qed.
Lemma find_pos_from_nomatch name hs i : nomatch name hs -> find_header_pos_from name hs i = None.
Proof.
  intros H. rewrite <- (app_nil_r hs), find_header_pos_from_app_none by (apply nomatch_none, H). reflexivity.
Qed.

(* ---- the Via view ---- *)
Definition hval_vias (v : hval) : option (list via_param) :=
  match v with
  | HVia l => Some l
  | HRaw s => match parse_via s with Ok l => Some l | _ => None end
  | _ => None
  end.
Definition via_headers (hs : list header) : list header := filter (fun h => is_via_name (h_name h)) hs.
Definition via_view (hs : list header) : list (option (list via_param)) :=
  map (fun h => hval_vias (h_val h)) (via_headers hs).
(* for every Via header of m (full, compact, any case), in order: its entries, None = undecodable *)
Definition via_hdrs (m : message) : list (option (list via_param)) := via_view (m_headers m).
Definition flat_view (vh : list (option (list via_param))) : list via_param :=
  flat_map (fun o => match o with Some l => l | None => [] end) vh.
Definition flat_vias (m : message) : list via_param := flat_view (via_hdrs m).
Definition all_vias_decode (m : message) : bool :=
  forallb (fun o => match o with Some _ => true | None => false end) (via_hdrs m).

Lemma via_view_app a b : via_view (a ++ b) = via_view a ++ via_view b.
Proof. unfold via_view, via_headers. rewrite filter_app, map_app. reflexivity. Qed.
Lemma via_view_step h hs :
  via_view (h :: hs) = if is_via_name (h_name h) then hval_vias (h_val h) :: via_view hs else via_view hs.
Proof. unfold via_view, via_headers. cbn [filter]. destruct (is_via_name (h_name h)); reflexivity. Qed.
Lemma nomatch_via_view pre : nomatch VIA pre -> via_view pre = [].
Proof.
  unfold nomatch. induction pre as [|a r IH]; cbn [forallb]; [reflexivity|]. intros H.
  apply andb_true_iff in H. destruct H as [Ha Hr]. apply negb_true_iff in Ha.
  rewrite via_view_step. unfold is_via_name. rewrite Ha. exact (IH Hr).
Qed.
Lemma via_view_at pre h post : nomatch VIA pre -> is_via_name (h_name h) = true ->
  via_view (pre ++ h :: post) = hval_vias (h_val h) :: via_view post.
Proof.
  intros H1 H2. rewrite via_view_app, nomatch_via_view by exact H1. rewrite via_view_step, H2. reflexivity.
Qed.
Lemma via_view_cons hs x t : via_view hs = x :: t ->
  exists pre h post, hs = pre ++ h :: post /\ nomatch VIA pre /\ is_via_name (h_name h) = true /\
                     hval_vias (h_val h) = x /\ via_view post = t.
Proof.
  intros H. destruct (get_header VIA hs) as [h|] eqn:G.
  - destruct (get_header_split _ _ _ G) as (pre & post & E & N & S). exists pre, h, post.
    rewrite E, via_view_at in H by assumption. injection H as H1 H2. repeat split; assumption.
  - apply get_header_none, nomatch_via_view in G. rewrite G in H. discriminate.
Qed.
Lemma via_view_nil hs : via_view hs = [] -> nomatch VIA hs.
Proof.
  intros H. destruct (get_header VIA hs) as [h|] eqn:G; [|exact (get_header_none _ _ G)].
  destruct (get_header_split _ _ _ G) as (pre & post & E & N & S).
  rewrite E, via_view_at in H by assumption. discriminate.
Qed.

(* the executable collection of Message.v (ForEachViaParam) returns the flattened view and
   leaves the view unchanged *)
Lemma decode_all_vias_spec hs :
  snd (decode_all_vias hs) = flat_view (via_view hs) /\ via_view (fst (decode_all_vias hs)) = via_view hs.
Proof.
  induction hs as [|h r [IH1 IH2]]; [split; reflexivity|].
  cbn [decode_all_vias]. destruct (decode_all_vias r) as [r' vs]. cbn [fst snd] in IH1, IH2.
  rewrite (via_view_step h r). unfold is_via_name, VIA.
  destruct (same_header (h_name h) (s2b "Via")) eqn:E.
  - assert (K : forall v, hval_vias v = hval_vias (h_val h) ->
                via_view ({| h_name := h_name h; h_val := v |} :: r') = hval_vias (h_val h) :: via_view r).
    { intros v Hv. rewrite via_view_step. unfold is_via_name, VIA. cbn [h_name h_val]. rewrite E, Hv, IH2. reflexivity. }
    assert (K0 : via_view (h :: r') = hval_vias (h_val h) :: via_view r).
    { destruct h as [n v]. apply K. reflexivity. }
    cbn [flat_view flat_map]. fold (flat_view (via_view r)). rewrite <- IH1.
    destruct (h_val h) as [s|l| | | | |] eqn:V; cbn [hval_vias fst snd]; try (split; [reflexivity|exact K0]).
    destruct (parse_via s) as [l| |] eqn:P; cbn [fst snd];
      try (split; [reflexivity|]; rewrite K0; cbn [hval_vias]; rewrite P; reflexivity).
    split; [reflexivity|]. rewrite (K (HVia l)); cbn [hval_vias]; rewrite P; reflexivity.
  - cbn [fst snd]. rewrite via_view_step. unfold is_via_name, VIA. rewrite E. split; assumption.
Qed.
Lemma flat_vias_decode m : snd (decode_all_vias (m_headers m)) = flat_vias m.
Proof. apply decode_all_vias_spec. Qed.
Lemma s_all_via_params_spec m :
  snd (s_all_via_params m) = Ok (flat_vias m) /\ via_hdrs (fst (s_all_via_params m)) = via_hdrs m /\
  m_start (fst (s_all_via_params m)) = m_start m /\ m_body (fst (s_all_via_params m)) = m_body m.
Proof.
  unfold s_all_via_params. destruct (decode_all_vias_spec (m_headers m)) as [H1 H2].
  destruct (decode_all_vias (m_headers m)) as [hs vs]. cbn in *. subst vs. repeat split. exact H2.
Qed.

(* ---- operations on other headers keep the view ---- *)
Lemma via_view_update_other name f hs : not_via name -> via_view (update_header name f hs) = via_view hs.
Proof.
  intros NV. induction hs as [|a r IH]; [reflexivity|]. cbn [update_header].
  destruct (same_header (h_name a) name) eqn:E; rewrite !via_view_step; cbn [h_name].
  - rewrite (not_via_false _ _ NV E). reflexivity.
  - rewrite IH. reflexivity.
Qed.
Lemma via_view_remove_other name hs : not_via name -> via_view (remove_header name hs) = via_view hs.
Proof.
  intros NV. induction hs as [|a r IH]; [reflexivity|]. cbn [remove_header].
  destruct (same_header (h_name a) name) eqn:E; rewrite !via_view_step.
  - rewrite (not_via_false _ _ NV E). reflexivity.
  - rewrite IH. reflexivity.
Qed.
Lemma via_view_insert_other n h hs : is_via_name (h_name h) = false -> via_view (insert_at n h hs) = via_view hs.
Proof.
  intros H. unfold insert_at. rewrite via_view_app, via_view_step, H, <- via_view_app, firstn_skipn. reflexivity.
Qed.

(* ---- messages equal as far as the Via chain is concerned ---- *)
Definition veq (m m' : message) : Prop :=
  m_start m' = m_start m /\ m_body m' = m_body m /\ via_hdrs m' = via_hdrs m.
Lemma veq_refl m : veq m m. Proof. repeat split. Qed.
Lemma veq_trans a b c : veq a b -> veq b c -> veq a c.
Proof. intros (A1 & A2 & A3) (B1 & B2 & B3). repeat split; congruence. Qed.
Lemma veq_is_request a b : veq a b -> is_request b = is_request a.
Proof. intros (A1 & _). unfold is_request. rewrite A1. reflexivity. Qed.
Lemma veq_is_response a b : veq a b -> is_response b = is_response a.
Proof. intros H. unfold is_response. rewrite (veq_is_request _ _ H). reflexivity. Qed.

Lemma veq_set_val_other name v m : not_via name -> veq m (set_val name v m).
Proof. intros NV. repeat split. unfold via_hdrs, set_val. cbn. apply via_view_update_other. exact NV. Qed.
Lemma veq_remove_other name m : not_via name -> veq m (with_headers m (remove_header name (m_headers m))).
Proof. intros NV. repeat split. unfold via_hdrs. cbn. apply via_view_remove_other. exact NV. Qed.

(* ---- GetVia ---- *)
Lemma via_hdrs_set_via l m x t : via_hdrs m = x :: t -> via_hdrs (set_val VIA (HVia l) m) = Some l :: t.
Proof.
  unfold via_hdrs. intros H. destruct (via_view_cons _ _ _ H) as (pre & h & post & H1 & H2 & H3 & H4 & H5).
  unfold set_val. cbn [m_headers with_headers]. rewrite H1, update_header_at by assumption.
  rewrite via_view_at by assumption. cbn. rewrite H5. reflexivity.
Qed.
Lemma with_headers_same m : with_headers m (m_headers m) = m.
Proof. destruct m; reflexivity. Qed.

(* the exact result of s_get_via, by the view *)
Lemma s_get_via_ok m l t : via_hdrs m = Some l :: t ->
  exists m', s_get_via m = (m', Ok l) /\ veq m m' /\
             forall l', set_val VIA (HVia l') m' = set_val VIA (HVia l') m.
Proof.
  unfold via_hdrs. intros H. destruct (via_view_cons _ _ _ H) as (pre & h & post & H1 & H2 & H3 & H4 & H5).
  unfold s_get_via, typed_get. fold VIA. rewrite H1, get_header_at by assumption.
  destruct (h_val h) eqn:Ev; cbn in H4; try discriminate.
  - destruct (parse_via s) eqn:Ep; try discriminate. injection H4 as ->.
    eexists. split; [reflexivity|]. split.
    + repeat split. rewrite (via_hdrs_set_via l m _ _ H). unfold via_hdrs. rewrite H. reflexivity.
    + intros l'. unfold set_val. cbn [m_headers with_headers]. rewrite H1.
      rewrite !update_header_at by assumption. reflexivity.
  - injection H4 as ->. exists m. split; [reflexivity|]. split; [apply veq_refl|reflexivity].
Qed.
Lemma s_get_via_fail m : (via_hdrs m = [] \/ exists t, via_hdrs m = None :: t) ->
  exists r, s_get_via m = (m, r) /\ forall l, r <> Ok l.
Proof.
  unfold via_hdrs. intros [H|[t H]].
  - apply via_view_nil in H. unfold s_get_via, typed_get. fold VIA. rewrite (proj1 (nomatch_none _ _) H).
    eexists. split; [reflexivity|]. discriminate.
  - destruct (via_view_cons _ _ _ H) as (pre & h & post & H1 & H2 & H3 & H4 & H5).
    unfold s_get_via, typed_get. fold VIA. rewrite H1, get_header_at by assumption.
    destruct (h_val h) eqn:Ev; cbn in H4; try discriminate;
      try (eexists; split; [reflexivity|discriminate]).
    destruct (parse_via s) eqn:Ep; try discriminate; eexists; (split; [reflexivity|discriminate]).
Qed.

(* ---- the reading stages stay inside [veq] ---- *)
(* decoding the first Via header in place keeps its entry of the view; the other edits do not
   touch a Via header *)
Lemma veq_pop_route : pop_edit veq (s2b "Route") HRoute.
Proof.
  intros m h l _ _. destruct l as [|a [|b r]]; first [apply veq_remove_other, nv_route|apply veq_set_val_other, nv_route].
Qed.
Lemma veq_edits : edits_in any_name veq.
Proof.
  split; try intros _.
  - exact veq_refl.
  - exact veq_trans.
  - intros m h s l G V P. destruct (get_header_split _ _ _ G) as (pre & post & H1 & H2 & H3).
    repeat split. unfold via_hdrs, set_val. cbn [m_headers with_headers]. fold VIA in G, H2, H3 |- *.
    rewrite H1, update_header_at, !via_view_at by assumption. cbn [h_val hval_vias]. rewrite V. cbn [hval_vias].
    rewrite P. reflexivity.
  - intros m h s a _ _ _. apply veq_set_val_other, nv_route.
  - intros m h s a _ _ _. apply veq_set_val_other, nv_from.
  - intros m h s a _ _ _. apply veq_set_val_other, nv_to.
  - intros m h s a _ _ _. apply veq_set_val_other, nv_cseq.
  - intros m. destruct (decode_all_vias_spec (m_headers m)) as [_ H]. repeat split. exact H.
Qed.

(* SetReceived(peer, port): the first entry of the first Via header (any spelling of the name,
   raw or already decoded) gets the stamped parameters; every other field of that entry, every
   other entry, every other header, start line and body are unchanged. *)
Theorem C07_stamp : forall peer port m pre h post v rest,
  m_headers m = pre ++ h :: post -> nomatch VIA pre -> same_header (h_name h) VIA = true ->
  hval_vias (h_val h) = Some (v :: rest) ->
  s_set_received peer port m =
    ({| m_start := m_start m;
        m_headers := pre ++ {| h_name := h_name h; h_val := HVia (stamp peer port v :: rest) |} :: post;
        m_body := m_body m |}, Ok tt).
Proof.
  intros peer port m pre h post v rest H1 H2 H3 H4.
  assert (Hv : via_hdrs m = Some (v :: rest) :: via_view post).
  { unfold via_hdrs. rewrite H1, via_view_at by assumption. rewrite H4. reflexivity. }
  destruct (s_get_via_ok m _ _ Hv) as (m' & Hr & _ & Hs).
  unfold s_set_received, mbind. rewrite Hr. unfold mmodify. fold VIA. rewrite Hs, stamp_eq.
  unfold set_val, with_headers. rewrite H1, update_header_at by assumption. reflexivity.
Qed.

(* [stamp], field by field *)
Lemma C07_stamp_params : forall peer port v,
  v_params (stamp peer port v) =
    (if kv_has (s2b "rport") (kv_set (s2b "received") peer (v_params v))
     then kv_set (s2b "rport") (itoa port) (kv_set (s2b "received") peer (v_params v))
     else kv_set (s2b "received") peer (v_params v)) /\
  v_name (stamp peer port v) = v_name v /\ v_version (stamp peer port v) = v_version v /\
  v_transport (stamp peer port v) = v_transport v /\ v_host (stamp peer port v) = v_host v /\
  v_port (stamp peer port v) = v_port v.
Proof. intros. repeat split. Qed.

(* SetParam: replace the FIRST entry with that key in place, else append *)
Theorem C07_kv_set_char : forall k v l,
  kv_get k (kv_set k v l) = Some v /\
  (forall k', k' <> k -> kv_get k' (kv_set k v l) = kv_get k' l) /\
  filter (fun p => negb (beq (k_key p) k)) (kv_set k v l) = filter (fun p => negb (beq (k_key p) k)) l /\
  (kv_has k l = true -> exists a p b, l = a ++ p :: b /\ k_key p = k /\ kv_get k a = None /\
                                      kv_set k v l = a ++ {| k_key := k_key p; k_val := v |} :: b) /\
  (kv_has k l = false -> kv_set k v l = l ++ [{| k_key := k; k_val := v |}]).
Proof.
  intros k v l. split; [apply kv_get_set_same|]. split; [intros k' NE; apply kv_get_set_other; exact NE|].
  split; [apply kv_set_others|]. split; [apply kv_set_present|apply kv_set_absent].
Qed.

(* in terms of the view: for every message *)
Definition stamp_hdrs (rs : bool) (peer : bytes) (port : Z) (vh : list (option (list via_param)))
  : list (option (list via_param)) :=
  if rs then match vh with Some (v :: rest) :: t => Some (stamp peer port v :: rest) :: t | _ => vh end
  else vh.

Lemma s_set_received_view peer port m :
  m_start (fst (s_set_received peer port m)) = m_start m /\
  m_body (fst (s_set_received peer port m)) = m_body m /\
  via_hdrs (fst (s_set_received peer port m)) = stamp_hdrs true peer port (via_hdrs m).
Proof.
  destruct (via_hdrs m) as [|[l|] t] eqn:E.
  - destruct (s_get_via_fail m (or_introl E)) as (r & Hr & Hn).
    unfold s_set_received, mbind. rewrite Hr. destruct r as [l| |]; [exfalso; exact (Hn l eq_refl)| |];
      cbn [fst stamp_hdrs]; rewrite E; repeat split.
  - destruct (s_get_via_ok m l t E) as (m' & Hr & (V1 & V2 & V3) & Hs).
    unfold s_set_received, mbind. rewrite Hr. destruct l as [|v rest].
    + cbn [merr fst stamp_hdrs]. rewrite E in V3. repeat split; assumption.
    + unfold mmodify. cbn [fst stamp_hdrs]. fold VIA. rewrite Hs, stamp_eq. repeat split.
      apply (via_hdrs_set_via _ _ _ _ E).
  - destruct (s_get_via_fail m (or_intror (ex_intro _ t E))) as (r & Hr & Hn).
    unfold s_set_received, mbind. rewrite Hr. destruct r as [l| |]; [exfalso; exact (Hn l eq_refl)| |];
      cbn [fst stamp_hdrs]; rewrite E; repeat split.
Qed.

(* the message sendMessage serialises (GetClientTransaction may have decoded CSeq / Via in place) *)
Definition sent_msg (m : message) : message := fst (mtry s_client_transaction m).
Lemma veq_sent_msg m : veq m (sent_msg m).
Proof. apply (mpres_mtry veq _ (mpres_s_client_transaction _ veq veq_edits I I)). Qed.

(* the possible outputs of one send over TCP: payload [b] *)
Definition tcp_shape (b : bytes) (ex : list output) : Prop :=
  ex = [] \/ (exists c, ex = [(DConn c, b)]) \/ (exists h p c, ex = [(DDial h p c, [])]) \/
  (exists h p c c', ex = [(DDial h p c, []); (DConn c', b)]).

Lemma send_shape_cases b outs : send_shape b outs ->
  outs = [] \/ (exists ip p, outs = [(DUdp ip p, b)]) \/ tcp_shape b outs.
Proof.
  intros [|ip p|c|h p c]; [left; reflexivity|right; left; exists ip, p; reflexivity|right; right..].
  - right. left. exists c. reflexivity.
  - right. right. right. exists h, p, c, c. reflexivity.
Qed.

(* the fallback on the secondary (TCP) client never sends a datagram *)
Lemma try_sec_outs li local rs b p cs w sec p' cs' w' outs ok :
  try_sec li local rs b p cs w sec = (p', cs', w', outs, ok) -> tcp_shape b outs.
Proof.
  revert p' cs' w' outs ok. apply try_sec_inv.
  - intros p' cs' w' outs ok H. injection H as _ _ _ <- _. left. reflexivity.
  - intros id p' cs' w' outs ok H. apply tcp_client_send_inv in H.
    destruct H as (_ & [(_ & _ & [(-> & _)|(c & -> & _)])|(h & pt & _ & _ & -> & _)]).
    + left. reflexivity.
    + right. left. exists c. reflexivity.
    + right. right. right. do 4 eexists. reflexivity.
Qed.

Lemma failover_send_outs li local rs f b p cs w p' cs' w' outs ok f' :
  failover_send li local rs f b p cs w = (p', cs', w', outs, ok, f') ->
  (exists ip port, (fo_pri f = Some (PUdp ip port) \/ fo_pri f = Some (PUdpVia ip port)) /\
                   fits_datagram b = true /\ outs = [(DUdp ip port, b)]) \/
  tcp_shape b outs.
Proof.
  rewrite failover_send_eq. pose proof (pri_out_cases f b cs) as K.
  destruct (pri_out f b cs) as [[ip port|c|h pt c]|]; [| |contradiction|]; intros H.
  - injection H as _ _ _ <- _ _. left. exists ip, port. destruct K as [K1 K2]. auto.
  - injection H as _ _ _ <- _ _. right. right. left. exists c. reflexivity.
  - injection H as H _. right. exact (try_sec_outs _ _ _ _ _ _ _ _ _ _ _ _ _ H).
Qed.

(* every output carries the given message, except dial markers (no bytes) *)
Definition out_is (m : message) (o : output) : Prop :=
  match fst o with DDial _ _ _ => snd o = [] | _ => snd o = write_message m end.
Lemma send_shape_out_is m ex : send_shape (write_message m) ex -> Forall (out_is m) ex.
Proof. intros [|ip p|c|h p c]; repeat constructor. Qed.

(* sendMessage: the new outputs, for every state *)
Lemma send_message_outs e host port tr m x :
  snd (send_message e host port tr m x) = sent_msg m /\
  x_learned (fst (send_message e host port tr m x)) = x_learned x /\
  exists outs, x_outs (fst (send_message e host port tr m x)) = x_outs x ++ outs /\
    (outs = [] \/ (exists ip p, outs = [(DUdp ip p, write_message (sent_msg m))]) \/
     tcp_shape (write_message (sent_msg m)) outs).
Proof.
  pose proof (send_message_shape e host port tr m x) as H. cbv zeta in H.
  destruct H as (A & B & outs & C & D & _). fold (sent_msg m) in A. rewrite A in D.
  split; [exact A|]. split; [exact B|]. exists outs. split; [exact C|exact (send_shape_cases _ _ D)].
Qed.

Lemma send_message_out_is e host port tr m x :
  exists outs, x_outs (fst (send_message e host port tr m x)) = x_outs x ++ outs /\ Forall (out_is (sent_msg m)) outs.
Proof.
  pose proof (send_message_shape e host port tr m x) as H. cbv zeta in H. destruct H as (A & _ & outs & C & D & _).
  fold (sent_msg m) in A. rewrite A in D. exists outs. split; [exact C|exact (send_shape_out_is _ _ D)].
Qed.

(* ---- AddVia / AddRecordRoute ---- *)
Lemma via_name_VIA : is_via_name VIA = true. Proof. vm_compute. reflexivity. Qed.
Lemma insert_at_app {A} (pre l : list A) x : insert_at (List.length pre) x (pre ++ l) = pre ++ x :: l.
Proof. unfold insert_at. induction pre as [|a r IH]; cbn; [reflexivity|]. f_equal. exact IH. Qed.

Lemma add_via_view v m :
  via_hdrs (add_via v m) = Some [v] :: via_hdrs m /\ m_start (add_via v m) = m_start m /\ m_body (add_via v m) = m_body m.
Proof.
  split; [|split; reflexivity]. unfold via_hdrs, add_via. cbn [m_headers with_headers]. fold VIA.
  destruct (via_view (m_headers m)) as [|x t] eqn:E.
  - apply via_view_nil in E. unfold find_header_pos. rewrite find_pos_from_nomatch by exact E.
    change (insert_at 0 ?h (m_headers m)) with (h :: m_headers m).
    rewrite via_view_step. cbn [h_name h_val hval_vias]. rewrite via_name_VIA.
    rewrite (nomatch_via_view _ E). reflexivity.
  - destruct (via_view_cons _ _ _ E) as (pre & h & post & H1 & H2 & H3 & H4 & H5).
    rewrite H1. unfold find_header_pos. rewrite find_pos_from_at by assumption. cbn [Nat.add].
    rewrite insert_at_app. rewrite via_view_at by (try exact H2; exact via_name_VIA).
    cbn [h_val hval_vias]. rewrite via_view_step, H3, H4, H5. reflexivity.
Qed.
Lemma add_record_route_veq r m : veq m (add_record_route r m).
Proof.
  repeat split. unfold via_hdrs, add_record_route. cbn [m_headers with_headers].
  apply via_view_insert_other. vm_compute. reflexivity.
Qed.
Lemma px_add_record_route_veq must t m : veq m (px_add_record_route must t m).
Proof. unfold px_add_record_route. destruct (_ && _)%bool; [apply veq_refl|apply add_record_route_veq]. Qed.

(* the Via entry the proxy pushes for the listener [t] *)
Definition own_via (branch : bytes) (t : stransport) : via_param :=
  via_set_param (s2b "branch") branch (create_via_param (t_proto t) (t_addr t) (t_port t)).
Lemma pushed_view e must t m :
  via_hdrs (px_add_record_route must t (px_add_via e t m)) = Some [own_via (e_branch e) t] :: via_hdrs m.
Proof.
  destruct (px_add_record_route_veq must t (px_add_via e t m)) as (_ & _ & H). rewrite H.
  unfold px_add_via. apply add_via_view.
Qed.

(* an output of the proxy carrying a message whose Via view is [vh], possibly beneath the
   proxy's own entry (pushed when the next hop was learned, or towards a backend) *)
Definition relayed_as (br : bytes) (vh : list (option (list via_param))) (o : output) : Prop :=
  match fst o with
  | DDial _ _ _ => snd o = []
  | _ => exists m', snd o = write_message m' /\
                    (via_hdrs m' = vh \/ exists t, via_hdrs m' = Some [own_via br t] :: vh)
  end.

Lemma out_is_relayed br vh m o :
  (via_hdrs m = vh \/ exists t, via_hdrs m = Some [own_via br t] :: vh) -> out_is m o -> relayed_as br vh o.
Proof. unfold out_is, relayed_as. intros H. destruct (fst o); intros Ho; try exact Ho; exists m; split; assumption. Qed.

Lemma send_to_backend_outs e m x :
  exists outs, x_outs (fst (send_to_backend e m x)) = x_outs x ++ outs /\ Forall (relayed_as (e_branch e) (via_hdrs m)) outs /\
               x_conns (fst (send_to_backend e m x)) = x_conns x.
Proof.
  pose proof (send_to_backend_msg e m x) as H. cbv zeta in H. destruct H as (_ & C & _ & outs & O & K).
  exists outs. split; [exact O|]. split; [|exact C]. destruct K as [->|(t0 & _ & _ & S)]; [constructor|].
  eapply Forall_impl; [|exact (send_shape_out_is _ _ S)]. intros o. apply out_is_relayed. right. exists t0.
  unfold backend_msg. rewrite pushed_view. destruct (mpres_find_backend_by_dialog _ veq veq_edits e (x_p x) I I I m) as (_ & _ & ->). reflexivity.
Qed.

Lemma handle_request_outs e from m x : is_request m = true ->
  exists outs, x_outs (fst (handle_message e from m x)) = x_outs x ++ outs /\
               Forall (relayed_as (e_branch e) (via_hdrs m)) outs.
Proof.
  intros Hq. rewrite handle_message_request by exact Hq.
  pose proof (mpres_next_request_hop _ veq veq_edits (c_keep_next_hop (e_cfg e)) (route_table_of (e_cfg e)) I I veq_pop_route m) as V.
  destruct (next_request_hop _ _ m) as [m1 r]. cbn [fst] in V. destruct V as (_ & _ & V).
  assert (BK : exists outs, x_outs (fst (if is_my_message (new_my_name (c_name (e_cfg e))) from m1
                                          then send_to_backend e m1 x else (x, m1))) = x_outs x ++ outs /\
                            Forall (relayed_as (e_branch e) (via_hdrs m)) outs).
  { destruct (is_my_message _ from m1).
    - destruct (send_to_backend_outs e m1 x) as (outs & H1 & H2 & _). exists outs. rewrite V in H2. split; assumption.
    - exists []. split; [symmetry; apply app_nil_r|constructor]. }
  unfold dispatch. destruct r as [[[host port] tr]| |]; try exact BK.
  set (m2 := stage_decorate e (x_learned x) host m1).
  assert (V2 : via_hdrs m2 = via_hdrs m \/ exists t, via_hdrs m2 = Some [own_via (e_branch e) t] :: via_hdrs m).
  { subst m2. unfold stage_decorate. destruct (alookup host (x_learned x)) as [t|].
    - right. exists t. rewrite pushed_view, V. reflexivity.
    - left. exact V. }
  destruct (send_message_out_is e host port tr m2 x) as (outs & H1 & H2). exists outs. split; [exact H1|].
  eapply Forall_impl; [|exact H2]. intros o. apply out_is_relayed.
  destruct (veq_sent_msg m2) as (_ & _ & ->). exact V2.
Qed.

(* C07_pipeline.  For EVERY request, state, listener and source: whatever process_message sends
   carries the request's Via headers with the sender's entry (first entry of the first Via
   header) stamped iff the receiving server transport has received-support [rs]; with
   rs = false, or when the first Via header is undecodable/empty, the Via headers are relayed
   as they came.  The proxy's own entry, when pushed, sits in a header of its own on top. *)
Theorem C07_pipeline : forall e peer port from rs tcp m0 x x',
  is_request m0 = true ->
  process_message e peer port from rs tcp m0 x = Ok x' ->
  exists outs, x_outs x' = x_outs x ++ outs /\
               Forall (relayed_as (e_branch e) (stamp_hdrs rs peer port (via_hdrs m0))) outs.
Proof.
  intros e peer port from rs tcp m0 x x' Hq. rewrite process_message_reach.
  destruct (reach e peer port from rs tcp m0 x) as [[m5 x1]| |] eqn:R; try discriminate.
  intros H. injection H as <-.
  (* every stage but SetReceived keeps start line and Via view *)
  destruct (reach_around_stamp _ veq veq_edits I I I I I veq_pop_route _ _ _ _ _ _ _ _ _ _ R) as (m1 & V1 & V5).
  assert (S : m_start (stage_stamp peer port rs m1) = m_start m0 /\
              via_hdrs (stage_stamp peer port rs m1) = stamp_hdrs rs peer port (via_hdrs m0)).
  { unfold stage_stamp. rewrite (veq_is_request _ _ V1), Hq. destruct V1 as (A & _ & C). destruct rs; cbn [andb].
    - destruct (s_set_received_view peer port m1) as (S1 & _ & S3). rewrite S1, S3, A, C. split; reflexivity.
    - split; assumption. }
  destruct S as (S1 & S2). destruct V5 as (A5 & _ & C5).
  assert (Q5 : is_request m5 = true) by (unfold is_request in *; rewrite A5, S1; exact Hq).
  destruct (handle_request_outs e from m5 x1 Q5) as (outs & H1 & H2).
  rewrite (reach_ctx _ _ _ _ _ _ _ _ _ _ R) in H1 at 2. exists outs. split; [exact H1|].
  rewrite C5, S2 in H2. exact H2.
Qed.

(* startProxy, repaired argument order: every constructor receives !no-received *)
Theorem C07_wiring : forall lc,
  item_rs_of true lc = negb (lc_no_received lc) /\
  pa_received_support (wire_proxy lc) = negb (lc_no_received lc).
Proof. intros lc. split; reflexivity. Qed.

(* ... and before the repair the listeners were given defRoute (an unexported field of the
   YAML record: false for every configuration file) *)
Theorem C07_wiring_legacy : forall lc, item_rs_of false lc = lc_def_route lc.
Proof. reflexivity. Qed.

(* the receiving transports of a step: UDP listener and accepted connections read e_item_rs *)
Lemma mk_env_item_rs fx c li lc now br :
  e_item_rs (mk_env fx c (item_rs_of (fx_wiring fx)) li lc now br) = item_rs_of (fx_wiring fx) lc.
Proof. reflexivity. Qed.

(* the TCP connections: every connection the proxy ever knows (accepted on a listener, or
   dialled towards a next hop) has the YAML option of its listen entry *)
Definition wired (c : cfg) (cs : list conn) : Prop :=
  forall cn, In cn cs -> forall lc, nth_opt (c_listens c) (cn_li cn) = Some lc ->
             cn_received_support cn = negb (lc_no_received lc).
Definition grows (li : nat) (rs : bool) (cs cs' : list conn) : Prop :=
  forall cn, In cn cs' ->
    (exists cn0, In cn0 cs /\ cn_li cn = cn_li cn0 /\ cn_received_support cn = cn_received_support cn0) \/
    (cn_li cn = li /\ cn_received_support cn = rs).
Lemma grows_refl li rs cs : grows li rs cs cs.
Proof. intros cn H. left. exists cn. repeat split. exact H. Qed.
Lemma grows_trans li rs a b c : grows li rs a b -> grows li rs b c -> grows li rs a c.
Proof.
  intros H1 H2 cn H. destruct (H2 cn H) as [(cn0 & I0 & A & B)|N]; [|right; exact N].
  destruct (H1 cn0 I0) as [(cn1 & I1 & A1 & B1)|[A1 B1]].
  - left. exists cn1. repeat split; [exact I1|congruence|congruence].
  - right. split; congruence.
Qed.
Lemma wired_grows c li lc cs cs' : nth_opt (c_listens c) li = Some lc -> wired c cs ->
  grows li (negb (lc_no_received lc)) cs cs' -> wired c cs'.
Proof.
  intros EL W G cn H lc' E'. destruct (G cn H) as [(cn0 & I0 & A & B)|[A B]].
  - rewrite B. apply (W cn0 I0). rewrite <- A. exact E'.
  - rewrite A in E'. rewrite EL in E'. injection E' as <-. exact B.
Qed.
Lemma close_conn_keeps c cs cn : In cn (close_conn c cs) ->
  exists cn0, In cn0 cs /\ cn_li cn = cn_li cn0 /\ cn_received_support cn = cn_received_support cn0.
Proof.
  induction cs as [|x r IH]; cbn; [intros []|].
  destruct (Nat.eqb (cn_id x) c).
  - intros [<-|H].
    + exists x. repeat split. left. reflexivity.
    + exists cn. repeat split. right. exact H.
  - intros [<-|H].
    + exists x. repeat split. left. reflexivity.
    + destruct (IH H) as (cn0 & I0 & A & B). exists cn0. repeat split; [right; exact I0|exact A|exact B].
Qed.
Lemma failover_send_grows li local rs f b p cs w p' cs' w' outs ok f' :
  failover_send li local rs f b p cs w = (p', cs', w', outs, ok, f') -> grows li rs cs cs'.
Proof.
  (* a dialled connection belongs to this listener and reads its received-support *)
  intros H cn I. rewrite (failover_send_step _ _ _ _ _ _ _ _ _ _ _ _ _ _ H) in I. apply in_app_or in I. destruct I as [I|I].
  - left. exists cn. repeat split. exact I.
  - right. exact (dial_conns_in _ _ _ _ _ I).
Qed.
Lemma send_message_grows e host port tr m x :
  grows (e_li e) (pa_received_support (wire_proxy (e_lc e))) (x_conns x) (x_conns (fst (send_message e host port tr m x))).
Proof.
  destruct (send_message_io e host port tr m x) as (_ & [(-> & _)|(f & p3 & p4 & outs & ok & f' & EF & _)]).
  - apply grows_refl.
  - exact (failover_send_grows _ _ _ _ _ _ _ _ _ _ _ _ _ _ EF).
Qed.
Lemma process_message_grows e peer port from rs tcp m0 x x' :
  process_message e peer port from rs tcp m0 x = Ok x' ->
  grows (e_li e) (pa_received_support (wire_proxy (e_lc e))) (x_conns x) (x_conns x').
Proof.
  apply (process_message_rel
           (fun x x' => grows (e_li e) (pa_received_support (wire_proxy (e_lc e))) (x_conns x) (x_conns x'))).
  - intros y. apply grows_refl.
  - intros a b c. apply grows_trans.
  - intros h p t m y. apply send_message_grows.
  - intros m y. destruct (send_to_backend_outs e m y) as (outs & _ & _ & ->). apply grows_refl.
  - intros y l pins. apply grows_refl.
  - intros y c h p t. apply grows_refl.
Qed.

Theorem C07_wired_step : forall fx c now br st ev st' outs,
  fx_wiring fx = true -> wired c (st_conns st) ->
  proxy_step fx c now br st ev = Ok (st', outs) -> wired c (st_conns st').
Proof.
  intros fx c now br st ev st' outs Hfx. apply (proxy_step_inv fx c now br (fun st => wired c (st_conns st))).
  - intros st0 li lc peer port from rs tcp m x x' EL W EP. cbn [ctx_state st_conns] in *.
    apply process_message_grows in EP. exact (wired_grows c li lc _ _ EL W EP).
  - intros st0 cid W cn I lc E. cbn [close_state st_conns] in I.
    destruct (close_conn_keeps _ _ _ I) as (cn0 & I0 & A & B). rewrite B. apply (W cn0 I0). rewrite <- A. exact E.
  - intros ev0 st0 st1 outs0 K W H. destruct ev0 as [li src sport data|li src sport|cid data|cid|li a|li a];
      try contradiction; cbn [proxy_step] in H.
    + (* accept: the new connection reads the listener's option *)
      destruct (nth_opt (c_listens c) li) as [lc|] eqn:EL; [|injection H as <- <-; exact W].
      destruct (nth_p (st_proxies st0) li) as [p|]; [|injection H as <- <-; exact W].
      destruct (get_transport _ _ _ _ _ _) as [p1 rk]. injection H as <- <-. cbn [st_conns].
      intros cn I. apply in_app_or in I. destruct I as [I|[<-|[]]]; [exact (W cn I)|].
      cbn [cn_li cn_received_support]. intros lc' E'. rewrite EL in E'. injection E' as <-.
      cbn. rewrite Hfx. reflexivity.
    + destruct (nth_p (st_proxies st0) li) as [p|]; injection H as <- <-; exact W.
    + destruct (nth_p (st_proxies st0) li) as [p|]; [|injection H as <- <-; exact W].
      destruct (rr_remove a (ps_rr p)) as [r' closed]. injection H as <- <-. exact W.
Qed.

Theorem C07_wired_init : forall c now tl, wired c (st_conns (init_state c now tl)).
Proof. intros c now tl cn []. Qed.

(* all states reachable from the initial one, under any events, clocks and branches *)
Inductive reachable (fx : fixes) (c : cfg) : state -> Prop :=
| reach_init : forall now tl, reachable fx c (init_state c now tl)
| reach_step : forall st now br ev st' outs, reachable fx c st ->
                 proxy_step fx c now br st ev = Ok (st', outs) -> reachable fx c st'.
Theorem C07_wired_reachable : forall fx c st, fx_wiring fx = true -> reachable fx c st -> wired c (st_conns st).
Proof.
  intros fx c st Hfx R. induction R as [now tl|st now br ev st' outs R IH H].
  - apply C07_wired_init.
  - exact (C07_wired_step _ _ _ _ _ _ _ _ Hfx IH H).
Qed.

(* outputs are only ever appended *)
Lemma process_message_appends e peer port from rs tcp m x x' :
  process_message e peer port from rs tcp m x = Ok x' -> exists os, x_outs x' = x_outs x ++ os.
Proof.
  intros H. destruct (process_message_sends _ _ _ _ _ _ _ _ _ H) as (_ & b & os & O & _). exists os. exact O.
Qed.

(* a datagram on listener li: the receiving transport's received-support is what the
   listener was created with *)
Theorem C07_step_udp : forall fx c now br st li src sport data lc m rest st' outs,
  nth_opt (c_listens c) li = Some lc -> parse_message data = Ok (m, rest) -> is_request m = true ->
  proxy_step fx c now br st (EvUdp li src sport data) = Ok (st', outs) ->
  Forall (relayed_as br (stamp_hdrs (item_rs_of (fx_wiring fx) lc) src sport (via_hdrs m))) outs.
Proof.
  intros fx c now br st li src sport data lc m rest st' outs EL EP Hq H.
  apply proxy_step_udp_inv in H.
  destruct H as [(_ & ->)|(lc' & m' & rest' & p & x' & EL' & EP' & _ & E & _ & ->)]; [constructor|].
  rewrite EL in EL'. injection EL' as <-. rewrite EP in EP'. injection EP' as <- _.
  destruct (C07_pipeline _ _ _ _ _ _ _ _ _ Hq E) as (os & H1 & H2). cbn in H1. rewrite H1. exact H2.
Qed.

(* with the wiring repaired ([all_fixed]) the YAML option decides *)
Corollary C07_step_udp_fixed : forall c now br st li src sport data lc m rest st' outs,
  nth_opt (c_listens c) li = Some lc -> parse_message data = Ok (m, rest) -> is_request m = true ->
  proxy_step all_fixed c now br st (EvUdp li src sport data) = Ok (st', outs) ->
  Forall (relayed_as br (stamp_hdrs (negb (lc_no_received lc)) src sport (via_hdrs m))) outs.
Proof. intros. eapply (C07_step_udp all_fixed); eassumption. Qed.

(* a chunk on TCP connection cid (accepted or dialled): per message of the chunk, in order *)
Theorem C07_step_tcp : forall fx c now br st cid data cn lc st' outs,
  find (fun x => Nat.eqb (cn_id x) cid) (st_conns st) = Some cn ->
  nth_opt (c_listens c) (cn_li cn) = Some lc ->
  proxy_step fx c now br st (EvTcpData cid data) = Ok (st', outs) ->
  exists oss, outs = List.concat oss /\
    Forall2 (fun m os => is_request m = true ->
               Forall (relayed_as br (stamp_hdrs (cn_received_support cn) (cn_peer cn) (cn_peer_port cn) (via_hdrs m))) os)
            (firstn (List.length oss) (parse_stream (S (List.length data)) data)) oss.
Proof.
  intros fx c now br st cid data cn lc st' outs EF EL H.
  apply proxy_step_tcp_inv in H.
  destruct H as [(_ & ->)|(cn' & lc' & p & x' & EF' & _ & _ & _ & _ & E & _ & ->)]; [exists []; split; [reflexivity|constructor]|].
  rewrite EF in EF'. injection EF' as <-.
  refine (tcp_messages_outs _ _ _ _ _ _ _ _ E).
  intros m x x1 EP. destruct (is_request m) eqn:Hq.
  - destruct (C07_pipeline _ _ _ _ _ _ _ _ _ Hq EP) as (os & H1 & H2). exists os. split; [exact H1|]. intros _. exact H2.
  - destruct (process_message_appends _ _ _ _ _ _ _ _ _ EP) as (os & Ho). exists os. split; [exact Ho|]. discriminate.
Qed.

(* in every reachable state of the repaired tree the connection's received-support is the
   YAML option of its listen entry: accepted and dialled connections alike *)
Corollary C07_step_tcp_fixed : forall c now br st cid data cn lc st' outs,
  reachable all_fixed c st ->
  find (fun x => Nat.eqb (cn_id x) cid) (st_conns st) = Some cn ->
  nth_opt (c_listens c) (cn_li cn) = Some lc ->
  proxy_step all_fixed c now br st (EvTcpData cid data) = Ok (st', outs) ->
  exists oss, outs = List.concat oss /\
    Forall2 (fun m os => is_request m = true ->
               Forall (relayed_as br (stamp_hdrs (negb (lc_no_received lc)) (cn_peer cn) (cn_peer_port cn) (via_hdrs m))) os)
            (firstn (List.length oss) (parse_stream (S (List.length data)) data)) oss.
Proof.
  intros c now br st cid data cn lc st' outs R EF EL H.
  assert (W : cn_received_support cn = negb (lc_no_received lc)).
  { apply (C07_wired_reachable all_fixed c st eq_refl R cn); [|exact EL]. apply find_some in EF. apply EF. }
  rewrite <- W. eapply C07_step_tcp; eassumption.
Qed.

Module C07_examples.
Open Scope string_scope.
Open Scope list_scope.
Open Scope Z_scope.
Definition ex_lc (nr : bool) : listen_cfg :=
  {| lc_addr := s2b "127.0.0.1"; lc_udp := 5060; lc_tcp := 5060; lc_backends := []; lc_dynamic := false;
     lc_no_received := nr; lc_def_route := false; lc_must_rr := false |}.
Definition ex_cfg (nr : bool) : cfg :=
  {| c_name := s2b "proxy.example"; c_keep_next_hop := false; c_dialog_timeout := 60; c_routes := [];
     c_hosts := []; c_listens := [ex_lc nr] |}.
Definition ln (s : string) : bytes := s2b s ++ crlf.
Definition text (lines : list string) : bytes := flat_map ln lines ++ crlf.
Definition ex_req (vias : list string) (route : string) : bytes :=
  text (["INVITE sip:bob@example.com SIP/2.0"] ++ vias ++ [route; "CSeq: 1 INVITE"; "Content-Length: 0"]).
Definition ex_out (vias : list string) : bytes :=
  text (["INVITE sip:bob@example.com SIP/2.0"] ++ vias ++ ["CSeq: 1 INVITE"; "Content-Length: 0"]).
Fixpoint run (fx : fixes) (c : cfg) (st : state) (evs : list event) : list (list output) :=
  match evs with
  | [] => []
  | ev :: r => match proxy_step fx c 0 (s2b "z9hG4bKpx") st ev with
               | Ok (st', outs) => outs :: run fx c st' r
               | _ => []
               end
  end.
Definition legacy_wiring : fixes :=
  {| fx_wiring := false; fx_udp_via_listener := true; fx_indialog_invite := true; fx_bracket_host := true; fx_resolved_key := true; fx_stale_pin := true |}.
Definition rt := "Route: <sip:10.0.0.2:5070;lr>".
Definition src := s2b "127.0.0.9".
Definition hop := DUdp (s2b "10.0.0.2") 5070.

(* the packet comes from 127.0.0.9:40000 while the Via names 10.9.9.9:5070 *)
Example valueless_rport_filled :
  run all_fixed (ex_cfg false) (init_state (ex_cfg false) 0 [])
      [EvUdp 0 src 40000 (ex_req ["Via: SIP/2.0/UDP 10.9.9.9:5070;rport;branch=z9hG4bKabc"] rt)] =
  [[(hop, ex_out ["Via: SIP/2.0/UDP 10.9.9.9:5070;rport=40000;branch=z9hG4bKabc;received=127.0.0.9"])]].
Proof. vm_compute. reflexivity. Qed.

Example spoofed_received_rport_overwritten :
  run all_fixed (ex_cfg false) (init_state (ex_cfg false) 0 [])
      [EvUdp 0 src 40000 (ex_req ["Via: SIP/2.0/UDP 10.9.9.9:5070;received=6.6.6.6;rport=1;branch=z9hG4bKabc"] rt)] =
  [[(hop, ex_out ["Via: SIP/2.0/UDP 10.9.9.9:5070;received=127.0.0.9;rport=40000;branch=z9hG4bKabc"])]].
Proof. vm_compute. reflexivity. Qed.

Example no_rport_none_added :
  run all_fixed (ex_cfg false) (init_state (ex_cfg false) 0 [])
      [EvUdp 0 src 40000 (ex_req ["Via: SIP/2.0/UDP 10.9.9.9:5070;branch=z9hG4bKabc"] rt)] =
  [[(hop, ex_out ["Via: SIP/2.0/UDP 10.9.9.9:5070;branch=z9hG4bKabc;received=127.0.0.9"])]].
Proof. vm_compute. reflexivity. Qed.

Example no_received_untouched :
  run all_fixed (ex_cfg true) (init_state (ex_cfg true) 0 [])
      [EvUdp 0 src 40000 (ex_req ["Via: SIP/2.0/UDP 10.9.9.9:5070;rport;branch=z9hG4bKabc"] rt)] =
  [[(hop, ex_out ["Via: SIP/2.0/UDP 10.9.9.9:5070;rport;branch=z9hG4bKabc"])]].
Proof. vm_compute. reflexivity. Qed.

(* compact / odd-case names, comma list: only the first entry of the first Via header changes *)
Example layouts :
  run all_fixed (ex_cfg false) (init_state (ex_cfg false) 0 [])
      [EvUdp 0 src 40000 (ex_req ["v: SIP/2.0/UDP 10.9.9.9:5070;rport;branch=z9hG4bKabc, SIP/2.0/TCP 10.8.8.8;branch=z9hG4bKdef";
                                  "VIA: SIP/2.0/UDP 10.7.7.7:5062;branch=z9hG4bKghi"] rt)] =
  [[(hop, ex_out ["v: SIP/2.0/UDP 10.9.9.9:5070;rport=40000;branch=z9hG4bKabc;received=127.0.0.9,SIP/2.0/TCP 10.8.8.8;branch=z9hG4bKdef";
                  "VIA: SIP/2.0/UDP 10.7.7.7:5062;branch=z9hG4bKghi"])]].
Proof. vm_compute. reflexivity. Qed.

(* the proxy's own entry goes on top in a header of its own (next hop learned by the first event) *)
Example own_via_on_top :
  run all_fixed (ex_cfg false) (init_state (ex_cfg false) 0 [])
      [EvUdp 0 (s2b "10.0.0.2") 5070 (ex_req ["Via: SIP/2.0/UDP 10.0.0.2:5070;branch=z9hG4bKq"] "Route: <sip:10.0.0.4;lr>");
       EvUdp 0 src 40000 (ex_req ["Via: SIP/2.0/UDP 10.9.9.9:5070;rport;branch=z9hG4bKabc"] rt)] =
  [[(DUdp (s2b "10.0.0.4") 5060, ex_out ["Via: SIP/2.0/UDP 10.0.0.2:5070;branch=z9hG4bKq;received=10.0.0.2"])];
   [(hop, ex_out ["Via: SIP/2.0/UDP 127.0.0.1:5060;branch=z9hG4bKpx";
                  "Via: SIP/2.0/UDP 10.9.9.9:5070;rport=40000;branch=z9hG4bKabc;received=127.0.0.9"])]].
Proof. vm_compute. reflexivity. Qed.

(* TCP: a request on an ACCEPTED connection (0) is relayed over a connection the proxy DIALS
   (1); a request arriving on the dialled connection is stamped with that peer's address *)
Example tcp_accepted_and_dialled :
  run all_fixed (ex_cfg false) (init_state (ex_cfg false) 0 [(s2b "10.0.0.2", 5070)])
      [EvTcpAccept 0 src 40001;
       EvTcpData 0 (ex_req ["Via: SIP/2.0/TCP 10.9.9.9:5070;rport;branch=z9hG4bKabc"] "Route: <sip:10.0.0.2:5070;lr;transport=tcp>");
       EvTcpData 1 (ex_req ["Via: SIP/2.0/TCP 10.5.5.5;rport=7;branch=z9hG4bKxyz"] "Route: <sip:10.0.0.3:5080;lr>")] =
  [[];
   [(DDial (s2b "10.0.0.2") 5070 1, []);
    (DConn 1, ex_out ["Via: SIP/2.0/TCP 10.9.9.9:5070;rport=40001;branch=z9hG4bKabc;received=127.0.0.9"])];
   [(DUdp (s2b "10.0.0.3") 5080, ex_out ["Via: SIP/2.0/TCP 10.5.5.5;rport=5070;branch=z9hG4bKxyz;received=10.0.0.2"])]].
Proof. vm_compute. reflexivity. Qed.

(* before the repair of startProxy: `no-received` absent/false in the YAML file, yet the
   request leaves without received/rport (the listeners were given defRoute = false) *)
Example C07_wiring_legacy_refuted :
  lc_no_received (ex_lc false) = false /\
  item_rs_of (fx_wiring legacy_wiring) (ex_lc false) = false /\
  run legacy_wiring (ex_cfg false) (init_state (ex_cfg false) 0 [])
      [EvUdp 0 src 40000 (ex_req ["Via: SIP/2.0/UDP 10.9.9.9:5070;rport;branch=z9hG4bKabc"] rt)] =
  [[(hop, ex_out ["Via: SIP/2.0/UDP 10.9.9.9:5070;rport;branch=z9hG4bKabc"])]].
Proof. split; [reflexivity|]. split; [reflexivity|]. vm_compute. reflexivity. Qed.

(* the hypotheses of C07_stamp hold of a decoded datagram: Via spelled "v", second header *)
Example C07_stamp_ex :
  exists m rest' pre h post v rest,
    parse_message (text ["INVITE sip:bob@example.com SIP/2.0"; "Max-Forwards: 70";
                         "v: SIP/2.0/UDP 10.9.9.9:5070;rport, SIP/2.0/TCP 10.8.8.8"; "Content-Length: 0"]) = Ok (m, rest') /\
    m_headers m = pre ++ h :: post /\ pre <> [] /\ nomatch VIA pre /\ same_header (h_name h) VIA = true /\
    hval_vias (h_val h) = Some (v :: rest) /\ rest <> [] /\
    via_hdrs (fst (s_set_received src 40000 m)) = [Some (stamp src 40000 v :: rest)] /\
    v_params (stamp src 40000 v) =
      [{| k_key := s2b "rport"; k_val := s2b "40000" |}; {| k_key := s2b "received"; k_val := src |}].
Proof.
  eexists. eexists. eexists [_]. eexists. eexists. eexists. eexists.
  split; [vm_compute; reflexivity|]. split; [vm_compute; reflexivity|]. split; [discriminate|].
  split; [vm_compute; reflexivity|]. split; [vm_compute; reflexivity|]. split; [vm_compute; reflexivity|].
  split; [discriminate|]. split; vm_compute; reflexivity.
Qed.
End C07_examples.

Print Assumptions C07_stamp.
Print Assumptions C07_stamp_params.
Print Assumptions C07_kv_set_char.
Print Assumptions C07_pipeline.
Print Assumptions C07_wiring.
Print Assumptions C07_wiring_legacy.
Print Assumptions C07_wired_step.
Print Assumptions C07_wired_reachable.
Print Assumptions C07_step_udp.
Print Assumptions C07_step_udp_fixed.
Print Assumptions C07_step_tcp.
Print Assumptions C07_step_tcp_fixed.
Print Assumptions C07_examples.C07_wiring_legacy_refuted.
