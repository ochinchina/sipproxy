(* C13_bridge.v — the executable judge of C13 (SpecProxy.judge_C13_event, which reads raw bytes with its own reader)
   accepts what the model emits for a request whose Route headers are in the C14 grammar.
   The Route HEADERS of the message a request is relayed as are a function of the received ones (request_routed,
   C13_route_headers); on the grammar domain the judge's reading of those headers is the list it computes from the
   received text (own_agree, judge_expected).  The bridge is proved first with C01.line_safe of the emitted messages
   as a premise (C13_judge_accepts_in, the _partial theorems), then with conditions on the input only, for a request
   from anywhere (C13_judge_bridge_in; the datagram theorems are its instances, those for a TCP chunk are in
   C13_bridge_tcp.v). *)
From Coq Require Import List Ascii String ZArith NArith Bool Arith Lia.
From Model Require Import Bytes BytesLemmas Wire Uri Hdr Message Msg Rx Glob StaticRoute RoundRobin Pins
     Proxy RunProxy SpecProxy SpecC14.
From Model.proofs Require Import C14_uri C14_hdr MsgLemmas Pipeline C06 C01 C13.
From Model.proofs Require C07_bridge.
Import ListNotations.
Open Scope list_scope.
Module B7 := C07_bridge.

Definition RS (m : message) : list header := sel (s2b "Route") (m_headers m).

(* GetRoute decodes the first Route header in place when it parses *)
Definition rnorm (hs : list header) : list header :=
  match hs with
  | h :: rest => match h_val h with
                 | HRaw s => match parse_route s with
                             | Ok l => {| h_name := h_name h; h_val := HRoute l |} :: rest
                             | _ => hs
                             end
                 | _ => hs
                 end
  | [] => []
  end.
Definition top_of (hs : list header) : option route_param :=
  match hs with
  | h :: _ => match h_val h with HRoute (rp :: _) => Some rp | _ => None end
  | [] => None
  end.
(* PopRoute on a decoded first header *)
Definition pop_of (hs : list header) : list header :=
  match hs with
  | h :: rest => match h_val h with
                 | HRoute (_ :: ((_ :: _) as l')) => {| h_name := h_name h; h_val := HRoute l' |} :: rest
                 | HRoute _ => rest
                 | _ => hs
                 end
  | [] => []
  end.
(* tryRemoveTopRoute / getNextRequestHopByRoute on the list of Route headers *)
Definition step_own (c : cfg) (from : stransport) (hs : list header) : list header :=
  match top_of (rnorm hs) with
  | Some rp => if designates c from rp then pop_of (rnorm hs) else rnorm hs
  | None => rnorm hs
  end.
Definition step_next (keep : bool) (hs : list header) : list header :=
  match top_of (rnorm hs) with
  | Some _ => if keep then rnorm hs else pop_of (rnorm hs)
  | None => rnorm hs
  end.

(* [m'] has the start line and body of [m] and the Route headers [f (RS m)] *)
Definition routed (f : list header -> list header) (m m' : message) : Prop :=
  RS m' = f (RS m) /\ m_start m' = m_start m /\ m_body m' = m_body m.

Lemma routed_frame_l f m1 m2 m3 : frame (s2b "Route") m1 m2 -> routed f m2 m3 -> routed f m1 m3.
Proof. intros (A & B & C) (A' & B' & C'). unfold routed, RS in *. rewrite A', A. repeat split; congruence. Qed.
Lemma routed_frame_r f m1 m2 m3 : routed f m1 m2 -> frame (s2b "Route") m2 m3 -> routed f m1 m3.
Proof. intros (A & B & C) (A' & B' & C'). unfold routed, RS in *. rewrite A', A. repeat split; congruence. Qed.
Lemma routed_comp f g m1 m2 m3 : routed f m1 m2 -> routed g m2 m3 -> routed (fun hs => g (f hs)) m1 m3.
Proof. intros (A & B & C) (A' & B' & C'). unfold routed in *. rewrite A', A. repeat split; congruence. Qed.

Lemma s_get_route_RS m :
  routed rnorm m (fst (s_get_route m)) /\
  match snd (s_get_route m) with
  | Ok l => exists n rest, rnorm (RS m) = {| h_name := n; h_val := HRoute l |} :: rest
  | _ => top_of (rnorm (RS m)) = None
  end.
Proof.
  unfold routed, s_get_route, typed_get, RS. rewrite get_header_sel.
  destruct (sel (s2b "Route") (m_headers m)) as [|h rest] eqn:S; cbn [hd_error fst snd].
  { rewrite S. cbn. auto. }
  destruct (h_val h) as [s|l|l|l|f|f|c] eqn:V; cbn [fst snd]; rewrite ?S; unfold rnorm; rewrite ?V;
    try (unfold top_of; rewrite V; auto; fail).
  - (* raw *)
    destruct (parse_route s) as [l| |] eqn:P; cbn [fst snd]; rewrite ?S;
      try (unfold top_of; rewrite V; auto; fail).
    cbn [set_val with_headers m_headers m_start m_body]. rewrite sel_update_same, S.
    split; [auto|]. eexists _, _. reflexivity.
  - (* already decoded *)
    split; [auto|]. exists (h_name h), rest. destruct h as [n v]. cbn in *. subst v. reflexivity.
Qed.

Lemma s_pop_route_RS m n a l rest :
  RS m = {| h_name := n; h_val := HRoute (a :: l) |} :: rest ->
  routed (fun _ => match l with [] => rest | _ :: _ => {| h_name := n; h_val := HRoute l |} :: rest end)
         m (fst (s_pop_route m)).
Proof.
  unfold routed, RS. intros S. unfold s_pop_route, mbind, s_get_route, typed_get.
  rewrite get_header_sel, S. cbn [hd_error h_val].
  destruct l as [|b l]; cbn [mmodify fst snd]; cbn [set_val with_headers m_headers m_start m_body].
  - rewrite sel_remove_same, S. auto.
  - rewrite sel_update_same, S. auto.
Qed.

(* GetRoute, then PopRoute if the top entry satisfies [cond]: the shape of both route steps *)
Definition step_if (cond : route_param -> bool) (hs : list header) : list header :=
  match top_of (rnorm hs) with
  | Some rp => if cond rp then pop_of (rnorm hs) else rnorm hs
  | None => rnorm hs
  end.
Lemma step_own_if c from hs : step_own c from hs = step_if (designates c from) hs.
Proof. reflexivity. Qed.
Lemma step_next_if keep hs : step_next keep hs = step_if (fun _ => negb keep) hs.
Proof. unfold step_next, step_if. destruct (top_of _), keep; reflexivity. Qed.
Lemma get_then_pop_RS {A} (k : list route_param -> M A) (cond : route_param -> bool) m :
  (forall l m1, fst (k l m1) = match l with a :: _ => if cond a then fst (s_pop_route m1) else m1 | [] => m1 end) ->
  routed (step_if cond) m (fst (mbind s_get_route k m)).
Proof.
  intros K. destruct (s_get_route_RS m) as (V & N). unfold mbind.
  destruct (s_get_route m) as [m1 r1]. cbn [fst snd] in V, N. unfold routed in *. unfold step_if.
  destruct r1 as [l| |]; cbn [fst].
  2,3: rewrite N; exact V.
  destruct N as (n & rest & S). rewrite S. rewrite S in V. destruct V as (V1 & V2 & V3). rewrite K.
  destruct l as [|a l]; cbn [top_of h_val]; [auto|]. destruct (cond a); [|auto].
  pose proof (s_pop_route_RS m1 n a l rest V1) as (P1 & P2 & P3). rewrite P1.
  split; [destruct l; reflexivity|split; congruence].
Qed.

Lemma try_remove_RS c from m :
  routed (step_own c from) m (fst (mtry (try_remove_top_route c from) m)).
Proof.
  rewrite fst_mtry. apply (get_then_pop_RS _ (designates c from)). intros [|a l] m1; [reflexivity|].
  unfold designates. destruct (na_addr (r_addr a)); [|reflexivity]. destruct (_ && _)%bool; reflexivity.
Qed.

Lemma next_hop_by_route_RS keep m : routed (step_next keep) m (fst (next_hop_by_route keep m)).
Proof.
  unfold routed. rewrite step_next_if. apply (get_then_pop_RS _ (fun _ => negb keep)). intros [|a l] m1; [reflexivity|].
  unfold mbind. destruct keep; cbn [negb]; [destruct (na_addr (r_addr a)); reflexivity|].
  rewrite <- (fst_mtry s_pop_route m1). destruct (mtry s_pop_route m1) as [m2 [u| |]]; try reflexivity.
  destruct (na_addr (r_addr a)); reflexivity.
Qed.

Lemma next_request_hop_RS keep rt m : routed (step_next keep) m (fst (next_request_hop keep rt m)).
Proof.
  unfold next_request_hop. pose proof (next_hop_by_route_RS keep m) as H.
  destruct (next_hop_by_route keep m) as [m1 r]. cbn [fst] in H.
  destruct r; cbn [fst]; try exact H.
  eapply routed_frame_r; [exact H|]. apply (mframe_next_hop_by_config _ rt dj_Route_To).
Qed.

Lemma frame_decorate e l host m : frame (s2b "Route") m (decorate e l host m).
Proof.
  unfold decorate. destruct (alookup host l) as [t|] eqn:A; [|apply frame_refl].
  destruct (C06_decorate_learned e l host t m A) as (_ & _ & _ & _ & F). unfold decorate in F. rewrite A in F.
  apply F; reflexivity.
Qed.

Lemma relayed_form_frame e l p m1 mo : B7.relayed_form e l p m1 mo -> frame (s2b "Route") m1 mo.
Proof.
  intros [(host & ->)|(t0 & FT & ->)].
  - eapply frame_trans; [apply frame_decorate|].
    apply (B7.edited_client_transaction _ _ _ (frame_edits _)). repeat constructor; [exact dj_Route_Via|exact dj_Route_CSeq].
  - unfold backend_message.
    change (px_add_record_route (pa_must_rr (wire_proxy (e_lc e))) t0 (px_add_via e t0 (fst (find_backend_by_dialog e p m1))))
      with (decorate e [(s2b "h", t0)] (s2b "h") (fst (find_backend_by_dialog e p m1))).
    eapply frame_trans; [|apply frame_decorate].
    apply (B7.edited_find_backend e p m1 _ _ (frame_edits _)).
    repeat constructor; [exact dj_Route_From|exact dj_Route_To|exact dj_Route_CSeq].
Qed.

(* What a request makes the proxy write: at most one message; its Route headers are those of the received
   message after the two route steps, and it is [good] if the received one was (with a readable source
   address and readable own transports). *)
Lemma request_routed e peer pp from rs tcp m0 x x' :
  is_request m0 = true -> process_message e peer pp from rs tcp m0 x = Ok x' ->
  exists extra, x_outs x' = x_outs x ++ extra /\ (msg_count extra <= 1)%nat /\
    forall o, In o extra -> is_msg o = true ->
      exists mo, snd o = write_message mo /\
        routed (fun hs => step_next (c_keep_next_hop (e_cfg e)) (step_own (e_cfg e) from hs)) m0 mo /\
        (B7.good m0 -> B7.src_ok peer -> B7.t_ok (e_branch e) from -> B7.learned_ok (e_branch e) (x_learned x) ->
         (forall t0, first_transport (e_lc e) = Some t0 -> B7.t_ok (e_branch e) t0) -> B7.good mo).
Proof.
  intros R H. destruct (B7.request_reach _ _ _ _ _ _ _ _ _ R H) as (m1 & m3 & p1 & E1 & E2 & Q1 & Q4 & ->).
  destruct (B7.request_sends e from _ (ctx_with x (snd (stage_learn peer from m0 x)) p1) Q4) as (extra & O & D).
  cbn [x_outs x_learned x_p ctx_with] in O, D. exists extra. split; [exact O|].
  destruct D as [->|(mo & Sh & Fm)]; [split; [apply Nat.le_0_l|intros o []]|].
  destruct (send_shape_one_msg _ _ Sh) as (C & Fo). split; [exact C|]. intros o Io Mo. exists mo.
  rewrite Forall_forall in Fo. split; [exact (Fo o Io Mo)|]. split.
  - assert (F03 : frame (s2b "Route") m0 m3).
    { eapply frame_trans; [apply (E1 _ _ (frame_edits _)); repeat constructor; exact dj_Route_Via|].
      eapply frame_trans; [|apply (E2 _ _ (frame_edits _)); repeat constructor; [exact dj_Route_Via|exact dj_Route_CSeq]].
      exact (B7.stage_stamp_frame peer pp rs m1 _ dj_Route_Via). }
    eapply routed_frame_l; [exact F03|]. eapply routed_frame_r; [|exact (relayed_form_frame _ _ _ _ _ Fm)].
    exact (routed_comp _ _ _ _ _ (try_remove_RS (e_cfg e) from m3) (next_request_hop_RS _ _ _)).
  - intros G0 Hs Hf HL HF.
    pose proof (B7.stage_stamp_good peer pp rs m1 Hs (E1 _ _ B7.good_edits (B7.all_any _) G0)) as G2.
    exact (proj1 (B7.relayed_form_good e _ _ _ mo (B7.edited_to_hop e from _ m3 E2 _ _ B7.good_edits B7.good_pop_route (B7.all_any _) G2)
                    (B7.learned_ok_stage_learn _ peer from m0 x Hf HL) HF Fm)).
Qed.

(* For EVERY request: each byte-carrying output is the serialisation of a message with the start line
   and body of the received one whose Route HEADERS are those of the received message after the two
   route steps (header values that were not looked at stay as they are, undecoded). *)
Theorem C13_route_headers : forall e peer peer_port from rs tcp m0 x x',
  is_request m0 = true ->
  process_message e peer peer_port from rs tcp m0 x = Ok x' ->
  exists extra, x_outs x' = x_outs x ++ extra /\ (msg_count extra <= 1)%nat /\
    forall o, In o extra -> is_msg o = true ->
      exists mo, snd o = write_message mo /\
                 routed (fun hs => step_next (c_keep_next_hop (e_cfg e)) (step_own (e_cfg e) from hs)) m0 mo.
Proof.
  intros e peer pp from rs tcp m0 x x' R H.
  destruct (request_routed e peer pp from rs tcp m0 x x' R H) as (extra & O & C & W).
  exists extra. split; [exact O|]. split; [exact C|]. intros o Io Mo.
  destruct (W o Io Mo) as (mo & B & Rt & _). exists mo. split; [exact B|exact Rt].
Qed.

Definition j_userhost (hp : bytes) : bytes * bytes :=
  match index_byte "@"%char hp with
  | Some p => (match index_byte ":"%char (firstn p hp) with Some q => firstn q hp | None => firstn p hp end,
               skipn (S p) hp)
  | None => ([], hp)
  end.
Definition j_hostport (hostport : bytes) : bytes * option Z :=
  match index_byte ":"%char hostport with
  | Some p => (firstn p hostport, atoi (skipn (S p) hostport))
  | None => (hostport, None)
  end.
Definition j_go (s body : bytes) : juri :=
  let b1 := match index_byte "?"%char body with Some p => firstn p body | None => body end in
  match split_byte ";"%char b1 with
  | [] => {| ju_sip := true; ju_text := s; ju_user := []; ju_host := []; ju_port := None; ju_params := [] |}
  | hp :: ps =>
      let '(user, hostport) := j_userhost hp in
      let '(h, port) := j_hostport hostport in
      {| ju_sip := true; ju_text := s; ju_user := user; ju_host := h; ju_port := port; ju_params := map j_kv ps |}
  end.
Lemma j_uri_unfold s :
  j_uri s = if has_prefix (s2b "sip:") s then j_go s (skipn 4 s)
            else if has_prefix (s2b "sips:") s then j_go s (skipn 5 s)
            else {| ju_sip := false; ju_text := s; ju_user := []; ju_host := []; ju_port := None; ju_params := [] |}.
Proof. reflexivity. Qed.

(* what the judge reads in the reference text of a well-formed sip / sips URI: everything but its own copy
   of the text *)
Definition mk_ju (txt usr : bytes) (u : a_sipuri) : juri :=
  {| ju_sip := true; ju_text := txt; ju_user := usr; ju_host := au_host u; ju_port := au_port u;
     ju_params := map j_kv (map rp_param (au_params u)) |}.

Lemma j_userhost_rp o hp : wf_user o = true -> ~ In "@"%char hp ->
  j_userhost (rp_user o ++ hp) = (emb_user o, hp).
Proof.
  intros H Hhp. unfold j_userhost.
  destruct o as [[usr [pw|]]|]; cbn [wf_user rp_user emb_user] in *.
  - apply andb_true_iff in H. destruct H as [H1 H2].
    apply safe1_parts in H1, H2. destruct H1 as [_ H1], H2 as [_ H2].
    assert (N : ~ In "@"%char (usr ++ ":"%char :: pw)).
    { apply notin_app; [apply safe_no_at, H1|]. apply notin_cons; [discriminate|apply safe_no_at, H2]. }
    replace ((usr ++ ":"%char :: pw ++ ["@"%char]) ++ hp)
      with ((usr ++ ":"%char :: pw) ++ "@"%char :: hp) by (norm_app; reflexivity).
    destruct (index_cut _ _ hp N) as (E1 & E2 & E3). rewrite E1. cbv beta iota. rewrite E2, E3.
    destruct (index_cut ":"%char usr pw (safe_no_colon _ H1)) as (F1 & _ & _). rewrite F1.
    rewrite <- app_assoc, firstn_length_app. reflexivity.
  - rewrite andb_true_r in H. apply safe1_parts in H. destruct H as [_ H].
    replace ((usr ++ ["@"%char]) ++ hp) with (usr ++ "@"%char :: hp) by (norm_app; reflexivity).
    destruct (index_cut _ usr hp (safe_no_at _ H)) as (E1 & E2 & E3). rewrite E1. cbv beta iota. rewrite E2, E3.
    rewrite index_notin by (apply safe_no_colon, H). reflexivity.
  - cbn [app]. rewrite index_notin by exact Hhp. reflexivity.
Qed.

Lemma j_hostport_ok h p : safe h = true -> wf_port p = true -> j_hostport (h ++ rp_port p) = (h, p).
Proof.
  intros Hh Hp. unfold j_hostport. destruct p as [z|]; cbn [rp_port].
  - destruct (index_cut _ h (itoa z) (safe_no_colon _ Hh)) as (E1 & E2 & E3).
    rewrite E1, E2, E3. apply wf_port_range in Hp.
    rewrite atoi_itoa by (unfold int_min, int_max; lia). reflexivity.
  - rewrite app_nil_r, index_notin by (apply safe_no_colon, Hh). reflexivity.
Qed.

Lemma j_go_sip txt u : wf_sipuri u = true ->
  j_go txt ((rp_core u ++ rp_params (au_params u)) ++ rp_hdrs (au_headers u)) = mk_ju txt (emb_user (au_user u)) u.
Proof.
  intros H. destruct (wf_sipuri_parts u H) as (Hu & Hh & Hp & Hps & Hhs).
  apply safe1_parts in Hh. destruct Hh as [_ Hh].
  set (S1 := rp_core u ++ rp_params (au_params u)).
  assert (N : ~ In "?"%char S1) by (apply (pm_notin "?"%char _ eq_refl), rp_core_params_pm, H).
  assert (B1 : match index_byte "?"%char (S1 ++ rp_hdrs (au_headers u)) with
               | Some p => firstn p (S1 ++ rp_hdrs (au_headers u))
               | None => S1 ++ rp_hdrs (au_headers u) end = S1).
  { destruct (au_headers u) as [|h r]; cbn [rp_hdrs].
    - rewrite app_nil_r, index_notin by exact N. reflexivity.
    - destruct (index_cut _ S1 (rp_hdr h ++ flat_map (fun y => "&"%char :: rp_hdr y) r) N) as (E1 & E2 & _).
      rewrite E1. exact E2. }
  assert (SP : split_byte ";"%char S1 = rp_core u :: map rp_param (au_params u)).
  { unfold S1, rp_params. apply split_flat.
    - apply (hp_notin ";"%char _ eq_refl), rp_core_hp, H.
    - apply (forallb_Forall_wf wf_param); [apply rp_param_no_semi|exact Hps]. }
  unfold j_go. rewrite B1. cbv zeta. rewrite SP. cbv beta iota.
  assert (NA : ~ In "@"%char (au_host u ++ rp_port (au_port u))).
  { apply notin_app; [apply safe_no_at, Hh|apply rp_port_notin; [discriminate|reflexivity]]. }
  unfold rp_core. rewrite (j_userhost_rp (au_user u) _ Hu NA), (j_hostport_ok _ _ Hh Hp). reflexivity.
Qed.

Lemma j_uri_sipuri u : wf_sipuri u = true ->
  exists txt, j_uri (rp_sipuri u) = mk_ju txt (emb_user (au_user u)) u.
Proof.
  intros H. rewrite j_uri_unfold, rp_sipuri_eq2.
  set (B := (rp_core u ++ rp_params (au_params u)) ++ rp_hdrs (au_headers u)).
  destruct (au_secure u); unfold rp_scheme.
  - change (has_prefix (s2b "sip:") (s2b "sips:" ++ B)) with false.
    change (has_prefix (s2b "sips:") (s2b "sips:" ++ B)) with true.
    change (skipn 5 (s2b "sips:" ++ B)) with B. cbv iota.
    eexists. apply (j_go_sip _ u H).
  - change (has_prefix (s2b "sip:") (s2b "sip:" ++ B)) with true.
    change (skipn 4 (s2b "sip:" ++ B)) with B. cbv iota.
    eexists. apply (j_go_sip _ u H).
Qed.

Lemma j_get_params name ps : forallb wf_param ps = true ->
  j_get name (map j_kv (map rp_param ps)) = a_get name ps.
Proof.
  induction ps as [|p ps IH]; intros H; [reflexivity|].
  cbn [forallb] in H. apply andb_true_iff in H. destruct H as [Hp Hps].
  cbn [map]. rewrite (B7.j_kv_rp_param p Hp). unfold B7.a_pair. cbn [j_get]. unfold a_get. cbn [find].
  rewrite (beq_sym name (ap_key p)). destruct (beq (ap_key p) name); [reflexivity|].
  rewrite (IH Hps). reflexivity.
Qed.

(* transport and effective port the judge computes from its reading = those of the decoded URI *)
Lemma ju_facts txt usr u : wf_sipuri u = true ->
  ju_transport (mk_ju txt usr u) = sip_uri_transport (embed_sipuri u) /\
  ju_eff_port (mk_ju txt usr u) = sip_uri_get_port (embed_sipuri u).
Proof.
  intros H. destruct (wf_sipuri_parts u H) as (_ & _ & Hpt & Hps & _).
  assert (T : ju_transport (mk_ju txt usr u) = x_transport u).
  { unfold ju_transport, mk_ju. cbn [ju_params]. rewrite (j_get_params _ _ Hps). reflexivity. }
  split.
  - rewrite sip_uri_transport_embed. exact T.
  - rewrite (sip_uri_get_port_embed u Hpt). unfold ju_eff_port. rewrite T. unfold mk_ju at 1. cbn [ju_port].
    destruct (au_port u) as [z|]; [|reflexivity].
    apply wf_port_range in Hpt. replace (Z.eqb z 0) with false; [reflexivity|].
    symmetry. apply Z.eqb_neq. lia.
Qed.

Lemma j_uri_other s : wf_other s = true -> ju_sip (j_uri s) = false.
Proof. intros H. destruct (wf_other_parts s H) as (_ & _ & E1 & E2). rewrite j_uri_unfold, E1, E2. reflexivity. Qed.

(* the URI of "display<uri>tail" *)
Lemma j_entry_nameaddr n tail : wf_nameaddr n = true ->
  j_entry_uri (rp_nameaddr n ++ tail) = j_uri (rp_addr (an_addr n)).
Proof.
  intros Hn. unfold j_entry_uri. destruct (nameaddr_cut n tail Hn) as (E1 & E2 & _).
  rewrite E1, E2. f_equal. apply nameaddr_slice.
Qed.
(* ... of an entry written as the reference text of a well-formed Route element *)
Lemma j_entry_relem r : wf_relem r = true ->
  j_entry_uri (rp_relem r) = j_uri (rp_addr (an_addr (ar_na r))).
Proof. intros H. apply j_entry_nameaddr. exact (proj1 (wf_relem_parts r H)). Qed.
(* ... of a From / To value, both forms *)
Lemma j_entry_fromto f : wf_fromto f = true -> j_entry_uri (rp_fromto f) = j_uri (rp_addr (a_ft_addr f)).
Proof.
  intros H. destruct (wf_fromto_parts f H) as [Ha Hps]. unfold rp_fromto, a_ft_addr.
  destruct (af_addr f) as [n|a]; cbn [wf_ftaddr] in Ha.
  - apply j_entry_nameaddr, Ha.
  - pose proof (wf_bare_addr a Ha) as Hw. unfold j_entry_uri.
    rewrite (index_notin "<"%char)
      by (apply notin_app; [apply rp_addr_no_lt, Hw|apply rp_params_no_lt, Hps]).
    f_equal. destruct (af_params f) as [|p ps].
    + cbn [rp_params flat_map map]. rewrite app_nil_r.
      rewrite index_notin by (apply rp_bare_no_semi, Ha). reflexivity.
    + rewrite rp_params_cons.
      destruct (index_cut ";"%char (rp_addr a) (rp_param p ++ rp_params ps) (rp_bare_no_semi a Ha)) as (F1 & F2 & _).
      rewrite F1. exact F2.
Qed.
Lemma same_header_to n : same_header n (s2b "To") = is_to n.
Proof. reflexivity. Qed.

(* j_own (judge, on the bytes of the entry) = designates (model, on the decoded entry) *)
Theorem own_agree : forall c lc tcp from r,
  t_addr from = lc_addr lc -> t_port from = listener_port lc tcp -> wf_relem r = true ->
  j_own c lc tcp (rp_relem r) = designates c from (embed_relem r).
Proof.
  intros c lc tcp from r Ha Hp H. destruct (wf_relem_parts r H) as [Hn _].
  destruct (wf_nameaddr_parts _ Hn) as [_ Hw].
  unfold j_own, designates. rewrite (j_entry_relem r H).
  cbn [embed_relem r_addr embed_nameaddr na_addr].
  destruct (an_addr (ar_na r)) as [u|s]; cbn [embed_addr rp_addr wf_addr] in *.
  - destruct (j_uri_sipuri u Hw) as (txt & ->). rewrite (proj2 (ju_facts txt _ u Hw)).
    cbn [mk_ju ju_sip ju_host andb embed_sipuri u_host]. rewrite Ha, Hp. reflexivity.
  - rewrite (j_uri_other s Hw). reflexivity.
Qed.

(* what the judge reads in one header the model holds: the printed value, as j_header trims it
   after ": ", cut at the commas, each piece trimmed (both ends like strings.TrimSpace: SpecProxy.j_flat) *)
Definition hT (h : header) : list bytes :=
  map trim_space_go (split_byte ","%char (trim_space_go (" "%char :: hval_print (h_val h)))).
Definition tview (hs : list header) : list bytes := flat_map hT hs.

(* an element whose text does not begin with white space (ASCII or Unicode): no blank in front of
   the display name.  Then the text the judge reads for the element ([j_flat]: both ends of every entry
   trimmed like strings.TrimSpace, wherever the entry stands in its header value) IS [rp_relem r],
   which is how the statements below identify it ([trim_relem], [hT_good]).  (The verdict itself does not
   depend on the condition: j_flat trims the left end of every entry, also of one that follows a comma and
   becomes the first of a re-encoded header.) *)
Definition lead_ok (r : a_relem) : bool := lstuck usp2 usp3 (rp_relem r).

Definition good_list (l : list a_relem) : Prop :=
  l <> [] /\ forallb wf_relem l = true /\ forallb lead_ok l = true /\ trim_space_go (rp_route l) = rp_route l.
Definition good_hdr (h : header) (l : list a_relem) : Prop :=
  good_list l /\ (h_val h = HRaw (rp_route l) \/ h_val h = HRoute (map embed_relem l)).
(* at most two Route headers are ever decoded: the first, and the second when the first held the own
   entry alone; all further headers are relayed untouched and may hold anything *)
Definition route_domain (hs : list header) : Prop :=
  match hs with
  | [] => True
  | h1 :: rest => (exists l1, good_hdr h1 l1) /\
                  match rest with h2 :: _ => exists l2, good_hdr h2 l2 | [] => True end
  end.

Lemma trim_space_fix s :
  match s with c :: _ => is_space c = false | [] => True end ->
  match rev s with c :: _ => is_space c = false | [] => True end -> trim_space s = s.
Proof.
  intros H1 H2. unfold trim_space, trim_right.
  rewrite (trim_left_fix s H1), (trim_left_fix (rev s) H2). apply rev_involutive.
Qed.
Lemma rev_head_nospace (A B : bytes) : B <> [] -> (forall c, In c B -> is_space c = false) ->
  match rev (A ++ B) with c :: _ => is_space c = false | [] => True end.
Proof. exact (B7.rev_tail_nospace A B). Qed.

(* the right end of the text of a well-formed element: '>' or a parameter tail that does not end with
   white space, ASCII ([wf_param]) or Unicode ([wf_relem]); TrimSpace leaves it alone *)
Lemma rclean_relem r : wf_relem r = true -> B7.rclean (rp_relem r).
Proof.
  intros W. destruct (wf_relem_parts r W) as [Hn Hps]. pose proof (wf_relem_tail r W) as NU.
  unfold rp_relem. rewrite rp_nameaddr_app.
  destruct (ar_params r) as [|p ps] eqn:EP.
  - cbn [rp_params flat_map]. apply B7.rclean_ascii_end; reflexivity.
  - change (rp_params (p :: ps)) with (";"%char :: (rp_param p ++ rp_params ps)) in *.
    set (X := rp_param p ++ rp_params ps) in *.
    assert (NX : X <> []).
    { intros E. apply app_eq_nil in E. apply (rp_param_nonempty p); [|exact (proj1 E)].
      cbn [forallb] in Hps. apply andb_true_iff in Hps. exact (proj1 Hps). }
    replace ((an_display (ar_na r) ++ "<"%char :: rp_addr (an_addr (ar_na r))) ++ ">"%char :: ";"%char :: X)
      with (((an_display (ar_na r) ++ "<"%char :: rp_addr (an_addr (ar_na r))) ++ [">"%char]) ++ ";"%char :: X)
      by (rewrite <- app_assoc; reflexivity).
    apply (B7.rclean_sep X ";"%char [] _ NX eq_refl). cbn [app].
    unfold B7.rclean, lstuck. unfold ends_with_uspace in NU. rewrite NU.
    destruct (rev (";"%char :: X)) as [|c t] eqn:ER; [reflexivity|].
    cbn [negb]. rewrite andb_true_r. apply negb_true_iff. apply pm_char_nospace.
    pose proof (rp_params_pm _ Hps) as F. rewrite forallb_forall in F. apply F.
    change (In c (";"%char :: X)). apply in_rev. rewrite ER. left. reflexivity.
Qed.

Lemma trim_relem r : wf_relem r = true -> lead_ok r = true -> trim_space_go (rp_relem r) = rp_relem r.
Proof. intros W L. apply B7.trim_fix_iff. split; [exact L|exact (rclean_relem r W)]. Qed.

Lemma rp_relem_len r : wf_relem r = true -> (3 <= List.length (rp_relem r))%nat.
Proof.
  intros W. destruct (wf_relem_parts r W) as [Hn _]. destruct (wf_nameaddr_parts _ Hn) as [_ Ha].
  assert (NE : rp_addr (an_addr (ar_na r)) <> []).
  { destruct (an_addr (ar_na r)) as [u|s]; cbn [rp_addr wf_addr] in *.
    - rewrite rp_sipuri_eq. destruct (au_secure u); discriminate.
    - destruct (wf_other_parts s Ha) as (_ & I & _). intros ->. exact I. }
  unfold rp_relem, rp_nameaddr. rewrite !app_length. cbn [List.length]. rewrite app_length. cbn [List.length].
  destruct (rp_addr (an_addr (ar_na r))); [contradiction|]. cbn [List.length]. lia.
Qed.

Lemma lstuck_app3 p2 p3 a t : (3 <= List.length a)%nat -> lstuck p2 p3 a = true -> lstuck p2 p3 (a ++ t) = true.
Proof.
  destruct a as [|c [|c2 [|c3 r]]]; cbn [List.length]; try lia. intros _ H. exact H.
Qed.

Lemma tfix_suffix A c X :
  trim_space_go (A ++ c :: X) = A ++ c :: X -> lstuck usp2 usp3 X = true -> trim_space_go X = X.
Proof.
  intros W L. apply B7.trim_fix_iff. split; [exact L|].
  apply (B7.rclean_suffix (A ++ [c])). rewrite <- app_assoc. exact (proj2 (proj1 (B7.trim_fix_iff _) W)).
Qed.

Lemma good_list_tl a b l : good_list (a :: b :: l) -> good_list (b :: l).
Proof.
  intros (_ & W & L & T). cbn [forallb] in W, L.
  apply andb_true_iff in W. destruct W as [_ W]. apply andb_true_iff in L. destruct L as [_ L].
  split; [discriminate|]. split; [exact W|]. split; [exact L|].
  unfold rp_route in *. cbn [map] in T. rewrite join_byte_cons2 in T by discriminate.
  apply (tfix_suffix _ _ _ T).
  cbn [forallb] in W, L. apply andb_true_iff in W. destruct W as [Wb _]. apply andb_true_iff in L. destruct L as [Lb _].
  destruct l as [|c l]; [exact Lb|]. cbn [map]. rewrite join_byte_cons2 by discriminate.
  apply lstuck_app3; [apply rp_relem_len, Wb|exact Lb].
Qed.

Lemma good_norm h rest l : good_hdr h l ->
  rnorm (h :: rest) = {| h_name := h_name h; h_val := HRoute (map embed_relem l) |} :: rest.
Proof.
  intros ((NE & W & _ & _) & [E|E]); unfold rnorm; rewrite E.
  - rewrite (parse_route_rp l NE W). reflexivity.
  - destruct h as [n v]. cbn in *. subst v. reflexivity.
Qed.

Lemma hT_good h l : good_hdr h l -> hT h = map rp_relem l.
Proof.
  intros ((NE & W & L & T) & E). unfold hT, B7.hentries.
  assert (P : hval_print (h_val h) = rp_route l).
  { destruct E as [E|E]; rewrite E; cbn [hval_print]; [reflexivity|apply route_print_embed, W]. }
  rewrite P, trim_space_go_sp by reflexivity. rewrite T. unfold rp_route.
  rewrite split_join.
  - rewrite map_map. apply map_ext_in. intros r Ir. rewrite forallb_forall in W, L.
    apply trim_relem; [apply W, Ir|apply L, Ir].
  - destruct l; [contradiction|discriminate].
  - apply Forall_forall. intros s Hs. apply in_map_iff in Hs. destruct Hs as (r & <- & Hr).
    rewrite forallb_forall in W. apply rp_relem_no_comma, W, Hr.
Qed.
Lemma tview_good h rest l : good_hdr h l -> tview (h :: rest) = map rp_relem l ++ tview rest.
Proof. intros G. unfold tview. cbn [flat_map]. rewrite (hT_good h l G). reflexivity. Qed.

(* ... and what the model decodes in it (C13.entries_of) *)
Lemma entries_good h rest l : good_hdr h l -> entries_of (h :: rest) = map EDec (map embed_relem l) ++ entries_of rest.
Proof.
  intros ((NE & W & _ & _) & E). unfold entries_of. cbn [flat_map]. f_equal.
  unfold hval_entries, dec_route.
  destruct E as [E|E]; rewrite E; [rewrite (parse_route_rp l NE W)|]; (destruct l; [contradiction|reflexivity]).
Qed.

Lemma good_dec n l : good_list l -> good_hdr {| h_name := n; h_val := HRoute (map embed_relem l) |} l.
Proof. intros G. split; [exact G|right; reflexivity]. Qed.

Lemma step_next_good keep h rest l : good_hdr h l ->
  tview (step_next keep (h :: rest)) = (if keep then map rp_relem l else tl (map rp_relem l)) ++ tview rest.
Proof.
  intros G. unfold step_next. rewrite (good_norm h rest l G).
  destruct G as (GL & _). destruct l as [|a l]; [destruct GL as (NE & _); contradiction|].
  cbn [top_of h_val map]. destruct keep.
  - apply (tview_good _ rest (a :: l)), good_dec, GL.
  - cbn [pop_of h_val h_name tl]. destruct l as [|b l]; [reflexivity|].
    cbn [map]. apply (tview_good _ rest (b :: l)), good_dec, (good_list_tl a b l GL).
Qed.

Lemma step_own_good c from h rest a l : good_hdr h (a :: l) ->
  step_own c from (h :: rest) =
  if designates c from (embed_relem a)
  then match l with [] => rest | _ :: _ => {| h_name := h_name h; h_val := HRoute (map embed_relem l) |} :: rest end
  else {| h_name := h_name h; h_val := HRoute (map embed_relem (a :: l)) |} :: rest.
Proof.
  intros G. unfold step_own. rewrite (good_norm h rest (a :: l) G). cbn [top_of h_val map].
  destruct (designates c from (embed_relem a)); [|reflexivity].
  cbn [pop_of h_val h_name]. destruct l; reflexivity.
Qed.

(* the list the judge prescribes, computed from the entries it read in the received request *)
Definition j_expected (c : cfg) (lc : listen_cfg) (tcp : bool) (routes : list bytes) : list bytes :=
  let own := match routes with e :: _ => j_own c lc tcp e | [] => false end in
  let after_own := if own then tl routes else routes in
  match after_own with _ :: r => if c_keep_next_hop c then after_own else r | [] => [] end.

Theorem judge_expected : forall c lc tcp from hs,
  t_addr from = lc_addr lc -> t_port from = listener_port lc tcp -> route_domain hs ->
  tview (step_next (c_keep_next_hop c) (step_own c from hs)) = j_expected c lc tcp (tview hs).
Proof.
  intros c lc tcp from hs Ha Hp D. unfold j_expected.
  destruct hs as [|h1 rest]; [reflexivity|]. destruct D as ((l1 & G1) & D2).
  destruct l1 as [|a l1]; [destruct G1 as ((NE & _) & _); contradiction|].
  rewrite (step_own_good c from h1 rest a l1 G1), (tview_good h1 rest (a :: l1) G1). cbn [map app tl].
  assert (Wa : wf_relem a = true).
  { destruct G1 as ((_ & W & _) & _). cbn [forallb] in W. apply andb_true_iff in W. exact (proj1 W). }
  rewrite (own_agree c lc tcp from a Ha Hp Wa).
  destruct (designates c from (embed_relem a)).
  - destruct l1 as [|b l1].
    + cbn [map app]. destruct rest as [|h2 rest']; [reflexivity|]. destruct D2 as (l2 & G2).
      rewrite (step_next_good _ h2 rest' l2 G2), (tview_good h2 rest' l2 G2).
      destruct l2 as [|b l2]; [destruct G2 as ((NE & _) & _); contradiction|].
      cbn [map app tl]. destruct (c_keep_next_hop c); reflexivity.
    + destruct G1 as (GL & _).
      rewrite (step_next_good _ _ rest (b :: l1) (good_dec (h_name h1) _ (good_list_tl a b l1 GL))).
      cbn [map app tl]. destruct (c_keep_next_hop c); reflexivity.
  - destruct G1 as (GL & _).
    rewrite (step_next_good _ _ rest (a :: l1) (good_dec (h_name h1) _ GL)).
    cbn [map app tl]. destruct (c_keep_next_hop c); reflexivity.
Qed.

Lemma dj_Route_CL : disjoint_names (s2b "Route") (s2b "Content-Length").
Proof. apply disjoint_of_bool. reflexivity. Qed.

(* the Route entries the judge reads in headers the model holds are the text of its Route headers *)
Lemma j_flat_route hs : j_flat is_route (map (fun h => jpair (hpair h)) hs) = tview (sel (s2b "Route") hs).
Proof. exact (B7.j_entries_sel trim_space_go is_route (s2b "Route") hs same_header_route). Qed.
Lemma j_flat_emitted mo :
  j_flat is_route (map (fun h => jpair (hpair h)) (emitted_headers mo)) = tview (RS mo).
Proof. unfold RS. rewrite j_flat_route, (B7.sel_emitted _ mo dj_Route_CL). reflexivity. Qed.

Lemma j_flat_output mo :
  line_safe mo -> start_ok (start_line_print (m_start mo)) ->
  (Z.of_nat (List.length (m_body mo)) <= int_max)%Z ->
  exists om, j_read (write_message mo) = Some om /\ j_flat is_route (jm_headers om) = tview (RS mo).
Proof.
  intros L S B. eexists. split; [apply C01_single_content_length_read; assumption|].
  cbn [jm_headers]. apply j_flat_emitted.
Qed.

(* in the input: every header line the judge reads is the header the model decoded, same name, same
   (TrimSpace'd) value *)
Definition hrel2 (p : bytes * bytes) (h : header) : Prop :=
  fst p = h_name h /\ h_val h = HRaw (snd p) /\ trim_space_go (snd p) = snd p.
Lemma hrel2_of_praw hs : Forall B7.praw hs -> Forall2 hrel2 (map (fun h => jpair (hpair h)) hs) hs.
Proof.
  induction 1 as [|h r (_ & v & V & _ & T) _ IH]; constructor; [|exact IH].
  unfold hrel2. rewrite (jpair_raw h v V T). repeat split; assumption.
Qed.
Lemma read_headers_agree b jin m rest :
  j_read b = Some jin -> parse_message b = Ok (m, rest) -> Forall2 hrel2 (jm_headers jin) (m_headers m).
Proof. intros J P. destruct (B7.read_agree_all _ _ _ _ J P) as (-> & PR). exact (hrel2_of_praw _ PR). Qed.

Lemma j_flat_input jhs hl : Forall2 hrel2 jhs hl -> j_flat is_route jhs = tview (sel (s2b "Route") hl).
Proof.
  induction 1 as [|p h jhs hl (En & Ev & Et) F IH]; [reflexivity|].
  unfold j_flat, j_entries, tview, sel in *. cbn [flat_map filter]. rewrite En, <- (same_header_route (h_name h)).
  destruct (same_header (h_name h) (s2b "Route")); [|exact IH].
  cbn [flat_map]. rewrite IH. f_equal. unfold hT, B7.hentries. rewrite Ev. cbn [hval_print].
  rewrite trim_space_go_sp by reflexivity. rewrite Et. reflexivity.
Qed.
Lemma raw_trimmed_of_rel jhs hl : Forall2 hrel2 jhs hl ->
  Forall (fun h => forall v, h_val h = HRaw v -> trim_space_go v = v) hl.
Proof.
  induction 1 as [|p h jhs hl (_ & Ev & Et) F IH]; constructor; [|exact IH].
  intros v E. rewrite Ev in E. injection E as <-. exact Et.
Qed.

(* the value of the header is the reference rendering of a non-empty list of well-formed elements
   none of which begins with white space *)
Definition in_grammar (h : header) : Prop :=
  exists l, l <> [] /\ forallb wf_relem l = true /\ forallb lead_ok l = true /\ h_val h = HRaw (rp_route l).
(* the first two Route headers (comma lists of any length, or one entry per line); any further
   Route header may hold anything *)
Definition route_domain_in (hs : list header) : Prop :=
  match hs with
  | [] => True
  | h1 :: rest => in_grammar h1 /\ match rest with h2 :: _ => in_grammar h2 | [] => True end
  end.
Lemma domain_in_good hs :
  Forall (fun h => forall v, h_val h = HRaw v -> trim_space_go v = v) hs -> route_domain_in hs -> route_domain hs.
Proof.
  assert (K : forall h, (forall v, h_val h = HRaw v -> trim_space_go v = v) -> in_grammar h -> exists l, good_hdr h l).
  { intros h T (l & NE & W & L & E). exists l.
    split; [split; [exact NE|split; [exact W|split; [exact L|apply T, E]]]|left; exact E]. }
  intros F D. destruct hs as [|h1 [|h2 r]]; cbn [route_domain_in route_domain] in *; [exact I| |].
  - inversion F as [|? ? T1 _]; subst. split; [apply K; tauto|exact I].
  - inversion F as [|? ? T1 F']; subst. inversion F' as [|? ? T2 _]; subst.
    destruct D as (D1 & D2). split; apply K; assumption.
Qed.

(* the Route headers of a message the judge's reader agrees with: the raw values are trimmed *)
Lemma route_domain_read jin m :
  Forall2 hrel2 (jm_headers jin) (m_headers m) -> route_domain_in (RS m) -> route_domain (RS m).
Proof.
  intros HR Dom. apply domain_in_good; [|exact Dom]. unfold RS, sel.
  pose proof (raw_trimmed_of_rel _ _ HR) as T. rewrite Forall_forall in *.
  intros h Ih. apply filter_In in Ih. apply T, Ih.
Qed.

Definition labelled (o : output) : bytes * bytes :=
  (label_of (fst o), match fst o with DDial _ _ c => e_nat c | _ => snd o end).
Lemma labelled_e_output o : e_output o = [fst (labelled o); snd (labelled o)].
Proof. destruct o as [[ip p|c|ip p c] b]; reflexivity. Qed.
Lemma is_dial_labelled o : is_dial (labelled o) = negb (is_msg o).
Proof. destruct o as [[ip p|c|ip p c] b]; reflexivity. Qed.
Lemma msgs_of_labelled l : msgs_of (map labelled l) = map labelled (filter is_msg l).
Proof.
  induction l as [|o l IH]; [reflexivity|]. unfold msgs_of in *. cbn [map filter].
  rewrite is_dial_labelled. destruct (is_msg o); cbn [negb map]; rewrite IH; reflexivity.
Qed.
(* a check that passes on every message among the outputs passes on what the run prints of any selection of them *)
Lemma checked_labelled (chk : bytes * bytes -> nat) vis pre :
  (forall o, In o pre -> is_msg o = true -> chk (labelled o) = O) ->
  first_nonzero (map chk (msgs_of (map labelled (filter vis pre)))) = O.
Proof.
  intros H. rewrite msgs_of_labelled. apply B7.first_nonzero_zero. intros lo Ilo.
  apply in_map_iff in Ilo. destruct Ilo as (o & <- & Io).
  apply filter_In in Io. destruct Io as [Io Mo]. apply filter_In in Io. exact (H o (proj1 Io) Mo).
Qed.
Lemma combine_beq_refl l : forallb (fun '(a, b) => beq a b) (combine l l) = true.
Proof. induction l as [|a l IH]; [reflexivity|]. cbn [combine forallb]. rewrite beq_refl, IH. reflexivity. Qed.
Lemma forall_exists_list {A B} (Q : A -> B -> Prop) l : (forall a, In a l -> exists b, Q a b) -> exists bs, Forall2 Q l bs.
Proof.
  induction l as [|a l IH]; intros H; [exists []; constructor|].
  destruct (H a (or_introl eq_refl)) as [b Hb]. destruct IH as [bs Hbs]; [intros a' I; apply H; right; exact I|].
  exists (b :: bs). constructor; assumption.
Qed.
Lemma forall2_pick {A B} (Q : A -> B -> Prop) (P : B -> Prop) l bs :
  Forall2 Q l bs -> Forall P bs -> forall a, In a l -> exists b, Q a b /\ P b.
Proof.
  induction 1 as [|a b l bs Hab F IH]; intros FP a0 I; [destruct I|]. inversion FP; subst.
  destruct I as [<-|I]; [eauto|apply IH; assumption].
Qed.

(* the judge on a datagram, unfolded *)
Definition check_out (expected : list bytes) (o : bytes * bytes) : nat :=
  match j_read (snd o) with
  | Some om => if Nat.eqb (List.length (j_flat is_route (jm_headers om))) (List.length expected) &&
                  forallb (fun '(a, b) => beq a b) (combine (j_flat is_route (jm_headers om)) expected)
               then O else 1%nat
  | None => O
  end.
(* what the judge does once [j_input] has told it where the bytes came from, when that is not a connection
   the proxy had dialled: the body of SpecProxy.judge_C13_event (judge_C13_event_in holds by computation) *)
Definition judge_C13_in (pc : proxy_case) (i : jin) (outs : list (bytes * bytes)) : nat :=
  match j_read (ji_data i), nth_opt (c_listens (pc_cfg pc)) (ji_li i) with
  | Some m, Some lc =>
      if (jm_has_cl m && (negb (ji_tcp i) || single_message m))%bool then
        match j_request m with
        | Some q => if all_sip (jq_routes q)
                    then first_nonzero (map (check_out (j_expected (pc_cfg pc) lc (ji_tcp i) (jq_routes q))) (msgs_of outs))
                    else O
        | None => O
        end
      else O
  | _, _ => O
  end.
Lemma judge_C13_event_in pc st ev outs closed i :
  j_input st ev = Some i -> ji_dialled st i = false -> judge_C13_event pc st ev outs closed = judge_C13_in pc i outs.
Proof. intros I D. unfold judge_C13_event. rewrite I, D. reflexivity. Qed.
Lemma judge_C13_in_nil pc i : judge_C13_in pc i [] = 0%nat.
Proof.
  unfold judge_C13_in. destruct (j_read (ji_data i)); [|reflexivity]. destruct (nth_opt _ _); [|reflexivity].
  destruct (_ && _)%bool; [|reflexivity]. destruct (j_request _); [|reflexivity]. destruct (all_sip _); reflexivity.
Qed.
Lemma j_request_routes jin q : j_request jin = Some q -> jq_routes q = j_flat is_route (jm_headers jin).
Proof.
  unfold j_request. destruct (j_is_response jin); [discriminate|].
  destruct (fields (jm_start jin)) as [|a [|b [|c [|d l]]]]; try discriminate.
  intros H. injection H as <-. reflexivity.
Qed.

Definition udp_transport (lc : listen_cfg) : stransport :=
  {| t_kind := KUdp; t_addr := lc_addr lc; t_port := lc_udp lc |}.
Lemma udp_transport_eq lc : udp_transport lc = Pipeline.udp_transport lc.
Proof. reflexivity. Qed.

(* [o] carries the serialisation of [mo], which has the start line and body of the request [m] and the
   Route headers of [m] after the two route steps *)
Definition relayed_as (pc : proxy_case) (lc : listen_cfg) (m : message) (o : output) (mo : message) : Prop :=
  snd o = write_message mo /\
  routed (fun hs => step_next (c_keep_next_hop (pc_cfg pc)) (step_own (pc_cfg pc) (udp_transport lc) hs)) m mo.

(* the same with the receiving transport as an argument *)
Definition relayed_from (pc : proxy_case) (from : stransport) (m : message) (o : output) (mo : message) : Prop :=
  snd o = write_message mo /\
  routed (fun hs => step_next (c_keep_next_hop (pc_cfg pc)) (step_own (pc_cfg pc) from hs)) m mo.

Lemma relayed_as_from pc lc : relayed_as pc lc = relayed_from pc (udp_transport lc).
Proof. reflexivity. Qed.

(* JUDGE SIDE.  Whatever list of outputs [pre] is observed for the datagram: if its byte-carrying
   outputs are serialisations of messages that carry the Route headers the model prescribes and are
   line_safe (C01: no ':' / LF in a header name, no LF in a printed header value, so that the judge's
   line reader splits the text where the line ends were put), the executable judge accepts. *)
Theorem C13_judge_accepts_in :
  forall pc i lc from jin m rest pre,
  nth_opt (c_listens (pc_cfg pc)) (ji_li i) = Some lc ->
  t_addr from = lc_addr lc -> t_port from = listener_port lc (ji_tcp i) ->
  j_read (ji_data i) = Some jin -> parse_message (ji_data i) = Ok (m, rest) ->
  start_ok (start_line_print (m_start m)) ->
  route_domain_in (RS m) ->
  (forall o, In o pre -> is_msg o = true -> exists mo, relayed_from pc from m o mo /\ line_safe mo) ->
  forall vis, judge_C13_in pc i (map labelled (filter vis pre)) = 0%nat.
Proof.
  intros pc i lc from jin m rest pre N Ha Hp J P Sok Dom W vis.
  pose proof (read_headers_agree _ _ _ _ J P) as HR.
  destruct (C01.input_read _ _ _ _ J P) as (_ & _ & _ & _ & _ & _ & Bd).
  unfold judge_C13_in. rewrite J, N.
  destruct (jm_has_cl jin && _)%bool; [|reflexivity].
  destruct (j_request jin) as [q|] eqn:Q; [|reflexivity].
  destruct (all_sip (jq_routes q)); [|reflexivity].
  apply checked_labelled. intros o Io Mo.
  destruct (W o Io Mo) as (mo & (B & RT & St & Bo) & Lmo).
  unfold check_out.
  replace (snd (labelled o)) with (snd o) by (destruct o as [[ip p|c|ip p c] b]; [reflexivity|reflexivity|discriminate Mo]).
  rewrite B.
  destruct (j_flat_output mo Lmo) as (om & -> & Fl); [rewrite St; exact Sok|rewrite Bo; exact Bd|].
  rewrite Fl, RT.
  rewrite (judge_expected (pc_cfg pc) lc (ji_tcp i) from (RS m) Ha Hp (route_domain_read jin m HR Dom)).
  rewrite (j_request_routes _ _ Q), (j_flat_input _ _ HR). fold (RS m).
  rewrite Nat.eqb_refl, combine_beq_refl. reflexivity.
Qed.

Corollary C13_judge_accepts :
  forall pc st li lc src sport data closed jin m rest pre mos,
  nth_opt (c_listens (pc_cfg pc)) li = Some lc ->
  j_read data = Some jin -> parse_message data = Ok (m, rest) ->
  start_ok (start_line_print (m_start m)) ->
  route_domain_in (RS m) ->
  Forall2 (relayed_as pc lc m) (filter is_msg pre) mos -> Forall line_safe mos ->
  forall vis, judge_C13_event pc st (EvUdp li src sport data) (map labelled (filter vis pre)) closed = 0%nat.
Proof.
  intros pc st li lc src sport data closed jin m rest pre mos N J P Sok Dom F2 LS.
  apply (C13_judge_accepts_in pc {| ji_li := li; ji_tcp := false; ji_conn := 0; ji_src := src; ji_sport := sport;
                                    ji_data := data |} lc (udp_transport lc) jin m rest pre
           N eq_refl eq_refl J P Sok Dom).
  intros o Io Mo. apply (forall2_pick _ line_safe _ _ F2 LS). apply filter_In. split; assumption.
Qed.

(* With C01.line_safe of the emitted messages as a premise, nothing beyond C01 / C13 / C14 is needed: (a) MODEL SIDE,
   unconditionally: the byte-carrying outputs (at most one) are serialisations of messages [mos] with the start line
   and body of the request and the Route HEADERS computed by step_own / step_next; (b) JUDGE SIDE: for EVERY such
   decomposition of the outputs that is line_safe the judge answers 0.  line_safe of the model's own messages needs
   hypotheses on the source address, the configured addresses, the branch and the learned table (their bytes are
   copied into the Via / Record-Route the proxy adds or stamps): C13_judge_bridge_in discharges the premise from such
   hypotheses through the invariant [good] of proofs/C07_bridge.v. *)
Theorem C13_judge_bridge_udp_partial :
  forall pc st li lc src sport data closed jin m rest e rs x x',
  nth_opt (c_listens (pc_cfg pc)) li = Some lc -> e_cfg e = pc_cfg pc ->
  j_read data = Some jin -> parse_message data = Ok (m, rest) ->
  is_request m = true ->
  start_ok (start_line_print (m_start m)) ->
  route_domain_in (RS m) ->
  process_message e src sport (udp_transport lc) rs None m x = Ok x' ->
  exists pre, x_outs x' = x_outs x ++ pre /\ (msg_count pre <= 1)%nat /\
    (exists mos, Forall2 (relayed_as pc lc m) (filter is_msg pre) mos) /\
    (forall mos, Forall2 (relayed_as pc lc m) (filter is_msg pre) mos -> Forall line_safe mos ->
     forall vis, judge_C13_event pc st (EvUdp li src sport data) (map labelled (filter vis pre)) closed = 0%nat).
Proof.
  intros pc st li lc src sport data closed jin m rest e rs x x' N He J P R Sok Dom H.
  destruct (C13_route_headers e src sport (udp_transport lc) rs None m x x' R H) as (pre & O & C & W).
  rewrite He in W. exists pre. split; [exact O|]. split; [exact C|]. split.
  - apply forall_exists_list. intros o I. apply filter_In in I. destruct I as [I M]. exact (W o I M).
  - intros mos F2 LS vis.
    exact (C13_judge_accepts pc st li lc src sport data closed jin m rest pre mos N J P Sok Dom F2 LS vis).
Qed.

(* the same for one step of the whole proxy on a datagram: [outs] is what RunProxy prints for the
   event (through [labelled] = e_output, restricted by [vis] to the destinations the driver can observe) *)
Corollary C13_judge_bridge_step_partial :
  forall pc st fx now branch stt stt' outs li lc src sport data closed jin m rest,
  nth_opt (c_listens (pc_cfg pc)) li = Some lc ->
  j_read data = Some jin -> parse_message data = Ok (m, rest) ->
  is_request m = true ->
  start_ok (start_line_print (m_start m)) ->
  route_domain_in (RS m) ->
  proxy_step fx (pc_cfg pc) now branch stt (EvUdp li src sport data) = Ok (stt', outs) ->
  (msg_count outs <= 1)%nat /\
  (exists mos, Forall2 (relayed_as pc lc m) (filter is_msg outs) mos) /\
  (forall mos, Forall2 (relayed_as pc lc m) (filter is_msg outs) mos -> Forall line_safe mos ->
   forall vis, judge_C13_event pc st (EvUdp li src sport data) (map labelled (filter vis outs)) closed = 0%nat).
Proof.
  intros pc st fx now branch stt stt' outs li lc src sport data closed jin m rest N J P R Sok Dom H.
  assert (K : forall mos, Forall2 (relayed_as pc lc m) (filter is_msg outs) mos -> Forall line_safe mos ->
              forall vis, judge_C13_event pc st (EvUdp li src sport data) (map labelled (filter vis outs)) closed = 0%nat).
  { intros mos F2 LS vis.
    exact (C13_judge_accepts pc st li lc src sport data closed jin m rest outs mos N J P Sok Dom F2 LS vis). }
  apply proxy_step_udp_inv in H.
  destruct H as [(_ & ->)|(lc' & m' & rest' & p & x' & N' & P' & _ & E & _ & ->)].
  { split; [apply Nat.le_0_l|]. split; [exists []; constructor|exact K]. }
  rewrite N in N'. injection N' as <-. rewrite P in P'. injection P' as <- <-.
  destruct (C13_judge_bridge_udp_partial pc st li lc src sport data closed jin m rest
              (listener_env fx (pc_cfg pc) now branch li lc) _ _ x' N eq_refl J P R Sok Dom E)
    as (pre & O & C & F2 & _).
  cbn [x_outs start_ctx app] in O. rewrite O in *. split; [exact C|]. split; [exact F2|exact K].
Qed.

(* proofs/C07_bridge.v carries an invariant [good] (every header line stays a line: names without
   ':' / LF, printed values without LF, Via entries of the grammar) along process_message and proves
   good -> C01.line_safe.  Here the same invariant is carried along the pipeline TOGETHER with the
   Route headers of C13_route_headers, for one and the same witness message: that closes the gap of the
   _partial theorems under input-side conditions only. *)
Theorem C13_route_headers_good : forall e peer pp from rs tcp m0 x x',
  is_request m0 = true -> B7.good m0 -> B7.src_ok peer -> B7.t_ok (e_branch e) from ->
  B7.learned_ok (e_branch e) (x_learned x) ->
  (forall t0, first_transport (e_lc e) = Some t0 -> B7.t_ok (e_branch e) t0) ->
  process_message e peer pp from rs tcp m0 x = Ok x' ->
  exists extra, x_outs x' = x_outs x ++ extra /\ (msg_count extra <= 1)%nat /\
    forall o, In o extra -> is_msg o = true ->
      exists mo, snd o = write_message mo /\ B7.good mo /\
                 routed (fun hs => step_next (c_keep_next_hop (e_cfg e)) (step_own (e_cfg e) from hs)) m0 mo.
Proof.
  intros e peer pp from rs tcp m0 x x' R G0 Hs Hf HL HF H.
  destruct (request_routed e peer pp from rs tcp m0 x x' R H) as (extra & O & C & W).
  exists extra. split; [exact O|]. split; [exact C|]. intros o Io Mo.
  destruct (W o Io Mo) as (mo & B & Rt & Gm). exists mo. split; [exact B|]. split; [exact (Gm G0 Hs Hf HL HF)|exact Rt].
Qed.

(* THE BRIDGE, process_message level.  Conditions on the input side only:
     route_domain_in (RS m)   the first two Route headers are reference renderings (C14 grammar) of
                              non-empty lists of well-formed elements that do not begin with white space
     B7.via_domain m          the Via header values are reference renderings of well-formed entry lists
     B7.src_ok src            the source address is ASCII without separators of the Via grammar
     B7.branch_ok, safe1 (lc_addr lc), port ranges, learned transports: the proxy's own Via /
                              Record-Route entries are lines *)
Theorem C13_judge_bridge_in :
  forall pc i lc from jin m rest e peer pp rs tcp x x',
  nth_opt (c_listens (pc_cfg pc)) (ji_li i) = Some lc -> e_cfg e = pc_cfg pc -> e_lc e = lc ->
  t_addr from = lc_addr lc -> t_port from = listener_port lc (ji_tcp i) ->
  j_read (ji_data i) = Some jin -> parse_message (ji_data i) = Ok (m, rest) ->
  is_request m = true ->
  route_domain_in (RS m) ->
  B7.via_domain m -> B7.src_ok peer -> B7.branch_ok (e_branch e) ->
  safe1 (lc_addr lc) = true -> (0 <= lc_udp lc <= 65535)%Z -> (0 <= lc_tcp lc <= 65535)%Z ->
  (forall h t, alookup h (x_learned x) = Some t -> safe1 (t_addr t) = true /\ (0 <= t_port t <= 65535)%Z) ->
  process_message e peer pp from rs tcp m x = Ok x' ->
  exists pre, x_outs x' = x_outs x ++ pre /\ (msg_count pre <= 1)%nat /\
    forall vis, judge_C13_in pc i (map labelled (filter vis pre)) = 0%nat.
Proof.
  intros pc i lc from jin m rest e peer pp rs tcp x x' N He Hlc Hfa Hfp J P R Dom HV Hsrc Hbr Ha Hu Ht HLn H.
  destruct (B7.domain_read _ _ _ _ J P HV) as (G0 & _ & _ & Sok & _ & _).
  assert (Hfrom : B7.t_ok (e_branch e) from).
  { apply B7.t_ok_intro; [rewrite Hfa; exact Ha|rewrite Hfp; destruct (ji_tcp i); assumption|exact Hbr]. }
  pose proof (B7.learned_ok_intro _ _ Hbr HLn) as HL.
  pose proof (B7.first_transport_t_ok _ lc Hbr Ha Hu Ht) as HF. rewrite <- Hlc in HF.
  destruct (C13_route_headers_good e peer pp from rs tcp m x x' R G0 Hsrc Hfrom HL HF H) as (pre & O & C & W).
  rewrite He in W. exists pre. split; [exact O|]. split; [exact C|].
  apply (C13_judge_accepts_in pc i lc from jin m rest pre N Hfa Hfp J P Sok Dom).
  intros o I M. destruct (W o I M) as (mo & B & Gm & Rt).
  exists mo. split; [split; assumption|apply B7.good_line_safe; exact Gm].
Qed.

Theorem C13_judge_bridge_udp :
  forall pc st li lc src sport data closed jin m rest e rs x x',
  nth_opt (c_listens (pc_cfg pc)) li = Some lc -> e_cfg e = pc_cfg pc -> e_lc e = lc ->
  j_read data = Some jin -> parse_message data = Ok (m, rest) ->
  is_request m = true ->
  route_domain_in (RS m) ->
  B7.via_domain m -> B7.src_ok src -> B7.branch_ok (e_branch e) ->
  safe1 (lc_addr lc) = true -> (0 <= lc_udp lc <= 65535)%Z -> (0 <= lc_tcp lc <= 65535)%Z ->
  (forall h t, alookup h (x_learned x) = Some t -> safe1 (t_addr t) = true /\ (0 <= t_port t <= 65535)%Z) ->
  process_message e src sport (udp_transport lc) rs None m x = Ok x' ->
  exists pre, x_outs x' = x_outs x ++ pre /\ (msg_count pre <= 1)%nat /\
    forall vis, judge_C13_event pc st (EvUdp li src sport data) (map labelled (filter vis pre)) closed = 0%nat.
Proof.
  intros pc st li lc src sport data closed jin m rest e rs x x' N He Hlc J P R Dom HV Hsrc Hbr Ha Hu Ht HLn H.
  exact (C13_judge_bridge_in pc {| ji_li := li; ji_tcp := false; ji_conn := 0; ji_src := src; ji_sport := sport;
                                   ji_data := data |} lc (udp_transport lc) jin m rest e src sport rs None x x'
           N He Hlc eq_refl eq_refl J P R Dom HV Hsrc Hbr Ha Hu Ht HLn H).
Qed.

(* ... and for one step of the whole proxy on a datagram: [outs] is what RunProxy prints for the event
   (through [labelled] = e_output; [vis] = the destinations the driver observes) *)
Corollary C13_judge_bridge_step :
  forall pc stj fx now br st st' outs li lc src sport data closed jin m rest,
  nth_opt (c_listens (pc_cfg pc)) li = Some lc ->
  j_read data = Some jin -> parse_message data = Ok (m, rest) ->
  is_request m = true ->
  route_domain_in (RS m) ->
  B7.via_domain m -> B7.src_ok src -> B7.branch_ok br ->
  safe1 (lc_addr lc) = true -> (0 <= lc_udp lc <= 65535)%Z -> (0 <= lc_tcp lc <= 65535)%Z ->
  (forall h t, alookup h (st_learned st) = Some t -> safe1 (t_addr t) = true /\ (0 <= t_port t <= 65535)%Z) ->
  proxy_step fx (pc_cfg pc) now br st (EvUdp li src sport data) = Ok (st', outs) ->
  forall vis, judge_C13_event pc stj (EvUdp li src sport data) (map labelled (filter vis outs)) closed = 0%nat.
Proof.
  intros pc stj fx now br st st' outs li lc src sport data closed jin m rest N J P R Dom HV Hsrc Hbr Ha Hu Ht HLn H vis.
  apply proxy_step_udp_inv in H.
  destruct H as [(_ & ->)|(lc' & m' & rest' & p & x' & N' & P' & _ & E & _ & ->)].
  { exact (judge_C13_in_nil pc {| ji_li := li; ji_tcp := false; ji_conn := 0; ji_src := src; ji_sport := sport;
                                 ji_data := data |}). }
  rewrite N in N'. injection N' as <-. rewrite P in P'. injection P' as <- <-.
  destruct (C13_judge_bridge_udp pc stj li lc src sport data closed jin m rest (listener_env fx (pc_cfg pc) now br li lc) _
              (start_ctx st p) x'
              N eq_refl eq_refl J P R Dom HV Hsrc Hbr Ha Hu Ht HLn E) as (pre & O & _ & K).
  cbn [x_outs start_ctx app] in O. rewrite O. apply K.
Qed.

(* a request with three Route entries in one comma list: the own entry (address and port of the
   receiving listener), the next hop, one more; keep-next-hop-route off *)
Definition b13_uri (host : string) (port : option Z) : a_addr :=
  AASip {| au_secure := false; au_user := None; au_host := s2b host; au_port := port;
           au_params := [{| ap_key := s2b "lr"; ap_val := None |}]; au_headers := [] |}.
Definition b13_elem (display host : string) (port : option Z) : a_relem :=
  {| ar_na := {| an_display := s2b display; an_addr := b13_uri host port |}; ar_params := [] |}.
Definition b13_routes : list a_relem :=
  [b13_elem "" "10.0.0.1" (Some 5060%Z); b13_elem "" "10.0.0.9" (Some 5070%Z); b13_elem """Far"" " "far.example.com" None].
Definition b13_req : bytes :=
  s2b "INVITE sip:bob@elsewhere.example SIP/2.0" ++ crlf ++
  s2b "Route: <sip:10.0.0.1:5060;lr>,<sip:10.0.0.9:5070;lr>,""Far"" <sip:far.example.com;lr>" ++ crlf ++ C01.ex_common.
Definition b13_pc : proxy_case :=
  {| pc_cfg := C01.ex_cfg; pc_tcp_listeners := [(s2b "10.0.0.7", 5080%Z)];
     pc_udp_endpoints := [(s2b "10.0.0.9", 5070%Z)]; pc_events := []; pc_waits := [] |}.
Definition b13_ev : event := EvUdp 0 (s2b "10.0.0.9") 5070%Z b13_req.
Definition b13_run : res (state * list output) :=
  proxy_step all_fixed (pc_cfg b13_pc) 1000 (branch_of 0) C01.ex_st b13_ev.
Definition b13_outs : list output := match b13_run with Ok (_, outs) => outs | _ => [] end.

Example b13_text : rp_route b13_routes =
  s2b "<sip:10.0.0.1:5060;lr>,<sip:10.0.0.9:5070;lr>,""Far"" <sip:far.example.com;lr>".
Proof. vm_compute. reflexivity. Qed.

Lemma notin_b c s : forallb (fun x => negb (Ascii.eqb x c)) s = true -> ~ In c s.
Proof.
  intros H I. rewrite forallb_forall in H. specialize (H c I). rewrite Ascii.eqb_refl in H. discriminate H.
Qed.

(* the hypotheses of the bridge hold *)
Example b13_hyp_listener : nth_opt (c_listens (pc_cfg b13_pc)) 0 = Some C01.ex_lc.
Proof. reflexivity. Qed.
Example b13_hyp_read :
  option_map (fun jin => (jm_has_cl jin, option_map (fun q => all_sip (jq_routes q)) (j_request jin))) (j_read b13_req)
  = Some (true, Some true).
Proof. vm_compute. reflexivity. Qed.
Example b13_hyp_parse : parse_message b13_req = Ok (parsed b13_req, []).
Proof. vm_compute. reflexivity. Qed.
Example b13_hyp_request : is_request (parsed b13_req) = true.
Proof. vm_compute. reflexivity. Qed.
Example b13_hyp_start : start_ok (start_line_print (m_start (parsed b13_req))).
Proof.
  split; [apply notin_b; vm_compute; reflexivity|].
  exists "I"%char, (skipn 1 (start_line_print (m_start (parsed b13_req)))).
  split; [vm_compute; reflexivity|reflexivity].
Qed.
Example b13_hyp_routes : route_domain_in (RS (parsed b13_req)).
Proof.
  assert (E : RS (parsed b13_req) = [{| h_name := s2b "Route"; h_val := HRaw (rp_route b13_routes) |}])
    by (vm_compute; reflexivity).
  rewrite E. cbn [route_domain_in]. split; [|exact I]. exists b13_routes.
  split; [discriminate|]. split; [vm_compute; reflexivity|]. split; [vm_compute; reflexivity|reflexivity].
Qed.

(* the run: one datagram to the next hop; it carries the third entry only (own entry and next hop
   consumed); the executable judge accepts what RunProxy prints for the event *)
Example b13_run_labels : map (fun o => fst (labelled o)) b13_outs = [s2b "udp:10.0.0.9:5070"].
Proof. vm_compute. reflexivity. Qed.
Example b13_run_routes :
  map (fun o => option_map (fun om => j_flat is_route (jm_headers om)) (j_read (snd o))) b13_outs
    = [Some [s2b """Far"" <sip:far.example.com;lr>"]].
Proof. vm_compute. reflexivity. Qed.
Example b13_run_judged :
  judge_C13_event b13_pc (js_init C01.ex_cfg) b13_ev
    (map labelled (filter (visible (pc_udp_endpoints b13_pc)) b13_outs)) [] = 0%nat.
Proof. vm_compute. reflexivity. Qed.

(* the judge reads the request, and the run is a step of the proxy, in the words of the step theorems *)
Lemma b13_read : exists jin, j_read b13_req = Some jin.
Proof. pose proof b13_hyp_read as H. destruct (j_read b13_req) as [jin|]; [exists jin; reflexivity|discriminate H]. Qed.
Lemma b13_step : exists s, proxy_step all_fixed (pc_cfg b13_pc) 1000 (branch_of 0) C01.ex_st
                             (EvUdp 0 (s2b "10.0.0.9") 5070%Z b13_req) = Ok (s, b13_outs).
Proof.
  assert (K : match b13_run with Ok _ => true | _ => false end = true) by (vm_compute; reflexivity).
  unfold b13_outs. unfold b13_run, b13_ev in *.
  destruct (proxy_step _ _ _ _ _ _) as [[s o]| |]; [exists s; reflexivity|discriminate K..].
Qed.

(* the theorem instantiated on the run *)
Example b13_theorem :
  (msg_count b13_outs <= 1)%nat /\
  (exists mos, Forall2 (relayed_as b13_pc C01.ex_lc (parsed b13_req)) (filter is_msg b13_outs) mos) /\
  (forall mos, Forall2 (relayed_as b13_pc C01.ex_lc (parsed b13_req)) (filter is_msg b13_outs) mos ->
     Forall line_safe mos ->
     forall vis, judge_C13_event b13_pc (js_init C01.ex_cfg) (EvUdp 0 (s2b "10.0.0.9") 5070%Z b13_req)
                   (map labelled (filter vis b13_outs)) [] = 0%nat).
Proof.
  destruct b13_read as (jin & J). destruct b13_step as (s & Hrun).
  exact (C13_judge_bridge_step_partial b13_pc (js_init C01.ex_cfg) all_fixed 1000%Z (branch_of 0) C01.ex_st s b13_outs
           0%nat C01.ex_lc (s2b "10.0.0.9") 5070%Z b13_req [] jin (parsed b13_req) []
           b13_hyp_listener J b13_hyp_parse b13_hyp_request b13_hyp_start b13_hyp_routes Hrun).
Qed.

(* the line_safe hypothesis is satisfiable on the run: a line_safe message with the prescribed Route
   headers serialises to the datagram that was sent, so the theorem yields the verdict 0 outright *)
Definition nb (c : ascii) (s : bytes) : bool := forallb (fun x => negb (Ascii.eqb x c)) s.
Definition line_safe_b (m : message) : bool :=
  forallb (fun h => nb ":"%char (h_name h) && nb jLF (h_name h) && nb jLF (hval_print (h_val h))) (m_headers m).
Lemma line_safe_b_sound m : line_safe_b m = true -> line_safe m.
Proof.
  unfold line_safe_b, line_safe. intros H. rewrite forallb_forall in H. apply Forall_forall. intros h I.
  specialize (H h I). apply andb_true_iff in H. destruct H as [H H3]. apply andb_true_iff in H. destruct H as [H1 H2].
  split; [apply notin_b, H1|split; [apply notin_b, H2|apply notin_b, H3]].
Qed.

Definition b13_o : output := hd (DConn 0, []) (filter is_msg b13_outs).
Definition b13_mo : message :=
  let p := parsed (snd b13_o) in
  with_headers p (map (fun h => if same_header (h_name h) (s2b "Route")
                                then {| h_name := h_name h; h_val := HRoute (map embed_relem (skipn 2 b13_routes)) |}
                                else h) (m_headers p)).
Example b13_witness :
  filter is_msg b13_outs = [b13_o] /\ relayed_as b13_pc C01.ex_lc (parsed b13_req) b13_o b13_mo /\
  line_safe b13_mo.
Proof.
  split; [vm_compute; reflexivity|]. split.
  - split; [vm_compute; reflexivity|]. split; [vm_compute; reflexivity|]. split; vm_compute; reflexivity.
  - apply line_safe_b_sound. vm_compute. reflexivity.
Qed.
Example b13_accepted_by_theorem :
  forall vis, judge_C13_event b13_pc (js_init C01.ex_cfg) (EvUdp 0 (s2b "10.0.0.9") 5070%Z b13_req)
                (map labelled (filter vis b13_outs)) [] = 0%nat.
Proof.
  destruct b13_theorem as (_ & _ & K). destruct b13_witness as (E & Rl & Ls).
  apply (K [b13_mo]).
  - rewrite E. constructor; [exact Rl|constructor].
  - constructor; [exact Ls|constructor].
Qed.

(* the unconditional bridge instantiated on the run: every condition is on the input side and holds *)
Example b13_accepted_unconditionally :
  forall vis, judge_C13_event b13_pc (js_init C01.ex_cfg) (EvUdp 0 (s2b "10.0.0.9") 5070%Z b13_req)
                (map labelled (filter vis b13_outs)) [] = 0%nat.
Proof.
  destruct b13_read as (jin & J). destruct b13_step as (s & Hrun).
  assert (HV : B7.via_domain (parsed b13_req)) by (apply B7.via_domain_b_sound; vm_compute; reflexivity).
  assert (Hsrc : B7.src_ok (s2b "10.0.0.9")) by (split; vm_compute; reflexivity).
  assert (Hbr : B7.branch_ok (branch_of 0)) by (split; vm_compute; reflexivity).
  assert (Ha : safe1 (lc_addr C01.ex_lc) = true) by (vm_compute; reflexivity).
  assert (Hu : (0 <= lc_udp C01.ex_lc <= 65535)%Z) by (unfold C01.ex_lc; cbn [lc_udp]; lia).
  assert (Ht : (0 <= lc_tcp C01.ex_lc <= 65535)%Z) by (unfold C01.ex_lc; cbn [lc_tcp]; lia).
  assert (HLn : forall h t, alookup h (st_learned C01.ex_st) = Some t ->
                            safe1 (t_addr t) = true /\ (0 <= t_port t <= 65535)%Z).
  { intros h t A. discriminate A. }
  exact (C13_judge_bridge_step b13_pc (js_init C01.ex_cfg) all_fixed 1000%Z (branch_of 0) C01.ex_st s b13_outs
           0%nat C01.ex_lc (s2b "10.0.0.9") 5070%Z b13_req [] jin (parsed b13_req) []
           b13_hyp_listener J b13_hyp_parse b13_hyp_request b13_hyp_routes HV Hsrc Hbr Ha Hu Ht HLn Hrun).
Qed.

(* A Route entry in the MIDDLE of a comma list whose text ends with U+00A0 (bytes C2 A0).  parseRouteParam
   applies strings.TrimSpace to the text after '>', so the re-encoded entry has lost the two bytes: the relay
   is right.  The judge reads both ends of every Route entry like strings.TrimSpace (SpecProxy.j_flat) and
   accepts; a reader that trimmed ASCII blanks only at the ends of an entry (last conjunct) keeps the two bytes
   on the input side and would answer 1 on this run.  The request is outside
   [route_domain_in] ([wf_relem] excludes a parameter tail that ends with Unicode white space). *)
Definition b13_nbsp : bytes := [ascii_of_nat 194; ascii_of_nat 160].
Definition b13u_req : bytes :=
  s2b "INVITE sip:bob@elsewhere.example SIP/2.0" ++ crlf ++
  s2b "Route: <sip:10.0.0.9:5070;lr>,<sip:mid.example.com;lr>" ++ b13_nbsp ++ s2b ",<sip:far.example.com;lr>" ++ crlf ++
  C01.ex_common.
Definition b13u_ev : event := EvUdp 0 (s2b "10.0.0.9") 5070%Z b13u_req.
Definition b13u_outs : list output :=
  match proxy_step all_fixed (pc_cfg b13_pc) 1000 (branch_of 0) C01.ex_st b13u_ev with Ok (_, outs) => outs | _ => [] end.
Example b13u_routes :
  map (fun o => fst (labelled o)) b13u_outs = [s2b "udp:10.0.0.9:5070"] /\
  map (fun o => option_map (fun om => j_flat is_route (jm_headers om)) (j_read (snd o))) b13u_outs
    = [Some [s2b "<sip:mid.example.com;lr>"; s2b "<sip:far.example.com;lr>"]] /\
  option_map (fun jin => j_flat is_route (jm_headers jin)) (j_read b13u_req)
    = Some [s2b "<sip:10.0.0.9:5070;lr>"; s2b "<sip:mid.example.com;lr>"; s2b "<sip:far.example.com;lr>"] /\
  option_map (fun jin => j_entries trim_space is_route (jm_headers jin)) (j_read b13u_req)
    = Some [s2b "<sip:10.0.0.9:5070;lr>"; s2b "<sip:mid.example.com;lr>" ++ b13_nbsp; s2b "<sip:far.example.com;lr>"].
Proof. repeat apply conj; vm_compute; reflexivity. Qed.
Example b13u_judged :
  judge_C13_event b13_pc (js_init C01.ex_cfg) b13u_ev
    (map labelled (filter (visible (pc_udp_endpoints b13_pc)) b13u_outs)) [] = 0%nat.
Proof. vm_compute. reflexivity. Qed.

Print Assumptions C13_route_headers.
Print Assumptions own_agree.
Print Assumptions judge_expected.
Print Assumptions j_flat_output.
Print Assumptions read_headers_agree.
Print Assumptions C13_judge_accepts.
Print Assumptions C13_judge_bridge_udp_partial.
Print Assumptions C13_judge_bridge_step_partial.
Print Assumptions b13_theorem.
Print Assumptions b13_accepted_by_theorem.
Print Assumptions C13_route_headers_good.
Print Assumptions C13_judge_bridge_udp.
Print Assumptions C13_judge_bridge_step.
Print Assumptions b13_accepted_unconditionally.
