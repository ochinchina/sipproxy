(* C17 -- header spelling and list layout do not change what the proxy does.  [same_header] is the
   kernel of the full lower-case name; a simulation of process_message, generic in the relation
   between the two messages, is instantiated with "respelled" (equal canonical respellings) and
   with "re-laid-out" (the Via / Route lists cut into header lines differently); concrete twins
   through proxy_step; the statement for a datagram event.
   The behaviour is NOT invariant unconditionally: what is relayed depends on the serialised
   length (UDP datagram limit), which spelling and layout change, so the theorems carry the
   condition "both serialised messages on the same side of the limit" (C17_size_counterexample). *)
From Coq Require Import List Ascii String ZArith Bool Arith Lia.
From Model Require Import Bytes BytesLemmas Uri Hdr Message Msg Rx Glob StaticRoute RoundRobin Pins Proxy.
From Model.proofs Require Import MsgLemmas Pipeline MsgStages.
From Model.proofs Require C01 C07.
Import ListNotations.
Local Open Scope nat_scope.

(* the full lower-case name: a compact letter is expanded through the table *)
Definition expand (l : bytes) : bytes :=
  match l with
  | [_] => match alookup l compact_table with Some full => full | None => l end
  | _ => l
  end.
Definition canon (n : bytes) : bytes := expand (to_lower n).

(* the finite facts about the table, checked by computation ... *)
Definition table_ok (kv : bytes * bytes) : bool :=
  let '(k, v) := kv in
  match alookup v compact_table with Some k' => beq k' k | None => false end   (* symmetric, closed *)
  && beq (to_lower v) v && beq (to_lower k) k                                   (* lower case *)
  && Bool.eqb (Nat.eqb (List.length k) 1) (negb (Nat.eqb (List.length v) 1)).   (* letter <-> full name *)
Lemma compact_table_ok : forallb table_ok compact_table = true.
Proof. vm_compute. reflexivity. Qed.

(* ... and lifted to every look-up *)
Lemma compact_table_sym a b : alookup a compact_table = Some b ->
  alookup b compact_table = Some a /\ to_lower b = b /\ to_lower a = a /\
  (List.length a = 1 <-> List.length b <> 1).
Proof.
  intros H. apply alookup_in in H.
  pose proof (proj1 (forallb_forall _ _) compact_table_ok _ H) as T. unfold table_ok in T.
  apply andb_true_iff in T. destruct T as [T T4]. apply andb_true_iff in T. destruct T as [T T3].
  apply andb_true_iff in T. destruct T as [T1 T2].
  destruct (alookup b compact_table) as [k'|]; [|discriminate]. apply beq_eq in T1. subst k'.
  apply beq_eq in T2. apply beq_eq in T3. split; [reflexivity|]. split; [exact T2|]. split; [exact T3|].
  apply Bool.eqb_prop in T4.
  rewrite <- Nat.eqb_eq, <- Nat.eqb_neq.
  destruct (Nat.eqb (List.length a) 1); destruct (Nat.eqb (List.length b) 1); cbn [negb] in T4; try discriminate;
    split; intros; try reflexivity; try discriminate.
Qed.

Lemma expand_letter l f : List.length l = 1 -> alookup l compact_table = Some f -> expand l = f.
Proof. destruct l as [|a [|b r]]; try discriminate. intros _ H. unfold expand. rewrite H. reflexivity. Qed.
Lemma expand_long l : List.length l <> 1 -> expand l = l.
Proof. destruct l as [|a [|b r]]; try reflexivity. intros H; exfalso; apply H; reflexivity. Qed.
Lemma expand_cases l :
  expand l = l \/ exists f, alookup l compact_table = Some f /\ expand l = f /\ List.length l = 1.
Proof.
  destruct l as [|a [|b r]]; try (left; reflexivity). unfold expand.
  destruct (alookup [a] compact_table) as [f|]; [|left; reflexivity].
  right. exists f. repeat split.
Qed.

Lemma same_header_unfold n1 n2 :
  same_header n1 n2 = (beq (to_lower n1) (to_lower n2) ||
    match alookup (to_lower n2) compact_table with Some c => beq (to_lower n1) (to_lower c) | None => false end)%bool.
Proof. reflexivity. Qed.

(* for ALL names: isSameHeader(n1, n2) holds exactly when the two names have the same full
   lower-case form *)
Theorem C17_same_header_equiv : forall n1 n2, same_header n1 n2 = true <-> canon n1 = canon n2.
Proof.
  intros n1 n2. rewrite same_header_unfold. unfold canon.
  set (l1 := to_lower n1). set (l2 := to_lower n2). split.
  - intros H. apply orb_true_iff in H. destruct H as [H|H].
    + apply beq_eq in H. rewrite H. reflexivity.
    + destruct (alookup l2 compact_table) as [c|] eqn:E; [|discriminate].
      destruct (compact_table_sym _ _ E) as (Hs & Hc & _ & Hlen). rewrite Hc in H. apply beq_eq in H.
      destruct (Nat.eq_dec (List.length l2) 1) as [L|L].
      * rewrite (expand_letter _ _ L E). rewrite H. apply expand_long. apply Hlen. exact L.
      * rewrite (expand_long _ L). rewrite H. apply expand_letter; [|exact Hs].
        destruct (Nat.eq_dec (List.length c) 1) as [Lc|Lc]; [exact Lc|]. exfalso. apply L. apply Hlen. exact Lc.
  - intros H. apply orb_true_iff.
    destruct (expand_cases l1) as [E1|(f1 & A1 & E1 & L1)]; destruct (expand_cases l2) as [E2|(f2 & A2 & E2 & L2)];
      rewrite E1, E2 in H.
    + left. apply beq_eq. exact H.
    + right. rewrite A2. destruct (compact_table_sym _ _ A2) as (_ & Hc & _). rewrite Hc. apply beq_eq. exact H.
    + right. subst l2. rewrite <- H. destruct (compact_table_sym _ _ A1) as (Hs & _ & Hl & _). rewrite Hs, Hl.
      apply beq_eq. reflexivity.
    + left. subst f2. destruct (compact_table_sym _ _ A1) as (Hs1 & _). destruct (compact_table_sym _ _ A2) as (Hs2 & _).
      rewrite Hs1 in Hs2. injection Hs2 as ->. apply beq_eq. reflexivity.
Qed.

Corollary same_header_canon n1 n2 : same_header n1 n2 = beq (canon n1) (canon n2).
Proof. apply Bool.eq_true_iff_eq. rewrite C17_same_header_equiv, beq_eq. reflexivity. Qed.
(* hence an equivalence relation (in particular symmetric, although the definition is not) *)
Corollary C17_same_header_refl : forall n, same_header n n = true.
Proof. exact same_header_refl. Qed.
Corollary C17_same_header_sym : forall a b, same_header a b = same_header b a.
Proof. intros a b. rewrite !same_header_canon. apply beq_sym. Qed.
Corollary C17_same_header_trans : forall a b c, same_header a b = true -> same_header b c = true -> same_header a c = true.
Proof. intros a b c. rewrite !C17_same_header_equiv. congruence. Qed.
Lemma same_header_through n nm name : same_header n nm = true -> same_header n name = same_header nm name.
Proof. intros H. apply C17_same_header_equiv in H. rewrite !same_header_canon, H. reflexivity. Qed.

Lemma same_header_other nm name : same_header nm name = false -> forall n, same_header n nm = true -> same_header n name = false.
Proof. intros H n Hm. rewrite (same_header_through _ _ name Hm). exact H. Qed.

(* the names the code looks up *)
Definition lookup_names : list bytes :=
  map s2b ["Via"; "Route"; "Record-Route"; "From"; "To"; "Call-ID"; "CSeq"; "Content-Length"; "Max-Forwards";
           "Expires"; "Subscription-State"]%string.
Example C17_canon_lookup_names :
  map canon lookup_names =
  map s2b ["via"; "route"; "record-route"; "from"; "to"; "call-id"; "cseq"; "content-length"; "max-forwards";
           "expires"; "subscription-state"]%string
  /\ map canon (map s2b ["v"; "V"; "VIA"; "f"; "T"; "i"; "L"; "cONTENT-lENGTH"; "x"; ""]%string)
     = map s2b ["via"; "via"; "via"; "from"; "to"; "call-id"; "content-length"; "content-length"; "x"; ""]%string.
Proof. split; vm_compute; reflexivity. Qed.

(* two headers that differ in the spelling of the name only; two messages that differ in the
   spelling of header names only *)
Definition hdr_rel (h1 h2 : header) : Prop := canon (h_name h1) = canon (h_name h2) /\ h_val h1 = h_val h2.
Definition hs_rel : list header -> list header -> Prop := Forall2 hdr_rel.
Definition respelled (m1 m2 : message) : Prop :=
  m_start m1 = m_start m2 /\ m_body m1 = m_body m2 /\ hs_rel (m_headers m1) (m_headers m2).

(* a respelling function: every name is mapped to a name with the same full form *)
Definition spelling (s : bytes -> bytes) : Prop := forall n, canon (s n) = canon n.
Definition rename (s : bytes -> bytes) (h : header) : header := {| h_name := s (h_name h); h_val := h_val h |}.
Definition respell (s : bytes -> bytes) (m : message) : message := with_headers m (map (rename s) (m_headers m)).
(* canonical spelling of every name: two messages are respellings of each other iff they have
   the same canonical form *)
Definition canon_names (m : message) : message := respell canon m.

(* an upper-case letter moved by 32 is no upper-case letter *)
Lemma to_lower_idem n : to_lower (to_lower n) = to_lower n.
Proof.
  unfold to_lower. rewrite map_map. apply map_ext. intros c. unfold lower_byte.
  destruct (N.leb 65 (N_of_ascii c) && N.leb (N_of_ascii c) 90)%bool eqn:T; [|rewrite T; reflexivity].
  apply andb_true_iff in T. destruct T as [T1 T2]. apply N.leb_le in T1. apply N.leb_le in T2.
  rewrite N_ascii_embedding by lia.
  destruct (N.leb 65 (N_of_ascii c + 32) && N.leb (N_of_ascii c + 32) 90)%bool eqn:T'; [|reflexivity].
  apply andb_true_iff in T'. destruct T' as [_ T']. apply N.leb_le in T'. lia.
Qed.
(* the full form of a letter is no letter, and is in lower case *)
Lemma canon_idem n : canon (canon n) = canon n.
Proof.
  assert (C : canon n = expand (to_lower n)) by reflexivity.
  destruct (expand_cases (to_lower n)) as [E|(f & A & E & L)]; rewrite C, E.
  - unfold canon. rewrite to_lower_idem. exact E.
  - destruct (compact_table_sym _ _ A) as (Hs & Hf & _ & Hl). unfold canon. rewrite Hf. apply expand_long. apply Hl. exact L.
Qed.
Lemma spelling_canon : spelling canon.
Proof. intros n. apply canon_idem. Qed.
Lemma spelling_id : spelling (fun n => n).
Proof. intros n. reflexivity. Qed.

(* [hs_rel] is the kernel of "every name in its full form" (so it is an equivalence): what holds
   of a list and of its canonical respelling holds of any two related lists *)
Lemma hs_rel_canon hs1 hs2 : hs_rel hs1 hs2 <-> map (rename canon) hs1 = map (rename canon) hs2.
Proof.
  split.
  - induction 1 as [|h1 h2 l1 l2 [Hn Hv] _ IH]; [reflexivity|]. cbn [map]. unfold rename at 1 3. rewrite IH, Hn, Hv. reflexivity.
  - revert hs2. induction hs1 as [|h1 l1 IH]; intros [|h2 l2] E; try discriminate; constructor.
    + injection E as Hn Hv _. split; assumption.
    + apply IH. injection E as _ _ E. exact E.
Qed.
Lemma hs_rel_refl hs : hs_rel hs hs.
Proof. apply hs_rel_canon. reflexivity. Qed.
Lemma respelled_refl m : respelled m m.
Proof. split; [reflexivity|]. split; [reflexivity|apply hs_rel_refl]. Qed.
Lemma respelled_canon_names m1 m2 : respelled m1 m2 <-> canon_names m1 = canon_names m2.
Proof.
  unfold respelled, canon_names, respell, with_headers. rewrite hs_rel_canon. split.
  - intros (H1 & H2 & H3). rewrite H1, H2, H3. reflexivity.
  - intros E. injection E as H1 H3 H2. auto.
Qed.
Lemma hs_rel_rename s hs : spelling s -> hs_rel (map (rename s) hs) hs.
Proof.
  intros Hs. apply hs_rel_canon. rewrite map_map. apply map_ext. intros h. unfold rename. cbn [h_name h_val]. rewrite Hs. reflexivity.
Qed.
Lemma respell_respelled s m : spelling s -> respelled (respell s m) m.
Proof. intros Hs. split; [reflexivity|]. split; [reflexivity|]. apply hs_rel_rename. exact Hs. Qed.
(* an edit of the header list that commutes with canonical respelling (up to what it inserts),
   and a look-up that does not see it *)
Lemma hs_rel_edit (g g' : list header -> list header) :
  (forall hs, map (rename canon) (g hs) = g' (map (rename canon) hs)) -> forall a b, hs_rel a b -> hs_rel (g a) (g b).
Proof. intros C a b H. apply hs_rel_canon. apply hs_rel_canon in H. rewrite !C, H. reflexivity. Qed.
Lemma hs_rel_read {X} (rd : list header -> X) :
  (forall hs, rd (map (rename canon) hs) = rd hs) -> forall a b, hs_rel a b -> rd a = rd b.
Proof. intros C a b H. apply hs_rel_canon in H. rewrite <- (C a), <- (C b), H. reflexivity. Qed.

Definition opt_rel {A} (P : A -> A -> Prop) (o1 o2 : option A) : Prop :=
  match o1, o2 with Some a, Some b => P a b | None, None => True | _, _ => False end.

(* every look-up and edit commutes with a respelling function *)
Section Respell.
  Variable s : bytes -> bytes.
  Hypothesis Hs : spelling s.
  Lemma same_header_respell n name : same_header (s n) name = same_header n name.
  Proof. rewrite !same_header_canon, Hs. reflexivity. Qed.
  Lemma get_header_respell name hs : get_header name (map (rename s) hs) = option_map (rename s) (get_header name hs).
  Proof.
    induction hs as [|h r IH]; [reflexivity|]. cbn [map get_header rename h_name]. rewrite same_header_respell.
    destruct (same_header (h_name h) name); [reflexivity|exact IH].
  Qed.
  Lemma find_header_pos_from_respell name hs : forall i,
    find_header_pos_from name (map (rename s) hs) i = find_header_pos_from name hs i.
  Proof.
    induction hs as [|h r IH]; intros i; [reflexivity|]. cbn [map find_header_pos_from rename h_name].
    rewrite same_header_respell. destruct (same_header (h_name h) name); [reflexivity|apply IH].
  Qed.
  Lemma find_header_pos_respell name hs : find_header_pos name (map (rename s) hs) = find_header_pos name hs.
  Proof. apply find_header_pos_from_respell. Qed.
  Lemma has_header_respell name m : has_header name (respell s m) = has_header name m.
  Proof.
    unfold has_header, respell. cbn [m_headers with_headers]. rewrite get_header_respell.
    destruct (get_header name (m_headers m)); reflexivity.
  Qed.
  Lemma update_header_respell name f hs :
    update_header name f (map (rename s) hs) = map (rename s) (update_header name f hs).
  Proof.
    induction hs as [|h r IH]; [reflexivity|]. cbn [map update_header rename h_name]. rewrite same_header_respell.
    destruct (same_header (h_name h) name); [reflexivity|]. cbn [map]. rewrite IH. reflexivity.
  Qed.
  Lemma remove_header_respell name hs : remove_header name (map (rename s) hs) = map (rename s) (remove_header name hs).
  Proof.
    induction hs as [|h r IH]; [reflexivity|]. cbn [map remove_header rename h_name]. rewrite same_header_respell.
    destruct (same_header (h_name h) name); [reflexivity|]. cbn [map]. rewrite IH. reflexivity.
  Qed.
  Lemma set_val_respell name v m : set_val name v (respell s m) = respell s (set_val name v m).
  Proof. unfold set_val, respell, with_headers. cbn [m_start m_headers m_body]. rewrite update_header_respell. reflexivity. Qed.
  Lemma typed_get_respell {A} name (proj : hval -> option A) parse inj m :
    typed_get name proj parse inj (respell s m) =
    (respell s (fst (typed_get name proj parse inj m)), snd (typed_get name proj parse inj m)).
  Proof.
    unfold typed_get. cbn [respell m_headers with_headers]. rewrite get_header_respell.
    destruct (get_header name (m_headers m)) as [h|]; cbn [option_map]; [|reflexivity].
    cbn [rename h_val]. destruct (proj (h_val h)); [reflexivity|].
    destruct (h_val h); try reflexivity. destruct (parse s0); try reflexivity.
    cbn [fst snd]. rewrite <- set_val_respell. reflexivity.
  Qed.
  Lemma get_raw_respell name m : get_raw name (respell s m) = get_raw name m.
  Proof.
    unfold get_raw, respell. cbn [m_headers with_headers]. rewrite get_header_respell.
    destruct (get_header name (m_headers m)); reflexivity.
  Qed.
  Lemma get_header_int_respell name m : get_header_int name (respell s m) = get_header_int name m.
  Proof. unfold get_header_int. rewrite get_raw_respell. reflexivity. Qed.
  Lemma get_expires_respell m d : get_expires (respell s m) d = get_expires m d.
  Proof. unfold get_expires. rewrite get_header_int_respell. reflexivity. Qed.
  Lemma decode_all_vias_respell hs :
    decode_all_vias (map (rename s) hs) = (map (rename s) (fst (decode_all_vias hs)), snd (decode_all_vias hs)).
  Proof.
    induction hs as [|h r IH]; [reflexivity|]. cbn [map decode_all_vias]. rewrite IH.
    destruct (decode_all_vias r) as [r' vs]. cbn [fst snd rename h_name h_val]. rewrite same_header_respell.
    destruct (same_header (h_name h) (s2b "Via")); [|reflexivity].
    destruct (h_val h); try reflexivity. destruct (parse_via s0); reflexivity.
  Qed.
  Lemma find_record_route_pos_respell hs : find_record_route_pos (map (rename s) hs) = find_record_route_pos hs.
  Proof. unfold find_record_route_pos. rewrite !find_header_pos_respell. reflexivity. Qed.
  Lemma insert_at_map {A B} (g : A -> B) n x l : insert_at n (g x) (map g l) = map g (insert_at n x l).
  Proof. unfold insert_at. rewrite map_app, firstn_map, skipn_map. reflexivity. Qed.
  (* the inserted header keeps the literal name "Via" / "Record-Route": same position, and every
     other header respelled *)
  Lemma add_via_respell v m :
    m_headers (add_via v (respell s m)) =
    insert_at (match find_header_pos (s2b "Via") (m_headers m) with Some i => i | None => O end)
              {| h_name := s2b "Via"; h_val := HVia [v] |} (map (rename s) (m_headers m)).
  Proof. unfold add_via, respell. cbn [m_headers with_headers]. rewrite find_header_pos_respell. reflexivity. Qed.
  Lemma add_record_route_respell r m :
    m_headers (add_record_route r (respell s m)) =
    insert_at (find_record_route_pos (m_headers m))
              {| h_name := s2b "Record-Route"; h_val := HRecRoute [r] |} (map (rename s) (m_headers m)).
  Proof. unfold add_record_route, respell. cbn [m_headers with_headers]. rewrite find_record_route_pos_respell. reflexivity. Qed.
End Respell.

(* hence, for any two respelled header lists *)
Definition hval_of (name : bytes) (hs : list header) : option hval := option_map h_val (get_header name hs).
Lemma hs_rel_hval name a b : hs_rel a b -> hval_of name a = hval_of name b.
Proof.
  apply hs_rel_read. intros hs. unfold hval_of. rewrite (get_header_respell canon spelling_canon).
  destruct (get_header name hs); reflexivity.
Qed.
Lemma hs_rel_update name f a b : hs_rel a b -> hs_rel (update_header name f a) (update_header name f b).
Proof. apply (hs_rel_edit _ (update_header name f)). intros hs. symmetry. apply update_header_respell, spelling_canon. Qed.
Lemma hs_rel_remove name a b : hs_rel a b -> hs_rel (remove_header name a) (remove_header name b).
Proof. apply (hs_rel_edit _ (remove_header name)). intros hs. symmetry. apply remove_header_respell, spelling_canon. Qed.
Lemma hs_rel_decode a b : hs_rel a b ->
  hs_rel (fst (decode_all_vias a)) (fst (decode_all_vias b)) /\ snd (decode_all_vias a) = snd (decode_all_vias b).
Proof.
  intros H. split; revert a b H;
    [apply (hs_rel_edit _ (fun hs => fst (decode_all_vias hs)))|apply (hs_rel_read (fun hs => snd (decode_all_vias hs)))];
    intros hs; rewrite (decode_all_vias_respell canon spelling_canon); reflexivity.
Qed.
Lemma hs_rel_insert (pos : list header -> nat) h0 : (forall hs, pos (map (rename canon) hs) = pos hs) ->
  forall a b, hs_rel a b -> hs_rel (insert_at (pos a) h0 a) (insert_at (pos b) h0 b).
Proof.
  intros Hp. apply (hs_rel_edit _ (fun hs => insert_at (pos hs) (rename canon h0) hs)).
  intros hs. rewrite Hp. symmetry. apply insert_at_map.
Qed.

(* what is written: every header that is not a Content-Length (under any spelling), then exactly one
   Content-Length; [out_headers] is C01.emitted_headers *)
Definition not_cl (h : header) : bool := negb (same_header (h_name h) (s2b "Content-Length")).
Definition out_headers (m : message) : list header :=
  filter not_cl (m_headers m) ++
  [{| h_name := s2b "Content-Length"; h_val := HRaw (itoa (Z.of_nat (List.length (m_body m)))) |}].
Lemma write_message_out_headers m :
  write_message m = start_line_print (m_start m) ++ crlf ++ flat_map header_print (out_headers m) ++ crlf ++ m_body m.
Proof. exact (proj1 (C01.C01_single_content_length m)). Qed.
Theorem C17_one_content_length : forall m,
  List.length (filter (fun h => same_header (h_name h) (s2b "Content-Length")) (out_headers m)) = 1.
Proof. intros m. exact (proj2 (proj2 (proj2 (proj2 (proj2 (C01.C01_single_content_length m)))))). Qed.
Lemma out_headers_rel m1 m2 : respelled m1 m2 -> hs_rel (out_headers m1) (out_headers m2).
Proof.
  intros (_ & Hb & Hh). unfold out_headers. rewrite Hb. apply Forall2_app; [|apply hs_rel_refl].
  induction Hh as [|h1 h2 l1 l2 [Hn Hv] Hl IH]; [constructor|]. cbn [filter].
  assert (E : not_cl h1 = not_cl h2) by (unfold not_cl; rewrite !same_header_canon, Hn; reflexivity).
  rewrite E. destruct (not_cl h2); [constructor; [split; assumption|exact IH]|exact IH].
Qed.

(* Model-level refactorings (no relation involved, each tied to the model by an equation):
   the head of the Route list; the decoration sendToBackend serialises; HandleMessage as "decide,
   then send"; process_message as "prefix, then HandleMessage".  They make visible WHICH message
   is serialised. *)
Definition s_route_head : M (option route_param) := mlet l := s_get_route in mret (hd_error l).

Lemma next_hop_by_route_head keep m :
  next_hop_by_route keep m =
  (mlet o := s_route_head in
   match o with
   | None => merr
   | Some rp =>
       mlet _ := (if keep then mret (Some tt) else mtry s_pop_route) in
       match na_addr (r_addr rp) with
       | ASip u => mret (u_host u, sip_uri_get_port u, sip_uri_transport u)
       | AAbs _ => merr
       end
   end) m.
Proof.
  unfold next_hop_by_route, s_route_head, mbind, mret. destruct (s_get_route m) as [m1 [[|rp l]| |]]; reflexivity.
Qed.
Lemma try_remove_top_route_head c from m :
  try_remove_top_route c from m =
  (mlet o := s_route_head in
   match o with
   | Some rp =>
       match na_addr (r_addr rp) with
       | ASip u => if (Z.eqb (sip_uri_get_port u) (t_port from) && is_same_address c (u_host u) (t_addr from))%bool
                   then s_pop_route else mret tt
       | AAbs _ => mret tt
       end
   | None => mret tt
   end) m.
Proof.
  unfold try_remove_top_route, s_route_head, mbind, mret. destruct (s_get_route m) as [m1 [[|rp l]| |]]; reflexivity.
Qed.

Definition mk_ctx (l : learned) (p : pstate) (cs : list conn) (w : world) (o : list output) : ctx :=
  {| x_learned := l; x_p := p; x_conns := cs; x_world := w; x_outs := o |}.

(* sendToBackend: the backend it chooses and the decorated message it serialises *)
Definition stb_prep (e : env) (m : message) (x : ctx) : option (message * pstate * bref) :=
  let p := x_p x in
  if negb (ps_has_rr p) then None
  else
    match first_transport (e_lc e) with
    | None => None
    | Some t0 =>
        let '(m1, r) := find_backend_by_dialog e p m in
        let '(p1, ob) := match r with Ok v => v | _ => (p, None) end in
        let b := match ob with Some b => b | None => BRR end in
        Some (px_add_record_route (pa_must_rr (wire_proxy (e_lc e))) t0 (px_add_via e t0 m1), p1, b)
    end.

(* the message is the one Pipeline.v names [backend_msg] *)
Lemma stb_prep_msg e m x :
  option_map (fun t => fst (fst t)) (stb_prep e m x) =
  if negb (ps_has_rr (x_p x)) then None
  else option_map (fun t0 => backend_msg e t0 (x_p x) m) (first_transport (e_lc e)).
Proof.
  unfold stb_prep, backend_msg. destruct (negb (ps_has_rr (x_p x))); [reflexivity|].
  destruct (first_transport (e_lc e)) as [t0|]; [|reflexivity].
  destruct (find_backend_by_dialog e (x_p x) m) as [m1 r]. destruct (match r with Ok v => v | _ => (x_p x, None) end). reflexivity.
Qed.

(* HandleMessage decides ...  (Pipeline.v cuts the same function into dispatch / respond /
   subscribe_pin, which send at once; here the decision is a value, so that [plan_written] can
   name the message before it is sent) *)
Inductive plan :=
| PSend (host : bytes) (port : Z) (tr : bytes) (m : message) (x : ctx)
| PBackend (m : message) (x : ctx)
| PNone (m : message) (x : ctx).

Definition hm_plan (e : env) (from : stransport) (m : message) (x : ctx) : plan :=
  if is_request m then
    let '(m1, r) := next_request_hop (c_keep_next_hop (e_cfg e)) (route_table_of (e_cfg e)) m in
    match r with
    | Ok (host, port, transport) =>
        let m2 := match alookup host (x_learned x) with
                  | Some t => px_add_record_route (pa_must_rr (wire_proxy (e_lc e))) t (px_add_via e t m1)
                  | None => m1 end in
        PSend host port transport m2 x
    | _ =>
        if is_my_message (new_my_name (c_name (e_cfg e))) from m1 then PBackend m1 x else PNone m1 x
    end
  else
    let '(m1, _) := mtry s_pop_via m in
    let '(m2, hop) := mtry next_response_hop m1 in
    let '(m3, ometh) := mtry s_get_method m2 in
    let '(m4, p1) :=
      match hop, ometh with
      | Ok (Some (host, port, _)), Ok (Some meth) =>
          if beq meth (s2b "SUBSCRIBE") then
            let addr := host ++ ":"%char :: itoa port in
            match alookup addr (ps_backends (x_p x)) with
            | Some g =>
                let '(m', od) := mtry s_get_dialog m3 in
                match od with
                | Ok (Some d) => (m', with_pins (x_p x) (pins_add (e_now e) d (pin_val_backend addr g) (get_expires m' 0) (ps_pins (x_p x))))
                | _ => (m', x_p x)
                end
            | None => (m3, x_p x)
            end
          else (m3, x_p x)
      | _, _ => (m3, x_p x)
      end in
    let x1 := {| x_learned := x_learned x; x_p := p1; x_conns := x_conns x; x_world := x_world x; x_outs := x_outs x |} in
    match hop with
    | Ok (Some (host, port, transport)) => PSend host port transport m4 x1
    | _ => PNone m4 x1
    end.
(* ... then sends *)
Definition run_plan (e : env) (pl : plan) : ctx * message :=
  match pl with
  | PSend host port tr m x => send_message e host port tr m x
  | PBackend m x => send_to_backend e m x
  | PNone m x => (x, m)
  end.
Lemma handle_message_plan e from m x : handle_message e from m x = run_plan e (hm_plan e from m x).
Proof.
  unfold handle_message, hm_plan. destruct (is_request m).
  - destruct (next_request_hop _ _ m) as [m1 [[[host port] tr]| |]]; try reflexivity;
      destruct (is_my_message _ from m1); reflexivity.
  - destruct (mtry s_pop_via m) as [m1 r1]. destruct (mtry next_response_hop m1) as [m2 hop].
    destruct (mtry s_get_method m2) as [m3 ometh].
    destruct (match hop, ometh with Ok (Some (host, port, _)), Ok (Some meth) => _ | _, _ => (m3, x_p x) end) as [m4 p1].
    destruct hop as [[[[host port] tr]|]| |]; reflexivity.
Qed.
(* the one message a plan serialises (whether or not a transport is found for it) *)
Definition plan_written (e : env) (pl : plan) : option message :=
  match pl with
  | PSend _ _ _ m _ => Some (fst (mtry s_client_transaction m))
  | PBackend m x => option_map (fun t => fst (fst t)) (stb_prep e m x)
  | PNone _ _ => None
  end.

(* process_message up to the call of HandleMessage, in four steps *)
Definition pm_learn (peer : bytes) (from : stransport) (m0 : message) (p : pstate) (l : learned) : message * learned :=
  if (is_request m0 && negb (amem peer (ps_backends p)))%bool then
    let '(m', vs) := s_all_via_params m0 in
    (m', fold_left (fun l v => learn (v_host v) from l)
                   (match vs with Ok l => l | _ => [] end) (learn peer from l))
  else (m0, l).
Definition pm_stamp (peer : bytes) (peer_port : Z) (rs : bool) (m1 : message) : message :=
  if (is_request m1 && rs)%bool then fst (s_set_received peer peer_port m1) else m1.
Definition pm_conn (e : env) (tcp : option nat) (m2 : message) (p : pstate) : message * res pstate :=
  match tcp with
  | Some c =>
      if is_request m2 then
        let '(m', hop) := mtry next_response_hop m2 in
        match hop with
        | Ok oh =>
            let host0 := match oh with Some (h, _, _) => h | None => [] end in
            let port := match oh with Some (_, p, _) => p | None => 0%Z end in
            match (if has_prefix (s2b "[") host0
                   then (if (fx_bracket_host (e_fx e) && negb (has_suffix (s2b "]") host0 && Nat.leb 2 (List.length host0)))%bool
                         then Ok host0 else slice_chk host0 1 (List.length host0 - 1))
                   else Ok host0) with
            | Panic => (m', Panic)
            | Err => (m', Err)
            | Ok host =>
                match oh with
                | None => (m', Ok p)
                | Some _ =>
                    let '(m'', tid) := mtry s_client_transaction m' in
                    match tid with
                    | Ok (Some t) =>
                        let host_r := if fx_resolved_key (e_fx e)
                                      then match get_ip (e_cfg e) host with Some i => i | None => host end else host in
                        let '(p1, rk) := get_transport (now_s e) (s2b "tcp") host_r port t p in
                        match rk with
                        | Ok key => (m'', Ok (set_primary key (PConn c (now_s e + 3600)%Z) p1))
                        | _ => (m'', Ok p1)
                        end
                    | _ => (m'', Ok p)
                    end
                end
            end
        | _ => (m', Ok p)
        end
      else (m2, Ok p)
  | None => (m2, Ok p)
  end.
Definition pm_dialog (e : env) (peer : bytes) (peer_port : Z) (from : stransport) (m3 : message) (p1 : pstate)
  : message * pstate :=
  let m4 := fst (mtry (try_remove_top_route (e_cfg e) from) m3) in
  if is_response m4 then
    let '(m', r) := handle_dialog e peer peer_port p1 m4 in
    (m', match r with Ok p' => p' | _ => p1 end)
  else (m4, p1).
Definition pm_prefix (e : env) (peer : bytes) (peer_port : Z) (from : stransport) (rs : bool)
           (tcp : option nat) (m0 : message) (x : ctx) : res (message * ctx) :=
  let '(m1, l1) := pm_learn peer from m0 (x_p x) (x_learned x) in
  let '(m3, rp) := pm_conn e tcp (pm_stamp peer peer_port rs m1) (x_p x) in
  match rp with
  | Panic => Panic
  | Err => Err
  | Ok p1 =>
      let '(m5, p2) := pm_dialog e peer peer_port from m3 p1 in
      Ok (m5, {| x_learned := l1; x_p := p2; x_conns := x_conns x; x_world := x_world x; x_outs := x_outs x |})
  end.
(* the four steps are the stages of Pipeline.v, and the prefix is what reaches HandleMessage there *)
Lemma pm_conn_stage e tcp m2 p : pm_conn e tcp m2 p = stage_conn e tcp m2 p.
Proof.
  unfold pm_conn, stage_conn, unbracket, register_conn. destruct tcp as [c|]; [|reflexivity].
  destruct (is_request m2); [|reflexivity].
  destruct (mtry next_response_hop m2) as [m' [[[[h0 p0] t0]|]| |]]; try reflexivity.
  cbv zeta. destruct (if has_prefix (s2b "[") h0 then _ else _) as [host| |]; try reflexivity.
  destruct (mtry s_client_transaction m') as [m'' [[t|]| |]]; try reflexivity.
  destruct (get_transport _ _ _ _ _ _) as [p1 [key| |]]; reflexivity.
Qed.
Lemma pm_learn_stage peer from m0 x : pm_learn peer from m0 (x_p x) (x_learned x) = stage_learn peer from m0 x.
Proof. reflexivity. Qed.
Lemma pm_stamp_stage : pm_stamp = stage_stamp.
Proof. reflexivity. Qed.
Lemma pm_dialog_stage e peer pp from m3 p1 :
  pm_dialog e peer pp from m3 p1 = stage_dialog e peer pp p1 (stage_route e from m3).
Proof. reflexivity. Qed.
Lemma pm_prefix_reach e peer pp from rs tcp m0 x :
  pm_prefix e peer pp from rs tcp m0 x = reach e peer pp from rs tcp m0 x.
Proof.
  unfold pm_prefix, reach. rewrite pm_learn_stage.
  destruct (stage_learn peer from m0 x) as [m1 l1]. rewrite pm_conn_stage. reflexivity.
Qed.
Lemma process_message_prefix e peer pp from rs tcp m0 x :
  process_message e peer pp from rs tcp m0 x =
  let! (m5, x1) := pm_prefix e peer pp from rs tcp m0 x in Ok (fst (handle_message e from m5 x1)).
Proof. rewrite process_message_reach, pm_prefix_reach. reflexivity. Qed.
(* the message process_message serialises, if it gets that far *)
Definition pm_written (e : env) (peer : bytes) (pp : Z) (from : stransport) (rs : bool)
           (tcp : option nat) (m0 : message) (x : ctx) : option message :=
  match pm_prefix e peer pp from rs tcp m0 x with
  | Ok (m5, x1) => plan_written e (hm_plan e from m5 x1)
  | _ => None
  end.

(* [R] relates the message of run 1 to the message of run 2.  The instance provides the
   primitive accesses (the hypotheses of the section); everything the proxy does with a message is derived. *)
Definition fits_opt (o : option message) : bool :=
  match o with Some w => fits_datagram (write_message w) | None => true end.

Section Sim.
  Variable R : message -> message -> Prop.

  (* two runs on related messages leave related messages and return the same; a function / a
     look-up that respects the relation *)
  Definition pair_sim {A} (r1 r2 : message * A) : Prop := R (fst r1) (fst r2) /\ snd r1 = snd r2.
  Definition msim {A} (f : message -> message * A) : Prop := forall m1 m2, R m1 m2 -> pair_sim (f m1) (f m2).
  Definition mcong (g : message -> message) : Prop := forall m1 m2, R m1 m2 -> R (g m1) (g m2).
  Definition mread {A} (g : message -> A) : Prop := forall m1 m2, R m1 m2 -> g m1 = g m2.

  (* how a simulated computation is used: name the two outcomes *)
  Lemma msim_run {A} (x : message -> message * A) : msim x -> forall m1 m2, R m1 m2 ->
    exists a b r, x m1 = (a, r) /\ x m2 = (b, r) /\ R a b.
  Proof.
    intros Hx m1 m2 H. destruct (Hx m1 m2 H) as [HR Hr]. destruct (x m1) as [a r]. destruct (x m2) as [b r'].
    cbn [fst snd] in HR, Hr. subst r'. exists a, b, r. auto.
  Qed.

  Hypothesis H_start : mread m_start.
  Hypothesis H_cseq : msim s_get_cseq.
  Hypothesis H_from : msim s_get_from.
  Hypothesis H_to : msim s_get_to.
  Hypothesis H_call_id : mread (get_raw (s2b "Call-ID")).
  Hypothesis H_expires : mread (get_raw (s2b "Expires")).
  Hypothesis H_sub_state : mread (get_raw (s2b "Subscription-State")).
  Hypothesis H_top_via : msim s_top_via.
  Hypothesis H_pop_via : msim s_pop_via.
  Hypothesis H_set_received : forall peer port, msim (s_set_received peer port).
  Hypothesis H_all_vias : msim s_all_via_params.
  Hypothesis H_route_head : msim s_route_head.
  Hypothesis H_pop_route : msim s_pop_route.
  Hypothesis H_add_via : forall v, mcong (add_via v).
  Hypothesis H_add_rr : forall r, mcong (add_record_route r).
  Hypothesis H_has_rr : mread (has_header (s2b "Record-Route")).

  Lemma msim_mret {A} (a : A) : msim (mret a).
  Proof. intros m1 m2 H. split; [exact H|reflexivity]. Qed.
  Lemma msim_merr {A} : msim (@merr A).
  Proof. intros m1 m2 H. split; [exact H|reflexivity]. Qed.
  Lemma msim_mlift {A} (r : res A) : msim (mlift r).
  Proof. intros m1 m2 H. split; [exact H|reflexivity]. Qed.
  Lemma msim_mbind {A B} (x : M A) (f : A -> M B) : msim x -> (forall a, msim (f a)) -> msim (mbind x f).
  Proof.
    intros Hx Hf m1 m2 H. unfold mbind. destruct (msim_run x Hx m1 m2 H) as (a & b & r & -> & -> & HR).
    destruct r as [v| |]; [apply Hf; exact HR|split; [exact HR|reflexivity]|split; [exact HR|reflexivity]].
  Qed.
  Lemma msim_mtry {A} (x : M A) : msim x -> msim (mtry x).
  Proof.
    intros Hx m1 m2 H. unfold mtry. destruct (msim_run x Hx m1 m2 H) as (a & b & r & -> & -> & HR).
    destruct r as [v| |]; (split; [exact HR|reflexivity]).
  Qed.
  Lemma msim_read {A} (g : message -> res A) : mread g -> msim (fun m => (m, g m)).
  Proof. intros Hg m1 m2 H. split; [exact H|]. cbn [snd]. apply Hg. exact H. Qed.
  Lemma msim_mmodify g : mcong g -> msim (mmodify g).
  Proof. intros Hg m1 m2 H. split; [apply Hg; exact H|reflexivity]. Qed.
  Lemma msim_ext {A} (x y : M A) : (forall m, x m = y m) -> msim y -> msim x.
  Proof. intros E Hy m1 m2 H. rewrite !E. apply Hy. exact H. Qed.

  Lemma mread_is_request : mread is_request.
  Proof. intros m1 m2 H. unfold is_request. rewrite (H_start _ _ H). reflexivity. Qed.
  Lemma mread_is_response : mread is_response.
  Proof. intros m1 m2 H. unfold is_response. rewrite (mread_is_request _ _ H). reflexivity. Qed.
  Lemma mread_is_final : mread is_final_response.
  Proof. intros m1 m2 H. unfold is_final_response. rewrite (H_start _ _ H). reflexivity. Qed.
  Lemma mread_is_my n from : mread (is_my_message n from).
  Proof. intros m1 m2 H. unfold is_my_message. rewrite (H_start _ _ H). reflexivity. Qed.
  Lemma mread_get_expires d : mread (fun m => get_expires m d).
  Proof. intros m1 m2 H. unfold get_expires, get_header_int. rewrite (H_expires _ _ H). reflexivity. Qed.

  Lemma msim_s_get_method : msim s_get_method.
  Proof.
    intros m1 m2 H. unfold s_get_method. rewrite (H_start _ _ H).
    destruct (m_start m2); [split; [exact H|reflexivity]|].
    exact (msim_mbind _ _ H_cseq (fun c => msim_mret _) m1 m2 H).
  Qed.
  Lemma msim_s_client_transaction : msim s_client_transaction.
  Proof.
    apply msim_mbind; [exact H_cseq|]. intros c. apply msim_mbind; [exact H_top_via|]. intros v.
    apply msim_mbind; [apply msim_mlift|]. intros b. apply msim_mret.
  Qed.
  Lemma msim_s_get_dialog : msim s_get_dialog.
  Proof.
    apply msim_mbind; [exact (msim_read _ H_call_id)|]. intros cid.
    apply msim_mbind; [exact H_from|]. intros f. apply msim_mbind; [apply msim_mlift|]. intros ft.
    apply msim_mbind; [exact H_to|]. intros t. apply msim_mbind; [apply msim_mlift|]. intros tt. apply msim_mret.
  Qed.
  Lemma msim_next_response_hop : msim next_response_hop.
  Proof. apply msim_mbind; [exact H_top_via|]. intros v. destruct (via_get_received v); apply msim_mret. Qed.
  Lemma msim_next_hop_by_route keep : msim (next_hop_by_route keep).
  Proof.
    eapply msim_ext; [intros m; apply next_hop_by_route_head|].
    apply msim_mbind; [exact H_route_head|]. intros [rp|]; [|apply msim_merr].
    apply msim_mbind; [destruct keep; [apply msim_mret|apply msim_mtry, H_pop_route]|].
    intros _. destruct (na_addr (r_addr rp)); [apply msim_mret|apply msim_merr].
  Qed.
  Lemma msim_next_hop_by_config rt : msim (next_hop_by_config rt).
  Proof.
    apply msim_mbind; [exact H_to|]. intros t. destruct (fromto_host t) as [h|]; [|apply msim_merr].
    destruct (find_route rt h); [apply msim_mret|apply msim_merr].
  Qed.
  Lemma msim_next_request_hop keep rt : msim (next_request_hop keep rt).
  Proof.
    intros m1 m2 H. unfold next_request_hop.
    destruct (msim_run _ (msim_next_hop_by_route keep) m1 m2 H) as (a & b & r & -> & -> & HR).
    destruct r as [v| |]; [split; [exact HR|reflexivity]|apply msim_next_hop_by_config; exact HR|split; [exact HR|reflexivity]].
  Qed.
  Lemma msim_try_remove_top_route c from : msim (try_remove_top_route c from).
  Proof.
    eapply msim_ext; [intros m; apply try_remove_top_route_head|].
    apply msim_mbind; [exact H_route_head|]. intros [rp|]; [|apply msim_mret].
    destruct (na_addr (r_addr rp)); [|apply msim_mret].
    destruct (_ && _)%bool; [exact H_pop_route|apply msim_mret].
  Qed.
  Lemma msim_find_backend_by_dialog e p : msim (find_backend_by_dialog e p).
  Proof.
    apply msim_mbind; [exact msim_s_get_method|]. intros meth.
    destruct (_ && _)%bool; [apply msim_mret|].
    apply msim_mbind; [apply msim_mtry, msim_s_get_dialog|]. intros [d|]; [|apply msim_mret].
    destruct (pins_get (e_now e) d (ps_pins p)) as [pins1 ob]. cbv zeta.
    destruct (_ && _)%bool; [apply msim_mret|].
    apply msim_mbind; [apply msim_mtry; exact (msim_read _ H_sub_state)|]. intros ss. apply msim_mret.
  Qed.
  Lemma msim_handle_dialog e peer pp p : msim (handle_dialog e peer pp p).
  Proof.
    unfold handle_dialog. apply msim_mbind.
    - destruct (alookup _ (ps_backends p)); [apply msim_mret|].
      apply msim_mbind; [exact msim_s_client_transaction|]. intros tid.
      destruct (pins_get (e_now e) tid (ps_pins p)) as [pins1 ob].
      apply msim_mbind; [exact (msim_read (fun m => Ok (is_final_response m)) (fun m1 m2 H => f_equal Ok (mread_is_final m1 m2 H)))|].
      intros fin. apply msim_mret.
    - intros [p1 [b|]]; [|apply msim_mret].
      apply msim_mbind; [apply msim_mtry, msim_s_get_method|]. intros [meth|]; [|apply msim_mret].
      destruct (beq meth (s2b "INVITE")).
      + apply msim_mbind; [apply msim_mtry, msim_s_get_dialog|]. intros od.
        apply msim_mbind; [exact (msim_read (fun m => Ok (get_expires m 0)) (fun m1 m2 H => f_equal Ok (mread_get_expires 0 m1 m2 H)))|].
        intros ex. destruct od; apply msim_mret.
      + destruct (beq meth (s2b "BYE")); [|apply msim_mret].
        apply msim_mbind; [apply msim_mtry, msim_s_get_dialog|]. intros od. destruct od; apply msim_mret.
  Qed.
  Lemma mcong_px_add_via e t : mcong (px_add_via e t).
  Proof. intros m1 m2 H. apply H_add_via. exact H. Qed.
  Lemma mcong_px_add_record_route must t : mcong (px_add_record_route must t).
  Proof.
    intros m1 m2 H. unfold px_add_record_route. rewrite (H_has_rr _ _ H).
    destruct (_ && _)%bool; [exact H|apply H_add_rr; exact H].
  Qed.

  Definition pay_rel (b1 b2 : bytes) : Prop :=
    b1 = b2 \/ exists w1 w2, R w1 w2 /\ b1 = write_message w1 /\ b2 = write_message w2.
  Definition out_rel (o1 o2 : output) : Prop := fst o1 = fst o2 /\ pay_rel (snd o1) (snd o2).
  Definition outs_rel : list output -> list output -> Prop := Forall2 out_rel.
  Definition ctx_rel (x1 x2 : ctx) : Prop :=
    x_learned x1 = x_learned x2 /\ x_p x1 = x_p x2 /\ x_conns x1 = x_conns x2 /\ x_world x1 = x_world x2 /\
    outs_rel (x_outs x1) (x_outs x2).
  Definition res_ctx_rel (r1 r2 : res ctx) : Prop :=
    match r1, r2 with
    | Ok a, Ok b => ctx_rel a b
    | Err, Err => True
    | Panic, Panic => True
    | _, _ => False
    end.

  Lemma outs_rel_refl o : outs_rel o o.
  Proof. induction o as [|a r IH]; constructor; [split; [reflexivity|left; reflexivity]|exact IH]. Qed.
  Lemma ctx_rel_refl x : ctx_rel x x.
  Proof. repeat split; try reflexivity. apply outs_rel_refl. Qed.
  Lemma ctx_rel_mk l p cs w o1 o2 : outs_rel o1 o2 -> ctx_rel (mk_ctx l p cs w o1) (mk_ctx l p cs w o2).
  Proof. intros H. repeat split; try reflexivity. exact H. Qed.
  Lemma out_rel_same d b1 b2 : pay_rel b1 b2 -> out_rel (d, b1) (d, b2).
  Proof. intros H. split; [reflexivity|exact H]. Qed.

  (* two sends that differ in the outputs only *)
  Definition same_send (r1 r2 : pstate * list conn * world * list output * bool) : Prop :=
    exists p' cs' w' ok o1 o2, r1 = (p', cs', w', o1, ok) /\ r2 = (p', cs', w', o2, ok) /\ outs_rel o1 o2.
  Lemma same_send_intro p cs w ok o1 o2 : outs_rel o1 o2 -> same_send (p, cs, w, o1, ok) (p, cs, w, o2, ok).
  Proof. intros H. do 6 eexists. split; [reflexivity|]. split; [reflexivity|exact H]. Qed.

  Lemma tcp_client_send_sim b1 b2 : pay_rel b1 b2 -> forall n li local rs id p cs w outs1 outs2,
    outs_rel outs1 outs2 ->
    same_send (tcp_client_send n li local rs id b1 p cs w outs1) (tcp_client_send n li local rs id b2 p cs w outs2).
  Proof.
    intros Hb. induction n as [|n IH]; intros li local rs id p cs w outs1 outs2 Ho; cbn [tcp_client_send].
    - apply same_send_intro, Ho.
    - destruct (find_client id (ps_clients p)) as [cl|]; [|apply same_send_intro, Ho].
      destruct (tc_cached cl) as [c|].
      + destruct (conn_open cs c); [|apply IH; exact Ho].
        apply same_send_intro. apply Forall2_app; [exact Ho|]. constructor; [apply out_rel_same; exact Hb|constructor].
      + destruct (existsb _ (w_tcp_listeners w)); [|apply same_send_intro, Ho].
        apply same_send_intro. apply Forall2_app; [exact Ho|].
        constructor; [apply out_rel_same; left; reflexivity|].
        constructor; [apply out_rel_same; exact Hb|constructor].
  Qed.

  Lemma failover_send_sim li local rs f b1 b2 p cs w :
    fits_datagram b1 = fits_datagram b2 -> pay_rel b1 b2 ->
    exists p' cs' w' ok f' o1 o2,
      failover_send li local rs f b1 p cs w = (p', cs', w', o1, ok, f') /\
      failover_send li local rs f b2 p cs w = (p', cs', w', o2, ok, f') /\ outs_rel o1 o2.
  Proof.
    intros Hf Hb. rewrite !failover_send_eq.
    replace (pri_out f b1 cs) with (pri_out f b2 cs) by (unfold pri_out; rewrite Hf; reflexivity).
    destruct (pri_out f b2 cs) as [o|].
    - do 7 eexists. split; [reflexivity|]. split; [reflexivity|]. constructor; [apply out_rel_same; exact Hb|constructor].
    - unfold try_sec. destruct (fo_sec f) as [id|].
      + destruct (tcp_client_send_sim b1 b2 Hb 2 li local rs id p cs w [] [] (Forall2_nil _))
          as (p' & cs' & w' & ok & o1 & o2 & E1 & E2 & Ho).
        rewrite E1, E2. do 7 eexists. split; [reflexivity|]. split; [reflexivity|exact Ho].
      + do 7 eexists. split; [reflexivity|]. split; [reflexivity|constructor].
  Qed.

  Lemma backend_send_sim b b1 b2 p :
    fits_datagram b1 = fits_datagram b2 -> pay_rel b1 b2 ->
    exists p' ok o1 o2,
      backend_send b b1 p = (p', o1, ok) /\ backend_send b b2 p = (p', o2, ok) /\ outs_rel o1 o2.
  Proof.
    intros Hf Hb. unfold backend_send. rewrite Hf.
    assert (T : forall a, outs_rel
       (match last_index_byte ":"%char a with
        | Some pos => [(DUdp (firstn pos a) (atoi_val (skipn (S pos) a)), b1)] | None => [] end)
       (match last_index_byte ":"%char a with
        | Some pos => [(DUdp (firstn pos a) (atoi_val (skipn (S pos) a)), b2)] | None => [] end)).
    { intros a. destruct (last_index_byte ":"%char a); constructor; [apply out_rel_same; exact Hb|constructor]. }
    assert (Same : forall (p' : pstate) (ok : bool) o1 o2, outs_rel o1 o2 ->
              exists p'' ok' o1' o2', (p', o1, ok) = (p'', o1', ok') /\ (p', o2, ok) = (p'', o2', ok') /\ outs_rel o1' o2').
    { intros p' ok o1 o2 H. do 4 eexists. split; [reflexivity|]. split; [reflexivity|exact H]. }
    destruct b as [a g|].
    - destruct (_ && _)%bool; apply Same; [apply T|constructor].
    - destruct (rr_dispatch (ps_rr p)) as [r' [a|]]; [|apply Same; constructor].
      destruct (fits_datagram b2); apply Same; [apply T|constructor].
  Qed.

  Lemma pay_written w1 w2 : R w1 w2 -> pay_rel (write_message w1) (write_message w2).
  Proof. intros H. right. exists w1, w2. auto. Qed.

  Lemma send_message_sim e host port tr m1 m2 x1 x2 : R m1 m2 -> ctx_rel x1 x2 ->
    R (fst (mtry s_client_transaction m1)) (fst (mtry s_client_transaction m2)) /\
    (fits_datagram (write_message (fst (mtry s_client_transaction m1))) =
     fits_datagram (write_message (fst (mtry s_client_transaction m2))) ->
     ctx_rel (fst (send_message e host port tr m1 x1)) (fst (send_message e host port tr m2 x2))).
  Proof.
    intros H (Hl & Hp & Hc & Hw & Ho). unfold send_message.
    destruct (msim_run _ (msim_mtry _ msim_s_client_transaction) m1 m2 H) as (a & b & tid & -> & -> & HR).
    cbn [fst]. split; [exact HR|]. intros Hf. rewrite Hl, Hp, Hc, Hw, (mread_is_final _ _ HR).
    destruct (get_transport _ _ _ _ _ (x_p x2)) as [p1 [key| |]]; try (apply ctx_rel_mk; exact Ho).
    match goal with |- context [alookup key (ps_table ?P)] =>
      match P with p1 => fail 1 | _ => set (p2 := P) end end.
    destruct (alookup key (ps_table p2)) as [f|]; [|apply ctx_rel_mk; exact Ho].
    match goal with |- context [failover_send ?li ?lo ?rs f _ ?p ?cs ?w] =>
      destruct (failover_send_sim li lo rs f _ _ p cs w Hf (pay_written _ _ HR)) as (p' & cs' & w' & ok & f' & o1 & o2 & E1 & E2 & Ho') end.
    rewrite E1, E2. apply ctx_rel_mk. apply Forall2_app; assumption.
  Qed.

  Lemma send_to_backend_sim e m1 m2 x1 x2 : R m1 m2 -> ctx_rel x1 x2 ->
    let w1 := option_map (fun t => fst (fst t)) (stb_prep e m1 x1) in
    let w2 := option_map (fun t => fst (fst t)) (stb_prep e m2 x2) in
    opt_rel R w1 w2 /\
    (fits_opt w1 = fits_opt w2 -> ctx_rel (fst (send_to_backend e m1 x1)) (fst (send_to_backend e m2 x2))).
  Proof.
    intros H Hx. pose proof Hx as (Hl & Hp & Hc & Hw & Ho). unfold stb_prep, send_to_backend. rewrite Hp.
    destruct (negb (ps_has_rr (x_p x2))); [split; [exact I|intros _; exact Hx]|].
    destruct (first_transport (e_lc e)) as [t0|]; [|split; [exact I|intros _; exact Hx]].
    destruct (msim_run _ (msim_find_backend_by_dialog e (x_p x2)) m1 m2 H) as (a & b & r & -> & -> & HR).
    destruct (match r with Ok v => v | _ => (x_p x2, None) end) as [p1 ob]. cbn [option_map fst opt_rel fits_opt].
    apply (mcong_px_add_via e t0), (mcong_px_add_record_route (pa_must_rr (wire_proxy (e_lc e))) t0) in HR.
    split; [exact HR|]. intros Hf.
    destruct (backend_send_sim (match ob with Some b0 => b0 | None => BRR end) _ _ p1 Hf (pay_written _ _ HR))
      as (p' & ok & o1 & o2 & E1 & E2 & Ho').
    rewrite E1, E2, Hl, Hc, Hw. destruct ok; [|apply ctx_rel_mk; exact Ho].
    destruct (msim_run _ (msim_mtry _ msim_s_client_transaction) _ _ HR) as (m3a & m3b & tid & -> & -> & HR3).
    rewrite (mread_get_expires 0%Z _ _ HR3). apply ctx_rel_mk. apply Forall2_app; assumption.
  Qed.

  Inductive plan_rel : plan -> plan -> Prop :=
  | PRSend h p t m1 m2 x1 x2 : R m1 m2 -> ctx_rel x1 x2 -> plan_rel (PSend h p t m1 x1) (PSend h p t m2 x2)
  | PRBackend m1 m2 x1 x2 : R m1 m2 -> ctx_rel x1 x2 -> plan_rel (PBackend m1 x1) (PBackend m2 x2)
  | PRNone m1 m2 x1 x2 : R m1 m2 -> ctx_rel x1 x2 -> plan_rel (PNone m1 x1) (PNone m2 x2).

  Lemma run_plan_sim e pl1 pl2 : plan_rel pl1 pl2 ->
    opt_rel R (plan_written e pl1) (plan_written e pl2) /\
    (fits_opt (plan_written e pl1) = fits_opt (plan_written e pl2) ->
     ctx_rel (fst (run_plan e pl1)) (fst (run_plan e pl2))).
  Proof.
    intros [h p t m1 m2 x1 x2 H Hx|m1 m2 x1 x2 H Hx|m1 m2 x1 x2 H Hx]; cbn [plan_written run_plan fits_opt opt_rel].
    - apply send_message_sim; assumption.
    - apply send_to_backend_sim; assumption.
    - split; [exact I|]. intros _. exact Hx.
  Qed.

  Lemma hm_plan_sim e from m1 m2 x1 x2 : R m1 m2 -> ctx_rel x1 x2 ->
    plan_rel (hm_plan e from m1 x1) (hm_plan e from m2 x2).
  Proof.
    intros H Hx. pose proof Hx as (Hl & Hp & Hc & Hw & Ho). unfold hm_plan. rewrite (mread_is_request _ _ H).
    destruct (is_request m2).
    - destruct (msim_run _ (msim_next_request_hop (c_keep_next_hop (e_cfg e)) (route_table_of (e_cfg e))) m1 m2 H)
        as (m1' & m2' & r & -> & -> & HR).
      destruct r as [[[host port] tr]| |].
      + constructor; [|exact Hx]. rewrite Hl. destruct (alookup host (x_learned x2)) as [t|]; [|exact HR].
        apply mcong_px_add_record_route, mcong_px_add_via. exact HR.
      + rewrite (mread_is_my _ from _ _ HR). destruct (is_my_message _ from m2'); constructor; assumption.
      + rewrite (mread_is_my _ from _ _ HR). destruct (is_my_message _ from m2'); constructor; assumption.
    - destruct (msim_run _ (msim_mtry _ H_pop_via) m1 m2 H) as (m1a & m1b & r1 & -> & -> & HR1).
      destruct (msim_run _ (msim_mtry _ msim_next_response_hop) m1a m1b HR1) as (m2a & m2b & hop & -> & -> & HR2).
      destruct (msim_run _ (msim_mtry _ msim_s_get_method) m2a m2b HR2) as (m3a & m3b & ometh & -> & -> & HR3).
      rewrite Hl, Hp, Hc, Hw.
      destruct hop as [[[[host port] tr]|]| |]; try (constructor; [exact HR3|exact (ctx_rel_mk _ _ _ _ _ _ Ho)]).
      (* unless a SUBSCRIBE response from a member pins its dialog, m3 is sent on the unchanged pstate *)
      pose proof (PRSend host port tr m3a m3b _ _ HR3 (ctx_rel_mk (x_learned x2) (x_p x2) (x_conns x2) (x_world x2) _ _ Ho)) as Dflt.
      destruct ometh as [[meth|]| |]; try exact Dflt.
      destruct (beq meth (s2b "SUBSCRIBE")); [|exact Dflt].
      destruct (alookup _ (ps_backends (x_p x2))) as [g|]; [|exact Dflt].
      destruct (msim_run _ (msim_mtry _ msim_s_get_dialog) m3a m3b HR3) as (m4a & m4b & od & -> & -> & HR4).
      rewrite (mread_get_expires 0%Z _ _ HR4).
      destruct od as [[d|]| |]; constructor; try exact HR4; exact (ctx_rel_mk _ _ _ _ _ _ Ho).
  Qed.

  Lemma pm_learn_sim peer from p l : msim (fun m => pm_learn peer from m p l).
  Proof.
    intros m1 m2 H. unfold pm_learn. rewrite (mread_is_request _ _ H).
    destruct (_ && _)%bool; [|split; [exact H|reflexivity]].
    destruct (msim_run _ H_all_vias m1 m2 H) as (ma & mb & vs & -> & -> & HR). split; [exact HR|reflexivity].
  Qed.
  Lemma pm_stamp_sim peer pp rs : mcong (pm_stamp peer pp rs).
  Proof.
    intros m1 m2 H. unfold pm_stamp. rewrite (mread_is_request _ _ H).
    destruct (_ && _)%bool; [apply H_set_received; exact H|exact H].
  Qed.
  Lemma pm_conn_sim e tcp p : msim (fun m => pm_conn e tcp m p).
  Proof.
    intros m1 m2 H. rewrite !pm_conn_stage. unfold stage_conn. destruct tcp as [c|]; [|split; [exact H|reflexivity]].
    rewrite (mread_is_request _ _ H). destruct (is_request m2); [|split; [exact H|reflexivity]].
    destruct (msim_run _ (msim_mtry _ msim_next_response_hop) m1 m2 H) as (m' & mb' & hop & -> & -> & HR3).
    destruct hop as [[[[h0 p0] t0]|]| |]; try (split; [exact HR3|reflexivity]).
    destruct (unbracket e h0); try (split; [exact HR3|reflexivity]).
    destruct (msim_run _ (msim_mtry _ msim_s_client_transaction) m' mb' HR3) as (m'' & mb'' & tid & -> & -> & HR4).
    split; [exact HR4|reflexivity].
  Qed.
  Lemma pm_dialog_sim e peer pp from p : msim (fun m => pm_dialog e peer pp from m p).
  Proof.
    intros m1 m2 H. unfold pm_dialog. cbv zeta.
    destruct (msim_mtry _ (msim_try_remove_top_route (e_cfg e) from) m1 m2 H) as [HR4 _].
    set (m4a := fst (mtry (try_remove_top_route (e_cfg e) from) m1)) in *.
    set (m4b := fst (mtry (try_remove_top_route (e_cfg e) from) m2)) in *. clearbody m4a m4b.
    rewrite (mread_is_response _ _ HR4). destruct (is_response m4b); [|split; [exact HR4|reflexivity]].
    destruct (msim_run _ (msim_handle_dialog e peer pp p) m4a m4b HR4) as (m5a & m5b & r & -> & -> & HR5).
    split; [exact HR5|reflexivity].
  Qed.

  Definition prefix_rel (r1 r2 : res (message * ctx)) : Prop :=
    match r1, r2 with
    | Ok (a, x), Ok (b, y) => R a b /\ ctx_rel x y
    | Err, Err => True
    | Panic, Panic => True
    | _, _ => False
    end.

  Lemma pm_prefix_sim e peer pp from rs tcp m1 m2 x1 x2 : R m1 m2 -> ctx_rel x1 x2 ->
    prefix_rel (pm_prefix e peer pp from rs tcp m1 x1) (pm_prefix e peer pp from rs tcp m2 x2).
  Proof.
    intros H (Hl & Hp & Hc & Hw & Ho). unfold pm_prefix. rewrite Hl, Hp, Hc, Hw.
    destruct (msim_run _ (pm_learn_sim peer from (x_p x2) (x_learned x2)) m1 m2 H) as (ma & mb & l & -> & -> & HR1).
    destruct (msim_run _ (pm_conn_sim e tcp (x_p x2)) _ _ (pm_stamp_sim peer pp rs ma mb HR1)) as (m3a & m3b & rp & -> & -> & HR3).
    destruct rp as [p1| |]; cbn [prefix_rel]; try exact I.
    destruct (msim_run _ (pm_dialog_sim e peer pp from p1) m3a m3b HR3) as (m5a & m5b & p2 & -> & -> & HR5).
    split; [exact HR5|]. repeat split; try reflexivity. exact Ho.
  Qed.

  (* the whole of process_message: the serialised messages are related, and if they fall on the
     same side of the datagram limit, so is everything else *)
  Theorem process_message_sim e peer pp from rs tcp m1 m2 x1 x2 : R m1 m2 -> ctx_rel x1 x2 ->
    opt_rel R (pm_written e peer pp from rs tcp m1 x1) (pm_written e peer pp from rs tcp m2 x2) /\
    (fits_opt (pm_written e peer pp from rs tcp m1 x1) = fits_opt (pm_written e peer pp from rs tcp m2 x2) ->
     res_ctx_rel (process_message e peer pp from rs tcp m1 x1) (process_message e peer pp from rs tcp m2 x2)).
  Proof.
    intros H Hx. rewrite !process_message_prefix. unfold pm_written.
    pose proof (pm_prefix_sim e peer pp from rs tcp m1 m2 x1 x2 H Hx) as P.
    destruct (pm_prefix e peer pp from rs tcp m1 x1) as [[m5a xa]| |];
      destruct (pm_prefix e peer pp from rs tcp m2 x2) as [[m5b xb]| |]; cbn [prefix_rel] in P; try contradiction;
      cbn [rbind res_ctx_rel opt_rel]; try (split; [exact I|intros _; exact I]).
    destruct P as [HR Hxx]. rewrite !handle_message_plan.
    apply run_plan_sim. apply hm_plan_sim; assumption.
  Qed.
End Sim.

(* The two instances relate messages with the same start line and body through a relation [Rh] on
   their header lists.  What the accesses that are not specific to Via / Route need of [Rh]. *)
Section MRel.
  Variable Rh : list header -> list header -> Prop.
  Definition mrel (m1 m2 : message) : Prop :=
    m_start m1 = m_start m2 /\ m_body m1 = m_body m2 /\ Rh (m_headers m1) (m_headers m2).

  Lemma mrel_start : mread mrel m_start.
  Proof. intros m1 m2 (H & _). exact H. Qed.
  Lemma mrel_edit g : (forall a b, Rh a b -> Rh (g a) (g b)) -> mcong mrel (fun m => with_headers m (g (m_headers m))).
  Proof. intros Hg m1 m2 (H1 & H2 & H3). split; [exact H1|]. split; [exact H2|]. apply Hg. exact H3. Qed.
  Lemma mrel_all_vias :
    (forall a b, Rh a b -> Rh (fst (decode_all_vias a)) (fst (decode_all_vias b)) /\
                           snd (decode_all_vias a) = snd (decode_all_vias b)) ->
    msim mrel s_all_via_params.
  Proof.
    intros Hd m1 m2 (H1 & H2 & H3). unfold s_all_via_params. destruct (Hd _ _ H3) as [D1 D2].
    destruct (decode_all_vias (m_headers m1)) as [hs1 vs1]. destruct (decode_all_vias (m_headers m2)) as [hs2 vs2].
    cbn [fst snd] in *. subst vs2. split; [|reflexivity]. split; [exact H1|]. split; [exact H2|exact D1].
  Qed.

  (* a header whose first occurrence has the same value in related lists and can be rewritten in both *)
  Section Name.
    Variable name : bytes.
    Hypothesis Hget : forall a b, Rh a b -> hval_of name a = hval_of name b.
    Hypothesis Hupd : forall f a b, Rh a b -> Rh (update_header name f a) (update_header name f b).

    Lemma mrel_typed_get {A} (proj : hval -> option A) parse inj : msim mrel (typed_get name proj parse inj).
    Proof.
      intros m1 m2 H. pose proof H as (H1 & H2 & H3). unfold typed_get. specialize (Hget _ _ H3). unfold hval_of in Hget.
      destruct (get_header name (m_headers m1)) as [h1|]; destruct (get_header name (m_headers m2)) as [h2|];
        try discriminate; [|split; [exact H|reflexivity]].
      injection Hget as Hv. rewrite Hv. destruct (proj (h_val h2)); [split; [exact H|reflexivity]|].
      destruct (h_val h2); try (split; [exact H|reflexivity]).
      destruct (parse s); cbn [fst snd]; (split; [|reflexivity]); try exact H.
      exact (mrel_edit _ (Hupd _) m1 m2 H).
    Qed.
    Lemma mrel_get_raw : mread mrel (get_raw name).
    Proof.
      intros m1 m2 (_ & _ & H3). unfold get_raw. specialize (Hget _ _ H3). unfold hval_of in Hget.
      destruct (get_header name (m_headers m1)); destruct (get_header name (m_headers m2)); try discriminate; [|reflexivity].
      injection Hget as ->. reflexivity.
    Qed.
    Lemma mrel_has_header : mread mrel (has_header name).
    Proof.
      intros m1 m2 (_ & _ & H3). unfold has_header. specialize (Hget _ _ H3). unfold hval_of in Hget.
      destruct (get_header name (m_headers m1)); destruct (get_header name (m_headers m2)); try discriminate; reflexivity.
    Qed.
  End Name.
End MRel.

(* [kind] abstracts the two list headers the proxy decodes, and what it does with them: read the
   list, pop the first entry (PopVia / PopRoute), rewrite the first entry (SetReceived) *)
Record kind (A : Type) : Type :=
  { k_name : bytes; k_proj : hval -> option (list A); k_parse : bytes -> res (list A); k_inj : list A -> hval }.
Arguments k_name {A} _.
Arguments k_proj {A} _ _.
Arguments k_parse {A} _ _.
Arguments k_inj {A} _ _.
Definition via_kind : kind via_param :=
  {| k_name := s2b "Via"; k_proj := fun v => match v with HVia l => Some l | _ => None end;
     k_parse := parse_via; k_inj := HVia |}.
Definition route_kind : kind route_param :=
  {| k_name := s2b "Route"; k_proj := fun v => match v with HRoute l => Some l | _ => None end;
     k_parse := parse_route; k_inj := HRoute |}.
Definition kget {A} (K : kind A) : M (list A) := typed_get (k_name K) (k_proj K) (k_parse K) (k_inj K).
Definition kread {A T} (K : kind A) (rd : list A -> res T) : M T := mbind (kget K) (fun l => mlift (rd l)).
Definition kpop {A} (K : kind A) : M unit :=
  mbind (kget K) (fun l =>
    match l with
    | _ :: (_ :: _) as rest => mmodify (set_val (k_name K) (k_inj K rest))
    | _ => mmodify (fun m => with_headers m (remove_header (k_name K) (m_headers m)))
    end).
Definition kmap {A} (K : kind A) (g0 : A -> A) : M unit :=
  mbind (kget K) (fun l =>
    match l with
    | v :: rest => mmodify (set_val (k_name K) (k_inj K (g0 v :: rest)))
    | [] => merr
    end).

(* every typed getter returns the same value and leaves respelled messages *)
Lemma typed_get_rel {A} name (proj : hval -> option A) parse inj : msim respelled (typed_get name proj parse inj).
Proof. exact (mrel_typed_get hs_rel name (hs_rel_hval name) (hs_rel_update name) proj parse inj). Qed.
Lemma respelled_kpop {A} (K : kind A) : msim respelled (kpop K).
Proof.
  apply msim_mbind; [apply typed_get_rel|]. intros [|a [|b r]]; apply msim_mmodify;
    first [exact (mrel_edit hs_rel _ (hs_rel_remove _))|exact (mrel_edit hs_rel _ (hs_rel_update _ _))].
Qed.

(* what "related outputs" means for two respelled messages: same start line, same body, the
   same header values in the same order under names with the same full form, and exactly one
   Content-Length in each *)
Theorem C17_written_respelled : forall w1 w2, respelled w1 w2 ->
  write_message w1 = start_line_print (m_start w1) ++ crlf ++ flat_map header_print (out_headers w1) ++ crlf ++ m_body w1 /\
  write_message w2 = start_line_print (m_start w1) ++ crlf ++ flat_map header_print (out_headers w2) ++ crlf ++ m_body w1 /\
  hs_rel (out_headers w1) (out_headers w2) /\
  List.length (filter (fun h => same_header (h_name h) (s2b "Content-Length")) (out_headers w1)) = 1 /\
  List.length (filter (fun h => same_header (h_name h) (s2b "Content-Length")) (out_headers w2)) = 1.
Proof.
  intros w1 w2 H. pose proof H as (H1 & H2 & H3).
  split; [apply write_message_out_headers|]. split; [rewrite H1, H2; apply write_message_out_headers|].
  split; [apply out_headers_rel; exact H|]. split; apply C17_one_content_length.
Qed.

(* the whole per-message pipeline, for every fix set, environment, state and message:
   the two serialised messages are respellings of each other; if they fall on the same side of
   the UDP datagram limit (the proxy's behaviour depends on the serialised LENGTH, which a
   respelling changes), then the learned table, the pins / transport table / rotation (x_p),
   the connections and the world are EQUAL, and the outputs go pairwise to the same destinations
   with payloads that are serialisations of respelled messages *)
Theorem C17_respell_invariance : forall e peer pp from rs tcp m1 m2 x1 x2,
  respelled m1 m2 -> ctx_rel respelled x1 x2 ->
  opt_rel respelled (pm_written e peer pp from rs tcp m1 x1) (pm_written e peer pp from rs tcp m2 x2) /\
  (fits_opt (pm_written e peer pp from rs tcp m1 x1) = fits_opt (pm_written e peer pp from rs tcp m2 x2) ->
   res_ctx_rel respelled (process_message e peer pp from rs tcp m1 x1) (process_message e peer pp from rs tcp m2 x2)).
Proof.
  apply (process_message_sim respelled).
  - exact (mrel_start hs_rel).
  - apply typed_get_rel.
  - apply typed_get_rel.
  - apply typed_get_rel.
  - exact (mrel_get_raw hs_rel _ (hs_rel_hval _)).
  - exact (mrel_get_raw hs_rel _ (hs_rel_hval _)).
  - exact (mrel_get_raw hs_rel _ (hs_rel_hval _)).
  - apply msim_mbind; [apply typed_get_rel|]. intros [|v r]; [apply msim_merr|apply msim_mret].
  - exact (respelled_kpop via_kind).
  - intros peer0 port. apply msim_mbind; [apply typed_get_rel|]. intros [|v r]; [apply msim_merr|].
    apply msim_mmodify. exact (mrel_edit hs_rel _ (hs_rel_update _ _)).
  - exact (mrel_all_vias hs_rel hs_rel_decode).
  - apply msim_mbind; [apply typed_get_rel|]. intros l. apply msim_mret.
  - exact (respelled_kpop route_kind).
  - intros v.
    refine (mrel_edit hs_rel _ (hs_rel_insert (fun hs => match find_header_pos (s2b "Via") hs with Some i => i | None => O end) _ _)).
    intros hs. rewrite (find_header_pos_respell canon spelling_canon). reflexivity.
  - intros r. exact (mrel_edit hs_rel _ (hs_rel_insert find_record_route_pos _ (find_record_route_pos_respell canon spelling_canon))).
  - exact (mrel_has_header hs_rel _ (hs_rel_hval _)).
Qed.

(* the same for a respelling FUNCTION and one state *)
Corollary C17_respell_invariance_fun : forall s e peer pp from rs tcp m x, spelling s ->
  opt_rel respelled (pm_written e peer pp from rs tcp (respell s m) x) (pm_written e peer pp from rs tcp m x) /\
  (fits_opt (pm_written e peer pp from rs tcp (respell s m) x) = fits_opt (pm_written e peer pp from rs tcp m x) ->
   res_ctx_rel respelled (process_message e peer pp from rs tcp (respell s m) x) (process_message e peer pp from rs tcp m x)).
Proof.
  intros s e peer pp from rs tcp m x Hs. apply C17_respell_invariance; [apply respell_respelled; exact Hs|apply ctx_rel_refl].
Qed.

(* A list-valued routing header (Via, Route) may be cut into header lines in any way. *)
Definition kgood {A} (K : kind A) : Prop := forall l, k_proj K (k_inj K l) = Some l.
Lemma via_kind_good : kgood via_kind. Proof. intros l; reflexivity. Qed.
Lemma route_kind_good : kgood route_kind. Proof. intros l; reflexivity. Qed.

(* the entries a header line contributes, if it is a decodable line of that kind *)
Definition line {A} (K : kind A) (h : header) : option (list A) :=
  if same_header (h_name h) (k_name K) then
    match k_proj K (h_val h) with
    | Some l => Some l
    | None => match h_val h with
              | HRaw s => match k_parse K s with Ok l => Some l | _ => None end
              | _ => None
              end
    end
  else None.
(* adjacent decodable non-empty lines of one kind, and their flattened list *)
Inductive block {A} (K : kind A) : list header -> list A -> Prop :=
| blk_nil : block K [] []
| blk_cons h b l ls : line K h = Some l -> l <> [] -> block K b ls -> block K (h :: b) (l ++ ls).

Lemma block_app {A} (K : kind A) b1 l1 b2 l2 : block K b1 l1 -> block K b2 l2 -> block K (b1 ++ b2) (l1 ++ l2).
Proof.
  induction 1 as [|h b l ls Hl Hn Hb IH]; intros H2; [exact H2|].
  cbn [app]. rewrite <- app_assoc. constructor; auto.
Qed.
Lemma block_nil_inv {A} (K : kind A) b : block K b [] -> b = [].
Proof.
  inversion 1 as [|h b' l ls Hl Hn Hb E1 E2]; [reflexivity|].
  destruct l; [congruence|discriminate].
Qed.
(* a block with a first entry starts with the line that holds it *)
Lemma block_cons_inv {A} (K : kind A) b v l : block K b (v :: l) ->
  exists h b' l1 t, b = h :: b' /\ line K h = Some (v :: l1) /\ block K b' t /\ l = l1 ++ t.
Proof.
  inversion 1 as [|h b' l0 t Hl Hn Hb E1 E2]. destruct l0 as [|v' l1]; [congruence|]. cbn [app] in E2. injection E2 as -> <-.
  exists h, b', l1, t. auto.
Qed.

Definition nomatch (name : bytes) (b : list header) : Prop := get_header name b = None.
Lemma line_name {A} (K : kind A) h l : line K h = Some l -> same_header (h_name h) (k_name K) = true.
Proof. unfold line. destruct (same_header (h_name h) (k_name K)); [reflexivity|discriminate]. Qed.
Lemma block_nomatch {A} (K : kind A) b l name : same_header (k_name K) name = false -> block K b l -> nomatch name b.
Proof.
  intros Hn. induction 1 as [|h b l ls Hl Hne Hb IH]; [reflexivity|]. unfold nomatch. cbn [get_header].
  rewrite (same_header_through _ _ name (line_name K h l Hl)), Hn. exact IH.
Qed.

Lemma nomatch_app name a b : nomatch name a -> nomatch name b -> nomatch name (a ++ b).
Proof. intros Ha Hb. unfold nomatch. rewrite (get_header_app_none _ _ _ Ha). exact Hb. Qed.

(* positions: first header satisfying a predicate *)
Fixpoint qpos (q : header -> bool) (hs : list header) : option nat :=
  match hs with
  | [] => None
  | h :: r => if q h then Some O else option_map S (qpos q r)
  end.
Lemma find_from_shift name hs : forall i,
  find_header_pos_from name hs i = option_map (fun k => i + k) (find_header_pos_from name hs 0).
Proof.
  induction hs as [|h r IH]; intros i; [reflexivity|]. cbn [find_header_pos_from].
  destruct (same_header (h_name h) name); [cbn; rewrite Nat.add_0_r; reflexivity|].
  rewrite (IH (S i)), (IH 1). destruct (find_header_pos_from name r 0); cbn; [f_equal; lia|reflexivity].
Qed.
Lemma find_header_pos_qpos name hs : find_header_pos name hs = qpos (fun h => same_header (h_name h) name) hs.
Proof.
  unfold find_header_pos. induction hs as [|h r IH]; [reflexivity|]. cbn [find_header_pos_from qpos].
  destruct (same_header (h_name h) name); [reflexivity|]. rewrite find_from_shift, IH.
  destruct (qpos _ r); reflexivity.
Qed.
Lemma qpos_or q1 q2 hs :
  qpos (fun h => q1 h || q2 h)%bool hs =
  match qpos q1 hs, qpos q2 hs with
  | Some a, Some b => Some (Nat.min a b)
  | Some a, None => Some a
  | None, Some b => Some b
  | None, None => None
  end.
Proof.
  induction hs as [|h r IH]; [reflexivity|]. cbn [qpos].
  destruct (q1 h), (q2 h); cbn [orb].
  - reflexivity.
  - destruct (qpos q2 r); reflexivity.
  - destruct (qpos q1 r); reflexivity.
  - rewrite IH. destruct (qpos q1 r), (qpos q2 r); reflexivity.
Qed.
Lemma qpos_app_none q b r : Forall (fun h => q h = false) b -> qpos q (b ++ r) = option_map (fun k => List.length b + k) (qpos q r).
Proof.
  induction 1 as [|h b Hh Hb IH]; [cbn [app List.length]; destruct (qpos q r); reflexivity|]. cbn [app qpos List.length]. rewrite Hh, IH.
  destruct (qpos q r); reflexivity.
Qed.
Lemma insert_at_app_len {X} (b r : list X) i x : insert_at (List.length b + i) x (b ++ r) = b ++ insert_at i x r.
Proof.
  unfold insert_at. rewrite firstn_app, skipn_app.
  replace (List.length b + i - List.length b) with i by lia.
  rewrite firstn_all2 by lia. rewrite skipn_all2 by lia. rewrite <- app_assoc. reflexivity.
Qed.

Section Lay.
  Context {A B : Type} (K : kind A) (K' : kind B).
  (* two header lists that differ only in how the lists of the two kinds are cut into lines *)
  Inductive lay : list header -> list header -> Prop :=
  | lay_nil : lay [] []
  | lay_plain h r1 r2 : lay r1 r2 -> lay (h :: r1) (h :: r2)
  | lay_own b1 b2 l r1 r2 : block K b1 l -> block K b2 l -> lay r1 r2 -> lay (b1 ++ r1) (b2 ++ r2)
  | lay_other b1 b2 l r1 r2 : block K' b1 l -> block K' b2 l -> lay r1 r2 -> lay (b1 ++ r1) (b2 ++ r2).

  Lemma lay_refl hs : lay hs hs.
  Proof. induction hs; constructor; assumption. Qed.
  Lemma lay_app a1 a2 b1 b2 : lay a1 a2 -> lay b1 b2 -> lay (a1 ++ b1) (a2 ++ b2).
  Proof.
    induction 1 as [|h r1 r2 H IH|c1 c2 l r1 r2 H1 H2 H IH|c1 c2 l r1 r2 H1 H2 H IH]; intros Hb.
    - exact Hb.
    - cbn [app]. constructor. apply IH. exact Hb.
    - rewrite <- !app_assoc. eapply lay_own; eauto.
    - rewrite <- !app_assoc. eapply lay_other; eauto.
  Qed.

  (* what is computed piecewise along the list, and the same on two blocks with the same entries, is
     the same on two layouts *)
  Lemma lay_hom {X} (f : list header -> list X) :
    (forall a b, f (a ++ b) = f a ++ f b) ->
    (forall b1 b2 l, block K b1 l -> block K b2 l -> f b1 = f b2) ->
    (forall b1 b2 l, block K' b1 l -> block K' b2 l -> f b1 = f b2) ->
    forall hs1 hs2, lay hs1 hs2 -> f hs1 = f hs2.
  Proof.
    intros Happ HK HK'. induction 1 as [|h r1 r2 H IH|c1 c2 l r1 r2 H1 H2 H IH|c1 c2 l r1 r2 H1 H2 H IH].
    - reflexivity.
    - change (f ([h] ++ r1) = f ([h] ++ r2)). rewrite !Happ, IH. reflexivity.
    - rewrite !Happ, IH, (HK _ _ _ H1 H2). reflexivity.
    - rewrite !Happ, IH, (HK' _ _ _ H1 H2). reflexivity.
  Qed.

  Hypothesis Hdist : same_header (k_name K') (k_name K) = false.

  Definition matches (h : header) : bool := same_header (h_name h) (k_name K).
  Definition nom (b : list header) : Prop := nomatch (k_name K) b.

  (* the first header of kind K, in both lists *)
  Inductive focus : list header -> list header -> Prop :=
  | f_none hs1 hs2 : get_header (k_name K) hs1 = None -> get_header (k_name K) hs2 = None -> lay hs1 hs2 -> focus hs1 hs2
  | f_plain p1 p2 h r1 r2 : nom p1 -> nom p2 -> lay p1 p2 -> matches h = true -> lay r1 r2 ->
      focus (p1 ++ h :: r1) (p2 ++ h :: r2)
  | f_block p1 p2 h1 h2 v l1 l2 b1 b2 t1 t2 r1 r2 : nom p1 -> nom p2 -> lay p1 p2 ->
      line K h1 = Some (v :: l1) -> line K h2 = Some (v :: l2) -> block K b1 t1 -> block K b2 t2 ->
      l1 ++ t1 = l2 ++ t2 -> lay r1 r2 ->
      focus (p1 ++ h1 :: b1 ++ r1) (p2 ++ h2 :: b2 ++ r2).

  Lemma focus_under b1 b2 hs1 hs2 : nom b1 -> nom b2 -> lay b1 b2 -> focus hs1 hs2 -> focus (b1 ++ hs1) (b2 ++ hs2).
  Proof.
    intros N1 N2 L F.
    destruct F as [hs1 hs2 G1 G2 H
                  |p1 p2 h r1 r2 P1 P2 Lp Hm Lr
                  |p1 p2 h1 h2 v l1 l2 c1 c2 t1 t2 r1 r2 P1 P2 Lp H1 H2 B1 B2 E Lr].
    - apply f_none; [rewrite get_header_app_none; assumption|rewrite get_header_app_none; assumption|apply lay_app; assumption].
    - rewrite !app_assoc. apply f_plain; try assumption; try (apply nomatch_app; assumption). apply lay_app; assumption.
    - rewrite !app_assoc. eapply f_block; eauto; try (apply nomatch_app; assumption). apply lay_app; assumption.
  Qed.

  Lemma lay_focus hs1 hs2 : lay hs1 hs2 -> focus hs1 hs2.
  Proof.
    induction 1 as [|h r1 r2 H IH|c1 c2 l r1 r2 H1 H2 H IH|c1 c2 l r1 r2 H1 H2 H IH].
    - apply f_none; [reflexivity|reflexivity|constructor].
    - destruct (matches h) eqn:Hm.
      + apply (f_plain [] [] h r1 r2); try constructor; assumption.
      + assert (N : nom [h]) by (unfold nom, nomatch; cbn [get_header]; unfold matches in Hm; rewrite Hm; reflexivity).
        apply (focus_under [h] [h] _ _ N N); [apply lay_refl|exact IH].
    - destruct l as [|v l].
      + apply block_nil_inv in H1. apply block_nil_inv in H2. subst c1 c2. exact IH.
      + destruct (block_cons_inv K _ _ _ H1) as (h1 & b1 & l1 & t1 & -> & L1 & B1 & E1).
        destruct (block_cons_inv K _ _ _ H2) as (h2 & b2 & l2 & t2 & -> & L2 & B2 & E2).
        apply (f_block [] [] h1 h2 v l1 l2 b1 b2 t1 t2 r1 r2); try constructor; try assumption. congruence.
    - apply focus_under; try (eapply block_nomatch; eassumption).
      + assert (L : lay (c1 ++ []) (c2 ++ [])) by (eapply lay_other; [eassumption|eassumption|constructor]).
        rewrite !app_nil_r in L. exact L.
      + exact IH.
  Qed.
End Lay.

Section Ops.
  Context {A B : Type} (K : kind A) (K' : kind B).
  Hypothesis Hdist : same_header (k_name K') (k_name K) = false.
  Hypothesis Hgood : kgood K.

  Definition relK (m1 m2 : message) : Prop :=
    m_start m1 = m_start m2 /\ m_body m1 = m_body m2 /\ lay K K' (m_headers m1) (m_headers m2).

  (* what the lazy getter does to the header it finds *)
  Definition act_get (h : header) : header * res (list A) :=
    match k_proj K (h_val h) with
    | Some a => (h, Ok a)
    | None => match h_val h with
              | HRaw s => match k_parse K s with
                          | Ok a => ({| h_name := h_name h; h_val := k_inj K a |}, Ok a)
                          | Err => (h, Err)
                          | Panic => (h, Panic)
                          end
              | _ => (h, Err)
              end
    end.
  Lemma act_get_name h : h_name (fst (act_get h)) = h_name h.
  Proof.
    unfold act_get. destruct (k_proj K (h_val h)); [reflexivity|]. destruct (h_val h); try reflexivity.
    destruct (k_parse K s); reflexivity.
  Qed.
  Lemma line_of_proj h l : same_header (h_name h) (k_name K) = true -> k_proj K (h_val h) = Some l -> line K h = Some l.
  Proof. intros Hm E. unfold line. rewrite Hm, E. reflexivity. Qed.
  (* a decodable line: the getter returns its entries and leaves a decoded line with the same entries;
     under the same name, any decoded value is a line *)
  Lemma act_get_line h l : line K h = Some l -> snd (act_get h) = Ok l /\ line K (fst (act_get h)) = Some l.
  Proof.
    intros Hl. pose proof (line_name K _ _ Hl) as Hm. unfold line in Hl. rewrite Hm in Hl. unfold act_get.
    destruct (k_proj K (h_val h)) as [a|] eqn:E; [injection Hl as ->; split; [reflexivity|exact (line_of_proj _ _ Hm E)]|].
    destruct (h_val h); try discriminate. destruct (k_parse K s); try discriminate.
    injection Hl as ->. split; [reflexivity|]. apply line_of_proj; [exact Hm|apply Hgood].
  Qed.
  Lemma block_one h l : line K h = Some l -> l <> [] -> block K [h] l.
  Proof. intros Hl Hn. pose proof (blk_cons K h [] l [] Hl Hn (blk_nil K)) as Bk. rewrite app_nil_r in Bk. exact Bk. Qed.

  (* the first header of kind K is [h], after the prefix [p] *)
  Definition located (m : message) (p : list header) (h : header) (r : list header) : Prop :=
    m_headers m = p ++ h :: r /\ nomatch (k_name K) p /\ same_header (h_name h) (k_name K) = true.
  Lemma at_keep m p h r : located m p h r -> with_headers m (p ++ [h] ++ r) = m.
  Proof. intros (E & _). cbn [app]. rewrite <- E. apply C07.with_headers_same. Qed.
  Lemma at_set m p h r v : located m p h r ->
    set_val (k_name K) v m = with_headers m (p ++ [{| h_name := h_name h; h_val := v |}] ++ r).
  Proof. intros (E & N & Hm). unfold set_val. rewrite E, (update_header_at _ _ _ _ _ N Hm). reflexivity. Qed.
  Lemma at_remove m p h r : located m p h r ->
    with_headers m (remove_header (k_name K) (m_headers m)) = with_headers m (p ++ [] ++ r).
  Proof. intros (E & N & Hm). rewrite E, (remove_header_at _ _ _ _ N Hm). reflexivity. Qed.

  Lemma kget_none m : get_header (k_name K) (m_headers m) = None -> kget K m = (m, Err).
  Proof. intros E. unfold kget, typed_get. rewrite E. reflexivity. Qed.
  Lemma kget_at m p h r : located m p h r ->
    kget K m = (with_headers m (p ++ [fst (act_get h)] ++ r), snd (act_get h)).
  Proof.
    intros L. pose proof L as (E & N & Hm). unfold kget, typed_get, act_get. rewrite E, (get_header_at _ _ _ _ N Hm).
    destruct (k_proj K (h_val h)) as [a|]; cbn [fst snd]; [rewrite (at_keep _ _ _ _ L); reflexivity|].
    destruct (h_val h) eqn:Ev; cbn [fst snd]; try (rewrite (at_keep _ _ _ _ L); reflexivity).
    destruct (k_parse K s); cbn [fst snd]; try (rewrite (at_keep _ _ _ _ L); reflexivity).
    rewrite (at_set _ _ _ _ _ L). reflexivity.
  Qed.
  Lemma located_decoded m p h r : located m p h r ->
    located (with_headers m (p ++ [fst (act_get h)] ++ r)) p (fst (act_get h)) r.
  Proof. intros (E & N & Hm). split; [reflexivity|]. split; [exact N|]. rewrite act_get_name. exact Hm. Qed.
  Lemma relK_with m1 m2 a b : relK m1 m2 -> lay K K' a b -> relK (with_headers m1 a) (with_headers m2 b).
  Proof. intros (Hs & Hb & _) L. split; [exact Hs|]. split; [exact Hb|exact L]. Qed.

  (* A computation that decodes the first header of kind K and then keeps, rewrites or removes that
     header ([g l h]: what stands in its place, and the result).  If on a line with entries v :: l
     it leaves a block with entries [pre v ++ l] and returns [out v], it cannot tell two layouts apart. *)
  Theorem kbind_sim {T} (G : list A -> M T) (g : list A -> header -> list header * res T) (pre : A -> list A) (out : A -> T) :
    (forall l m p h r, located m p h r -> G l m = (with_headers m (p ++ fst (g l h) ++ r), snd (g l h))) ->
    (forall h v l, line K h = Some (v :: l) ->
       block K (fst (g (v :: l) h)) (pre v ++ l) /\ snd (g (v :: l) h) = Ok (out v)) ->
    msim relK (mbind (kget K) G).
  Proof.
    intros HG Hb m1 m2 H. pose proof H as (_ & _ & Hl). apply (lay_focus K K' Hdist) in Hl. unfold mbind.
    remember (m_headers m1) as hs1 eqn:E1. remember (m_headers m2) as hs2 eqn:E2.
    destruct Hl as [hs1 hs2 G1 G2 Hl
                   |p1 p2 h r1 r2 P1 P2 Lp Hm Lr
                   |p1 p2 h1 h2 v l1 l2 c1 c2 t1 t2 r1 r2 P1 P2 Lp H1 H2 B1 B2 E Lr].
    - rewrite (kget_none m1), (kget_none m2) by congruence. split; [exact H|reflexivity].
    - assert (L1 : located m1 p1 h r1) by (repeat split; auto). assert (L2 : located m2 p2 h r2) by (repeat split; auto).
      rewrite (kget_at _ _ _ _ L1), (kget_at _ _ _ _ L2).
      assert (Rel : forall a, relK (with_headers m1 (p1 ++ a ++ r1)) (with_headers m2 (p2 ++ a ++ r2))).
      { intros a. apply (relK_with _ _ _ _ H). apply lay_app; [exact Lp|]. apply lay_app; [apply lay_refl|exact Lr]. }
      destruct (snd (act_get h)) as [l| |]; [|split; [apply Rel|reflexivity]..].
      rewrite (HG l _ _ _ _ (located_decoded _ _ _ _ L1)), (HG l _ _ _ _ (located_decoded _ _ _ _ L2)).
      split; [apply Rel|reflexivity].
    - assert (L1 : located m1 p1 h1 (c1 ++ r1)) by (repeat split; auto; exact (line_name K _ _ H1)).
      assert (L2 : located m2 p2 h2 (c2 ++ r2)) by (repeat split; auto; exact (line_name K _ _ H2)).
      rewrite (kget_at _ _ _ _ L1), (kget_at _ _ _ _ L2).
      destruct (act_get_line h1 _ H1) as [O1 D1]. destruct (act_get_line h2 _ H2) as [O2 D2]. rewrite O1, O2.
      rewrite (HG _ _ _ _ _ (located_decoded _ _ _ _ L1)), (HG _ _ _ _ _ (located_decoded _ _ _ _ L2)).
      destruct (Hb _ v l1 D1) as [B1' R1]. destruct (Hb _ v l2 D2) as [B2' R2]. rewrite R1, R2.
      split; [|reflexivity]. apply (relK_with _ _ _ _ H). apply lay_app; [exact Lp|]. rewrite !app_assoc.
      pose proof (block_app K _ _ _ _ B1' B1) as C1. pose proof (block_app K _ _ _ _ B2' B2) as C2.
      rewrite <- app_assoc in C1, C2. rewrite <- E in C2.
      exact (lay_own K K' _ _ _ _ _ C1 C2 Lr).
  Qed.

  Lemma line_inj h l l' : line K h = Some l -> l' <> [] -> block K [{| h_name := h_name h; h_val := k_inj K l' |}] l'.
  Proof. intros Hl Hn. apply block_one; [|exact Hn]. apply line_of_proj; [exact (line_name K _ _ Hl)|apply Hgood]. Qed.

  Theorem kread_sim {T} (rd : list A -> res T) (out : A -> T) :
    (forall v l, rd (v :: l) = Ok (out v)) -> msim relK (kread K rd).
  Proof.
    intros Hrd. apply (kbind_sim (fun l => mlift (rd l)) (fun l h => ([h], rd l)) (fun v => [v]) out).
    - intros l m p h r L. unfold mlift. cbn [fst snd]. rewrite (at_keep _ _ _ _ L). reflexivity.
    - intros h v l Hl. cbn [fst snd]. split; [|apply Hrd]. apply block_one; [exact Hl|discriminate].
  Qed.

  Definition pop_g (l : list A) (h : header) : list header * res unit :=
    match l with
    | _ :: (_ :: _) as rest => ([{| h_name := h_name h; h_val := k_inj K rest |}], Ok tt)
    | _ => ([], Ok tt)
    end.
  Theorem kpop_sim : msim relK (kpop K).
  Proof.
    apply (kbind_sim _ pop_g (fun _ => []) (fun _ => tt)).
    - intros l m p h r L. unfold mmodify.
      destruct l as [|a [|b l']]; cbn [pop_g fst snd]; first [rewrite (at_remove _ _ _ _ L)|rewrite (at_set _ _ _ _ _ L)]; reflexivity.
    - intros h v l Hl. destruct l as [|b l']; cbn [pop_g fst snd app]; (split; [|reflexivity]); [constructor|].
      apply (line_inj h _ _ Hl). discriminate.
  Qed.

  Definition map_g (g0 : A -> A) (l : list A) (h : header) : list header * res unit :=
    match l with
    | v :: rest => ([{| h_name := h_name h; h_val := k_inj K (g0 v :: rest) |}], Ok tt)
    | [] => ([h], Err)
    end.
  Theorem kmap_sim g0 : msim relK (kmap K g0).
  Proof.
    apply (kbind_sim _ (map_g g0) (fun v => [g0 v]) (fun _ => tt)).
    - intros l m p h r L. destruct l as [|v rest]; cbn [map_g fst snd].
      + unfold merr. rewrite (at_keep _ _ _ _ L). reflexivity.
      + unfold mmodify. rewrite (at_set _ _ _ _ _ L). reflexivity.
    - intros h v l Hl. cbn [map_g fst snd]. split; [|reflexivity]. apply (line_inj h _ _ Hl). discriminate.
  Qed.

  Section Plain.
    Variable name : bytes.
    Hypothesis Hn : same_header (k_name K) name = false.
    Hypothesis Hn' : same_header (k_name K') name = false.
    Lemma lay_get_plain hs1 hs2 : lay K K' hs1 hs2 -> get_header name hs1 = get_header name hs2.
    Proof.
      induction 1 as [|h r1 r2 H IH|c1 c2 l r1 r2 H1 H2 H IH|c1 c2 l r1 r2 H1 H2 H IH].
      - reflexivity.
      - cbn [get_header]. rewrite IH. reflexivity.
      - rewrite !get_header_app_none by (apply (block_nomatch K _ l name Hn); assumption). exact IH.
      - rewrite !get_header_app_none by (apply (block_nomatch K' _ l name Hn'); assumption). exact IH.
    Qed.
    Lemma lay_update_plain f hs1 hs2 : lay K K' hs1 hs2 -> lay K K' (update_header name f hs1) (update_header name f hs2).
    Proof.
      induction 1 as [|h r1 r2 H IH|c1 c2 l r1 r2 H1 H2 H IH|c1 c2 l r1 r2 H1 H2 H IH].
      - constructor.
      - cbn [update_header]. destruct (same_header (h_name h) name); constructor; assumption.
      - rewrite !update_header_app_none by (apply (block_nomatch K _ l name Hn); assumption). eapply lay_own; eassumption.
      - rewrite !update_header_app_none by (apply (block_nomatch K' _ l name Hn'); assumption). eapply lay_other; eassumption.
    Qed.
    Lemma lay_hval_plain hs1 hs2 : lay K K' hs1 hs2 -> hval_of name hs1 = hval_of name hs2.
    Proof. intros L. unfold hval_of. rewrite (lay_get_plain _ _ L). reflexivity. Qed.
    Lemma relK_typed_get_plain {T} (proj : hval -> option T) parse inj : msim relK (typed_get name proj parse inj).
    Proof. exact (mrel_typed_get (lay K K') name lay_hval_plain lay_update_plain proj parse inj). Qed.
    Lemma relK_get_raw_plain : mread relK (get_raw name).
    Proof. exact (mrel_get_raw (lay K K') name lay_hval_plain). Qed.
    Lemma relK_has_header_plain : mread relK (has_header name).
    Proof. exact (mrel_has_header (lay K K') name lay_hval_plain). Qed.
  End Plain.

  Definition opt_pos_rel (h0 : header) (hs1 hs2 : list header) (o1 o2 : option nat) : Prop :=
    match o1, o2 with
    | Some i1, Some i2 => lay K K' (insert_at i1 h0 hs1) (insert_at i2 h0 hs2)
    | None, None => True
    | _, _ => False
    end.
  (* a position defined by a predicate that is false on the lines of kind K' and takes one value
     [c] on all lines of kind K: for c = true (the position of the first line of kind K) the header
     goes in front of the first K-block in both lists, otherwise no block line is a candidate *)
  Lemma block_all_q {X} (KK : kind X) (q : header -> bool) v b l :
    (forall h, same_header (h_name h) (k_name KK) = true -> q h = v) -> block KK b l -> Forall (fun h => q h = v) b.
  Proof. intros Q. induction 1 as [|h b l0 ls Hl Hne Hb IH]; constructor; [exact (Q h (line_name KK _ _ Hl))|exact IH]. Qed.
  Lemma lay_insert_pos (q : header -> bool) (c : bool) h0 :
    (forall h, same_header (h_name h) (k_name K) = true -> q h = c) ->
    (forall h, same_header (h_name h) (k_name K') = true -> q h = false) ->
    forall hs1 hs2, lay K K' hs1 hs2 -> opt_pos_rel h0 hs1 hs2 (qpos q hs1) (qpos q hs2).
  Proof.
    intros Q1 Q2.
    (* a prefix without candidates is skipped in both lists *)
    assert (Skip : forall c1 c2 r1 r2, Forall (fun h => q h = false) c1 -> Forall (fun h => q h = false) c2 ->
              (forall a b, lay K K' a b -> lay K K' (c1 ++ a) (c2 ++ b)) ->
              opt_pos_rel h0 r1 r2 (qpos q r1) (qpos q r2) ->
              opt_pos_rel h0 (c1 ++ r1) (c2 ++ r2) (qpos q (c1 ++ r1)) (qpos q (c2 ++ r2))).
    { intros c1 c2 r1 r2 F1 F2 L IH. rewrite (qpos_app_none q c1 r1 F1), (qpos_app_none q c2 r2 F2). unfold opt_pos_rel in *.
      destruct (qpos q r1) as [i1|]; destruct (qpos q r2) as [i2|]; cbn [option_map]; try exact IH.
      rewrite !insert_at_app_len. apply L. exact IH. }
    induction 1 as [|h r1 r2 H IH|c1 c2 l r1 r2 H1 H2 H IH|c1 c2 l r1 r2 H1 H2 H IH].
    - exact I.
    - destruct (q h) eqn:Eh.
      + cbn [qpos]. rewrite Eh. exact (lay_plain K K' h0 _ _ (lay_plain K K' h _ _ H)).
      + apply (Skip [h] [h] r1 r2); try (constructor; [exact Eh|constructor]); [|exact IH].
        intros a b L. exact (lay_plain K K' h _ _ L).
    - destruct c.
      + destruct l as [|v l].
        * apply block_nil_inv in H1. apply block_nil_inv in H2. subst c1 c2. exact IH.
        * (* both blocks start with a line of kind K: position 0 in both *)
          destruct (block_cons_inv K _ _ _ H1) as (h1 & b1 & l1 & t1 & E1 & L1 & _).
          destruct (block_cons_inv K _ _ _ H2) as (h2 & b2 & l2 & t2 & E2 & L2 & _). subst c1 c2.
          cbn [app qpos]. rewrite (Q1 h1 (line_name K _ _ L1)), (Q1 h2 (line_name K _ _ L2)).
          exact (lay_plain K K' h0 _ _ (lay_own K K' _ _ _ _ _ H1 H2 H)).
      + apply Skip; [exact (block_all_q K q false _ _ Q1 H1)|exact (block_all_q K q false _ _ Q1 H2)| |exact IH].
        intros a b L. exact (lay_own K K' _ _ _ _ _ H1 H2 L).
    - apply Skip; [exact (block_all_q K' q false _ _ Q2 H1)|exact (block_all_q K' q false _ _ Q2 H2)| |exact IH].
      intros a b L. exact (lay_other K K' _ _ _ _ _ H1 H2 L).
  Qed.
End Ops.

Definition relaid : message -> message -> Prop := relK via_kind route_kind.

Lemma dist_rv : same_header (k_name route_kind) (k_name via_kind) = false.
Proof. vm_compute. reflexivity. Qed.
Lemma dist_vr : same_header (k_name via_kind) (k_name route_kind) = false.
Proof. vm_compute. reflexivity. Qed.

Lemma lay_swap {A B} (K : kind A) (K' : kind B) hs1 hs2 : lay K K' hs1 hs2 -> lay K' K hs1 hs2.
Proof.
  induction 1 as [|h r1 r2 H IH|c1 c2 l r1 r2 H1 H2 H IH|c1 c2 l r1 r2 H1 H2 H IH];
    [constructor|constructor; assumption|eapply lay_other; eassumption|eapply lay_own; eassumption].
Qed.
Lemma relK_swap {A B} (K : kind A) (K' : kind B) m1 m2 : relK K K' m1 m2 -> relK K' K m1 m2.
Proof. intros (H1 & H2 & H3). split; [exact H1|]. split; [exact H2|apply lay_swap; exact H3]. Qed.
Lemma msim_swap {A B T} (K : kind A) (K' : kind B) (x : M T) : msim (relK K' K) x -> msim (relK K K') x.
Proof.
  intros H m1 m2 HR. destruct (H m1 m2 (relK_swap _ _ _ _ HR)) as [H1 H2]. split; [apply relK_swap; exact H1|exact H2].
Qed.
Lemma relaid_refl m : relaid m m.
Proof. split; [reflexivity|]. split; [reflexivity|apply lay_refl]. Qed.

(* the top Via is the same *)
Lemma relaid_top_via : msim relaid s_top_via.
Proof.
  apply (msim_ext relaid _ (kread via_kind (fun l => match l with v :: _ => Ok v | [] => Err end))).
  - intros m. unfold s_top_via, kread, mbind. change (s_get_via m) with (kget via_kind m).
    destruct (kget via_kind m) as [m1 [[|v l]| |]]; reflexivity.
  - apply (kread_sim via_kind route_kind dist_rv via_kind_good _ (fun v => v)). intros v l. reflexivity.
Qed.
(* PopVia pops the same entry whether it shares its line with others or not *)
Lemma relaid_pop_via : msim relaid s_pop_via.
Proof. exact (kpop_sim via_kind route_kind dist_rv via_kind_good). Qed.
(* SetReceived stamps the same (first) entry *)
Lemma relaid_set_received peer port : msim relaid (s_set_received peer port).
Proof.
  exact (kmap_sim via_kind route_kind dist_rv via_kind_good
           (fun v => let v1 := via_set_param (s2b "received") peer v in
                     if kv_has (s2b "rport") (v_params v1) then via_set_param (s2b "rport") (itoa port) v1 else v1)).
Qed.
(* the top Route / PopRoute *)
Lemma relaid_route_head : msim relaid s_route_head.
Proof.
  apply msim_swap.
  exact (kread_sim route_kind via_kind dist_vr route_kind_good (fun l => Ok (hd_error l)) (fun v => Some v) (fun v l => eq_refl)).
Qed.
Lemma relaid_pop_route : msim relaid s_pop_route.
Proof. apply msim_swap. exact (kpop_sim route_kind via_kind dist_vr route_kind_good). Qed.

(* ForEachVia: the same flattened list, the decoded lines again a re-layout *)
Lemma decode_via_line h l r : line via_kind h = Some l ->
  decode_all_vias (h :: r) = (fst (act_get via_kind h) :: fst (decode_all_vias r), l ++ snd (decode_all_vias r)).
Proof.
  unfold line, act_get. cbn [decode_all_vias k_name via_kind k_proj k_parse k_inj]. destruct (decode_all_vias r) as [r' vs].
  destruct (same_header (h_name h) (s2b "Via")); [|discriminate].
  destruct (h_val h); try discriminate; [destruct (parse_via s); try discriminate|]; intros E; injection E as ->; reflexivity.
Qed.
Lemma decode_via_block b l : block via_kind b l -> forall r,
  exists b', decode_all_vias (b ++ r) = (b' ++ fst (decode_all_vias r), l ++ snd (decode_all_vias r)) /\ block via_kind b' l.
Proof.
  induction 1 as [|h b l0 ls Hl Hne Hb IH]; intros r.
  - exists []. split; [cbn [app]; destruct (decode_all_vias r); reflexivity|constructor].
  - destruct (IH r) as (b' & E & Bb'). exists (fst (act_get via_kind h) :: b').
    cbn [app]. rewrite (decode_via_line _ _ _ Hl), E. cbn [fst snd]. rewrite <- app_assoc. split; [reflexivity|].
    constructor; [exact (proj2 (act_get_line via_kind via_kind_good _ _ Hl))|exact Hne|exact Bb'].
Qed.
Lemma decode_route_block b l : block route_kind b l -> forall r,
  decode_all_vias (b ++ r) = (b ++ fst (decode_all_vias r), snd (decode_all_vias r)).
Proof.
  induction 1 as [|h b l0 ls Hl Hne Hb IH]; intros r.
  - cbn [app]. destruct (decode_all_vias r); reflexivity.
  - cbn [app decode_all_vias]. rewrite IH.
    (* a Route line is not a Via line *)
    rewrite (same_header_through _ _ (s2b "Via") (line_name route_kind _ _ Hl)).
    change (same_header (k_name route_kind) (s2b "Via")) with (same_header (k_name route_kind) (k_name via_kind)).
    rewrite dist_rv. reflexivity.
Qed.
Lemma lay_decode hs1 hs2 : lay via_kind route_kind hs1 hs2 ->
  lay via_kind route_kind (fst (decode_all_vias hs1)) (fst (decode_all_vias hs2)) /\
  snd (decode_all_vias hs1) = snd (decode_all_vias hs2).
Proof.
  induction 1 as [|h r1 r2 H IH|c1 c2 l r1 r2 H1 H2 H IH|c1 c2 l r1 r2 H1 H2 H IH].
  - split; [constructor|reflexivity].
  - cbn [decode_all_vias]. destruct (decode_all_vias r1) as [r1' v1]. destruct (decode_all_vias r2) as [r2' v2].
    cbn [fst snd] in IH. destruct IH as [IH1 IH2]. subst v2.
    destruct (same_header (h_name h) (s2b "Via")); [|split; [constructor; exact IH1|reflexivity]].
    destruct (h_val h); try (split; [constructor; exact IH1|reflexivity]).
    destruct (parse_via s); (split; [constructor; exact IH1|reflexivity]).
  - destruct (decode_via_block _ _ H1 r1) as (b1' & E1 & B1). destruct (decode_via_block _ _ H2 r2) as (b2' & E2 & B2).
    rewrite E1, E2. cbn [fst snd]. destruct IH as [IH1 IH2]. split; [eapply lay_own; eassumption|rewrite IH2; reflexivity].
  - rewrite (decode_route_block _ _ H1), (decode_route_block _ _ H2). cbn [fst snd]. destruct IH as [IH1 IH2].
    split; [eapply lay_other; eassumption|exact IH2].
Qed.
Lemma relaid_all_vias : msim relaid s_all_via_params.
Proof. exact (mrel_all_vias (lay via_kind route_kind) lay_decode). Qed.

(* AddVia: before the first Via line in both; AddRecordRoute: at a position defined by headers
   that are not list lines *)
Lemma relaid_add_via v : mcong relaid (add_via v).
Proof.
  intros m1 m2 (H1 & H2 & H3). unfold add_via. split; [exact H1|]. split; [exact H2|]. cbn [m_headers with_headers].
  pose proof (lay_insert_pos via_kind route_kind (fun h => same_header (h_name h) (s2b "Via")) true
                {| h_name := s2b "Via"; h_val := HVia [v] |} (fun h Hm => Hm)
                (fun h => same_header_other _ _ dist_rv (h_name h)) _ _ H3) as P.
  unfold opt_pos_rel in P. rewrite <- !find_header_pos_qpos in P.
  destruct (find_header_pos (s2b "Via") (m_headers m1)); destruct (find_header_pos (s2b "Via") (m_headers m2)); try contradiction.
  - exact P.
  - exact (lay_plain via_kind route_kind _ _ _ H3).
Qed.
Lemma find_record_route_pos_q hs :
  find_record_route_pos hs =
  match qpos (fun h => same_header (h_name h) (s2b "Record-Route")) hs with
  | Some p => p
  | None => match qpos (fun h => same_header (h_name h) (s2b "From") || same_header (h_name h) (s2b "Max-Forwards"))%bool hs with
            | Some p => p
            | None => O
            end
  end.
Proof.
  unfold find_record_route_pos. rewrite !find_header_pos_qpos, qpos_or.
  destruct (qpos _ hs); [reflexivity|]. destruct (qpos _ hs); destruct (qpos _ hs); reflexivity.
Qed.
Lemma relaid_add_rr r : mcong relaid (add_record_route r).
Proof.
  intros m1 m2 (H1 & H2 & H3). unfold add_record_route. split; [exact H1|]. split; [exact H2|]. cbn [m_headers with_headers].
  rewrite !find_record_route_pos_q.
  set (h0 := {| h_name := s2b "Record-Route"; h_val := HRecRoute [r] |}).
  set (q1 := fun h => same_header (h_name h) (s2b "Record-Route")).
  set (q2 := fun h => (same_header (h_name h) (s2b "From") || same_header (h_name h) (s2b "Max-Forwards"))%bool).
  (* none of the three names is a spelling of Via or Route *)
  assert (V1 : same_header (s2b "Via") (s2b "Record-Route") = false) by (vm_compute; reflexivity).
  assert (V2 : same_header (s2b "Via") (s2b "From") = false) by (vm_compute; reflexivity).
  assert (V3 : same_header (s2b "Via") (s2b "Max-Forwards") = false) by (vm_compute; reflexivity).
  assert (R1 : same_header (s2b "Route") (s2b "Record-Route") = false) by (vm_compute; reflexivity).
  assert (R2 : same_header (s2b "Route") (s2b "From") = false) by (vm_compute; reflexivity).
  assert (R3 : same_header (s2b "Route") (s2b "Max-Forwards") = false) by (vm_compute; reflexivity).
  assert (Q2 : forall nm, same_header nm (s2b "From") = false -> same_header nm (s2b "Max-Forwards") = false ->
                forall h, same_header (h_name h) nm = true -> q2 h = false).
  { intros nm F M h Hm. unfold q2. rewrite (same_header_other _ _ F _ Hm), (same_header_other _ _ M _ Hm). reflexivity. }
  pose proof (lay_insert_pos via_kind route_kind q1 false h0 (fun h => same_header_other _ _ V1 (h_name h))
                (fun h => same_header_other _ _ R1 (h_name h)) _ _ H3) as P1.
  pose proof (lay_insert_pos via_kind route_kind q2 false h0 (Q2 _ V2 V3) (Q2 _ R2 R3) _ _ H3) as P2.
  unfold opt_pos_rel in P1, P2.
  destruct (qpos q1 (m_headers m1)); destruct (qpos q1 (m_headers m2)); try contradiction; [exact P1|].
  destruct (qpos q2 (m_headers m1)); destruct (qpos q2 (m_headers m2)); try contradiction; [exact P2|].
  exact (lay_plain via_kind route_kind _ _ _ H3).
Qed.
Lemma relaid_has_rr : mread relaid (has_header (s2b "Record-Route")).
Proof. apply (relK_has_header_plain via_kind route_kind); vm_compute; reflexivity. Qed.

(* the metamorphic consequence for the whole per-message pipeline, same shape as for
   respelling: related serialised messages; same side of the datagram limit => equal learned
   table, pins, transport table, rotation, connections; same destinations; payloads that are
   serialisations of re-laid-out messages *)
Theorem C17_relayout_invariance : forall e peer pp from rs tcp m1 m2 x1 x2,
  relaid m1 m2 -> ctx_rel relaid x1 x2 ->
  opt_rel relaid (pm_written e peer pp from rs tcp m1 x1) (pm_written e peer pp from rs tcp m2 x2) /\
  (fits_opt (pm_written e peer pp from rs tcp m1 x1) = fits_opt (pm_written e peer pp from rs tcp m2 x2) ->
   res_ctx_rel relaid (process_message e peer pp from rs tcp m1 x1) (process_message e peer pp from rs tcp m2 x2)).
Proof.
  apply (process_message_sim relaid).
  - exact (mrel_start (lay via_kind route_kind)).
  - apply (relK_typed_get_plain via_kind route_kind); vm_compute; reflexivity.
  - apply (relK_typed_get_plain via_kind route_kind); vm_compute; reflexivity.
  - apply (relK_typed_get_plain via_kind route_kind); vm_compute; reflexivity.
  - apply (relK_get_raw_plain via_kind route_kind); vm_compute; reflexivity.
  - apply (relK_get_raw_plain via_kind route_kind); vm_compute; reflexivity.
  - apply (relK_get_raw_plain via_kind route_kind); vm_compute; reflexivity.
  - exact relaid_top_via.
  - exact relaid_pop_via.
  - exact relaid_set_received.
  - exact relaid_all_vias.
  - exact relaid_route_head.
  - exact relaid_pop_route.
  - exact relaid_add_via.
  - exact relaid_add_rr.
  - exact relaid_has_rr.
Qed.

(* what two re-laid-out messages have in common: the flattened decoded Via and Route lists and
   every other header, in order *)
Definition flat {A} (K : kind A) (hs : list header) : list A :=
  flat_map (fun h => match line K h with Some l => l | None => [] end) hs.
Definition flatten_vias (m : message) : list via_param := flat via_kind (m_headers m).
Definition flatten_routes (m : message) : list route_param := flat route_kind (m_headers m).
Definition is_list_header (h : header) : bool :=
  same_header (h_name h) (s2b "Via") || same_header (h_name h) (s2b "Route").
Definition plain_headers (m : message) : list header :=
  filter (fun h => negb (match line via_kind h, line route_kind h with None, None => false | _, _ => true end)) (m_headers m).

Lemma block_flat {A} (K : kind A) b l : block K b l -> flat K b = l.
Proof.
  induction 1 as [|h b l0 ls Hl Hne Hb IH]; [reflexivity|]. unfold flat in *. cbn [flat_map]. rewrite Hl, IH. reflexivity.
Qed.
Lemma block_flat_other {A B} (K : kind A) (K' : kind B) b l :
  same_header (k_name K) (k_name K') = false -> block K b l -> flat K' b = [].
Proof.
  intros Hd. induction 1 as [|h b l0 ls Hl Hne Hb IH]; [reflexivity|]. unfold flat in *. cbn [flat_map]. rewrite IH.
  unfold line. rewrite (same_header_through _ _ (k_name K') (line_name K _ _ Hl)), Hd. reflexivity.
Qed.
Lemma lay_flat hs1 hs2 : lay via_kind route_kind hs1 hs2 ->
  flat via_kind hs1 = flat via_kind hs2 /\ flat route_kind hs1 = flat route_kind hs2.
Proof.
  intros L. split; revert hs1 hs2 L; apply lay_hom; try (intros a b; apply flat_map_app); intros b1 b2 l B1 B2.
  - rewrite (block_flat _ _ _ B1), (block_flat _ _ _ B2). reflexivity.
  - rewrite (block_flat_other route_kind via_kind _ _ dist_rv B1), (block_flat_other route_kind via_kind _ _ dist_rv B2). reflexivity.
  - rewrite (block_flat_other via_kind route_kind _ _ dist_vr B1), (block_flat_other via_kind route_kind _ _ dist_vr B2). reflexivity.
  - rewrite (block_flat _ _ _ B1), (block_flat _ _ _ B2). reflexivity.
Qed.
Lemma decode_flat hs : snd (decode_all_vias hs) = flat via_kind hs.
Proof.
  induction hs as [|h r IH]; [reflexivity|]. cbn [decode_all_vias]. destruct (decode_all_vias r) as [r' vs]. cbn [snd] in IH.
  unfold flat in *. cbn [flat_map]. rewrite <- IH. unfold line. cbn [k_name via_kind k_proj k_parse].
  destruct (same_header (h_name h) (s2b "Via")); [|reflexivity].
  destruct (h_val h); try reflexivity. destruct (parse_via s); reflexivity.
Qed.

Definition is_line (h : header) : bool :=
  match line via_kind h, line route_kind h with None, None => false | _, _ => true end.
Lemma block_filter_via c l : block via_kind c l -> filter (fun h => negb (is_line h)) c = [].
Proof.
  induction 1 as [|h b l0 ls Hl Hne Hb IH]; [reflexivity|]. cbn [filter]. unfold is_line at 1. rewrite Hl. cbn [negb]. exact IH.
Qed.
Lemma block_filter_route c l : block route_kind c l -> filter (fun h => negb (is_line h)) c = [].
Proof.
  induction 1 as [|h b l0 ls Hl Hne Hb IH]; [reflexivity|]. cbn [filter]. unfold is_line at 1. rewrite Hl.
  destruct (line via_kind h); cbn [negb]; exact IH.
Qed.
Lemma lay_filter hs1 hs2 : lay via_kind route_kind hs1 hs2 ->
  filter (fun h => negb (is_line h)) hs1 = filter (fun h => negb (is_line h)) hs2.
Proof.
  apply lay_hom; [apply filter_app| |]; intros b1 b2 l B1 B2.
  - rewrite (block_filter_via _ _ B1), (block_filter_via _ _ B2). reflexivity.
  - rewrite (block_filter_route _ _ B1), (block_filter_route _ _ B2). reflexivity.
Qed.
Theorem C17_written_relaid : forall w1 w2, relaid w1 w2 ->
  m_start w1 = m_start w2 /\ m_body w1 = m_body w2 /\
  flatten_vias w1 = flatten_vias w2 /\ flatten_routes w1 = flatten_routes w2 /\
  plain_headers w1 = plain_headers w2.
Proof.
  intros w1 w2 (H1 & H2 & H3). split; [exact H1|]. split; [exact H2|].
  destruct (lay_flat _ _ H3) as [F1 F2]. split; [exact F1|]. split; [exact F2|].
  exact (lay_filter _ _ H3).
Qed.

Lemma relaid_flat m1 m2 : relaid m1 m2 -> flatten_vias m1 = flatten_vias m2 /\ flatten_routes m1 = flatten_routes m2.
Proof. intros (_ & _ & L). exact (lay_flat _ _ L). Qed.
(* PopVia then flatten gives the tail -- in any layout *)
Theorem C17_pop_via_flat : forall m1 m2, relaid m1 m2 ->
  flatten_vias (fst (s_pop_via m1)) = flatten_vias (fst (s_pop_via m2)) /\ snd (s_pop_via m1) = snd (s_pop_via m2) /\
  flatten_vias m1 = flatten_vias m2 /\ snd (s_all_via_params m1) = snd (s_all_via_params m2) /\
  snd (next_response_hop m1) = snd (next_response_hop m2).
Proof.
  intros m1 m2 H. destruct (relaid_pop_via m1 m2 H) as [L E].
  split; [exact (proj1 (relaid_flat _ _ L))|]. split; [exact E|]. split; [exact (proj1 (relaid_flat _ _ H))|].
  split; [exact (proj2 (relaid_all_vias m1 m2 H))|].
  refine (proj2 (msim_mbind relaid _ _ relaid_top_via _ m1 m2 H)). intros v. destruct (via_get_received v); apply msim_mret.
Qed.

(* Route: tryRemoveTopRoute / getNextRequestHopByRoute / PopRoute act on the flattened list *)
Theorem C17_route_layout : forall c from keep m1 m2, relaid m1 m2 ->
  (snd (try_remove_top_route c from m1) = snd (try_remove_top_route c from m2) /\
   flatten_routes (fst (try_remove_top_route c from m1)) = flatten_routes (fst (try_remove_top_route c from m2))) /\
  (snd (next_hop_by_route keep m1) = snd (next_hop_by_route keep m2) /\
   flatten_routes (fst (next_hop_by_route keep m1)) = flatten_routes (fst (next_hop_by_route keep m2))) /\
  (snd (s_pop_route m1) = snd (s_pop_route m2) /\
   flatten_routes (fst (s_pop_route m1)) = flatten_routes (fst (s_pop_route m2))).
Proof.
  intros c from keep m1 m2 H.
  destruct (msim_try_remove_top_route relaid relaid_route_head relaid_pop_route c from m1 m2 H) as [L1 E1].
  destruct (msim_next_hop_by_route relaid relaid_route_head relaid_pop_route keep m1 m2 H) as [L2 E2].
  destruct (relaid_pop_route m1 m2 H) as [L3 E3].
  repeat split; try assumption; [exact (proj2 (relaid_flat _ _ L1))|exact (proj2 (relaid_flat _ _ L2))|exact (proj2 (relaid_flat _ _ L3))].
Qed.
(* a Via list cut differently: "a,b" on one line / "a" and "b" on two lines are re-layouts *)
Example C17_ex_relaid :
  forall a b r, parse_via a = Ok [r] -> forall x y, parse_via b = Ok [x; y] -> forall st bd pre post,
  relaid {| m_start := st; m_headers := pre ++ [{| h_name := s2b "Via"; h_val := HRaw a |}; {| h_name := s2b "v"; h_val := HRaw b |}] ++ post; m_body := bd |}
         {| m_start := st; m_headers := pre ++ [{| h_name := s2b "VIA"; h_val := HVia [r; x; y] |}] ++ post; m_body := bd |}.
Proof.
  intros a b r Ha x y Hb st bd pre post. split; [reflexivity|]. split; [reflexivity|]. cbn [m_headers].
  assert (E1 : same_header (s2b "Via") (s2b "Via") = true) by (vm_compute; reflexivity).
  assert (E2 : same_header (s2b "v") (s2b "Via") = true) by (vm_compute; reflexivity).
  assert (E3 : same_header (s2b "VIA") (s2b "Via") = true) by (vm_compute; reflexivity).
  apply lay_app; [apply lay_refl|].
  apply (lay_own via_kind route_kind _ _ [r; x; y]); [| |apply lay_refl].
  - change [r; x; y] with ([r] ++ [x; y] ++ []).
    constructor; [unfold line; cbn [k_name k_proj k_parse via_kind h_name h_val]; rewrite E1, Ha; reflexivity|discriminate|].
    constructor; [unfold line; cbn [k_name k_proj k_parse via_kind h_name h_val]; rewrite E2, Hb; reflexivity|discriminate|constructor].
  - change [r; x; y] with ([r; x; y] ++ []).
    constructor; [unfold line; cbn [k_name k_proj k_parse via_kind h_name h_val]; rewrite E3; reflexivity|discriminate|constructor].
Qed.

Definition crlf_s : string := String (ascii_of_nat 13) (String (ascii_of_nat 10) EmptyString).
Definition lines (l : list string) : bytes := flat_map (fun s => s2b s ++ s2b crlf_s) l.

Definition ex_lc : listen_cfg :=
  {| lc_addr := s2b "10.0.0.1"; lc_udp := 5060%Z; lc_tcp := 5060%Z; lc_backends := []; lc_dynamic := false;
     lc_no_received := false; lc_def_route := false; lc_must_rr := true |}.
Definition ex_cfg : cfg :=
  {| c_name := s2b "proxy.example.org"; c_keep_next_hop := false; c_dialog_timeout := 3600%Z;
     c_routes := []; c_hosts := []; c_listens := [ex_lc] |}.

(* one request, spelled canonically / compact and odd case / with the Via and Route lines
   joined / both *)
Definition req_canon : bytes :=
  lines ["INVITE sip:bob@example.net SIP/2.0";
         "Via: SIP/2.0/UDP 10.0.0.9:5070;branch=z9hG4bK1;rport";
         "Via: SIP/2.0/UDP 10.0.0.8:5071;branch=z9hG4bK0";
         "Route: <sip:10.0.0.8:5071;lr>"; "Route: <sip:10.0.0.7:5062;lr>";
         "Max-Forwards: 70"; "From: <sip:alice@a.example>;tag=1"; "To: <sip:bob@example.net>";
         "Call-ID: abc"; "CSeq: 1 INVITE"; "Expires: 60"; "Content-Length: 4"; ""; "body"]%string.
Definition req_respelled : bytes :=
  lines ["INVITE sip:bob@example.net SIP/2.0";
         "v: SIP/2.0/UDP 10.0.0.9:5070;branch=z9hG4bK1;rport";
         "VIA: SIP/2.0/UDP 10.0.0.8:5071;branch=z9hG4bK0";
         "rOUTE: <sip:10.0.0.8:5071;lr>"; "ROUTE: <sip:10.0.0.7:5062;lr>";
         "max-forwards: 70"; "f: <sip:alice@a.example>;tag=1"; "T: <sip:bob@example.net>";
         "i: abc"; "cSeQ: 1 INVITE"; "EXPIRES: 60"; "l: 4"; ""; "body"]%string.
Definition req_relaid : bytes :=
  lines ["INVITE sip:bob@example.net SIP/2.0";
         "Via: SIP/2.0/UDP 10.0.0.9:5070;branch=z9hG4bK1;rport,SIP/2.0/UDP 10.0.0.8:5071;branch=z9hG4bK0";
         "Route: <sip:10.0.0.8:5071;lr>,<sip:10.0.0.7:5062;lr>";
         "Max-Forwards: 70"; "From: <sip:alice@a.example>;tag=1"; "To: <sip:bob@example.net>";
         "Call-ID: abc"; "CSeq: 1 INVITE"; "Expires: 60"; "Content-Length: 4"; ""; "body"]%string.
Definition req_both : bytes :=
  lines ["INVITE sip:bob@example.net SIP/2.0";
         "V: SIP/2.0/UDP 10.0.0.9:5070;branch=z9hG4bK1;rport,SIP/2.0/UDP 10.0.0.8:5071;branch=z9hG4bK0";
         "route: <sip:10.0.0.8:5071;lr>,<sip:10.0.0.7:5062;lr>";
         "MAX-forwards: 70"; "F: <sip:alice@a.example>;tag=1"; "t: <sip:bob@example.net>";
         "I: abc"; "CSEQ: 1 INVITE"; "expires: 60"; "L: 4"; ""; "body"]%string.

Definition run1 (d : bytes) : res (state * list output) :=
  proxy_step all_fixed ex_cfg 0%Z (s2b "z9hG4bKpx") (init_state ex_cfg 0%Z []) (EvUdp 0 (s2b "10.0.0.9") 5070%Z d).

(* what is compared on an output: destination; start line; the flattened decoded Via and
   Route lists; every other header under its canonical name with its printed value; body *)
Definition observe (o : output) :=
  (fst o,
   match parse_message (snd o) with
   | Ok (m, _) => Some (m_start m, flatten_vias m, flatten_routes m,
                        map (fun h => (canon (h_name h), hval_print (h_val h))) (plain_headers m),
                        m_body m)
   | _ => None
   end).
Definition observe_run (r : res (state * list output)) :=
  match r with Ok (st, outs) => Some (st, map observe outs) | _ => None end.

(* the parsed inputs are related as the theorems require *)
Example C17_ex_inputs :
  match parse_message req_canon, parse_message req_respelled, parse_message req_relaid with
  | Ok (m, _), Ok (ms, _), Ok (ml, _) =>
      canon_names ms = canon_names m /\ map h_name (m_headers ms) = map s2b ["v"; "VIA"; "rOUTE"; "ROUTE"; "max-forwards"; "f"; "T"; "i"; "cSeQ"; "EXPIRES"; "l"]%string /\
      flatten_vias ml = flatten_vias m /\ flatten_routes ml = flatten_routes m /\ plain_headers ml = plain_headers m /\
      List.length (m_headers ml) + 2 = List.length (m_headers m)
  | _, _, _ => False
  end.
Proof. vm_compute. repeat split; reflexivity. Qed.

Example C17_ex_twins :
  observe_run (run1 req_respelled) = observe_run (run1 req_canon) /\
  observe_run (run1 req_relaid) = observe_run (run1 req_canon) /\
  observe_run (run1 req_both) = observe_run (run1 req_canon) /\
  (* non-trivial: one datagram to the popped Route's host, our Via on top of the two received
     ones, our Record-Route, one Route left *)
  match observe_run (run1 req_canon) with
  | Some (_, [(d, Some (_, vias, routes, others, body))]) =>
      d = DUdp (s2b "10.0.0.8") 5071%Z /\ List.length vias = 3 /\ List.length routes = 1 /\
      map fst others = map s2b ["record-route"; "max-forwards"; "from"; "to"; "call-id"; "cseq"; "expires"; "content-length"]%string /\
      body = s2b "body"
  | _ => False
  end.
Proof.
  (* the canonical run is evaluated once and the three twins are compared with its value *)
  let v := eval vm_compute in (observe_run (run1 req_canon)) in
    assert (Ec : observe_run (run1 req_canon) = v) by (vm_compute; reflexivity).
  rewrite Ec. split; [vm_compute; reflexivity|]. split; [vm_compute; reflexivity|]. split; [vm_compute; reflexivity|].
  cbv iota beta. repeat split; reflexivity.
Qed.

(* COUNTEREXAMPLE to the invariance without the size condition: FailOverClientTransport /
   Backend.Send give up on what does not fit a UDP datagram (65507 bytes; failover_send,
   backend_send), and a compact name is shorter.  The same message (any body of 65445 bytes)
   with one header spelled "s" fits, spelled "Subject" it does not: relayed in one case,
   silently dropped in the other.  Hence the condition [fits_opt .. = fits_opt ..] in
   C17_respell_invariance / C17_relayout_invariance cannot be removed. *)
Definition w_big (name : string) (bd : bytes) : message :=
  {| m_start := SReq (s2b "OPTIONS")
                     (ASip {| u_scheme := s2b "sip"; u_user := []; u_password := []; u_host := s2b "h.example";
                              u_port := 0%Z; u_params := []; u_headers := [] |}) (s2b "SIP/2.0");
     m_headers := [{| h_name := s2b name; h_val := HRaw (s2b "x") |}];
     m_body := bd |}.
Example C17_size_counterexample : forall bd, Z.of_nat (List.length bd) = 65445%Z ->
  respelled (w_big "s" bd) (w_big "Subject" bd) /\
  fits_datagram (write_message (w_big "s" bd)) = true /\
  fits_datagram (write_message (w_big "Subject" bd)) = false.
Proof.
  intros bd H. split.
  { split; [reflexivity|]. split; [reflexivity|]. constructor; [|constructor]. split; [vm_compute; reflexivity|reflexivity]. }
  split; unfold fits_datagram, write_message, w_big; cbn [m_start m_headers m_body]; rewrite H, !app_assoc;
    match goal with |- context [List.length (?p ++ bd)] =>
      rewrite (app_length p bd); let n := eval vm_compute in (List.length p) in change (List.length p) with n end;
    unfold max_datagram; [apply Z.leb_le|apply Z.leb_gt]; lia.
Qed.
Example C17_size_counterexample_nonvacuous : exists bd : bytes, Z.of_nat (List.length bd) = 65445%Z.
Proof. exists (repeat "x"%char (Z.to_nat 65445)). rewrite repeat_length, Z2Nat.id; lia. Qed.

(* the same at the level of proxy_step for a datagram: two datagrams that decode to related
   messages leave the SAME state and produce related outputs (generic in the relation) *)
Lemma proxy_step_udp_rel (R : message -> message -> Prop) :
  (forall e peer pp from rs tcp a b x y, R a b -> ctx_rel R x y ->
     opt_rel R (pm_written e peer pp from rs tcp a x) (pm_written e peer pp from rs tcp b y) /\
     (fits_opt (pm_written e peer pp from rs tcp a x) = fits_opt (pm_written e peer pp from rs tcp b y) ->
      res_ctx_rel R (process_message e peer pp from rs tcp a x) (process_message e peer pp from rs tcp b y))) ->
  forall fx c now br st li src sport d1 d2 m1 m2 r1 r2 lc p,
  parse_message d1 = Ok (m1, r1) -> parse_message d2 = Ok (m2, r2) -> R m1 m2 ->
  nth_opt (c_listens c) li = Some lc -> nth_p (st_proxies st) li = Some p ->
  let e := listener_env fx c now br li lc in
  fits_opt (pm_written e src sport (udp_transport lc) (e_item_rs e) None m1 (start_ctx st p)) =
  fits_opt (pm_written e src sport (udp_transport lc) (e_item_rs e) None m2 (start_ctx st p)) ->
  match proxy_step fx c now br st (EvUdp li src sport d1), proxy_step fx c now br st (EvUdp li src sport d2) with
  | Ok (st1, o1), Ok (st2, o2) => st1 = st2 /\ outs_rel R o1 o2
  | Err, Err => True
  | Panic, Panic => True
  | _, _ => False
  end.
Proof.
  intros Hsim fx c now br st li src sport d1 d2 m1 m2 r1 r2 lc p P1 P2 HR Hlc Hp e Hf.
  rewrite (proxy_step_udp_eq fx c now br st li lc p src sport d1 m1 r1 Hlc P1 Hp),
          (proxy_step_udp_eq fx c now br st li lc p src sport d2 m2 r2 Hlc P2 Hp). fold e.
  destruct (Hsim e src sport (udp_transport lc) (e_item_rs e) None m1 m2 _ _ HR (ctx_rel_refl R (start_ctx st p))) as [_ S].
  specialize (S Hf).
  destruct (process_message e src sport (udp_transport lc) (e_item_rs e) None m1 (start_ctx st p)) as [x1| |];
    destruct (process_message e src sport (udp_transport lc) (e_item_rs e) None m2 (start_ctx st p)) as [x2| |];
    cbn [res_ctx_rel] in S; try contradiction; try exact I.
  destruct S as (S1 & S2 & S3 & S4 & S5). unfold ctx_state. rewrite S1, S2, S3, S4. split; [reflexivity|exact S5].
Qed.
Theorem C17_respell_udp : forall fx c now br st li src sport d1 d2 m1 m2 r1 r2 lc p,
  parse_message d1 = Ok (m1, r1) -> parse_message d2 = Ok (m2, r2) -> respelled m1 m2 ->
  nth_opt (c_listens c) li = Some lc -> nth_p (st_proxies st) li = Some p ->
  let e := mk_env fx c (item_rs_of (fx_wiring fx)) li lc now br in
  let x := {| x_learned := st_learned st; x_p := p; x_conns := st_conns st; x_world := st_world st; x_outs := [] |} in
  let from := {| t_kind := KUdp; t_addr := lc_addr lc; t_port := lc_udp lc |} in
  fits_opt (pm_written e src sport from (e_item_rs e) None m1 x) = fits_opt (pm_written e src sport from (e_item_rs e) None m2 x) ->
  match proxy_step fx c now br st (EvUdp li src sport d1), proxy_step fx c now br st (EvUdp li src sport d2) with
  | Ok (st1, o1), Ok (st2, o2) => st1 = st2 /\ outs_rel respelled o1 o2
  | Err, Err => True
  | Panic, Panic => True
  | _, _ => False
  end.
Proof. exact (proxy_step_udp_rel respelled C17_respell_invariance). Qed.
Theorem C17_relayout_udp : forall fx c now br st li src sport d1 d2 m1 m2 r1 r2 lc p,
  parse_message d1 = Ok (m1, r1) -> parse_message d2 = Ok (m2, r2) -> relaid m1 m2 ->
  nth_opt (c_listens c) li = Some lc -> nth_p (st_proxies st) li = Some p ->
  let e := mk_env fx c (item_rs_of (fx_wiring fx)) li lc now br in
  let x := {| x_learned := st_learned st; x_p := p; x_conns := st_conns st; x_world := st_world st; x_outs := [] |} in
  let from := {| t_kind := KUdp; t_addr := lc_addr lc; t_port := lc_udp lc |} in
  fits_opt (pm_written e src sport from (e_item_rs e) None m1 x) = fits_opt (pm_written e src sport from (e_item_rs e) None m2 x) ->
  match proxy_step fx c now br st (EvUdp li src sport d1), proxy_step fx c now br st (EvUdp li src sport d2) with
  | Ok (st1, o1), Ok (st2, o2) => st1 = st2 /\ outs_rel relaid o1 o2
  | Err, Err => True
  | Panic, Panic => True
  | _, _ => False
  end.
Proof. exact (proxy_step_udp_rel relaid C17_relayout_invariance). Qed.
Print Assumptions C17_respell_udp.
Print Assumptions C17_relayout_udp.
Print Assumptions C17_same_header_equiv.
Print Assumptions C17_same_header_sym.
Print Assumptions C17_same_header_trans.
Print Assumptions compact_table_sym.
Print Assumptions respelled_canon_names.
Print Assumptions typed_get_respell.
Print Assumptions decode_all_vias_respell.
Print Assumptions add_via_respell.
Print Assumptions add_record_route_respell.
Print Assumptions C17_one_content_length.
Print Assumptions C17_written_respelled.
Print Assumptions process_message_sim.
Print Assumptions C17_respell_invariance.
Print Assumptions C17_respell_invariance_fun.
Print Assumptions C17_relayout_invariance.
Print Assumptions C17_written_relaid.
Print Assumptions C17_pop_via_flat.
Print Assumptions C17_route_layout.
Print Assumptions C17_ex_twins.
Print Assumptions C17_size_counterexample.
