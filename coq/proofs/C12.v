(* C12.v — responses to TCP requests return on the connection the request used.
   The keys of the transport table and what the transport operations leave under other keys; sendMessage on an
   entry that holds a live connection; what a TCP request registers (read from the message as received);
   the relayed response finds it (C12_lookup); the entry survives every event that does not touch its key;
   the history theorem; executable versions of its hypotheses and computed histories, with the witness against
   the earlier key.  Uses the header relation [keeps] of C04.v. *)
From Coq Require Import List Ascii String ZArith NArith Bool.
From Model Require Import Bytes BytesLemmas Uri Hdr Message Msg Rx Glob StaticRoute RoundRobin Pins Proxy.
From Model.proofs Require C07 C02.
From Model.proofs Require Import Pipeline MsgStages C04.
Import ListNotations.
Open Scope Z_scope.

Definition tcp : bytes := s2b "tcp".
(* an inbound-connection primary is kept by the sweep as long as now <= its expiry *)
Definition live (now_s ex : Z) : Prop := now_s <= ex.
(* the table maps K to a fail-over entry whose primary is connection c *)
Definition reg_at (K : bytes) (c : nat) (ex : Z) (p : pstate) : Prop :=
  exists sec, alookup K (ps_table p) = Some {| fo_pri := Some (PConn c ex); fo_sec := sec |}.

(* distinct transaction ids give distinct keys for the same protocol / host / port *)
Theorem full_addr_inj_tid : forall proto host port t t',
  full_addr proto host port t = full_addr proto host port t' -> beq proto tcp = true -> t = t'.
Proof.
  intros proto host port t t' E P. unfold full_addr in E. fold tcp in E. rewrite P in E. cbn [andb] in E.
  destruct t as [|a t], t' as [|a' t']; cbn [beq negb] in E.
  - reflexivity.
  - exfalso. rewrite <- (app_nil_r (proto ++ _ ++ _)) in E at 1. apply app_inv_head in E. discriminate.
  - exfalso. rewrite <- (app_nil_r (proto ++ _ ++ _)) in E at 2. apply app_inv_head in E. discriminate.
  - apply app_inv_head in E. injection E as -> ->. reflexivity.
Qed.
(* transaction ids of distinct (method, branch) pairs differ when methods carry no '-' *)
Theorem tid_inj : forall m b m' b', ~ In "-"%char m -> ~ In "-"%char m' ->
  m ++ "-"%char :: b = m' ++ "-"%char :: b' -> m = m' /\ b = b'.
Proof.
  intros m b m' b'. apply sep_first.
Qed.
Corollary keys_differ : forall host port m b m' b', ~ In "-"%char m -> ~ In "-"%char m' -> (m, b) <> (m', b') ->
  full_addr tcp host port (m ++ "-"%char :: b) <> full_addr tcp host port (m' ++ "-"%char :: b').
Proof.
  intros host port m b m' b' N N' NE E. apply full_addr_inj_tid in E; [|reflexivity].
  apply tid_inj in E; try assumption. destruct E as [-> ->]. apply NE. reflexivity.
Qed.
(* the connection-level key of ConnAccepted (no transaction id) differs from a transaction key of the same peer *)
Lemma accept_key_differs host port t : t <> [] -> full_addr tcp host port t <> full_addr tcp host port [].
Proof. intros NE E. apply full_addr_inj_tid in E; [contradiction|reflexivity]. Qed.

(* frames: entries under other keys are never touched *)
Definition keepable (now_s : Z) (f : failover) : Prop :=
  match fo_pri f with Some pr => primary_expired now_s pr = false | None => True end.
Lemma keepable_conn now_s c ex sec : live now_s ex -> keepable now_s {| fo_pri := Some (PConn c ex); fo_sec := sec |}.
Proof. unfold live, keepable. cbn. intros H. apply andb_false_iff. right. apply Z.ltb_ge. exact H. Qed.
Lemma clean_expired_keep now_s p K f : alookup K (ps_table p) = Some f -> keepable now_s f ->
  alookup K (ps_table (clean_expired now_s p)) = Some f.
Proof.
  intros A Kp. unfold clean_expired. destruct (_ <? _); [exact A|]. cbn [ps_table].
  apply alookup_filter_some; [exact A|]. cbn [snd]. unfold keepable in Kp.
  destruct (fo_pri f); [rewrite Kp|]; reflexivity.
Qed.
Lemma get_transport_other now_s pr h pt t p K f :
  alookup K (ps_table p) = Some f -> keepable now_s f ->
  K <> full_addr (to_lower pr) h pt t -> K <> full_addr (to_lower pr) h pt [] ->
  alookup K (ps_table (fst (get_transport now_s pr h pt t p))) = Some f.
Proof.
  intros A Kp N1 N2. unfold get_transport.
  pose proof (clean_expired_keep now_s p K f A Kp) as C. set (q := clean_expired now_s p) in *. clearbody q.
  destruct (negb _); [exact C|].
  destruct (alookup (full_addr (to_lower pr) h pt t) (ps_table q)); [exact C|].
  destruct (beq _ _).
  - destruct (resolvable h pt); [|exact C]. cbn [fst ps_table with_table]. rewrite alookup_aset_other by exact N1. exact C.
  - destruct (alookup (full_addr (to_lower pr) h pt []) (ps_table q)); cbn [fst ps_table with_table with_clients].
    + rewrite alookup_aset_other by exact N1. exact C.
    + rewrite alookup_aset_other by exact N1. rewrite alookup_aset_other by exact N2. exact C.
Qed.
Lemma get_transport_found now_s pr h pt t p f :
  supported_proto (to_lower pr) = true ->
  alookup (full_addr (to_lower pr) h pt t) (ps_table (clean_expired now_s p)) = Some f ->
  get_transport now_s pr h pt t p = (clean_expired now_s p, Ok (full_addr (to_lower pr) h pt t)).
Proof. intros S A. unfold get_transport. rewrite S, A. reflexivity. Qed.
(* GetTransport for tcp always yields the key, and the key is present afterwards *)
Lemma get_transport_tcp now_s h pt t p :
  snd (get_transport now_s tcp h pt t p) = Ok (full_addr tcp h pt t) /\
  exists f, alookup (full_addr tcp h pt t) (ps_table (fst (get_transport now_s tcp h pt t p))) = Some f.
Proof.
  unfold get_transport. set (q := clean_expired now_s p).
  change (to_lower tcp) with tcp. change (negb (supported_proto tcp)) with false. cbv iota.
  destruct (alookup (full_addr tcp h pt t) (ps_table q)) as [f|] eqn:A; [split; [reflexivity|exists f; exact A]|].
  change (beq tcp (s2b "udp")) with false. cbv iota.
  destruct (alookup (full_addr tcp h pt []) (ps_table q)); cbn [fst snd ps_table with_table]; (split; [reflexivity|]);
    eexists; apply alookup_aset_same.
Qed.
Lemma set_primary_same K pr p f : alookup K (ps_table p) = Some f ->
  alookup K (ps_table (set_primary K pr p)) = Some {| fo_pri := Some pr; fo_sec := fo_sec f |}.
Proof. intros A. unfold set_primary. rewrite A. cbn [ps_table with_table]. apply alookup_aset_same. Qed.
Lemma remove_transport_other K pr h pt t p : K <> full_addr (to_lower pr) h pt t ->
  alookup K (ps_table (remove_transport pr h pt t p)) = alookup K (ps_table p).
Proof.
  intros N. unfold remove_transport. destruct (negb _); [reflexivity|]. cbn [ps_table with_table].
  apply alookup_adel_other. exact N.
Qed.

Lemma conn_open_app cs cs' c : conn_open cs c = true -> conn_open (cs ++ cs') c = true.
Proof. unfold conn_open. rewrite existsb_app. intros ->. reflexivity. Qed.
Lemma failover_send_frame li local rs f b p cs w p' cs' w' outs ok f' :
  failover_send li local rs f b p cs w = (p', cs', w', outs, ok, f') ->
  ps_table p' = ps_table p /\ forall c, conn_open cs c = true -> conn_open cs' c = true.
Proof.
  intros H. destruct (proj1 (failover_send_p _ _ _ _ _ _ _ _ _ _ _ _ _ _ H)) as [cls ->]. split; [reflexivity|].
  rewrite (failover_send_step _ _ _ _ _ _ _ _ _ _ _ _ _ _ H). intros c. apply conn_open_app.
Qed.

Definition resolve (c : cfg) (host : bytes) : bytes := match get_ip c host with Some i => i | None => host end.
Definition tid_or_nil (m : message) : bytes := match tid_of m with Ok t => t | _ => [] end.
(* the host under which the per-transaction entry is filed (handleRawMessage) and dropped
   (sendMessage): the resolved address after the repair, the host as written before it *)
Definition key_host (e : env) (host : bytes) : bytes :=
  if fx_resolved_key (e_fx e) then resolve (e_cfg e) host else host.
Lemma key_host_fixed e host : fx_resolved_key (e_fx e) = true -> key_host e host = resolve (e_cfg e) host.
Proof. unfold key_host. intros ->. reflexivity. Qed.
(* resolving is the identity on IPv4 literals and on unknown names; it is idempotent when the
   host table maps names to IPv4 literals *)
Lemma resolve_ipv4 c h : is_ipv4 h = true -> resolve c h = h.
Proof. unfold resolve, get_ip. intros ->. reflexivity. Qed.
Lemma resolve_unknown c h : is_ipv4 h = false -> alookup h (c_hosts c) = None -> resolve c h = h.
Proof. unfold resolve, get_ip. intros -> ->. reflexivity. Qed.
Lemma resolve_idem c h : (forall n ip, alookup n (c_hosts c) = Some ip -> is_ipv4 ip = true) ->
  resolve c (resolve c h) = resolve c h.
Proof.
  intros HT. destruct (is_ipv4 h) eqn:E.
  - rewrite (resolve_ipv4 c h E). apply resolve_ipv4. exact E.
  - destruct (alookup h (c_hosts c)) as [ip|] eqn:A.
    + assert (R : resolve c h = ip) by (unfold resolve, get_ip; rewrite E, A; reflexivity).
      rewrite R. apply resolve_ipv4. exact (HT h ip A).
    + rewrite (resolve_unknown c h E A). apply resolve_unknown; assumption.
Qed.

(* sendMessage touches three keys at most: the look-up key (resolved host), the connection-level
   key it may create next to it, the key it removes (the look-up key again after the repair) *)
Lemma send_message_other e host port tr m x K f :
  alookup K (ps_table (x_p x)) = Some f -> keepable (now_s e) f ->
  K <> full_addr (to_lower tr) (resolve (e_cfg e) host) port (tid_or_nil m) ->
  K <> full_addr (to_lower tr) (resolve (e_cfg e) host) port [] ->
  K <> full_addr (to_lower tr) (key_host e host) port (tid_or_nil m) ->
  alookup K (ps_table (x_p (fst (send_message e host port tr m x)))) = Some f.
Proof.
  intros A Kp N1 N2 N3.
  assert (T : match snd (mtry s_client_transaction m) with Ok (Some t) => t | _ => [] end = tid_or_nil m).
  { rewrite mtry_snd, s_client_transaction_snd. unfold tid_or_nil. destruct (tid_of m); reflexivity. }
  pose proof (send_message_rel e host port tr m
                (fun p p' => alookup K (ps_table p) = Some f -> alookup K (ps_table p') = Some f)) as H.
  rewrite T in H. fold (resolve (e_cfg e) host) in H. fold (key_host e host) in H.
  refine (H _ _ _ _ _ _ x A).
  - intros a b c Hab Hbc Ha. exact (Hbc (Hab Ha)).
  - intros p Ap. exact (get_transport_other (now_s e) tr _ port _ p K f Ap Kp N1 N2).
  - intros p _ Ap. rewrite set_primary_other by exact N1. exact Ap.
  - intros p Ap. rewrite remove_transport_other by exact N3. exact Ap.
  - intros f0 b p cs w p' cs' w' outs ok f' EF Ap. rewrite (proj1 (failover_send_frame _ _ _ _ _ _ _ _ _ _ _ _ _ _ EF)). exact Ap.
  - intros f0 p Ap. cbn [ps_table with_table]. rewrite alookup_aset_other by exact N1. exact Ap.
Qed.

(* the look-up finds the registered connection: the message is written to it, and only to it *)
Lemma send_message_conn e host port tr m x c ex sec t :
  tid_of m = Ok t -> to_lower tr = tcp ->
  alookup (full_addr tcp (resolve (e_cfg e) host) port t) (ps_table (x_p x))
    = Some {| fo_pri := Some (PConn c ex); fo_sec := sec |} ->
  live (now_s e) ex -> conn_open (x_conns x) c = true ->
  let K := full_addr tcp (resolve (e_cfg e) host) port t in
  let x' := fst (send_message e host port tr m x) in
  let m1 := fst (mtry s_client_transaction m) in
  x_outs x' = x_outs x ++ [(DConn c, write_message m1)] /\ x_conns x' = x_conns x /\
  ps_table (x_p x') =
    (if is_final_response m
     then (let tb := adel (full_addr tcp (key_host e host) port t) (ps_table (clean_expired (now_s e) (x_p x))) in
           match alookup K tb with
           | Some _ => aset K {| fo_pri := Some (PConn c ex); fo_sec := sec |} tb
           | None => tb
           end)
     else aset K {| fo_pri := Some (PConn c ex); fo_sec := sec |} (ps_table (clean_expired (now_s e) (x_p x)))).
Proof.
  intros Ht Htr A L O K x' m1. subst x' m1. unfold send_message.
  pose proof (mtry_snd s_client_transaction m) as S. rewrite s_client_transaction_snd, Ht in S.
  pose proof (pres_try names _ P_tid m) as K1.
  destruct (mtry s_client_transaction m) as [m1 tid]. cbn [fst snd] in S, K1 |- *. subst tid. cbn [opt_res].
  fold (resolve (e_cfg e) host). fold (key_host e host).
  pose proof (clean_expired_keep (now_s e) (x_p x) K _ A (keepable_conn (now_s e) c ex sec L)) as C.
  rewrite (get_transport_found (now_s e) tr (resolve (e_cfg e) host) port t (x_p x) {| fo_pri := Some (PConn c ex); fo_sec := sec |});
    [|rewrite Htr; reflexivity|rewrite Htr; exact C].
  rewrite Htr. fold K. rewrite C. cbv iota. rewrite C.
  rewrite (k_is_final names m m1 K1).
  unfold failover_send. cbn [fo_pri].
  destruct (is_final_response m).
  - rewrite O. cbn [fst snd x_outs x_conns x_p]. split; [reflexivity|]. split; [reflexivity|].
    unfold remove_transport. rewrite Htr. change (negb (supported_proto tcp)) with false. cbv iota.
    cbn [ps_table with_table]. destruct (alookup K (adel _ _)); reflexivity.
  - rewrite O. cbn [fst snd x_outs x_conns x_p]. split; [reflexivity|]. split; [reflexivity|].
    rewrite C. reflexivity.
Qed.

(* received / rport stamping of the top Via entry *)
Definition stamp_via (rs : bool) (peer : bytes) (port : Z) (v : via_param) : via_param :=
  if rs then
    let v1 := via_set_param (s2b "received") peer v in
    if kv_has (s2b "rport") (v_params v1) then via_set_param (s2b "rport") (itoa port) v1 else v1
  else v.
Lemma stamp_via_branch rs peer port v : via_get_branch (stamp_via rs peer port v) = via_get_branch v.
Proof.
  destruct rs; [|reflexivity]. unfold stamp_via. cbv zeta. rewrite C07.stamp_eq. unfold via_get_branch.
  apply C07.stamp_other_param; intros H; vm_compute in H; discriminate H.
Qed.
Lemma top_after_stamp peer port m :
  top_via_of (fst (s_set_received peer port m)) = rmap (stamp_via true peer port) (top_via_of m).
Proof.
  rewrite !top_via_of_vals. unfold s_set_received, mbind.
  pose proof (typed_get_vals (s2b "Via") pv parse_via HVia m pv_inj) as G.
  pose proof (typed_get_snd (s2b "Via") pv parse_via HVia m) as S.
  change (typed_get (s2b "Via") pv parse_via HVia) with s_get_via in G, S.
  unfold via_vals, top_of_vals, sem_via. destruct (s_get_via m) as [m1 r]. cbn [fst snd] in G, S. subst r.
  destruct (hvals (s2b "Via") (m_headers m)) as [|v0 vs]; cbn [hd_error]; [cbn [fst]; rewrite G; reflexivity|].
  destruct (semg pv parse_via v0) as [[|v rest]| |] eqn:Ev; unfold merr, mmodify; cbn [fst rbind rmap].
  - rewrite G. reflexivity.
  - unfold set_val. cbn [m_headers with_headers]. rewrite hvals_update_same, G. reflexivity.
  - rewrite G, Ev. reflexivity.
  - rewrite G, Ev. reflexivity.
Qed.
Lemma top_after_decode m : top_via_of (fst (s_all_via_params m)) = top_via_of m.
Proof.
  rewrite !top_via_of_vals. apply top_of_vals_rel. unfold via_vals, s_all_via_params.
  pose proof (decode_vias_hrel (s2b "Via") (m_headers m) (or_introl eq_refl)) as H.
  destruct (decode_all_vias (m_headers m)) as [hs vs]. exact H.
Qed.

(* host[1:len(host)-1] of handleRawMessage *)
Definition reg_host (fx : fixes) (host0 : bytes) : res bytes :=
  if has_prefix (s2b "[") host0
  then (if (fx_bracket_host fx && negb (has_suffix (s2b "]") host0 && Nat.leb 2 (List.length host0)))%bool
        then Ok host0 else slice_chk host0 1 (List.length host0 - 1))
  else Ok host0.
Lemma reg_host_unbracket e h : reg_host (e_fx e) h = unbracket e h.
Proof. reflexivity. Qed.
Lemma reg_host_plain fx h : has_prefix (s2b "[") h = false -> reg_host fx h = Ok h.
Proof. unfold reg_host. intros ->. reflexivity. Qed.
(* the state after the registration of connection c for the transaction (host, port, t) *)
Definition reg_pure (e : env) (c : nat) (host : bytes) (pt : Z) (t : bytes) (p : pstate) : pstate :=
  set_primary (full_addr tcp host pt t) (PConn c (now_s e + 3600)) (fst (get_transport (now_s e) tcp host pt t p)).
Lemma reg_pure_reg e c host pt t p : reg_at (full_addr tcp host pt t) c (now_s e + 3600) (reg_pure e c host pt t p).
Proof.
  unfold reg_pure, reg_at. destruct (get_transport_tcp (now_s e) host pt t p) as (_ & f & A).
  exists (fo_sec f). apply set_primary_same. exact A.
Qed.
Lemma reg_pure_other e c host pt t p K f : alookup K (ps_table p) = Some f -> keepable (now_s e) f ->
  K <> full_addr tcp host pt t -> K <> full_addr tcp host pt [] ->
  alookup K (ps_table (reg_pure e c host pt t p)) = Some f.
Proof.
  intros A Kp N1 N2. unfold reg_pure. rewrite set_primary_other by exact N1.
  apply (get_transport_other (now_s e) tcp host pt t p K f A Kp N1 N2).
Qed.
Lemma lb_reg_pure e c host pt t p : lb_eq p (reg_pure e c host pt t p).
Proof. unfold reg_pure. eapply lb_trans; [apply lb_get_transport|apply lb_set_primary]. Qed.

(* the registration target of a TCP request: the stamping acts on the top Via only *)
Definition reg_target (fx : fixes) (rs : bool) (peer : bytes) (pport : Z) (m : message) : option (bytes * Z * bytes) :=
  match top_via_of m with
  | Ok v =>
      let sv := stamp_via rs peer pport v in
      match reg_host fx (fst (fst (hop_of_via sv))), snd (s_get_cseq m), via_get_branch v with
      | Ok host, Ok cs, Some br => Some (host, snd (fst (hop_of_via sv)), cs_method cs ++ "-"%char :: br)
      | _, _, _ => None
      end
  | _ => None
  end.
Definition reg_state (e : env) (c : nat) (rs : bool) (peer : bytes) (pport : Z) (m : message) (p : pstate) : pstate :=
  match reg_target (e_fx e) rs peer pport m with
  | Some (host, pt, t) => reg_pure e c (key_host e host) pt t p
  | None => p
  end.

Lemma register_conn_reg_pure e c host pt t p : register_conn e c host pt t p = reg_pure e c (key_host e host) pt t p.
Proof.
  unfold register_conn, reg_pure. cbv zeta. fold (resolve (e_cfg e) host). fold (key_host e host). fold tcp.
  pose proof (get_transport_tcp (now_s e) (key_host e host) pt t p) as [GK _].
  destruct (get_transport (now_s e) tcp (key_host e host) pt t p) as [p1 rk]. cbn [fst snd] in *. subst rk. reflexivity.
Qed.
Lemma stamped_top peer pport from rs m x : is_request m = true ->
  top_via_of (stage_stamp peer pport rs (fst (stage_learn peer from m x))) = rmap (stamp_via rs peer pport) (top_via_of m).
Proof.
  intros R.
  assert (T1 : top_via_of (fst (stage_learn peer from m x)) = top_via_of m /\
               is_request (fst (stage_learn peer from m x)) = true).
  { unfold stage_learn. destruct (_ && _)%bool; [|split; [reflexivity|exact R]].
    pose proof (top_after_decode m) as T. pose proof (pres_all_via_params NP NP_names m) as K.
    destruct (s_all_via_params m) as [m' vs]. cbn [fst] in *. split; [exact T|]. rewrite (k_is_request NP m m' K). exact R. }
  destruct T1 as [T1 R1]. unfold stage_stamp. rewrite R1. cbn [andb].
  destruct rs; [rewrite top_after_stamp, T1; reflexivity|]. rewrite T1. destruct (top_via_of m); reflexivity.
Qed.
(* the connection stage on the stamped request [m2]: what it registers, read from the message as received *)
Lemma stage_conn_reg e c rs peer pport m m2 p : is_request m = true -> keeps NP m m2 ->
  top_via_of m2 = rmap (stamp_via rs peer pport) (top_via_of m) ->
  match snd (stage_conn e (Some c) m2 p) with Ok p1 => p1 = reg_state e c rs peer pport m p | _ => True end.
Proof.
  intros R K T. unfold stage_conn, reg_state, reg_target. rewrite (k_is_request NP m m2 K), R.
  destruct (run_try next_response_hop _ m2 P_hop next_response_hop_snd) as (m' & E3 & K3). rewrite E3, T.
  destruct (top_via_of m) as [v| |] eqn:TV; cbn [rmap opt_res snd]; try reflexivity. cbv zeta.
  destruct (hop_of_via (stamp_via rs peer pport v)) as [[h0 pt] tr0]. cbn [fst snd].
  rewrite <- reg_host_unbracket.
  destruct (reg_host (e_fx e) h0) as [host| |]; cbn [snd]; try exact I.
  destruct (run_try s_client_transaction tid_of m' P_tid s_client_transaction_snd) as (m'' & E4 & _). rewrite E4. cbn [snd].
  rewrite (tid_of_keeps names m2 m' K3) by in_names. unfold tid_of.
  rewrite T, (k_cseq NP m m2 K ltac:(in_names)). cbn [rmap rbind]. rewrite stamp_via_branch.
  destruct (snd (s_get_cseq m)) as [cs| |]; cbn [rbind opt_res]; try reflexivity.
  destruct (via_get_branch v) as [br|]; cbn [of_opt rbind opt_res]; try reflexivity.
  apply register_conn_reg_pure.
Qed.

(* the table half is untouched by everything that is not a transport operation *)
Lemma stb_pure_tb e t0 p m : ps_table (fst (stb_pure e t0 p m)) = ps_table p.
Proof.
  unfold stb_pure. pose proof (repinned_table _ _ (stb_sel_repinned e p m)) as T.
  destruct (stb_sel e p m) as [p1 b]. cbn [fst] in T.
  destruct (backend_send_rr_only b (fwd_bytes e t0 p m) p1) as [r B].
  destruct (backend_send b (fwd_bytes e t0 p m) p1) as [[p2 outs] ok]. cbn [fst] in B. subst p2.
  destruct ok; cbn [fst]; [|exact T].
  destruct (snd (s_get_cseq m)); exact T.
Qed.
Lemma send_to_backend_tb e m x :
  ps_table (x_p (fst (send_to_backend e m x))) = ps_table (x_p x) /\ x_conns (fst (send_to_backend e m x)) = x_conns x.
Proof.
  destruct (send_to_backend_idle e m x) as [->|(t0 & HR & FT)]; [split; reflexivity|].
  destruct (send_to_backend_spec e m x t0 HR FT) as (EP & _ & _ & EC & _). rewrite EP. split; [apply stb_pure_tb|exact EC].
Qed.

(* requests that the proxy does not relay along a Route / static route *)
Definition not_forwarded (e : env) (m : message) : Prop :=
  hvals (s2b "Route") (m_headers m) = [] /\ forall v, static_hop e m <> Ok v.
Lemma handle_message_local e from m x : is_request m = true -> not_forwarded e m ->
  ps_table (x_p (fst (handle_message e from m x))) = ps_table (x_p x) /\
  x_conns (fst (handle_message e from m x)) = x_conns x.
Proof.
  intros R [HR NS]. pose proof (handle_request_cases e from m x R) as H. cbv zeta in H.
  rewrite (hop_result_no_route e m HR) in H.
  destruct (static_hop e m) as [v| |] eqn:ES; [exfalso; exact (NS v eq_refl)| |];
    (destruct (is_my_message _ from m); [destruct H as (m' & _ & ->); apply send_to_backend_tb|rewrite H; split; reflexivity]).
Qed.
Lemma not_forwarded_keeps e from m m4 : keeps NQ m m4 ->
  (route_consumed (e_cfg e) from m -> hvals (s2b "Route") (m_headers m4) = []) ->
  not_forwarded e m -> not_forwarded e m4.
Proof.
  intros K HR4 [HR NS]. split; [apply HR4; left; exact HR|].
  intros v. rewrite (static_hop_keeps NQ e m m4 K ltac:(in_names)). apply NS.
Qed.
(* a request that is not relayed: the connections are as before, the table is as before except for
   the registration of the connection it arrived on *)
Lemma request_local e peer pport from rs tcp0 m x x' : is_request m = true -> not_forwarded e m ->
  process_message e peer pport from rs tcp0 m x = Ok x' ->
  x_conns x' = x_conns x /\
  ps_table (x_p x') = ps_table (match tcp0 with Some c => reg_state e c rs peer pport m (x_p x) | None => x_p x end).
Proof.
  intros R NF E. rewrite process_message_reach in E.
  destruct (reach e peer pport from rs tcp0 m x) as [[m5 x1]| |] eqn:ER; try discriminate. injection E as <-.
  destruct (request_stages_keep e peer pport from rs tcp0 m x m5 x1 R ER) as (m3 & K2 & SC & K5 & HR5 & EX).
  assert (R5 : is_request m5 = true) by (rewrite (k_is_request NQ m m5 K5); exact R).
  destruct (handle_message_local e from m5 x1 R5 (not_forwarded_keeps e from m m5 K5 HR5 NF)) as [H1 H2].
  rewrite H1, H2. split; [rewrite EX; reflexivity|]. f_equal.
  destruct tcp0 as [c|]; [|injection SC as _ <-; reflexivity].
  pose proof (stage_conn_reg e c rs peer pport m _ (x_p x) R K2 (stamped_top peer pport from rs m x R)) as H.
  rewrite SC in H. exact H.
Qed.

(* for any setting of the repair flag: the entry is filed under [key_host e host] *)
Lemma C12_register_gen : forall e peer pport from rs c m x x' v cs br h0 pt tr0 host,
  is_request m = true -> not_forwarded e m ->
  top_via_of m = Ok v -> snd (s_get_cseq m) = Ok cs -> via_get_branch v = Some br ->
  hop_of_via (stamp_via rs peer pport v) = (h0, pt, tr0) -> reg_host (e_fx e) h0 = Ok host ->
  process_message e peer pport from rs (Some c) m x = Ok x' ->
  let K := full_addr tcp (key_host e host) pt (cs_method cs ++ "-"%char :: br) in
  reg_at K c (now_s e + 3600) (x_p x') /\ x_conns x' = x_conns x /\
  (forall K' f, alookup K' (ps_table (x_p x)) = Some f -> keepable (now_s e) f ->
                K' <> K -> K' <> full_addr tcp (key_host e host) pt [] -> alookup K' (ps_table (x_p x')) = Some f).
Proof.
  intros e peer pport from rs c m x x' v cs br h0 pt tr0 host R NF TV CS BR HOP RH E K.
  destruct (request_local e peer pport from rs (Some c) m x x' R NF E) as [EC ET].
  assert (RS : reg_state e c rs peer pport m (x_p x)
               = reg_pure e c (key_host e host) pt (cs_method cs ++ "-"%char :: br) (x_p x)).
  { unfold reg_state, reg_target. rewrite TV. cbv zeta. rewrite HOP. cbn [fst snd]. rewrite RH, CS, BR. reflexivity. }
  rewrite RS in ET. split; [|split; [exact EC|]].
  - unfold reg_at. rewrite ET. apply reg_pure_reg.
  - intros K' f A Kp N1 N2. rewrite ET. apply reg_pure_other; assumption.
Qed.
(* after the repair: filed under the RESOLVED response host, the address sendMessage looks up *)
Theorem C12_register : forall e peer pport from rs c m x x' v cs br h0 pt tr0 host,
  fx_resolved_key (e_fx e) = true ->
  is_request m = true -> not_forwarded e m ->
  top_via_of m = Ok v -> snd (s_get_cseq m) = Ok cs -> via_get_branch v = Some br ->
  hop_of_via (stamp_via rs peer pport v) = (h0, pt, tr0) -> reg_host (e_fx e) h0 = Ok host ->
  process_message e peer pport from rs (Some c) m x = Ok x' ->
  let K := full_addr tcp (resolve (e_cfg e) host) pt (cs_method cs ++ "-"%char :: br) in
  reg_at K c (now_s e + 3600) (x_p x') /\ x_conns x' = x_conns x /\
  (* every other entry is as it was *)
  (forall K' f, alookup K' (ps_table (x_p x)) = Some f -> keepable (now_s e) f ->
                K' <> K -> K' <> full_addr tcp (resolve (e_cfg e) host) pt [] ->
                alookup K' (ps_table (x_p x')) = Some f).
Proof.
  intros e peer pport from rs c m x x' v cs br h0 pt tr0 host FX R NF TV CS BR HOP RH E.
  rewrite <- (key_host_fixed e host FX).
  exact (C12_register_gen e peer pport from rs c m x x' v cs br h0 pt tr0 host R NF TV CS BR HOP RH E).
Qed.

(* the transaction id sendMessage computes for a response: CSeq method and the branch of the Via
   entry that is on top once the proxy's own entry is popped *)
Definition resp_tid_of (m : message) : res bytes :=
  let! c := snd (s_get_cseq m) in
  let! v := next_top m in
  let! b := of_opt (via_get_branch v) in
  Ok (cs_method c ++ "-"%char :: b).
Lemma tid_of_popped m : tid_of (fst (s_pop_via m)) = resp_tid_of m.
Proof.
  unfold tid_of, resp_tid_of, next_top.
  rewrite (k_cseq NP m _ (pres_pop_via NP NP_novia m) ltac:(in_names)). reflexivity.
Qed.
Lemma resp_tid_of_keeps N m m' : keeps N m m' -> In (s2b "CSeq") N -> In (s2b "Via") N ->
  resp_tid_of m' = resp_tid_of m.
Proof.
  intros K H1 H2. unfold resp_tid_of. rewrite (k_cseq N m m' K H1), (next_top_keeps N m m' K H2). reflexivity.
Qed.

Lemma process_message_relayed e peer port from rs tcp0 m x : is_request m = false ->
  exists m4, tid_of m4 = resp_tid_of m /\ is_final_response m4 = is_final_response m /\
    process_message e peer port from rs tcp0 m x =
    Ok (match relay_hop m with
        | Ok (h, pt, tr) => fst (send_message e h pt tr m4 (ctx_with x (x_learned x) (resp_pure e peer port (x_p x) m)))
        | _ => ctx_with x (x_learned x) (resp_pure e peer port (x_p x) m)
        end).
Proof.
  intros R. destruct (process_message_response_exact e peer port from rs tcp0 m x R) as (m5 & m4 & K5 & K4 & EQ).
  exists m4. split; [|split; [|exact EQ]].
  - rewrite (tid_of_keeps names _ m4 K4) by in_names. rewrite tid_of_popped. apply (resp_tid_of_keeps NR m m5 K5); in_names.
  - rewrite (k_is_final names _ m4 K4), (k_is_final NP m5 _ (pres_pop_via NP NP_novia m5)). apply (k_is_final NR m m5 K5).
Qed.

(* a relayed response whose key is registered to an open connection is written to that connection; the key is read off
   the message by [relay_hop] and [resp_tid_of] *)
Lemma relayed_on_conn e peer pport from rs tcp0 m x h pt tr t c ex :
  is_request m = false -> relay_hop m = Ok (h, pt, tr) -> to_lower tr = tcp -> resp_tid_of m = Ok t ->
  let K := full_addr tcp (resolve (e_cfg e) h) pt t in
  reg_at K c ex (x_p x) -> live (now_s e) ex -> conn_open (x_conns x) c = true ->
  exists x' b, process_message e peer pport from rs tcp0 m x = Ok x' /\
    x_outs x' = x_outs x ++ [(DConn c, b)] /\ x_conns x' = x_conns x /\
    (is_final_response m = false -> reg_at K c ex (x_p x')) /\
    (is_final_response m = true -> fx_resolved_key (e_fx e) = true -> alookup K (ps_table (x_p x')) = None).
Proof.
  intros R RH TR RT K [sec A] L O.
  destruct (process_message_relayed e peer pport from rs tcp0 m x R) as (m4 & F2 & F3 & EQ).
  rewrite RH in EQ. rewrite RT in F2.
  set (X := ctx_with x (x_learned x) (resp_pure e peer pport (x_p x) m)) in *.
  assert (A' : alookup K (ps_table (x_p X)) = Some {| fo_pri := Some (PConn c ex); fo_sec := sec |}).
  { subst X. unfold ctx_with. cbn [x_p]. rewrite (repinned_table _ _ (resp_pure_repinned e peer pport (x_p x) m)). exact A. }
  destruct (send_message_conn e h pt tr m4 X c ex sec t F2 TR A' L O) as (O1 & O2 & O3).
  eexists. eexists. split; [exact EQ|]. split; [exact O1|]. split; [exact O2|]. rewrite F3 in O3. fold K in O3. split.
  - intros NF. rewrite NF in O3. exists sec. rewrite O3. apply alookup_aset_same.
  - intros FI FX. rewrite FI in O3. rewrite O3. cbv zeta. subst K. rewrite (key_host_fixed e h FX).
    rewrite alookup_adel_same. apply alookup_adel_same.
Qed.

Theorem C12_lookup : forall e peer pport from rs tcp0 m x v host pt tr cs br c ex,
  is_request m = false ->
  next_top m = Ok v -> hop_of_via v = (host, pt, tr) -> to_lower tr = tcp ->
  snd (s_get_cseq m) = Ok cs -> via_get_branch v = Some br ->
  let K := full_addr tcp (resolve (e_cfg e) host) pt (cs_method cs ++ "-"%char :: br) in
  reg_at K c ex (x_p x) -> live (now_s e) ex -> conn_open (x_conns x) c = true ->
  exists x' b, process_message e peer pport from rs tcp0 m x = Ok x' /\
    (* written to c and to nothing else *)
    x_outs x' = x_outs x ++ [(DConn c, b)] /\ x_conns x' = x_conns x /\
    (* a provisional response leaves the entry in place *)
    (is_final_response m = false -> reg_at K c ex (x_p x')) /\
    (* a final response consumes it, AFTER having been sent through it *)
    (is_final_response m = true -> fx_resolved_key (e_fx e) = true -> alookup K (ps_table (x_p x')) = None).
Proof.
  intros e peer pport from rs tcp0 m x v host pt tr cs br c ex R NT HOP TR CS BR.
  assert (RH : relay_hop m = Ok (host, pt, tr)) by (unfold relay_hop; rewrite NT; cbn [rmap]; rewrite HOP; reflexivity).
  assert (RT : resp_tid_of m = Ok (cs_method cs ++ "-"%char :: br))
    by (unfold resp_tid_of; rewrite CS, NT; cbn [rbind]; rewrite BR; reflexivity).
  exact (relayed_on_conn e peer pport from rs tcp0 m x host pt tr _ c ex R RH TR RT).
Qed.

(* provisional and final responses alike are written to the registered connection: the look-up
   precedes the removal, the entry object already fetched is used for the send *)
Corollary C12_until_final : forall e peer pport from rs tcp0 m x v host pt tr cs br c ex,
  is_request m = false ->
  next_top m = Ok v -> hop_of_via v = (host, pt, tr) -> to_lower tr = tcp ->
  snd (s_get_cseq m) = Ok cs -> via_get_branch v = Some br ->
  reg_at (full_addr tcp (resolve (e_cfg e) host) pt (cs_method cs ++ "-"%char :: br)) c ex (x_p x) ->
  live (now_s e) ex -> conn_open (x_conns x) c = true ->
  exists x' b, process_message e peer pport from rs tcp0 m x = Ok x' /\ x_outs x' = x_outs x ++ [(DConn c, b)].
Proof.
  intros e peer pport from rs tcp0 m x v host pt tr cs br c ex R NT HOP TR CS BR RA L O.
  destruct (C12_lookup e peer pport from rs tcp0 m x v host pt tr cs br c ex R NT HOP TR CS BR RA L O)
    as (x' & b & E & O1 & _). exists x', b. split; assumption.
Qed.

(* connections are never closed by message processing (only by EvTcpClose and by a decode error
   on the connection itself) *)
Lemma send_message_mono e host port tr m x c0 : conn_open (x_conns x) c0 = true ->
  conn_open (x_conns (fst (send_message e host port tr m x))) c0 = true.
Proof.
  intros H.
  destruct (send_message_io e host port tr m x) as (_ & [(-> & _)|(f & p3 & p4 & outs & ok & f' & EF & _)]).
  - exact H.
  - exact (proj2 (failover_send_frame _ _ _ _ _ _ _ _ _ _ _ _ _ _ EF) c0 H).
Qed.
Lemma process_message_mono e peer pport from rs tcp0 m x x' c0 :
  process_message e peer pport from rs tcp0 m x = Ok x' ->
  conn_open (x_conns x) c0 = true -> conn_open (x_conns x') c0 = true.
Proof.
  apply (process_message_rel (fun y y' => conn_open (x_conns y) c0 = true -> conn_open (x_conns y') c0 = true)).
  - intros y H. exact H.
  - intros y1 y2 y3 H12 H23 H. exact (H23 (H12 H)).
  - intros h p t m1 y. apply send_message_mono.
  - intros m1 y H. rewrite (proj2 (send_to_backend_tb e m1 y)). exact H.
  - intros y l pins H. exact H.
  - intros y c h pt t H. exact H.
Qed.
Lemma conn_open_close_other c' cs c : c' <> c -> conn_open (close_conn c' cs) c = conn_open cs c.
Proof.
  intros NE. unfold conn_open. induction cs as [|a r IH]; cbn [close_conn]; [reflexivity|].
  destruct (Nat.eqb_spec (cn_id a) c') as [E|E]; cbn [existsb].
  - cbn [cn_id cn_open]. destruct (Nat.eqb_spec (cn_id a) c) as [E2|E2]; [congruence|reflexivity].
  - rewrite IH. reflexivity.
Qed.

Section Held.
  Variables (li : nat) (K : bytes) (c : nat) (ex : Z).
  (* listener li still maps K to connection c, and c is open *)
  Definition held_x (x : ctx) : Prop := reg_at K c ex (x_p x) /\ conn_open (x_conns x) c = true.
  Definition held (st : state) : Prop :=
    (exists p, nth_p (st_proxies st) li = Some p /\ reg_at K c ex p) /\ conn_open (st_conns st) c = true.

  (* the keys a relayed response touches: look-up (resolved host), connection-level, removal
     ([key_host]: the look-up key again after the repair, the host as written before it) *)
  Definition send_keys (e : env) (m : message) : option (bytes * bytes * bytes) :=
    match relay_hop m with
    | Ok (h, pt, tr) =>
        let t := match resp_tid_of m with Ok t => t | _ => [] end in
        Some (full_addr (to_lower tr) (resolve (e_cfg e) h) pt t, full_addr (to_lower tr) (resolve (e_cfg e) h) pt [],
              full_addr (to_lower tr) (key_host e h) pt t)
    | _ => None
    end.
  Definition own_provisional (cf : cfg) (m : message) : Prop :=
    is_final_response m = false /\
    exists h pt tr t, relay_hop m = Ok (h, pt, tr) /\ to_lower tr = tcp /\ resp_tid_of m = Ok t /\
                      K = full_addr tcp (resolve cf h) pt t.
  (* [msg_away]: processing m does not disturb the entry K *)
  Definition msg_away (e : env) (rs : bool) (peer : bytes) (pport : Z) (tcp0 : option nat) (m : message) : Prop :=
    if is_request m then
      not_forwarded e m /\
      match tcp0 with
      | Some _ => match reg_target (e_fx e) rs peer pport m with
                  | Some (host, pt, t) =>
                      K <> full_addr tcp (key_host e host) pt t /\ K <> full_addr tcp (key_host e host) pt []
                  | None => True
                  end
      | None => True
      end
    else
      match send_keys e m with
      | Some (Ks, As, Kd) => (K <> Ks /\ K <> As /\ K <> Kd) \/ own_provisional (e_cfg e) m
      | None => True
      end.

  Lemma held_message e peer pport from rs tcp0 m x x' :
    process_message e peer pport from rs tcp0 m x = Ok x' -> live (now_s e) ex ->
    msg_away e rs peer pport tcp0 m -> held_x x -> held_x x'.
  Proof.
    intros E L AW [[sec A] O]. unfold msg_away in AW. destruct (is_request m) eqn:R.
    - destruct AW as [NF AW].
      destruct (request_local e peer pport from rs tcp0 m x x' R NF E) as [EC ET].
      split; [|rewrite EC; exact O]. exists sec. rewrite ET.
      destruct tcp0 as [c'|]; [|exact A]. unfold reg_state.
      destruct (reg_target (e_fx e) rs peer pport m) as [[[host pt] t]|]; [|exact A].
      destruct AW as [N1 N2]. apply reg_pure_other; [exact A|apply keepable_conn; exact L|exact N1|exact N2].
    - destruct (process_message_relayed e peer pport from rs tcp0 m x R) as (m4 & F2 & _ & EQ).
      set (X := ctx_with x (x_learned x) (resp_pure e peer pport (x_p x) m)) in *.
      assert (AX : alookup K (ps_table (x_p X)) = Some {| fo_pri := Some (PConn c ex); fo_sec := sec |})
        by (subst X; unfold ctx_with; cbn [x_p]; rewrite (repinned_table _ _ (resp_pure_repinned e peer pport (x_p x) m)); exact A).
      unfold send_keys in AW. destruct (relay_hop m) as [[[h pt] tr]| |] eqn:RH;
        [|rewrite E in EQ; injection EQ as ->; split; [exists sec; exact AX|exact O]..].
      cbv zeta in AW. destruct AW as [(N1 & N2 & N3)|(NF & h' & pt' & tr' & t & RH' & TR & RT & EK)].
      + (* other keys: sendMessage leaves the entry alone *)
        rewrite E in EQ. injection EQ as ->.
        assert (TN : tid_or_nil m4 = match resp_tid_of m with Ok t => t | _ => [] end)
          by (unfold tid_or_nil; rewrite F2; reflexivity).
        rewrite <- TN in N1, N3.
        split; [exists sec|apply send_message_mono; exact O].
        exact (send_message_other e h pt tr m4 X K _ AX (keepable_conn (now_s e) c ex sec L) N1 N2 N3).
      + (* a provisional response of the transaction itself: relayed on c, the entry stays *)
        rewrite RH in RH'. injection RH' as <- <- <-.
        assert (RA : reg_at (full_addr tcp (resolve (e_cfg e) h) pt t) c ex (x_p x)) by (rewrite <- EK; exists sec; exact A).
        destruct (relayed_on_conn e peer pport from rs tcp0 m x h pt tr t c ex R RH TR RT RA L O) as (x2 & b & E2 & _ & O2 & PR & _).
        rewrite E in E2. injection E2 as <-. split; [rewrite EK; apply PR; exact NF|rewrite O2; exact O].
  Qed.

  (* a TCP chunk is clean when every message in it decodes (else the connection is closed) *)
  Fixpoint chunk_clean (fuel : nat) (s : bytes) : bool :=
    match fuel with
    | O => true
    | S f => match trim_left s with
             | [] => true
             | _ => match parse_message s with Ok (_, rest) => chunk_clean f rest | _ => false end
             end
    end.
  (* what every message of the chunk keeps, if it satisfies Q, the chunk keeps, provided closing its connection
     keeps it too: a chunk on connection c is clean, and a clean chunk does not close its connection *)
  Lemma tcp_messages_kept (I : ctx -> Prop) (Q : message -> Prop) e cn :
    (forall m x x', Q m -> I x ->
       process_message e (cn_peer cn) (cn_peer_port cn) (cn_from cn) (cn_received_support cn) (Some (cn_id cn)) m x = Ok x' -> I x') ->
    (cn_id cn <> c -> forall x, I x -> I (close_ctx (cn_id cn) x)) ->
    forall fuel s x x', (cn_id cn = c -> chunk_clean fuel s = true) -> Forall Q (chunk_msgs fuel s) -> I x ->
    tcp_messages fuel e cn s x = Ok x' -> I x'.
  Proof.
    intros PM CLO. induction fuel as [|f IH]; intros s x x' CL F Ix E; cbn [tcp_messages chunk_msgs chunk_clean] in E, F, CL.
    - injection E as <-. exact Ix.
    - destruct (trim_left s); [injection E as <-; exact Ix|].
      destruct (parse_message s) as [[m rest]| |];
        try (injection E as <-; apply CLO; [intros EC; discriminate (CL EC)|exact Ix]).
      inversion F as [|m0 l0 Qm F']; subst.
      destruct (process_message e (cn_peer cn) (cn_peer_port cn) (cn_from cn) (cn_received_support cn) (Some (cn_id cn)) m x)
        as [x1| |] eqn:E1; try discriminate.
      exact (IH rest x1 x' CL F' (PM m x x1 Qm Ix E1) E).
  Qed.

  Definition ev_away (fx : fixes) (cf : cfg) (now : Z) (branch : bytes) (st : state) (ev : event) : Prop :=
    match ev with
    | EvUdp li' src sport data =>
        li' = li -> forall lc m rest, nth_opt (c_listens cf) li = Some lc -> parse_message data = Ok (m, rest) ->
          msg_away (mk_env fx cf (item_rs_of (fx_wiring fx)) li lc now branch)
                   (item_rs_of (fx_wiring fx) lc) src sport None m
    | EvTcpData cid data =>
        (cid = c -> chunk_clean (S (List.length data)) data = true) /\
        forall cn lc, find (fun x => Nat.eqb (cn_id x) cid) (st_conns st) = Some cn -> cn_li cn = li ->
          nth_opt (c_listens cf) li = Some lc ->
          Forall (msg_away (mk_env fx cf (item_rs_of (fx_wiring fx)) li lc now branch)
                           (cn_received_support cn) (cn_peer cn) (cn_peer_port cn) (Some (cn_id cn)))
                 (chunk_msgs (S (List.length data)) data)
    | EvTcpAccept li' src sport => li' = li -> K <> full_addr tcp src sport []
    | EvTcpClose cid => cid <> c
    | EvBackendAdd _ _ => True
    | EvBackendRemove _ _ => True
    end.
End Held.

Section Held2.
  Variables (li : nat) (K : bytes) (c : nat) (ex : Z).
  Theorem C12_preserved : forall fx cf now branch st ev st' outs,
    proxy_step fx cf now branch st ev = Ok (st', outs) ->
    ev_away li K c fx cf now branch st ev -> now / second <= ex ->
    held li K c ex st -> held li K c ex st'.
  Proof.
    intros fx cf now branch st ev st' outs E OK L [Q O].
    destruct ev as [li' src sport data|li' src sport|cid data|cid|li' a|li' a]; cbn [ev_away] in OK.
    - apply proxy_step_udp_inv in E.
      destruct E as [(-> & _)|(lc & m & rest & p & x' & NL & EP & N & E & -> & _)]; [split; assumption|].
      split; [|exact (process_message_mono _ _ _ _ _ _ _ _ _ c E O)].
      apply (at_li_ctx_state li (reg_at K c ex)); [exact Q|]. intros ->.
      exact (proj1 (held_message K c ex _ _ _ _ _ _ m _ x' E L (OK eq_refl lc m rest NL EP) (conj (at_li_nth _ _ _ _ Q N) O))).
    - (* accept: the connection-level key it files is another key *)
      destruct (proxy_step_accept_inv _ _ _ _ _ _ _ _ _ _ E) as [->|(p0 & cn & N0 & EC & EP)]; [split; assumption|].
      split; [|rewrite EC; apply conn_open_app; exact O].
      eapply (at_li_set li (reg_at K c ex)); [exact Q|exact EP|]. intros ->.
      destruct (at_li_nth _ _ _ _ Q N0) as [sec A]. exists sec.
      pose proof (get_transport_other (now / second) (s2b "tcp") src sport [] p0 K _ A (keepable_conn _ c ex sec L)
                    (OK eq_refl) (OK eq_refl)) as FR.
      destruct (snd (get_transport _ _ _ _ _ p0)) as [key| |] eqn:GK; try exact FR.
      rewrite set_primary_other; [exact FR|]. rewrite (get_transport_key _ _ _ _ _ _ key GK). apply (OK eq_refl).
    - destruct OK as [CL AW]. apply proxy_step_tcp_inv in E.
      destruct E as [(-> & _)|(cn & lc & p & x' & F & ID & _ & NL & N & E & -> & _)]; [split; assumption|].
      assert (CL' : cn_id cn = c -> chunk_clean (S (List.length data)) data = true) by (intros H; apply CL; congruence).
      assert (CLO : forall y, cn_id cn <> c -> conn_open (x_conns y) c = true ->
                              conn_open (x_conns (close_ctx (cn_id cn) y)) c = true)
        by (intros y NE H; cbn [x_conns close_ctx]; rewrite conn_open_close_other; assumption).
      split.
      + apply (at_li_ctx_state li (reg_at K c ex)); [exact Q|]. intros ELI. rewrite ELI in N, NL, E.
        refine (proj1 (tcp_messages_kept c (held_x K c ex) _ _ cn _ _ _ _ (start_ctx st p) x' CL'
                         (AW cn lc F ELI NL) (conj (at_li_nth _ _ _ _ Q N) O) E)).
        * intros m y y' AWm Hy Ey. exact (held_message K c ex _ _ _ _ _ _ m y y' Ey L AWm Hy).
        * intros NE y [RA Oy]. split; [exact RA|exact (CLO y NE Oy)].
      + refine (tcp_messages_kept c (fun y => conn_open (x_conns y) c = true) (fun _ => True) _ cn _ _ _ _ (start_ctx st p) x' CL'
                  _ O E).
        * intros m y y' _ Oy Ey. exact (process_message_mono _ _ _ _ _ _ _ _ _ c Ey Oy).
        * intros NE y Oy. exact (CLO y NE Oy).
        * apply Forall_forall. intros m _. exact I.
    - cbn [proxy_step] in E. injection E as <- _. split; [exact Q|]. cbn [st_conns].
      rewrite conn_open_close_other; [exact O|exact OK].
    - (* backend added or removed: the table is not touched *)
      cbn [proxy_step] in E.
      destruct (nth_p (st_proxies st) li') as [p0|] eqn:N0; [|injection E as <- _; split; assumption].
      injection E as <- _. split; [|exact O].
      eapply (at_li_set li (reg_at K c ex)); [exact Q|reflexivity|]. intros ->. exact (at_li_nth _ _ _ _ Q N0).
    - cbn [proxy_step] in E.
      destruct (nth_p (st_proxies st) li') as [p0|] eqn:N0; [|injection E as <- _; split; assumption].
      destruct (rr_remove a (ps_rr p0)) as [r' closed]. injection E as <- _. split; [|exact O].
      eapply (at_li_set li (reg_at K c ex)); [exact Q|reflexivity|]. intros ->. exact (at_li_nth _ _ _ _ Q N0).
  Qed.

  (* [hist_away st h]: no event of h disturbs the entry, each judged in the state it meets *)
  Fixpoint hist_away (fx : fixes) (cf : cfg) (st : state) (h : hist) : Prop :=
    match h with
    | [] => True
    | (now, br, ev) :: r =>
        now / second <= ex /\ ev_away li K c fx cf now br st ev /\
        match proxy_step fx cf now br st ev with
        | Ok (st1, _) => hist_away fx cf st1 r
        | _ => True
        end
    end.
  Theorem C12_preserved_history : forall fx cf h st st' outss,
    run fx cf st h = Ok (st', outss) -> hist_away fx cf st h -> held li K c ex st -> held li K c ex st'.
  Proof.
    intros fx cf. induction h as [|[[now br] ev] r IH]; intros st st' outss E F Q; cbn [run] in E.
    - injection E as <- _. exact Q.
    - cbn [hist_away] in F. destruct F as (L & AW & F).
      destruct (proxy_step fx cf now br st ev) as [[st1 o]| |] eqn:E1; cbn [rbind] in E; try discriminate.
      destruct (run fx cf st1 r) as [[st2 os]| |] eqn:E2; cbn [rbind] in E; try discriminate.
      injection E as <- _. eapply IH; [exact E2|exact F|]. eapply C12_preserved; eassumption.
  Qed.
End Held2.

Lemma chunk_clean_single data m rest : parse_message data = Ok (m, rest) -> trim_left rest = [] ->
  chunk_clean (S (List.length data)) data = true.
Proof.
  intros EP TR. cbn [chunk_clean]. destruct (trim_left data); [reflexivity|]. rewrite EP.
  destruct (List.length data); cbn [chunk_clean]; [reflexivity|]. rewrite TR. reflexivity.
Qed.
Lemma find_conn_open cs c cn : find (fun x => Nat.eqb (cn_id x) c) cs = Some cn -> cn_open cn = true ->
  conn_open cs c = true.
Proof.
  intros F O. apply find_some in F. destruct F as [HI HE]. unfold conn_open. apply existsb_exists.
  exists cn. split; [exact HI|]. rewrite HE, O. reflexivity.
Qed.

(* request on connection c ... any interleaving ... response *)
Theorem C12_same_connection : forall cf li lc h1 tq bq c dataq h2 tr br peer pport datar st0 stf outss
    st1 o1 cn pq mq restq mr restr v cs brq h0 pt tr0 host v2 host2 trr cs2,
  nth_opt (c_listens cf) li = Some lc ->
  run all_fixed cf st0 (h1 ++ (tq, bq, EvTcpData c dataq) :: h2 ++ [(tr, br, EvUdp li peer pport datar)]) = Ok (stf, outss) ->
  run all_fixed cf st0 h1 = Ok (st1, o1) ->
  (* c is an open connection of listener li *)
  find (fun x => Nat.eqb (cn_id x) c) (st_conns st1) = Some cn -> cn_open cn = true -> cn_li cn = li ->
  nth_p (st_proxies st1) li = Some pq ->
  (* the request: one complete message, not relayed along a Route / static route *)
  parse_message dataq = Ok (mq, restq) -> trim_left restq = [] ->
  is_request mq = true -> not_forwarded (mk_env all_fixed cf (item_rs_of true) li lc tq bq) mq ->
  top_via_of mq = Ok v -> snd (s_get_cseq mq) = Ok cs -> via_get_branch v = Some brq ->
  hop_of_via (stamp_via (cn_received_support cn) (cn_peer cn) (cn_peer_port cn) v) = (h0, pt, tr0) ->
  reg_host all_fixed h0 = Ok host ->
  (* the entry is filed under the RESOLVED response host *)
  let K := full_addr tcp (resolve cf host) pt (cs_method cs ++ "-"%char :: brq) in
  let ex := tq / second + 3600 in
  (* in between: nothing that touches K except provisional responses of the transaction itself;
     c is not closed; less than 3600 s *)
  (forall st2 oq, proxy_step all_fixed cf tq bq st1 (EvTcpData c dataq) = Ok (st2, oq) ->
                  hist_away li K c ex all_fixed cf st2 h2) ->
  (* the response: the client's Via entry under the proxy's: a response host that resolves to the
     same address (in particular the same text), same port, same branch, same CSeq method *)
  parse_message datar = Ok (mr, restr) -> is_request mr = false ->
  next_top mr = Ok v2 -> hop_of_via v2 = (host2, pt, trr) -> to_lower trr = tcp ->
  snd (s_get_cseq mr) = Ok cs2 -> cs_method cs2 = cs_method cs -> via_get_branch v2 = Some brq ->
  resolve cf host2 = resolve cf host -> tr / second <= ex ->
  exists b, last outss [] = [(DConn c, b)].
Proof.
  intros cf li lc h1 tq bq c dataq h2 tr br peer pport datar st0 stf outss st1 o1 cn pq mq restq mr restr
         v cs brq h0 pt tr0 host v2 host2 trr cs2
         NL E E1 EFD CO CLI NP EPq TRq Rq NF TV CS BR HOP RH K ex HA EPr Rr NT HOP2 TR2 CS2 CM BR2 RS LR.
  rewrite run_app, E1 in E. cbn [rbind run] in E.
  destruct (proxy_step all_fixed cf tq bq st1 (EvTcpData c dataq)) as [[st2 oq]| |] eqn:E2; cbn [rbind] in E; try discriminate.
  rewrite run_app in E.
  destruct (run all_fixed cf st2 h2) as [[st3 o3]| |] eqn:E3; cbn [rbind run] in E; try discriminate.
  destruct (proxy_step all_fixed cf tr br st3 (EvUdp li peer pport datar)) as [[st4 outs]| |] eqn:E4; cbn [rbind] in E; try discriminate.
  injection E as _ <-.
  assert (ID : cn_id cn = c) by (apply find_some in EFD; destruct EFD as [_ H]; apply Nat.eqb_eq; exact H).
  assert (Q2 : held li K c ex st2).
  { subst li.
    destruct (proxy_step_tcp_single _ _ _ _ _ _ cn lc pq dataq mq restq _ _ EFD CO NL NP EPq TRq E2) as (x' & ET & -> & _).
    destruct (C12_register (listener_env all_fixed cf tq bq (cn_li cn) lc) _ _ _ _ _ mq _ x' v cs brq h0 pt tr0 host eq_refl Rq NF TV CS BR
                           HOP RH ET) as (RA & EC & _).
    split.
    - exists (x_p x'). split; [exact (Pipeline.nth_set_same _ _ _ _ NP)|]. rewrite ID in RA. exact RA.
    - cbn [st_conns ctx_state]. rewrite EC. apply (find_conn_open (st_conns st1) c cn EFD CO). }
  assert (Q3 : held li K c ex st3) by (eapply C12_preserved_history; [exact E3|exact (HA st2 oq eq_refl)|exact Q2]).
  destruct Q3 as [(p3 & N3 & RA3) O3].
  destruct (proxy_step_udp_single _ _ _ _ _ _ lc p3 _ _ _ mr restr _ _ NL EPr N3 E4) as (x' & EQ' & _ & ->).
  destruct (C12_lookup (listener_env all_fixed cf tr br li lc) peer pport (udp_transport lc)
                       (e_item_rs (listener_env all_fixed cf tr br li lc)) None mr (start_ctx st3 p3)
                       v2 host2 pt trr cs2 brq c ex Rr NT HOP2 TR2 CS2 BR2) as (x2 & b & EQ & O1 & _).
  - change (e_cfg (listener_env all_fixed cf tr br li lc)) with cf. rewrite RS, CM. exact RA3.
  - exact LR.
  - exact O3.
  - rewrite EQ in EQ'. injection EQ' as <-. exists b. rewrite app_comm_cons, app_assoc, last_last, O1. reflexivity.
Qed.

(* executable versions of the hypotheses (for concrete histories and for judges) *)
Definition not_forwarded_b (e : env) (m : message) : bool :=
  match hvals (s2b "Route") (m_headers m) with [] => true | _ => false end &&
  match static_hop e m with Ok _ => false | _ => true end.
Definition own_provisional_b (K : bytes) (cf : cfg) (m : message) : bool :=
  negb (is_final_response m) &&
  match relay_hop m, resp_tid_of m with
  | Ok (h, pt, tr), Ok t => beq (to_lower tr) tcp && beq K (full_addr tcp (resolve cf h) pt t)
  | _, _ => false
  end.
Definition msg_away_b (K : bytes) (e : env) (rs : bool) (peer : bytes) (pport : Z) (tcp0 : option nat) (m : message) : bool :=
  if is_request m then
    not_forwarded_b e m &&
    match tcp0 with
    | Some _ => match reg_target (e_fx e) rs peer pport m with
                | Some (host, pt, t) => negb (beq K (full_addr tcp (key_host e host) pt t)) &&
                                        negb (beq K (full_addr tcp (key_host e host) pt []))
                | None => true
                end
    | None => true
    end
  else
    match send_keys e m with
    | Some (Ks, As, Kd) => (negb (beq K Ks) && negb (beq K As) && negb (beq K Kd)) || own_provisional_b K (e_cfg e) m
    | None => true
    end.
Lemma msg_away_b_sound K e rs peer pport tcp0 m :
  msg_away_b K e rs peer pport tcp0 m = true -> msg_away K e rs peer pport tcp0 m.
Proof.
  unfold msg_away_b, msg_away. destruct (is_request m).
  - intros H. apply andb_true_iff in H. destruct H as [H1 H2]. split.
    + unfold not_forwarded_b in H1. apply andb_true_iff in H1. destruct H1 as [A B]. split.
      * destruct (hvals _ _); [reflexivity|discriminate].
      * intros v Hv. rewrite Hv in B. discriminate.
    + destruct tcp0; [|exact I]. destruct (reg_target (e_fx e) rs peer pport m) as [[[host pt] t]|]; [|exact I].
      apply andb_true_iff in H2. destruct H2 as [A B]. split; apply negb_beq_neq; assumption.
  - intros H. destruct (send_keys e m) as [[[Ks As] Kd]|]; [|exact I].
    apply orb_true_iff in H. destruct H as [H|H].
    + left. apply andb_true_iff in H. destruct H as [H C]. apply andb_true_iff in H. destruct H as [A B].
      repeat split; apply negb_beq_neq; assumption.
    + right. unfold own_provisional_b in H. apply andb_true_iff in H. destruct H as [A B].
      split; [apply negb_true_iff; exact A|].
      destruct (relay_hop m) as [[[h pt] tr]| |] eqn:RH; try discriminate.
      destruct (resp_tid_of m) as [t| |] eqn:RT; try discriminate.
      apply andb_true_iff in B. destruct B as [B1 B2]. exists h, pt, tr, t.
      split; [reflexivity|]. split; [apply beq_eq; exact B1|]. split; [reflexivity|apply beq_eq; exact B2].
Qed.
Definition ev_away_b (li : nat) (K : bytes) (c : nat) (fx : fixes) (cf : cfg) (now : Z) (branch : bytes)
           (st : state) (ev : event) : bool :=
  match ev with
  | EvUdp li' src sport data =>
      negb (Nat.eqb li' li) ||
      match nth_opt (c_listens cf) li, parse_message data with
      | Some lc, Ok (m, _) => msg_away_b K (mk_env fx cf (item_rs_of (fx_wiring fx)) li lc now branch)
                                         (item_rs_of (fx_wiring fx) lc) src sport None m
      | _, _ => true
      end
  | EvTcpData cid data =>
      (negb (Nat.eqb cid c) || chunk_clean (S (List.length data)) data) &&
      match find (fun x => Nat.eqb (cn_id x) cid) (st_conns st) with
      | Some cn =>
          negb (Nat.eqb (cn_li cn) li) ||
          match nth_opt (c_listens cf) li with
          | Some lc => forallb (msg_away_b K (mk_env fx cf (item_rs_of (fx_wiring fx)) li lc now branch)
                                           (cn_received_support cn) (cn_peer cn) (cn_peer_port cn) (Some (cn_id cn)))
                               (chunk_msgs (S (List.length data)) data)
          | None => true
          end
      | None => true
      end
  | EvTcpAccept li' src sport => negb (Nat.eqb li' li) || negb (beq K (full_addr tcp src sport []))
  | EvTcpClose cid => negb (Nat.eqb cid c)
  | EvBackendAdd _ _ => true
  | EvBackendRemove _ _ => true
  end.
Lemma ev_away_b_sound li K c fx cf now branch st ev :
  ev_away_b li K c fx cf now branch st ev = true -> ev_away li K c fx cf now branch st ev.
Proof.
  destruct ev as [li' src sport data|li' src sport|cid data|cid|li' a|li' a]; cbn [ev_away_b ev_away]; intros H; try exact I.
  - intros -> lc m rest NL EP. rewrite Nat.eqb_refl, NL, EP in H. cbn [negb orb] in H. apply msg_away_b_sound. exact H.
  - intros ->. rewrite Nat.eqb_refl in H. apply negb_beq_neq. exact H.
  - apply andb_true_iff in H. destruct H as [H1 H2]. split.
    + intros ->. rewrite Nat.eqb_refl in H1. exact H1.
    + intros cn lc EFD ELI NL. rewrite EFD, ELI, Nat.eqb_refl, NL in H2. cbn [negb orb] in H2.
      apply Forall_forall. intros m Hm. apply msg_away_b_sound. rewrite forallb_forall in H2. apply H2. exact Hm.
  - intros ->. rewrite Nat.eqb_refl in H. discriminate.
Qed.
Fixpoint hist_away_b (li : nat) (K : bytes) (c : nat) (ex : Z) (fx : fixes) (cf : cfg) (st : state) (h : hist) : bool :=
  match h with
  | [] => true
  | (now, br, ev) :: r =>
      Z.leb (now / second) ex && ev_away_b li K c fx cf now br st ev &&
      match proxy_step fx cf now br st ev with
      | Ok (st1, _) => hist_away_b li K c ex fx cf st1 r
      | _ => true
      end
  end.
Lemma hist_away_b_sound li K c ex fx cf h : forall st,
  hist_away_b li K c ex fx cf st h = true -> hist_away li K c ex fx cf st h.
Proof.
  induction h as [|[[now br] ev] r IH]; intros st H; cbn [hist_away_b hist_away] in *; [exact I|].
  apply andb_true_iff in H. destruct H as [H H3]. apply andb_true_iff in H. destruct H as [H1 H2].
  split; [apply Z.leb_le; exact H1|]. split; [apply ev_away_b_sound; exact H2|].
  destruct (proxy_step fx cf now br st ev) as [[st1 o]| |]; [apply IH; exact H3|exact I|exact I].
Qed.

(* two connections from the same peer ip, the same Via sent-by, different branches; requests and
   responses (180 then 200) interleaved and reordered across the connections *)
Definition x_lc (nr : bool) : listen_cfg :=
  {| lc_addr := s2b "10.0.0.1"; lc_udp := 5060; lc_tcp := 5060;
     lc_backends := [s2b "10.0.0.11:5070"];
     lc_dynamic := false; lc_no_received := nr; lc_def_route := false; lc_must_rr := false |}.
Definition x_cfg (nr : bool) (hosts : list (bytes * bytes)) : cfg :=
  {| c_name := s2b "sip.example.com"; c_keep_next_hop := false; c_dialog_timeout := 1800;
     c_routes := []; c_hosts := hosts; c_listens := [x_lc nr] |}.
Definition x_invite (branch callid : string) : bytes := sip [
  "INVITE sip:bob@sip.example.com SIP/2.0";
  ("Via: SIP/2.0/TCP client.example:5060;branch=" ++ branch)%string;
  "From: <sip:alice@client.example>;tag=a-1";
  "To: <sip:bob@sip.example.com>";
  ("Call-ID: " ++ callid)%string;
  "CSeq: 1 INVITE";
  "Content-Length: 0"]%string.
Definition x_resp (status pxbranch branch callid recv : string) : bytes := sip [
  ("SIP/2.0 " ++ status)%string;
  ("Via: SIP/2.0/UDP 10.0.0.1:5060;branch=" ++ pxbranch)%string;
  ("Via: SIP/2.0/TCP client.example:5060;branch=" ++ branch ++ recv)%string;
  "From: <sip:alice@client.example>;tag=a-1";
  "To: <sip:bob@sip.example.com>;tag=b-2";
  ("Call-ID: " ++ callid)%string;
  "CSeq: 1 INVITE";
  "Content-Length: 0"]%string.
Definition rcv : string := ";received=10.0.0.50"%string.
Definition x_h1 : hist :=
  [ (sec 1, s2b "z9hG4bKpx0", EvTcpAccept 0 (s2b "10.0.0.50") 40001);
    (sec 2, s2b "z9hG4bKpx1", EvTcpAccept 0 (s2b "10.0.0.50") 40002) ].
Definition x_h2 : hist :=
  [ (sec 4, s2b "z9hG4bKpx3", EvTcpData 1 (x_invite "z9hG4bKb" "call-b"));
    (sec 5, s2b "z9hG4bKpx4", EvUdp 0 (s2b "10.0.0.11") 5070 (x_resp "180 Ringing" "z9hG4bKpx3" "z9hG4bKb" "call-b" rcv));
    (sec 6, s2b "z9hG4bKpx5", EvUdp 0 (s2b "10.0.0.11") 5070 (x_resp "180 Ringing" "z9hG4bKpx2" "z9hG4bKa" "call-a" rcv)) ].
Definition x_req : Z * bytes * event := (sec 3, s2b "z9hG4bKpx2", EvTcpData 0 (x_invite "z9hG4bKa" "call-a")).
Definition x_fin : Z * bytes * event :=
  (sec 7, s2b "z9hG4bKpx6", EvUdp 0 (s2b "10.0.0.11") 5070 (x_resp "200 OK" "z9hG4bKpx2" "z9hG4bKa" "call-a" rcv)).
Definition x_tail : hist :=
  [ (sec 8, s2b "z9hG4bKpx7", EvUdp 0 (s2b "10.0.0.11") 5070 (x_resp "200 OK" "z9hG4bKpx3" "z9hG4bKb" "call-b" rcv));
    (sec 9, s2b "z9hG4bKpx8", EvUdp 0 (s2b "10.0.0.11") 5070 (x_resp "200 OK" "z9hG4bKpx2" "z9hG4bKa" "call-a" rcv)) ].
Definition x_hist : hist := x_h1 ++ x_req :: x_h2 ++ [x_fin] ++ x_tail.
Definition x_c0 := x_cfg false [].
Definition x_st0 : state := init_state x_c0 0 [].
Definition keys_of (r : res (state * list (list output))) : list bytes :=
  match r with
  | Ok (st, _) => match nth_p (st_proxies st) 0 with Some p => map fst (ps_table p) | None => [] end
  | _ => []
  end.
(* every response on the connection of its own request; the retransmitted 200 of the finished
   transaction goes to NO connection (the peer does not accept connections) *)
Example C12_history_ex :
  dests (run all_fixed x_c0 x_st0 x_hist) =
  [ []; []; [DUdp (s2b "10.0.0.11") 5070]; [DUdp (s2b "10.0.0.11") 5070];
    [DConn 1]; [DConn 0]; [DConn 0]; [DConn 1]; [] ] /\
  keys_of (run all_fixed x_c0 x_st0 (firstn 4 x_hist)) =
  map s2b ["tcp://10.0.0.50:40001"; "tcp://10.0.0.50:40002"; "tcp://10.0.0.50:5060";
           "tcp://10.0.0.50:5060-INVITE-z9hG4bKa"; "tcp://10.0.0.50:5060-INVITE-z9hG4bKb"]%string /\
  keys_of (run all_fixed x_c0 x_st0 x_hist) =
  map s2b ["tcp://10.0.0.50:40001"; "tcp://10.0.0.50:40002"; "tcp://10.0.0.50:5060"]%string.
Proof.
  (* the whole history is run once; its destinations and the keys it leaves are read off the same result *)
  set (r := run all_fixed x_c0 x_st0 x_hist). revert r. vm_compute. repeat split; reflexivity.
Qed.

(* B2, computed.  Stamping off, sent-by = a NAME of the host table.  Before the repair the
   registration was filed under the name, the look-up used the resolved address, the removal the
   name again: the final response was NOT written to connection 0 (dropped when 10.0.0.50:5060
   accepts no connection, sent on a NEW connection when it does) and the look-up entries stayed in
   the table for ever.  After the repair all three use the resolved address *)
Definition b2_cfg : cfg := x_cfg true [(s2b "client.example", s2b "10.0.0.50")].
Definition b2_hist : hist :=
  [ (sec 1, s2b "z9hG4bKpx0", EvTcpAccept 0 (s2b "10.0.0.50") 40001);
    (sec 3, s2b "z9hG4bKpx2", EvTcpData 0 (x_invite "z9hG4bKa" "call-a"));
    (sec 7, s2b "z9hG4bKpx6", EvUdp 0 (s2b "10.0.0.11") 5070 (x_resp "200 OK" "z9hG4bKpx2" "z9hG4bKa" "call-a" "")) ].
Definition legacy_key_fixes : fixes :=
  {| fx_wiring := true; fx_udp_via_listener := true; fx_indialog_invite := true; fx_bracket_host := true;
     fx_resolved_key := false; fx_stale_pin := true |}.
Theorem C12_legacy_refuted :
  (* before the repair (fx_resolved_key = false) *)
  dests (run legacy_key_fixes b2_cfg (init_state b2_cfg 0 []) b2_hist) = [ []; [DUdp (s2b "10.0.0.11") 5070]; [] ] /\
  dests (run legacy_key_fixes b2_cfg (init_state b2_cfg 0 [(s2b "10.0.0.50", 5060)]) b2_hist) =
    [ []; [DUdp (s2b "10.0.0.11") 5070]; [DDial (s2b "10.0.0.50") 5060 1; DConn 1] ] /\
  keys_of (run legacy_key_fixes b2_cfg (init_state b2_cfg 0 []) (firstn 2 b2_hist)) =
    map s2b ["tcp://10.0.0.50:40001"; "tcp://client.example:5060"; "tcp://client.example:5060-INVITE-z9hG4bKa"]%string /\
  keys_of (run legacy_key_fixes b2_cfg (init_state b2_cfg 0 []) b2_hist) =
    map s2b ["tcp://10.0.0.50:40001"; "tcp://client.example:5060"; "tcp://10.0.0.50:5060";
             "tcp://10.0.0.50:5060-INVITE-z9hG4bKa"]%string /\
  (* after the repair: the same history delivers the 200 on connection 0, whether or not
     10.0.0.50:5060 accepts connections, and the per-transaction key is consumed *)
  dests (run all_fixed b2_cfg (init_state b2_cfg 0 []) b2_hist) = [ []; [DUdp (s2b "10.0.0.11") 5070]; [DConn 0] ] /\
  dests (run all_fixed b2_cfg (init_state b2_cfg 0 [(s2b "10.0.0.50", 5060)]) b2_hist) =
    [ []; [DUdp (s2b "10.0.0.11") 5070]; [DConn 0] ] /\
  keys_of (run all_fixed b2_cfg (init_state b2_cfg 0 []) (firstn 2 b2_hist)) =
    map s2b ["tcp://10.0.0.50:40001"; "tcp://10.0.0.50:5060"; "tcp://10.0.0.50:5060-INVITE-z9hG4bKa"]%string /\
  keys_of (run all_fixed b2_cfg (init_state b2_cfg 0 []) b2_hist) =
    map s2b ["tcp://10.0.0.50:40001"; "tcp://10.0.0.50:5060"]%string.
Proof. vm_compute. repeat split; reflexivity. Qed.
(* the same sent-by when the name is NOT in the host table: delivered on connection 0, entry consumed *)
Example C12_unknown_name_ok :
  let cf := x_cfg true [] in
  dests (run all_fixed cf (init_state cf 0 []) b2_hist) = [ []; [DUdp (s2b "10.0.0.11") 5070]; [DConn 0] ] /\
  keys_of (run all_fixed cf (init_state cf 0 []) b2_hist) = map s2b ["tcp://10.0.0.50:40001"; "tcp://client.example:5060"]%string.
Proof. vm_compute. split; reflexivity. Qed.

(* the hypotheses of C12_same_connection hold on the interleaved history: the 200 of transaction a *)
Definition x_dataq : bytes := x_invite "z9hG4bKa" "call-a".
Definition x_datar : bytes := x_resp "200 OK" "z9hG4bKpx2" "z9hG4bKa" "call-a" rcv.
Example C12_same_connection_ex :
  exists b, last (match run all_fixed x_c0 x_st0 (x_h1 ++ x_req :: x_h2 ++ [x_fin]) with Ok (_, o) => o | _ => [] end) []
            = [(DConn 0, b)].
Proof.
  destruct (run all_fixed x_c0 x_st0 (x_h1 ++ x_req :: x_h2 ++ [x_fin])) as [[stf outss]| |] eqn:E.
  2,3: pose proof (proj1 C12_history_ex) as H; change x_hist with ((x_h1 ++ x_req :: x_h2 ++ [x_fin]) ++ x_tail) in H;
       rewrite run_app, E in H; discriminate H.
  (* what C12_same_connection asks of the state the request finds, of the request, of the events in between and of
     the response, computed once *)
  set (e3 := mk_env all_fixed x_c0 (item_rs_of true) 0 (x_lc false) (sec 3) (s2b "z9hG4bKpx2")).
  assert (F : match run all_fixed x_c0 x_st0 x_h1, parse_message x_dataq, parse_message x_datar with
              | Ok (st1, _), Ok (mq, restq), Ok (mr, _) =>
                  match find (fun x => Nat.eqb (cn_id x) 0) (st_conns st1), nth_p (st_proxies st1) 0,
                        top_via_of mq, snd (s_get_cseq mq), next_top mr, snd (s_get_cseq mr) with
                  | Some cn, Some pq, Ok v, Ok cs, Ok v2, Ok cs2 =>
                      cn_open cn = true /\ cn_li cn = 0%nat /\
                      trim_left restq = [] /\ is_request mq = true /\
                      hvals (s2b "Route") (m_headers mq) = [] /\ static_hop e3 mq = Err /\
                      via_get_branch v = Some (s2b "z9hG4bKa") /\
                      hop_of_via (stamp_via (cn_received_support cn) (cn_peer cn) (cn_peer_port cn) v)
                        = (s2b "10.0.0.50", 5060, s2b "TCP") /\
                      match proxy_step all_fixed x_c0 (sec 3) (s2b "z9hG4bKpx2") st1 (EvTcpData 0 x_dataq) with
                      | Ok (st2, _) =>
                          hist_away_b 0 (full_addr tcp (resolve x_c0 (s2b "10.0.0.50")) 5060 (cs_method cs ++ "-"%char :: s2b "z9hG4bKa"))
                                      0 (sec 3 / second + 3600) all_fixed x_c0 st2 x_h2 = true
                      | _ => False
                      end /\
                      is_request mr = false /\ hop_of_via v2 = (s2b "10.0.0.50", 5060, s2b "TCP") /\
                      cs_method cs2 = cs_method cs /\ via_get_branch v2 = Some (s2b "z9hG4bKa")
                  | _, _, _, _, _, _ => False
                  end
              | _, _, _ => False
              end)
    by (vm_compute; repeat split; reflexivity).
  revert F.
  destruct (run all_fixed x_c0 x_st0 x_h1) as [[st1 o1]| |] eqn:E1; [|intros []..].
  destruct (parse_message x_dataq) as [[mq restq]| |] eqn:EPq; [|intros []..].
  destruct (parse_message x_datar) as [[mr restr]| |] eqn:EPr; [|intros []..].
  destruct (find (fun x => Nat.eqb (cn_id x) 0) (st_conns st1)) as [cn|] eqn:EFD; [|intros []].
  destruct (nth_p (st_proxies st1) 0) as [pq|] eqn:NP; [|intros []].
  destruct (top_via_of mq) as [v| |] eqn:TV; [|intros []..].
  destruct (snd (s_get_cseq mq)) as [cs| |] eqn:CS; [|intros []..].
  destruct (next_top mr) as [v2| |] eqn:NT; [|intros []..].
  destruct (snd (s_get_cseq mr)) as [cs2| |] eqn:CS2; [|intros []..].
  intros (CO & CLI & TRq & Rq & NR & SH & BR & HOP & HA & Rr & HOP2 & CM & BR2).
  refine (C12_same_connection x_c0 0%nat (x_lc false) x_h1 (sec 3) (s2b "z9hG4bKpx2") 0%nat x_dataq x_h2
            (sec 7) (s2b "z9hG4bKpx6") (s2b "10.0.0.11") 5070 x_datar x_st0 stf outss
            st1 o1 cn pq mq restq mr restr v cs (s2b "z9hG4bKa") (s2b "10.0.0.50") 5060 (s2b "TCP") (s2b "10.0.0.50")
            v2 (s2b "10.0.0.50") (s2b "TCP") cs2
            eq_refl E E1 EFD CO CLI NP EPq TRq Rq _ TV CS BR HOP eq_refl _ EPr Rr NT HOP2 eq_refl CS2 CM BR2 eq_refl _).
  - split; [exact NR|]. intros v0 Hv. fold e3 in Hv. rewrite SH in Hv. discriminate Hv.
  - intros st2 oq E2. rewrite E2 in HA. apply hist_away_b_sound. exact HA.
  - vm_compute. discriminate.
Qed.

Print Assumptions full_addr_inj_tid.
Print Assumptions keys_differ.
Print Assumptions C12_register.
Print Assumptions C12_lookup.
Print Assumptions C12_until_final.
Print Assumptions C12_preserved.
Print Assumptions C12_preserved_history.
Print Assumptions C12_same_connection.
Print Assumptions C12_history_ex.
Print Assumptions C12_legacy_refuted.
Print Assumptions C12_same_connection_ex.
