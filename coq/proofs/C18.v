(* proofs/C18.v — static route table: precedence (literal > first configured matching
   wildcard > default), stability w.r.t. Go map enumeration order, next-hop port rules.
   No axioms, no admits. *)
From Coq Require Import List Ascii String ZArith NArith Bool Lia Permutation.
From Model Require Import Bytes BytesLemmas Glob StaticRoute Spec Run.
Import ListNotations.
Open Scope list_scope.

Lemma glob_star p s :
  glob (star :: p) s =
  (glob p s || match s with [] => false | _ :: s' => glob (star :: p) s' end)%bool.
Proof. destruct s; reflexivity. Qed.

Lemma glob_char c p s : c <> star ->
  glob (c :: p) s =
  match s with [] => false | x :: s' => (Ascii.eqb x c && glob p s')%bool end.
Proof.
  intros H. cbn [glob].
  destruct (Ascii.eqb_spec c star) as [E|E]; [contradiction|reflexivity].
Qed.

Lemma Glob_star_inv p s : Glob (star :: p) s -> exists s1 s2, s = s1 ++ s2 /\ Glob p s2.
Proof.
  intros H. inversion H as [|c p' s' Hc Hp|p' s1 s2 Hp]; subst.
  - exfalso. apply Hc. reflexivity.
  - exists s1, s2. split; [reflexivity|exact Hp].
Qed.

Lemma glob_sound p : forall s, glob p s = true -> Glob p s.
Proof.
  induction p as [|c p IH]; intros s H.
  - destruct s; [constructor|discriminate].
  - destruct (Ascii.eqb_spec c star) as [E|E].
    + subst c. induction s as [|x s IHs].
      * rewrite glob_star in H. rewrite orb_false_r in H.
        apply (GStar p [] []). apply IH. exact H.
      * rewrite glob_star in H. apply orb_true_iff in H. destruct H as [H|H].
        -- apply (GStar p [] (x :: s)). apply IH. exact H.
        -- destruct (Glob_star_inv _ _ (IHs H)) as (s1 & s2 & -> & Hp).
           apply (GStar p (x :: s1) s2). exact Hp.
    + rewrite glob_char in H by exact E.
      destruct s as [|x s]; [discriminate|].
      apply andb_true_iff in H. destruct H as [H1 H2].
      apply Ascii.eqb_eq in H1. subst x.
      apply GChar; [exact E|apply IH; exact H2].
Qed.

Lemma glob_complete p s : Glob p s -> glob p s = true.
Proof.
  intros H. induction H as [|c p s Hc Hp IH|p s1 s2 Hp IH].
  - reflexivity.
  - rewrite glob_char by exact Hc. rewrite Ascii.eqb_refl, IH. reflexivity.
  - induction s1 as [|x s1 IHs]; cbn [app].
    + rewrite glob_star, IH. reflexivity.
    + rewrite glob_star, IHs. apply orb_true_r.
Qed.

Lemma glob_correct p s : glob p s = true <-> Glob p s.
Proof. split; [apply glob_sound|apply glob_complete]. Qed.

Lemma glob_false p s : glob p s = false <-> ~ Glob p s.
Proof. rewrite <- glob_correct. destruct (glob p s); split; congruence. Qed.

Definition ans_of (it : route_item) : c18_answer := (ri_proto it, (ri_host it, ri_port it)).

Definition step (t : route_table) (e : bytes * (bytes * bytes)) : route_table :=
  let '(p, (d, n)) := e in add_route_item t p d n.

Lemma build_table_step cfg : build_table cfg = fold_left step cfg [].
Proof. reflexivity. Qed.

Lemma build_table_ind (P : route_table -> Prop) :
  P [] -> (forall t p d n, P t -> P (add_route_item t p d n)) ->
  forall cfg, P (build_table cfg).
Proof.
  intros H0 HS cfg. rewrite build_table_step.
  assert (G : forall t, P t -> P (fold_left step cfg t)).
  { induction cfg as [|[p [d n]] cfg IH]; intros t Ht; cbn [fold_left]; [exact Ht|].
    apply IH. cbn [step]. apply HS. exact Ht. }
  apply G. exact H0.
Qed.

Lemma new_pre_route_item_dest p d n it : new_pre_route_item p d n = Some it -> ri_dest it = d.
Proof.
  unfold new_pre_route_item.
  destruct (last_index_byte colon n) as [pos|].
  - destruct (atoi (skipn (S pos) n)) as [z|]; [|discriminate].
    intros H. injection H as <-. reflexivity.
  - intros H. injection H as <-. reflexivity.
Qed.

(* the table built from a configuration has duplicate-free keys *)
Lemma build_table_nodup cfg : NoDup (map fst (build_table cfg)).
Proof.
  apply build_table_ind.
  - constructor.
  - intros t p d n H. unfold add_route_item.
    destruct (new_pre_route_item p d n) as [it|]; [|exact H].
    apply aset_keys_nodup. exact H.
Qed.

Lemma build_table_dest cfg d it : In (d, it) (build_table cfg) -> ri_dest it = d.
Proof.
  revert d it. apply build_table_ind.
  - intros d it [].
  - intros t p d n H d0 it0 HI. unfold add_route_item in HI.
    destruct (new_pre_route_item p d n) as [it|] eqn:E; [|apply H; exact HI].
    apply aset_in in HI. destruct HI as [[-> ->]|HI]; [|apply H; exact HI].
    apply (new_pre_route_item_dest _ _ _ _ E).
Qed.

(* the model's next-hop parser and the Spec's reading of the rule agree *)
Lemma nexthop_agree p d n :
  option_map ans_of (new_pre_route_item p d n) =
  option_map (fun hp => (p, hp)) (c18_nexthop p n).
Proof.
  unfold new_pre_route_item, c18_nexthop, colon.
  destruct (last_index_byte ":"%char n) as [pos|].
  - destruct (atoi (skipn (S pos) n)) as [z|]; reflexivity.
  - cbn. unfold ans_of. cbn. rewrite equal_fold_sym. reflexivity.
Qed.

Lemma c18_valid_cons p d n cfg :
  c18_valid ((p, (d, n)) :: cfg) =
  match c18_nexthop p n with
  | Some (h, port) => [(d, (p, (h, port)))]
  | None => []
  end ++ c18_valid cfg.
Proof. reflexivity. Qed.

Lemma fold_lookup cfg : forall t d,
  option_map ans_of (alookup d (fold_left step cfg t)) =
  match c18_last d (c18_valid cfg) with
  | Some a => Some a
  | None => option_map ans_of (alookup d t)
  end.
Proof.
  induction cfg as [|[p [d' n]] cfg IH]; intros t d.
  - reflexivity.
  - cbn [fold_left]. rewrite IH. rewrite c18_valid_cons.
    cbn [step]. unfold add_route_item.
    pose proof (nexthop_agree p d' n) as HA.
    destruct (new_pre_route_item p d' n) as [it|];
      destruct (c18_nexthop p n) as [[h port]|]; cbn [option_map] in HA; try discriminate.
    + assert (HA' : ans_of it = (p, (h, port))) by congruence. cbn [app c18_last].
      destruct (c18_last d (c18_valid cfg)) as [a'|]; [reflexivity|].
      rewrite alookup_aset. destruct (beq d d'); [cbn [option_map]; rewrite HA'|]; reflexivity.
    + reflexivity.
Qed.

(* the table holds, for each dest, the last valid configuration entry for it *)
Lemma build_table_lookup cfg d :
  option_map ans_of (alookup d (build_table cfg)) = c18_last d (c18_valid cfg).
Proof.
  rewrite build_table_step, fold_lookup. cbn [alookup option_map].
  destruct (c18_last d (c18_valid cfg)); reflexivity.
Qed.

Lemma first_glob_some t host it :
  first_glob t host = Some it -> exists d, In (d, it) t /\ glob d host = true.
Proof.
  induction t as [|[d i] r IH]; cbn; [discriminate|].
  destruct (glob d host) eqn:E.
  - intros H. injection H as <-. exists d. split; [left; reflexivity|exact E].
  - intros H. destruct (IH H) as (d0 & H1 & H2). exists d0. split; [right; exact H1|exact H2].
Qed.

Lemma first_glob_none t host :
  first_glob t host = None -> forall d it, In (d, it) t -> glob d host = false.
Proof.
  induction t as [|[d i] r IH]; cbn; intros H d0 it0 HI; [contradiction|].
  destruct (glob d host) eqn:E; [discriminate|].
  destruct HI as [HI|HI].
  - injection HI as <- <-. exact E.
  - apply (IH H d0 it0 HI).
Qed.

Lemma c18_answer_eqb_refl a : c18_answer_eqb a a = true.
Proof.
  destruct a as [p [h n]]. cbn. rewrite !beq_refl, Z.eqb_refl. reflexivity.
Qed.

Lemma c18_opt_eqb_refl o : c18_opt_eqb o o = true.
Proof. destruct o as [a|]; cbn; [apply c18_answer_eqb_refl|reflexivity]. Qed.

Lemma c18_last_in d l a : c18_last d l = Some a -> In (d, a) l.
Proof.
  induction l as [|[d' a'] r IH]; cbn; [discriminate|].
  destruct (c18_last d r) as [a0|].
  - intros H. right. apply IH. exact H.
  - destruct (beq_spec d d') as [E|E]; [|discriminate].
    intros H. injection H as <-. subst d'. left. reflexivity.
Qed.

Definition c18_ms (host : bytes) (l : list (bytes * c18_answer)) : list (bytes * c18_answer) :=
  filter (fun '(d, _) => glob d host) (c18_effective l).

Lemma judge_C18_unfold cfg host o :
  judge_C18 cfg host [o] =
  match c18_last host (c18_valid cfg) with
  | Some a => c18_opt_eqb o (Some a)
  | None =>
      match c18_ms host (c18_valid cfg) with
      | _ :: _ => match o with
                  | Some a => existsb (fun '(_, a') => c18_answer_eqb a a') (c18_ms host (c18_valid cfg))
                  | None => false
                  end
      | [] => c18_opt_eqb o (c18_last (s2b "default") (c18_valid cfg))
      end
  end.
Proof.
  unfold judge_C18, c18_ms. cbv zeta.
  destruct (c18_last host (c18_valid cfg)); [reflexivity|].
  destruct (filter _ (c18_effective (c18_valid cfg))); reflexivity.
Qed.

Lemma c18_ms_in host l d a :
  In (d, a) (c18_ms host l) <->
  In (d, a) l /\ c18_last d l = Some a /\ glob d host = true.
Proof.
  unfold c18_ms, c18_effective. rewrite !filter_In. split.
  - intros [[H1 H2] H3]. split; [exact H1|]. split; [|exact H3].
    destruct (c18_last d l) as [a'|]; [|discriminate].
    destruct a as [p1 [h1 n1]], a' as [p2 [h2 n2]]. cbn in H2.
    apply andb_true_iff in H2. destruct H2 as [H2 Hn].
    apply andb_true_iff in H2. destruct H2 as [Hp Hh].
    apply beq_eq in Hp. apply beq_eq in Hh. apply Z.eqb_eq in Hn. subst. reflexivity.
  - intros (H1 & H2 & H3). split; [|exact H3]. split; [exact H1|].
    rewrite H2. apply c18_answer_eqb_refl.
Qed.

(* every table entry whose pattern matches shows up among the judge's candidates *)
Lemma table_entry_in_ms cfg host d it :
  In (d, it) (build_table cfg) -> glob d host = true ->
  In (d, ans_of it) (c18_ms host (c18_valid cfg)).
Proof.
  intros HI HG. apply c18_ms_in.
  assert (HL : c18_last d (c18_valid cfg) = Some (ans_of it)).
  { rewrite <- build_table_lookup.
    rewrite (in_alookup _ _ _ (build_table_nodup cfg) HI). reflexivity. }
  split; [apply c18_last_in; exact HL|]. split; [exact HL|exact HG].
Qed.

(* Properties.C18_judged: the precedence rule, boolean form *)
Lemma find_route_judged cfg host :
  judge_C18 cfg host [option_map ans_of (find_route (build_table cfg) host)] = true.
Proof.
  rewrite judge_C18_unfold. unfold find_route.
  pose proof (build_table_lookup cfg host) as Lh.
  destruct (c18_last host (c18_valid cfg)) as [a|] eqn:EL.
  - destruct (alookup host (build_table cfg)) as [it|]; cbn in Lh; [|discriminate].
    injection Lh as <-. cbn [option_map]. apply c18_opt_eqb_refl.
  - destruct (alookup host (build_table cfg)) as [it|]; cbn in Lh; [discriminate|].
    clear Lh.
    destruct (first_glob (build_table cfg) host) as [it|] eqn:EF.
    + apply first_glob_some in EF. destruct EF as (d & Hin & Hg).
      pose proof (table_entry_in_ms cfg host d it Hin Hg) as Hms.
      destruct (c18_ms host (c18_valid cfg)) as [|x ms] eqn:EM; [contradiction|].
      cbn [option_map]. apply existsb_exists.
      exists (d, ans_of it). split; [exact Hms|apply c18_answer_eqb_refl].
    + destruct (c18_ms host (c18_valid cfg)) as [|[d a] ms] eqn:EM.
      * rewrite build_table_lookup. apply c18_opt_eqb_refl.
      * exfalso.
        assert (HI : In (d, a) (c18_ms host (c18_valid cfg))) by (rewrite EM; left; reflexivity).
        apply c18_ms_in in HI. destruct HI as (_ & HL & HG).
        rewrite <- build_table_lookup in HL.
        destruct (alookup d (build_table cfg)) as [it|] eqn:EA; [|discriminate].
        apply alookup_in in EA.
        rewrite (first_glob_none _ _ EF d it EA) in HG. discriminate.
Qed.

(* Properties.C18_precedence: the same, readable form *)
Lemma find_route_spec t host :
  match find_route t host with
  | Some it =>
      alookup host t = Some it
      \/ (alookup host t = None /\ exists d, In (d, it) t /\ Glob d host)
      \/ (alookup host t = None /\ (forall d it', In (d, it') t -> ~ Glob d host)
          /\ alookup (s2b "default") t = Some it)
  | None => alookup host t = None /\ (forall d it', In (d, it') t -> ~ Glob d host)
            /\ alookup (s2b "default") t = None
  end.
Proof.
  unfold find_route.
  destruct (alookup host t) as [it|] eqn:EA.
  - left. reflexivity.
  - destruct (first_glob t host) as [it|] eqn:EF.
    + right. left. split; [reflexivity|].
      apply first_glob_some in EF. destruct EF as (d & H1 & H2).
      exists d. split; [exact H1|apply glob_correct; exact H2].
    + assert (HN : forall d it', In (d, it') t -> ~ Glob d host).
      { intros d it' HI. apply glob_false. apply (first_glob_none _ _ EF d it' HI). }
      destruct (alookup (s2b "default") t) as [it|] eqn:ED.
      * right. right. split; [reflexivity|]. split; [exact HN|reflexivity].
      * split; [reflexivity|]. split; [exact HN|reflexivity].
Qed.

Lemma scan_dests_ext m1 m2 dests host :
  (forall d, alookup d m1 = alookup d m2) ->
  scan_dests m1 dests host = scan_dests m2 dests host.
Proof.
  intros H. induction dests as [|d r IH]; cbn; [reflexivity|].
  rewrite H. destruct (alookup d m2) as [it|]; [|exact IH].
  destruct (glob (ri_dest it) host); [reflexivity|exact IH].
Qed.

Lemma alookup_perm {V} k (m1 m2 : list (bytes*V)) :
  NoDup (map fst m1) -> Permutation m1 m2 -> alookup k m1 = alookup k m2.
Proof.
  intros ND P.
  assert (ND2 : NoDup (map fst m2)).
  { apply (Permutation_NoDup (l := map fst m1)); [|exact ND]. apply Permutation_map. exact P. }
  destruct (alookup k m1) as [v|] eqn:E1.
  - symmetry. apply in_alookup; [exact ND2|].
    apply (Permutation_in _ P). apply alookup_in. exact E1.
  - destruct (alookup k m2) as [v|] eqn:E2; [|reflexivity].
    apply alookup_in in E2. apply (Permutation_in _ (Permutation_sym P)) in E2.
    apply (in_alookup _ _ _ ND) in E2. congruence.
Qed.

(* Properties.C18_stable: the answer does not depend on the order in which the runtime enumerates the
   Go map *)
Lemma find_route_go_perm m1 m2 dests host :
  NoDup (map fst m1) -> Permutation m1 m2 ->
  find_route_go m1 dests host = find_route_go m2 dests host.
Proof.
  intros ND P. unfold find_route_go.
  assert (H : forall d, alookup d m1 = alookup d m2)
    by (intros d; apply alookup_perm; assumption).
  rewrite (scan_dests_ext m1 m2 dests host H). rewrite !H. reflexivity.
Qed.

Lemma scan_dests_first_glob t host :
  NoDup (map fst t) -> (forall d it, In (d, it) t -> ri_dest it = d) ->
  forall t', incl t' t -> scan_dests t (map fst t') host = first_glob t' host.
Proof.
  intros ND HD. induction t' as [|[d it] r IH]; intros HI; cbn; [reflexivity|].
  assert (Hin : In (d, it) t) by (apply HI; left; reflexivity).
  rewrite (in_alookup _ _ _ ND Hin). rewrite (HD _ _ Hin).
  destruct (glob d host); [reflexivity|].
  apply IH. intros x Hx. apply HI. right. exact Hx.
Qed.

Lemma find_route_go_eq t host :
  NoDup (map fst t) -> (forall d it, In (d, it) t -> ri_dest it = d) ->
  find_route_go t (map fst t) host = find_route t host.
Proof.
  intros ND HD. unfold find_route_go, find_route.
  rewrite (scan_dests_first_glob t host ND HD t (incl_refl t)). reflexivity.
Qed.

(* the two together, for tables that come from a configuration *)
Corollary find_route_go_build_table cfg m host :
  Permutation (build_table cfg) m ->
  find_route_go m (map fst (build_table cfg)) host = find_route (build_table cfg) host.
Proof.
  intros P.
  rewrite <- (find_route_go_perm _ _ _ _ (build_table_nodup cfg) P).
  apply find_route_go_eq; [apply build_table_nodup|].
  intros d it. apply build_table_dest.
Qed.

(* legacy (map-order scan) is unstable: computed witness *)
Lemma find_route_legacy_unstable :
  exists t o1 o2 host, Permutation o1 t /\ Permutation o2 t /\
     find_route_legacy o1 t host <> find_route_legacy o2 t host.
Proof.
  pose (it1 := {| ri_proto := s2b "udp"; ri_dest := s2b "*a"; ri_host := s2b "h1"; ri_port := 5060%Z |}).
  pose (it2 := {| ri_proto := s2b "udp"; ri_dest := s2b "a*"; ri_host := s2b "h2"; ri_port := 5060%Z |}).
  exists [(s2b "*a", it1); (s2b "a*", it2)].
  exists [(s2b "*a", it1); (s2b "a*", it2)].
  exists [(s2b "a*", it2); (s2b "*a", it1)].
  exists (s2b "a").
  split; [apply Permutation_refl|]. split; [apply perm_swap|].
  vm_compute. intros H. discriminate H.
Qed.

(* Properties.C18_port_default, C18_port_explicit: without a port the transport's default (5060, tls 5061), with one the number written *)
Lemma nexthop_no_port proto dest h : ~ In ":"%char h ->
  new_pre_route_item proto dest h =
    Some {| ri_proto := proto; ri_dest := dest; ri_host := h;
            ri_port := if equal_fold (s2b "tls") proto then 5061%Z else 5060%Z |}.
Proof.
  intros H. unfold new_pre_route_item, colon.
  rewrite (proj2 (last_index_byte_none _ _) H). reflexivity.
Qed.

Lemma nexthop_with_port proto dest h p : (0 <= p <= int_max)%Z ->
  new_pre_route_item proto dest (h ++ ":"%char :: itoa p) =
    Some {| ri_proto := proto; ri_dest := dest; ri_host := h; ri_port := p |}.
Proof.
  intros [Hlo Hhi]. unfold new_pre_route_item, colon.
  rewrite last_index_byte_app by apply itoa_no_colon.
  rewrite skipn_S_length_app, firstn_length_app.
  rewrite atoi_itoa; [reflexivity|].
  split; [|exact Hhi]. unfold int_min. lia.
Qed.

(* A concrete table where literal, two overlapping wildcards and default all compete.
   "*.com" is configured BEFORE the more specific "*.example.com": the first configured
   matching wildcard wins (not the most specific one), the literal beats both, and a host
   matched by nothing falls to default.  The literal entry is also re-configured once
   (second entry for "sip.example.com" overwrites the first in place). *)
Definition ex_cfg : list (bytes * (bytes * bytes)) :=
  [ (s2b "udp", (s2b "sip.example.com", s2b "10.0.0.1"));
    (s2b "tcp", (s2b "*.com",           s2b "10.0.0.2:5070"));
    (s2b "TLS", (s2b "*.example.com",   s2b "10.0.0.3"));
    (s2b "udp", (s2b "default",         s2b "10.0.0.9:5080"));
    (s2b "udp", (s2b "bad.example.com", s2b "10.0.0.4:notaport"));
    (s2b "tcp", (s2b "sip.example.com", s2b "10.0.0.5:5062")) ].

Definition ex_route (host : string) : option c18_answer :=
  option_map ans_of (find_route (build_table ex_cfg) (s2b host)).

Example find_route_example :
  (* four live entries, in first-configuration order *)
  map fst (build_table ex_cfg)
    = [s2b "sip.example.com"; s2b "*.com"; s2b "*.example.com"; s2b "default"]
  (* literal host: the literal entry (its latest configuration), although both wildcards match *)
  /\ ex_route "sip.example.com" = Some (s2b "tcp", (s2b "10.0.0.5", 5062%Z))
  (* wildcard-only host matched by BOTH wildcards: the first configured one, "*.com" *)
  /\ ex_route "a.example.com" = Some (s2b "tcp", (s2b "10.0.0.2", 5070%Z))
  (* host matched by the first wildcard only *)
  /\ ex_route "other.com" = Some (s2b "tcp", (s2b "10.0.0.2", 5070%Z))
  (* rejected entry (bad port) left no trace: its host is served by the wildcard *)
  /\ ex_route "bad.example.com" = Some (s2b "tcp", (s2b "10.0.0.2", 5070%Z))
  (* nothing matches: default *)
  /\ ex_route "example.org" = Some (s2b "udp", (s2b "10.0.0.9", 5080%Z))
  (* and the judge of Spec.v accepts exactly these answers, rejects a wrong one *)
  /\ judge_C18 ex_cfg (s2b "a.example.com") [ex_route "a.example.com"] = true
  /\ judge_C18 ex_cfg (s2b "example.org") [ex_route "a.example.com"] = false.
Proof. vm_compute. repeat split; reflexivity. Qed.

(* with the two wildcards configured the other way round the other one wins, and the tls
   default port 5061 is visible (proto "TLS": case-insensitive) *)
Example find_route_example_swapped :
  option_map ans_of
    (find_route
       (build_table [ (s2b "TLS", (s2b "*.example.com", s2b "10.0.0.3"));
                      (s2b "tcp", (s2b "*.com",         s2b "10.0.0.2:5070")) ])
       (s2b "a.example.com"))
  = Some (s2b "TLS", (s2b "10.0.0.3", 5061%Z)).
Proof. vm_compute. reflexivity. Qed.

Print Assumptions glob_correct.
Print Assumptions build_table_nodup.
Print Assumptions build_table_lookup.
Print Assumptions find_route_judged.
Print Assumptions find_route_spec.
Print Assumptions find_route_go_perm.
Print Assumptions find_route_go_eq.
Print Assumptions build_table_dest.
Print Assumptions find_route_legacy_unstable.
Print Assumptions nexthop_no_port.
Print Assumptions nexthop_with_port.
Print Assumptions find_route_example.
