(* C04.v — in-dialog requests stick to the backend that answered the dialog.
   Headers of one name and the relation [keeps N] (an instance of the frame library of MsgLemmas); the pin
   encoding and the pin table; handleDialog, findBackendByDialog and sendToBackend as functions of the views of
   the message; bind, the sticky step, preservation of a binding by every message and every event; histories;
   a computed history and the witnesses against the earlier findBackendByDialog. *)
From Coq Require Import List Ascii String ZArith NArith Bool Lia.
From Model Require Import Bytes BytesLemmas Uri Hdr Message Msg Rx Glob StaticRoute RoundRobin Pins Proxy.
From Model.proofs Require C15 C16 C02 C03 C06.
From Model.proofs Require Import MsgLemmas Pipeline MsgStages.
Import ListNotations.
Open Scope Z_scope.

Definition hdisj (n1 n2 : bytes) : Prop := forall n, same_header n n1 = true -> same_header n n2 = false.

(* the header names the proxy looks up *)
Definition names : list bytes :=
  [s2b "Via"; s2b "Route"; s2b "From"; s2b "To"; s2b "CSeq"; s2b "Call-ID"; s2b "Subscription-State"; s2b "Expires"].
Lemma names_disj : forall a b, In a names -> In b names -> a = b \/ hdisj a b.
Proof.
  assert (H : forallb (fun a => forallb (fun b => beq a b || names_disjoint a b) names) names = true)
    by (vm_compute; reflexivity).
  intros a b Ha Hb. rewrite forallb_forall in H. specialize (H a Ha). rewrite forallb_forall in H.
  specialize (H b Hb). apply orb_true_iff in H. destruct H as [H|H].
  - left. apply beq_eq. exact H.
  - right. intros n Hn. exact (same_header_disjoint a b n H Hn).
Qed.
Lemma record_route_disj : forall p, In p names -> same_header (s2b "Record-Route") p = false.
Proof.
  assert (H : forallb (fun p => negb (same_header (s2b "Record-Route") p)) names = true) by (vm_compute; reflexivity).
  intros p Hp. rewrite forallb_forall in H. apply negb_true_iff. apply H. exact Hp.
Qed.
Lemma via_self_disj : forall p, In p names -> p <> s2b "Via" -> same_header (s2b "Via") p = false.
Proof.
  intros p Hp NE. destruct (names_disj (s2b "Via") p) as [E|D]; [cbn; tauto|exact Hp|congruence|].
  apply D. vm_compute. reflexivity.
Qed.

(* the values of ALL headers designated by a name, in order *)
Definition hvals (n : bytes) (hs : list header) : list hval :=
  map h_val (filter (fun h => same_header (h_name h) n) hs).
(* [hvals] is the values of C06.sel: its lemmas carry over *)
Lemma hvals_sel n hs : hvals n hs = map h_val (C06.sel n hs).
Proof. reflexivity. Qed.
Lemma get_header_hvals n hs : option_map h_val (get_header n hs) = hd_error (hvals n hs).
Proof. rewrite C06.get_header_sel, hvals_sel. destruct (C06.sel n hs); reflexivity. Qed.
Lemma hvals_update_other n1 n2 f hs : hdisj n1 n2 -> hvals n2 (update_header n1 f hs) = hvals n2 hs.
Proof. intros D. rewrite !hvals_sel, (C06.sel_update_other n2 n1 f hs (C06.disjoint_sym _ _ D)). reflexivity. Qed.
Lemma hvals_update_same n f hs :
  hvals n (update_header n f hs) = match hvals n hs with [] => [] | v :: r => f v :: r end.
Proof. rewrite !hvals_sel, C06.sel_update_same. destruct (C06.sel n hs); reflexivity. Qed.
Lemma hvals_remove_other n1 n2 hs : hdisj n1 n2 -> hvals n2 (remove_header n1 hs) = hvals n2 hs.
Proof. intros D. rewrite !hvals_sel, (C06.sel_remove_other n2 n1 hs (C06.disjoint_sym _ _ D)). reflexivity. Qed.
Lemma hvals_remove_same n hs : hvals n (remove_header n hs) = tl (hvals n hs).
Proof. rewrite !hvals_sel, C06.sel_remove_same. destruct (C06.sel n hs); reflexivity. Qed.
Lemma hvals_insert_other n2 h pos hs : same_header (h_name h) n2 = false ->
  hvals n2 (insert_at pos h hs) = hvals n2 hs.
Proof. intros E. rewrite !hvals_sel, (C06.sel_insert_other n2 pos h hs E). reflexivity. Qed.

(* semantic equality of the headers of one name, modulo in-place decoding *)
Definition decoded (n : bytes) (v v' : hval) : Prop :=
  match v with
  | HRaw s =>
      match v' with
      | HVia l => n = s2b "Via" /\ parse_via s = Ok l
      | HRoute l => n = s2b "Route" /\ parse_route s = Ok l
      | HFrom f => n = s2b "From" /\ parse_fromto s = Ok f
      | HTo f => n = s2b "To" /\ parse_fromto s = Ok f
      | HCSeq c => n = s2b "CSeq" /\ parse_cseq s = Ok c
      | _ => False
      end
  | _ => False
  end.
Definition vrel (n : bytes) (v v' : hval) : Prop := v' = v \/ decoded n v v'.
Definition hrel (n : bytes) (m m' : message) : Prop :=
  Forall2 (vrel n) (hvals n (m_headers m)) (hvals n (m_headers m')).
(* [keeps N m m']: m' is m after mutations that leave the start line and the meaning of ALL
   the headers designated by the names in N alone *)
Definition keeps (N : list bytes) (m m' : message) : Prop :=
  m_start m' = m_start m /\ forall n, In n N -> hrel n m m'.

(* ForEachVia decodes Via headers in place: related under the name Via, untouched under a name disjoint from it *)
Lemma decode_vias_hrel n hs : n = s2b "Via" \/ hdisj (s2b "Via") n ->
  Forall2 (vrel n) (hvals n hs) (hvals n (fst (decode_all_vias hs))).
Proof.
  intros D. unfold hvals. induction hs as [|[hn hv] r IH]; cbn [decode_all_vias]; [constructor|].
  destruct (decode_all_vias r) as [r' vs]. cbn [fst h_name h_val] in *.
  assert (S : forall v' (vs' : list via_param), vrel n hv v' ->
    Forall2 (vrel n) (map h_val (filter (fun x => same_header (h_name x) n) ({| h_name := hn; h_val := hv |} :: r)))
                     (map h_val (filter (fun x => same_header (h_name x) n) (fst ({| h_name := hn; h_val := v' |} :: r', vs'))))).
  { intros v' vs' V. cbn [filter fst h_name]. destruct (same_header hn n); [constructor; assumption|exact IH]. }
  destruct (same_header hn (s2b "Via")) eqn:E; [|apply S; left; reflexivity].
  destruct hv as [s|l|l|l|f|f|c]; try (apply S; left; reflexivity).
  destruct (parse_via s) as [l| |] eqn:P; try (apply S; left; reflexivity).
  destruct D as [->|D]; [apply S; right; split; [reflexivity|exact P]|].
  cbn [filter fst h_name]. rewrite (D _ E). exact IH.
Qed.
Lemma vrel_trans n a b c : vrel n a b -> vrel n b c -> vrel n a c.
Proof.
  intros [->|H1] [->|H2]; [left; reflexivity|right; exact H2|right; exact H1|].
  exfalso. destruct a; cbn in H1; try contradiction. destruct b; cbn in H1, H2; contradiction.
Qed.
Lemma F2_refl {A} (R : A -> A -> Prop) l : (forall x, R x x) -> Forall2 R l l.
Proof. intros H. induction l; constructor; auto. Qed.
Lemma F2_trans {A} (R : A -> A -> Prop) : (forall x y z, R x y -> R y z -> R x z) ->
  forall a b c, Forall2 R a b -> Forall2 R b c -> Forall2 R a c.
Proof.
  intros T a b c H. revert c. induction H as [|x y a b Hxy Hab IH]; intros c Hc; inversion Hc; subst; constructor.
  - eapply T; eassumption.
  - apply IH. assumption.
Qed.
Lemma F2_nil {A B} (R : A -> B -> Prop) l : Forall2 R [] l -> l = [].
Proof. intros H. inversion H. reflexivity. Qed.
Lemma F2_single {A B} (R : A -> B -> Prop) a l : Forall2 R [a] l -> exists b, l = [b] /\ R a b.
Proof.
  intros H. inversion H as [|x y lx ly Hxy Hl]; subst. apply F2_nil in Hl. subst ly.
  exists y. split; [reflexivity|exact Hxy].
Qed.
Lemma hrel_refl n m : hrel n m m.
Proof. apply F2_refl. intros x. left. reflexivity. Qed.
Lemma hrel_trans n a b c : hrel n a b -> hrel n b c -> hrel n a c.
Proof. apply F2_trans. apply vrel_trans. Qed.
Lemma keeps_refl N m : keeps N m m.
Proof. split; [reflexivity|]. intros n _. apply hrel_refl. Qed.
Lemma keeps_trans N a b c : keeps N a b -> keeps N b c -> keeps N a c.
Proof.
  intros [S1 H1] [S2 H2]. split; [congruence|]. intros n Hn. eapply hrel_trans; [apply H1|apply H2]; exact Hn.
Qed.
Lemma keeps_incl N N' m m' : incl N' N -> keeps N m m' -> keeps N' m m'.
Proof. intros I [S H]. split; [exact S|]. intros n Hn. apply H. apply I. exact Hn. Qed.
(* a chain is extended by a step that keeps more names *)
Lemma keeps_step N N' a b c : incl N N' -> keeps N a b -> keeps N' b c -> keeps N a c.
Proof. intros I K1 K2. exact (keeps_trans N a b c K1 (keeps_incl N' N b c I K2)). Qed.
Lemma hrel_same n m m' : hvals n (m_headers m') = hvals n (m_headers m) -> hrel n m m'.
Proof. unfold hrel. intros ->. apply hrel_refl. Qed.

Lemma keeps_set_val N n v m : (forall p, In p N -> hdisj n p) -> keeps N m (set_val n v m).
Proof.
  intros D. split; [reflexivity|]. intros p Hp. apply hrel_same. unfold set_val. cbn [m_headers with_headers].
  apply hvals_update_other. apply D. exact Hp.
Qed.
Lemma keeps_remove N n m : (forall p, In p N -> hdisj n p) ->
  keeps N m (with_headers m (remove_header n (m_headers m))).
Proof.
  intros D. split; [reflexivity|]. intros p Hp. apply hrel_same. cbn [m_headers with_headers].
  apply hvals_remove_other. apply D. exact Hp.
Qed.
Lemma keeps_insert N h pos m : (forall p, In p N -> same_header (h_name h) p = false) ->
  keeps N m (with_headers m (insert_at pos h (m_headers m))).
Proof.
  intros D. split; [reflexivity|]. intros p Hp. apply hrel_same. cbn [m_headers with_headers].
  apply hvals_insert_other. apply D. exact Hp.
Qed.

(* what a typed getter answers from one header value: the decoded form, or the raw text parsed *)
Definition semg {A} (proj : hval -> option A) (parse : bytes -> res A) (v : hval) : res A :=
  match proj v with
  | Some a => Ok a
  | None => match v with HRaw s => parse s | _ => Err end
  end.
Lemma typed_get_snd {A} n (proj : hval -> option A) parse inj m :
  snd (typed_get n proj parse inj m) =
  match hd_error (hvals n (m_headers m)) with Some v => semg proj parse v | None => Err end.
Proof.
  rewrite <- get_header_hvals.
  unfold typed_get, semg. destruct (get_header n (m_headers m)) as [h|]; [|reflexivity]. cbn.
  destruct (proj (h_val h)); [reflexivity|]. destruct (h_val h); try reflexivity.
  destruct (parse s); reflexivity.
Qed.
Lemma typed_get_vals {A} n (proj : hval -> option A) parse inj m : (forall v a, proj v = Some a -> v = inj a) ->
  hvals n (m_headers (fst (typed_get n proj parse inj m))) =
  match hvals n (m_headers m) with
  | v :: r => match semg proj parse v with Ok a => inj a :: r | _ => v :: r end
  | [] => []
  end.
Proof.
  intros PI. unfold typed_get, semg. pose proof (get_header_hvals n (m_headers m)) as E.
  destruct (hvals n (m_headers m)) as [|v r] eqn:Ev;
    destruct (get_header n (m_headers m)) as [h|]; cbn [option_map hd_error] in E; try discriminate.
  - cbn [fst]. exact Ev.
  - injection E as E. rewrite E. destruct (proj v) as [a|] eqn:Ep; [cbn [fst]; rewrite Ev, (PI v a Ep); reflexivity|].
    destruct v as [s|l|l|l|f|f|c]; cbn [fst]; try exact Ev.
    destruct (parse s) as [a| |]; cbn [fst]; try exact Ev.
    unfold set_val. cbn [m_headers with_headers]. rewrite hvals_update_same, Ev. reflexivity.
Qed.
(* the getter reads the header correctly: what [decoded] promises for this name *)
Definition getter_ok {A} (n : bytes) (proj : hval -> option A) (parse : bytes -> res A) (inj : A -> hval) : Prop :=
  (forall v v', decoded n v v' -> semg proj parse v' = semg proj parse v) /\
  (forall s a, proj (HRaw s) = None /\ (parse s = Ok a -> decoded n (HRaw s) (inj a))).
Lemma semg_vrel {A} n (proj : hval -> option A) parse inj v v' : getter_ok n proj parse inj ->
  vrel n v v' -> semg proj parse v' = semg proj parse v.
Proof. intros [G _] [->|H]; [reflexivity|exact (G v v' H)]. Qed.
Lemma typed_get_hrel {A} n (proj : hval -> option A) parse inj m m' : getter_ok n proj parse inj ->
  hrel n m m' -> snd (typed_get n proj parse inj m') = snd (typed_get n proj parse inj m).
Proof.
  intros G H. rewrite !typed_get_snd. unfold hrel in H.
  destruct H as [|v v' l l' Hv _]; [reflexivity|]. exact (semg_vrel n proj parse inj v v' G Hv).
Qed.
Lemma keeps_decode {A} N n (proj : hval -> option A) parse inj : getter_ok n proj parse inj ->
  (forall p, In p N -> p = n \/ hdisj n p) -> decode_edit (keeps N) n parse inj.
Proof.
  intros [_ G] D m h s a Eh Ev Es. split; [reflexivity|]. intros p Hp. destruct (D p Hp) as [->|Dp].
  - unfold hrel, set_val. cbn [m_headers with_headers]. rewrite hvals_update_same.
    pose proof (get_header_hvals n (m_headers m)) as Hh. rewrite Eh in Hh. cbn in Hh. rewrite Ev in Hh.
    destruct (hvals n (m_headers m)) as [|v r]; [discriminate|]. cbn in Hh. injection Hh as <-.
    constructor; [|apply F2_refl; intros x; left; reflexivity].
    right. apply (G s a). exact Es.
  - apply hrel_same. unfold set_val. cbn [m_headers with_headers]. apply hvals_update_other. exact Dp.
Qed.

(* two different header names: the equation between them computes to False *)
Ltac neq_names := let H := fresh in intros [H _]; vm_compute in H; discriminate H.
(* a getter accepts, under its name, exactly the decoded form of its own constructor: [decoded] offers the four
   other constructors under their own names only *)
Ltac getter_ok_tac :=
  split;
  [intros v v' H; destruct v; cbn in H; try contradiction; destruct v'; cbn in H; try contradiction;
   try (exfalso; revert H; neq_names); destruct H as [_ H]; cbn; symmetry; exact H
  |intros s a; split; [reflexivity|]; intros H; cbn; split; [reflexivity|exact H]].
Lemma ok_via : getter_ok (s2b "Via") (fun v => match v with HVia l => Some l | _ => None end) parse_via HVia.
Proof. getter_ok_tac. Qed.
Lemma ok_route : getter_ok (s2b "Route") (fun v => match v with HRoute l => Some l | _ => None end) parse_route HRoute.
Proof. getter_ok_tac. Qed.
Lemma ok_from : getter_ok (s2b "From") (fun v => match v with HFrom f => Some f | _ => None end) parse_fromto HFrom.
Proof. getter_ok_tac. Qed.
Lemma ok_to : getter_ok (s2b "To") (fun v => match v with HTo f => Some f | _ => None end) parse_fromto HTo.
Proof. getter_ok_tac. Qed.
Lemma ok_cseq : getter_ok (s2b "CSeq") (fun v => match v with HCSeq c => Some c | _ => None end) parse_cseq HCSeq.
Proof. getter_ok_tac. Qed.

Definition pres {A} (N : list bytes) (x : M A) : Prop := forall m, keeps N m (fst (x m)).

Lemma pres_try {A} N (x : M A) : pres N x -> pres N (mtry x).
Proof. exact (mpres_mtry (keeps N) x). Qed.
Ltac in_names := cbn; tauto.

(* [N] does not mention Via / Route: the Via / Route mutations keep N *)
Definition no_name (n : bytes) (N : list bytes) : Prop := incl N names /\ ~ In n N.
Lemma no_name_disj n N : In n names -> no_name n N -> forall p, In p N -> hdisj n p.
Proof.
  intros Hn [I NI] p Hp. destruct (names_disj n p Hn (I p Hp)) as [E|D]; [|exact D].
  subst p. contradiction.
Qed.

(* [keeps N] contains every decoding in place; the pop of an entry of a header that N does not name; the stamping
   of the top Via when N does not name Via.  The frame lemmas of MsgLemmas and MsgStages apply *)
Lemma keeps_edits N : incl N names -> edits_in any_name (keeps N).
Proof.
  intros HI.
  assert (D : forall n, In n names -> forall p, In p N -> p = n \/ hdisj n p).
  { intros n Hn p Hp. destruct (names_disj n p Hn (HI p Hp)) as [E|D]; [left; symmetry; exact E|right; exact D]. }
  split; try intros _.
  - apply keeps_refl.
  - apply keeps_trans.
  - exact (keeps_decode N _ _ _ _ ok_via (D (s2b "Via") ltac:(in_names))).
  - exact (keeps_decode N _ _ _ _ ok_route (D (s2b "Route") ltac:(in_names))).
  - exact (keeps_decode N _ _ _ _ ok_from (D (s2b "From") ltac:(in_names))).
  - exact (keeps_decode N _ _ _ _ ok_to (D (s2b "To") ltac:(in_names))).
  - exact (keeps_decode N _ _ _ _ ok_cseq (D (s2b "CSeq") ltac:(in_names))).
  - intros m. split; [reflexivity|]. intros p Hp. apply decode_vias_hrel.
    destruct (D (s2b "Via") ltac:(in_names) p Hp) as [E|Dp]; [left; exact E|right; exact Dp].
Qed.
Definition names_edits : edits_in any_name (keeps names) := keeps_edits names (incl_refl names).
Lemma keeps_pop {A} N n (inj : list A -> hval) : In n names -> no_name n N -> pop_edit (keeps N) n inj.
Proof.
  intros Hn H m h l _ _. pose proof (no_name_disj n N Hn H) as D.
  destruct l as [|a [|b r]]; first [apply keeps_remove; exact D|apply keeps_set_val; exact D].
Qed.
Lemma keeps_top_via N : no_name (s2b "Via") N -> top_via_edit (keeps N).
Proof. intros H m h v v' rest _ _ _ _ _ _ _. apply keeps_set_val. exact (no_name_disj _ N ltac:(in_names) H). Qed.

Lemma pres_get_expires N d : pres N (s_get_expires d).
Proof. intros m. apply keeps_refl. Qed.
Lemma pres_pop_via N : no_name (s2b "Via") N -> pres N s_pop_via.
Proof. intros H. exact (mpres_s_pop_via _ _ (keeps_edits N (proj1 H)) I (keeps_pop N (s2b "Via") HVia ltac:(in_names) H)). Qed.
Lemma pres_all_via_params N : incl N names -> pres N s_all_via_params.
Proof. intros HI. exact (mpres_s_all_via_params _ _ (keeps_edits N HI) I). Qed.
Lemma pres_try_remove_top_route N c from : no_name (s2b "Route") N -> pres N (try_remove_top_route c from).
Proof.
  intros H. exact (mpres_try_remove_top_route _ _ (keeps_edits N (proj1 H)) c from I (keeps_pop N (s2b "Route") HRoute ltac:(in_names) H)).
Qed.
Lemma pres_next_request_hop N keep rt : no_name (s2b "Route") N -> pres N (next_request_hop keep rt).
Proof.
  intros H. exact (mpres_next_request_hop _ _ (keeps_edits N (proj1 H)) keep rt I I (keeps_pop N (s2b "Route") HRoute ltac:(in_names) H)).
Qed.
Lemma keeps_add_via N v m : no_name (s2b "Via") N -> keeps N m (add_via v m).
Proof.
  intros [I NI]. apply keeps_insert. intros p Hp. cbn [h_name].
  apply via_self_disj; [apply I; exact Hp|]. intros ->. contradiction.
Qed.
Lemma keeps_add_record_route N r m : incl N names -> keeps N m (add_record_route r m).
Proof.
  intros I. apply keeps_insert. intros p Hp. cbn [h_name]. apply record_route_disj. apply I. exact Hp.
Qed.

(* what the getters return is a function of the kept headers *)
Lemma get_raw_hrel n m m' : (forall v v', ~ decoded n v v') -> hrel n m m' -> get_raw n m' = get_raw n m.
Proof.
  intros ND H. unfold get_raw. unfold hrel in H.
  pose proof (get_header_hvals n (m_headers m)) as E1. pose proof (get_header_hvals n (m_headers m')) as E2.
  destruct H as [|v v' l l' Hv _]; cbn in E1, E2.
  - destruct (get_header n (m_headers m)), (get_header n (m_headers m')); try discriminate. reflexivity.
  - destruct (get_header n (m_headers m)) as [h|], (get_header n (m_headers m')) as [h'|]; try discriminate.
    cbn in E1, E2. injection E1 as ->. injection E2 as ->.
    destruct Hv as [->|Hv]; [reflexivity|]. exfalso. exact (ND _ _ Hv).
Qed.
(* [decoded] knows no decoded form under this name *)
Ltac not_decoded := intros v v' H; destruct v; cbn in H; try contradiction; destruct v'; cbn in H; try contradiction;
                    revert H; neq_names.
Lemma nd_callid : forall v v', ~ decoded (s2b "Call-ID") v v'. Proof. not_decoded. Qed.
Lemma nd_substate : forall v v', ~ decoded (s2b "Subscription-State") v v'. Proof. not_decoded. Qed.
Lemma nd_expires : forall v v', ~ decoded (s2b "Expires") v v'. Proof. not_decoded. Qed.

Section Views.
  Variables (N : list bytes) (m m' : message).
  Hypothesis K : keeps N m m'.
  Lemma k_start : m_start m' = m_start m. Proof. apply K. Qed.
  Lemma k_is_request : is_request m' = is_request m. Proof. unfold is_request. rewrite k_start. reflexivity. Qed.
  Lemma k_is_response : is_response m' = is_response m. Proof. unfold is_response. rewrite k_is_request. reflexivity. Qed.
  Lemma k_is_final : is_final_response m' = is_final_response m. Proof. unfold is_final_response. rewrite k_start. reflexivity. Qed.
  Lemma k_callid : In (s2b "Call-ID") N -> get_raw (s2b "Call-ID") m' = get_raw (s2b "Call-ID") m.
  Proof. intros H. apply get_raw_hrel; [exact nd_callid|apply K; exact H]. Qed.
  Lemma k_substate : In (s2b "Subscription-State") N -> get_raw (s2b "Subscription-State") m' = get_raw (s2b "Subscription-State") m.
  Proof. intros H. apply get_raw_hrel; [exact nd_substate|apply K; exact H]. Qed.
  Lemma k_expires : In (s2b "Expires") N -> get_expires m' 0 = get_expires m 0.
  Proof.
    intros H. unfold get_expires, get_header_int.
    rewrite (get_raw_hrel (s2b "Expires") m m' nd_expires); [reflexivity|apply K; exact H].
  Qed.
  Lemma k_from : In (s2b "From") N -> snd (s_get_from m') = snd (s_get_from m).
  Proof. intros H. apply typed_get_hrel; [exact ok_from|apply K; exact H]. Qed.
  Lemma k_to : In (s2b "To") N -> snd (s_get_to m') = snd (s_get_to m).
  Proof. intros H. apply typed_get_hrel; [exact ok_to|apply K; exact H]. Qed.
  Lemma k_cseq : In (s2b "CSeq") N -> snd (s_get_cseq m') = snd (s_get_cseq m).
  Proof. intros H. apply typed_get_hrel; [exact ok_cseq|apply K; exact H]. Qed.
  Lemma k_via : In (s2b "Via") N -> snd (s_get_via m') = snd (s_get_via m).
  Proof. intros H. apply typed_get_hrel; [exact ok_via|apply K; exact H]. Qed.
  Lemma k_route : In (s2b "Route") N -> snd (s_get_route m') = snd (s_get_route m).
  Proof. intros H. apply typed_get_hrel; [exact ok_route|apply K; exact H]. Qed.
End Views.

(* results of the composite getters as functions of the views *)
Definition dialog_of (m : message) : res bytes :=
  let! cid := get_raw (s2b "Call-ID") m in
  let! f := snd (s_get_from m) in
  let! ftag := of_opt (fromto_tag f) in
  let! t := snd (s_get_to m) in
  let! ttag := of_opt (fromto_tag t) in
  Ok (dialog_string cid ftag (dialog_addr (fromto_addr_spec f)) ttag (dialog_addr (fromto_addr_spec t))).
Definition method_of (m : message) : res bytes :=
  match m_start m with
  | SReq meth _ _ => Ok meth
  | SResp _ _ _ => let! c := snd (s_get_cseq m) in Ok (cs_method c)
  end.
Definition top_via_of (m : message) : res via_param :=
  let! l := snd (s_get_via m) in match l with v :: _ => Ok v | [] => Err end.
Definition tid_of (m : message) : res bytes :=
  let! c := snd (s_get_cseq m) in
  let! v := top_via_of m in
  let! b := of_opt (via_get_branch v) in
  Ok (cs_method c ++ "-"%char :: b).

Lemma s_get_dialog_snd m : snd (s_get_dialog m) = dialog_of m.
Proof.
  unfold s_get_dialog, dialog_of, mbind, s_get_raw, mlift, mret.
  destruct (get_raw (s2b "Call-ID") m) as [cid| |]; cbn; try reflexivity.
  pose proof (mpres_s_get_from _ _ names_edits I m) as K.
  destruct (s_get_from m) as [m1 rf]. cbn [fst snd] in *.
  destruct rf as [f| |]; cbn; try reflexivity.
  destruct (fromto_tag f) as [ftag|]; cbn; [|reflexivity].
  rewrite <- (k_to names m m1 K ltac:(in_names)).
  destruct (s_get_to m1) as [m2 rt]. cbn [snd].
  destruct rt as [t| |]; cbn; try reflexivity.
  destruct (fromto_tag t); reflexivity.
Qed.
Lemma s_get_method_snd m : snd (s_get_method m) = method_of m.
Proof.
  unfold s_get_method, method_of. destruct (m_start m); [reflexivity|].
  unfold mbind, mret. destruct (s_get_cseq m) as [m1 r]. destruct r; reflexivity.
Qed.
Lemma s_top_via_snd m : snd (s_top_via m) = top_via_of m.
Proof.
  unfold s_top_via, top_via_of, mbind, mret, merr. destruct (s_get_via m) as [m1 r]. cbn [snd].
  destruct r as [[|v l]| |]; reflexivity.
Qed.
Lemma s_client_transaction_snd m : snd (s_client_transaction m) = tid_of m.
Proof.
  unfold s_client_transaction, tid_of, mbind.
  pose proof (mpres_s_get_cseq _ _ names_edits I m) as K.
  destruct (s_get_cseq m) as [m1 rc]. cbn [fst snd] in *.
  destruct rc as [c| |]; cbn; try reflexivity.
  unfold top_via_of. rewrite <- (k_via names m m1 K ltac:(in_names)).
  fold (top_via_of m1). rewrite <- s_top_via_snd.
  destruct (s_top_via m1) as [m2 rv]. cbn [snd]. destruct rv as [v| |]; cbn; try reflexivity.
  unfold mlift, mret. destruct (via_get_branch v); reflexivity.
Qed.

Lemma dialog_of_keeps N m m' : keeps N m m' ->
  In (s2b "Call-ID") N -> In (s2b "From") N -> In (s2b "To") N -> dialog_of m' = dialog_of m.
Proof.
  intros K H1 H2 H3. unfold dialog_of.
  rewrite (k_callid N m m' K H1), (k_from N m m' K H2), (k_to N m m' K H3). reflexivity.
Qed.
Lemma method_of_keeps N m m' : keeps N m m' -> In (s2b "CSeq") N -> method_of m' = method_of m.
Proof. intros K H. unfold method_of. rewrite (k_start N m m' K), (k_cseq N m m' K H). reflexivity. Qed.
Lemma tid_of_keeps N m m' : keeps N m m' -> In (s2b "CSeq") N -> In (s2b "Via") N -> tid_of m' = tid_of m.
Proof.
  intros K H1 H2. unfold tid_of, top_via_of. rewrite (k_cseq N m m' K H1), (k_via N m m' K H2). reflexivity.
Qed.

(* direction independence, on messages: From/To exchanged (same tags, same URI cores) *)
Theorem dialog_of_symmetric : forall m m' cid f t f' t',
  get_raw (s2b "Call-ID") m = Ok cid -> get_raw (s2b "Call-ID") m' = Ok cid ->
  snd (s_get_from m) = Ok f -> snd (s_get_to m) = Ok t ->
  snd (s_get_from m') = Ok f' -> snd (s_get_to m') = Ok t' ->
  fromto_tag f' = fromto_tag t -> fromto_tag t' = fromto_tag f ->
  dialog_addr (fromto_addr_spec f') = dialog_addr (fromto_addr_spec t) ->
  dialog_addr (fromto_addr_spec t') = dialog_addr (fromto_addr_spec f) ->
  dialog_of m' = dialog_of m.
Proof.
  intros m m' cid f t f' t' C C' F T F' T' E1 E2 A1 A2. unfold dialog_of.
  rewrite C, C', F, T, F', T'. cbn. rewrite E1, E2, A1, A2.
  destruct (fromto_tag t) as [tt|], (fromto_tag f) as [ft|]; cbn; try reflexivity.
  rewrite (C16.C16_symmetric cid tt). reflexivity.
Qed.

Lemma atoi_val_itoa z : int_min <= z <= int_max -> atoi_val (itoa z) = z.
Proof. intros H. unfold atoi_val. rewrite atoi_itoa by exact H. reflexivity. Qed.
Lemma itoa_no_hash z : ~ In "#"%char (itoa z).
Proof. apply itoa_notin; [reflexivity|discriminate]. Qed.
(* the generation is printed with itoa into the pin value and read back with atoi_val (Proxy.pin_val_backend,
   bref_of_val): the round trip needs it in the int range *)
Definition gen_ok (g : nat) : Prop := Z.of_nat g <= int_max.

(* the round trip holds for EVERY address text (the generation is read after the LAST '#'), in
   particular for addresses without '#' *)
Theorem bref_of_val_backend : forall addr g, gen_ok g -> bref_of_val (pin_val_backend addr g) = BObj addr g.
Proof.
  intros addr g G. unfold bref_of_val, pin_val_backend.
  rewrite last_index_byte_app by apply itoa_no_hash.
  rewrite firstn_length_app, skipn_S_length_app, atoi_val_itoa.
  - rewrite Nat2Z.id. reflexivity.
  - unfold gen_ok in G. unfold int_min. lia.
Qed.
Theorem bref_of_val_rr : bref_of_val pin_val_rr = BRR.
Proof. vm_compute. reflexivity. Qed.
Theorem bref_round_trip : forall b, match b with BObj _ g => gen_ok g | BRR => True end ->
  bref_of_val (bref_val b) = b.
Proof. intros [a g|] H; [apply bref_of_val_backend; exact H|apply bref_of_val_rr]. Qed.
Lemma bref_val_of_backend addr g : gen_ok g -> bref_val (bref_of_val (pin_val_backend addr g)) = pin_val_backend addr g.
Proof. intros G. rewrite bref_of_val_backend by exact G. reflexivity. Qed.
Example bref_round_trip_ex :
  bref_of_val (pin_val_backend (s2b "10.0.0.7:5070") 12) = BObj (s2b "10.0.0.7:5070") 12 /\
  bref_of_val (pin_val_backend (s2b "we#ird:1") 3) = BObj (s2b "we#ird:1") 3.
Proof. split; vm_compute; reflexivity. Qed.

(* the datagram a backend address stands for *)
Definition addr_dest (a : bytes) : option dest :=
  match last_index_byte ":"%char a with
  | Some pos => Some (DUdp (firstn pos a) (atoi_val (skipn (S pos) a)))
  | None => None
  end.
Lemma addr_dest_host_port ip port : int_min <= port <= int_max ->
  addr_dest (ip ++ ":"%char :: itoa port) = Some (DUdp ip port).
Proof.
  intros H. unfold addr_dest. rewrite last_index_byte_app by apply itoa_no_colon.
  rewrite firstn_length_app, skipn_S_length_app, atoi_val_itoa by exact H. reflexivity.
Qed.
Lemma join_host_port_plain ip port : contains_byte ":"%char ip = false -> contains_byte "%"%char ip = false ->
  join_host_port ip port = ip ++ ":"%char :: itoa port.
Proof. intros H1 H2. unfold join_host_port. rewrite H1, H2. reflexivity. Qed.

(* the load-balancing half of a proxy: members, rotation, pins *)
Definition lb_eq (p p' : pstate) : Prop :=
  ps_backends p' = ps_backends p /\ ps_rr p' = ps_rr p /\ ps_has_rr p' = ps_has_rr p /\
  ps_gen p' = ps_gen p /\ ps_pins p' = ps_pins p.
Lemma lb_refl p : lb_eq p p. Proof. repeat split. Qed.
Lemma lb_trans a b c : lb_eq a b -> lb_eq b c -> lb_eq a c.
Proof. unfold lb_eq. intros (A1&A2&A3&A4&A5) (B1&B2&B3&B4&B5). repeat split; congruence. Qed.
Lemma lb_sym a b : lb_eq a b -> lb_eq b a.
Proof. unfold lb_eq. intros (A1&A2&A3&A4&A5). repeat split; congruence. Qed.
Lemma lb_with_table p t : lb_eq p (with_table p t). Proof. repeat split. Qed.
Lemma lb_with_clients p c : lb_eq p (with_clients p c). Proof. repeat split. Qed.
Lemma lb_clean_expired n p : lb_eq p (clean_expired n p).
Proof. unfold clean_expired. destruct (_ <? _); repeat split. Qed.
Lemma lb_set_primary k pr p : lb_eq p (set_primary k pr p).
Proof. unfold set_primary. destruct (alookup k (ps_table p)); [apply lb_with_table|apply lb_refl]. Qed.
Lemma lb_remove_transport pr h pt t p : lb_eq p (remove_transport pr h pt t p).
Proof. unfold remove_transport. destruct (negb _); [apply lb_refl|apply lb_with_table]. Qed.
Lemma lb_get_transport n pr h pt t p : lb_eq p (fst (get_transport n pr h pt t p)).
Proof.
  unfold get_transport. pose proof (lb_clean_expired n p) as C. set (q := clean_expired n p) in *. clearbody q.
  destruct (negb _); [exact C|].
  destruct (alookup _ (ps_table q)); [exact C|].
  destruct (beq _ _).
  - destruct (resolvable h pt); [|exact C]. cbn [fst]. eapply lb_trans; [exact C|apply lb_with_table].
  - destruct (alookup _ (ps_table q)); cbn [fst].
    + eapply lb_trans; [exact C|apply lb_with_table].
    + eapply lb_trans; [exact C|]. eapply lb_trans; [apply lb_with_clients|apply lb_with_table].
Qed.
Lemma lb_failover_send li local rs f b p cs w p' cs' w' outs ok f' :
  failover_send li local rs f b p cs w = (p', cs', w', outs, ok, f') -> lb_eq p p'.
Proof. intros H. destruct (proj1 (failover_send_p _ _ _ _ _ _ _ _ _ _ _ _ _ _ H)) as [cls ->]. apply lb_with_clients. Qed.
Lemma lb_send_message e host port tr m x : lb_eq (x_p x) (x_p (fst (send_message e host port tr m x))).
Proof.
  apply (send_message_rel e host port tr m lb_eq lb_trans).
  - intros p. apply lb_get_transport.
  - intros p _. apply lb_set_primary.
  - intros p. apply lb_remove_transport.
  - intros f b p cs w p' cs' w' outs ok f'. apply lb_failover_send.
  - intros f p. apply lb_with_table.
Qed.

(* the dialog key [d] is bound to the value [v] until [ex] *)
Definition pin_at (d v : bytes) (ex : Z) (p : pins) : Prop :=
  alookup d (p_tab p) = Some {| pin_backend := v; pin_expire := ex |}.

Lemma pin_at_get_live d v ex now p : pin_at d v ex p -> now < ex -> pins_get now d p = (p, Some v).
Proof.
  unfold pin_at, pins_get. intros -> H. cbn. apply Z.ltb_lt in H. rewrite H. reflexivity.
Qed.
Lemma pin_at_get_other d v ex now k p : k <> d -> pin_at d v ex p -> pin_at d v ex (fst (pins_get now k p)).
Proof.
  unfold pin_at, pins_get. intros NE H. destruct (alookup k (p_tab p)) as [e|]; [|exact H].
  destruct (now <? pin_expire e); [exact H|]. cbn. rewrite alookup_adel_other by congruence. exact H.
Qed.
Lemma pin_at_get d v ex now k p : now < ex -> pin_at d v ex p -> pin_at d v ex (fst (pins_get now k p)).
Proof.
  intros L H. destruct (beq_spec k d) as [->|NE].
  - rewrite (pin_at_get_live d v ex now p H L). exact H.
  - apply pin_at_get_other; assumption.
Qed.
Lemma pin_at_remove_other d v ex k p : k <> d -> pin_at d v ex p -> pin_at d v ex (pins_remove k p).
Proof. unfold pin_at, pins_remove. intros NE H. cbn. rewrite alookup_adel_other by congruence. exact H. Qed.
Lemma pin_at_add_other d v ex now k b e p : k <> d -> now <= ex -> pin_at d v ex p ->
  pin_at d v ex (pins_add now k b e p).
Proof.
  unfold pin_at, pins_add. intros NE L H.
  assert (H1 : alookup d (aset k {| pin_backend := b; pin_expire := now + pins_lifetime p e |} (p_tab p))
               = Some {| pin_backend := v; pin_expire := ex |})
    by (rewrite alookup_aset_other by congruence; exact H).
  destruct (p_next_clean p <? now); cbn; [|exact H1].
  unfold pins_clean. apply alookup_filter_some; [exact H1|]. cbn.
  apply negb_true_iff. apply Z.ltb_ge. exact L.
Qed.
Lemma pins_add_absent d now k bv ee p : k <> d -> alookup d (p_tab p) = None ->
  alookup d (p_tab (pins_add now k bv ee p)) = None.
Proof.
  intros NE H. unfold pins_add.
  assert (H0 : alookup d (aset k {| pin_backend := bv; pin_expire := now + pins_lifetime p ee |} (p_tab p)) = None)
    by (rewrite alookup_aset_other by (intros E; apply NE; symmetry; exact E); exact H).
  destruct (_ <? _); cbn [p_tab]; [apply C15.alookup_clean_none|]; exact H0.
Qed.
Lemma pin_at_add_same d now b e p : 0 <= pins_lifetime p e ->
  pin_at d b (now + pins_lifetime p e) (pins_add now d b e p).
Proof.
  unfold pin_at, pins_add. intros L.
  pose proof (alookup_aset_same d {| pin_backend := b; pin_expire := now + pins_lifetime p e |} (p_tab p)) as H1.
  destruct (p_next_clean p <? now); cbn; [|exact H1].
  unfold pins_clean. apply alookup_filter_some; [exact H1|]. cbn.
  apply negb_true_iff. apply Z.ltb_ge. lia.
Qed.
(* the lifetime is the configured timeout or the announced Expires, whichever is longer (C15's domain) *)
Lemma pins_lifetime_nonneg p e : 0 <= p_timeout p -> 0 <= e * second < two63 -> p_timeout p <= pins_lifetime p e.
Proof.
  intros T E. unfold pins_lifetime. destruct (Z.ltb_spec (p_timeout p) (e * second)) as [H|H]; [|lia].
  rewrite C15.wrap64_small by exact E. lia.
Qed.

(* running a getter: the result is the view, the message keeps every header *)
Lemma run_view {A} (x : M A) (view : message -> res A) m :
  pres names x -> (forall m0, snd (x m0) = view m0) -> exists m1, x m = (m1, view m) /\ keeps names m m1.
Proof.
  intros P V. exists (fst (x m)). split; [|apply P]. rewrite <- V. destruct (x m); reflexivity.
Qed.
Definition opt_res {A} (r : res A) : res (option A) :=
  match r with Ok a => Ok (Some a) | Err => Ok None | Panic => Panic end.
Lemma run_try {A} (x : M A) (view : message -> res A) m :
  pres names x -> (forall m0, snd (x m0) = view m0) -> exists m1, mtry x m = (m1, opt_res (view m)) /\ keeps names m m1.
Proof.
  intros P V. destruct (run_view x view m P V) as (m1 & E & K). exists m1. split; [|exact K].
  unfold mtry. rewrite E. destruct (view m); reflexivity.
Qed.
(* the reads of handleDialog, findBackendByDialog and HandleMessage keep every name *)
Definition P_method : pres names s_get_method := mpres_s_get_method _ _ names_edits I.
Definition P_dialog : pres names s_get_dialog := mpres_s_get_dialog _ _ names_edits I I.
Definition P_tid : pres names s_client_transaction := mpres_s_client_transaction _ _ names_edits I I.

(* handleDialog as a function of the views of the response *)
Definition hd_tail_pure (e : env) (p1 : pstate) (ob : option bref) (m : message) : res pstate :=
  match ob with
  | None => Ok p1
  | Some b =>
      match method_of m with
      | Panic => Panic
      | Err => Ok p1
      | Ok meth =>
          if beq meth (s2b "INVITE") then
            match dialog_of m with
            | Panic => Panic
            | Ok d => Ok (with_pins p1 (pins_add (e_now e) d (bref_val b) (get_expires m 0) (ps_pins p1)))
            | Err => Ok p1
            end
          else if beq meth (s2b "BYE") then
            match dialog_of m with
            | Panic => Panic
            | Ok d => Ok (with_pins p1 (pins_remove d (ps_pins p1)))
            | Err => Ok p1
            end
          else Ok p1
      end
  end.
Definition hd_pure (e : env) (peer : bytes) (peer_port : Z) (p : pstate) (m : message) : res pstate :=
  let addr := join_host_port peer peer_port in
  match alookup addr (ps_backends p) with
  | Some g => hd_tail_pure e p (Some (BObj addr g)) m
  | None =>
      match tid_of m with
      | Ok tid =>
          let pins1 := fst (pins_get (e_now e) tid (ps_pins p)) in
          let ob := snd (pins_get (e_now e) tid (ps_pins p)) in
          let pins2 := if is_final_response m then pins_remove tid pins1 else pins1 in
          hd_tail_pure e (with_pins p pins2) (option_map bref_of_val ob) m
      | Err => Err
      | Panic => Panic
      end
  end.

Definition hd_tail (e : env) (p1 : pstate) (ob : option bref) : M pstate :=
  match ob with
  | None => mret p1
  | Some b =>
      mlet om := mtry s_get_method in
      match om with
      | None => mret p1
      | Some meth =>
          if beq meth (s2b "INVITE") then
            mlet od := mtry s_get_dialog in
            mlet ex := s_get_expires 0 in
            match od with
            | Some d => mret (with_pins p1 (pins_add (e_now e) d (bref_val b) ex (ps_pins p1)))
            | None => mret p1
            end
          else if beq meth (s2b "BYE") then
            mlet od := mtry s_get_dialog in
            match od with
            | Some d => mret (with_pins p1 (pins_remove d (ps_pins p1)))
            | None => mret p1
            end
          else mret p1
      end
  end.
Lemma hd_tail_run e p1 ob m0 m : keeps names m0 m ->
  exists m', hd_tail e p1 ob m = (m', hd_tail_pure e p1 ob m0) /\ keeps names m0 m'.
Proof.
  intros K0. unfold hd_tail, hd_tail_pure. destruct ob as [b|]; [|exists m; split; [reflexivity|exact K0]].
  unfold mbind at 1.
  destruct (run_try s_get_method method_of m P_method s_get_method_snd) as (m1 & E1 & K1). rewrite E1.
  rewrite (method_of_keeps names m0 m K0 ltac:(in_names)).
  assert (K01 : keeps names m0 m1) by (eapply keeps_trans; eassumption).
  destruct (method_of m0) as [meth| |]; cbn [opt_res]; try (exists m1; split; [reflexivity|exact K01]).
  destruct (beq meth (s2b "INVITE")).
  { unfold mbind.
    destruct (run_try s_get_dialog dialog_of m1 P_dialog s_get_dialog_snd) as (m2 & E2 & K2). rewrite E2.
    assert (K02 : keeps names m0 m2) by (eapply keeps_trans; eassumption).
    rewrite (dialog_of_keeps names m0 m1 K01) by in_names.
    destruct (dialog_of m0) as [d| |]; cbn [opt_res]; try (exists m2; split; [reflexivity|exact K02]).
    unfold s_get_expires, mret. rewrite <- (k_expires names m0 m2 K02 ltac:(in_names)).
    exists m2. split; [reflexivity|exact K02]. }
  destruct (beq meth (s2b "BYE")); [|exists m1; split; [reflexivity|exact K01]].
  unfold mbind.
  destruct (run_try s_get_dialog dialog_of m1 P_dialog s_get_dialog_snd) as (m2 & E2 & K2). rewrite E2.
  assert (K02 : keeps names m0 m2) by (eapply keeps_trans; eassumption).
  rewrite (dialog_of_keeps names m0 m1 K01) by in_names.
  destruct (dialog_of m0) as [d| |]; cbn [opt_res]; exists m2; (split; [reflexivity|exact K02]).
Qed.
Lemma handle_dialog_run e peer port p m :
  exists m', handle_dialog e peer port p m = (m', hd_pure e peer port p m) /\ keeps names m m'.
Proof.
  unfold handle_dialog, hd_pure.
  destruct (alookup (join_host_port peer port) (ps_backends p)) as [g|].
  - unfold mbind at 1, mret at 1.
    apply (hd_tail_run e p (Some (BObj (join_host_port peer port) g)) m m). apply keeps_refl.
  - unfold mbind at 1. unfold mbind at 1.
    destruct (run_view s_client_transaction tid_of m P_tid s_client_transaction_snd) as (m1 & E1 & K1). rewrite E1.
    destruct (tid_of m) as [tid| |]; try (exists m1; split; [reflexivity|exact K1]).
    destruct (pins_get (e_now e) tid (ps_pins p)) as [pins1 ob]. cbn [fst snd].
    unfold mbind at 1. unfold mret at 1. rewrite (k_is_final names m m1 K1).
    apply (hd_tail_run e _ _ m m1). exact K1.
Qed.

(* the Via stack of a response: what PopVia leaves on top *)
Definition pv (v : hval) : option (list via_param) := match v with HVia l => Some l | _ => None end.
Definition sem_via (v : hval) : res (list via_param) := semg pv parse_via v.
Definition via_vals (m : message) : list hval := hvals (s2b "Via") (m_headers m).
Definition pop_vals (vs : list hval) : list hval :=
  match vs with
  | [] => []
  | v :: r => match sem_via v with
              | Ok (_ :: (_ :: _) as rest) => HVia rest :: r
              | Ok _ => r
              | _ => vs
              end
  end.
Definition top_of_vals (vs : list hval) : res via_param :=
  match vs with
  | v :: _ => let! l := sem_via v in match l with x :: _ => Ok x | [] => Err end
  | [] => Err
  end.
Lemma top_via_of_vals m : top_via_of m = top_of_vals (via_vals m).
Proof.
  unfold top_via_of, s_get_via. rewrite typed_get_snd. fold (via_vals m).
  destruct (via_vals m) as [|v r]; reflexivity.
Qed.
Lemma pv_inj v l : pv v = Some l -> v = HVia l.
Proof. destruct v; intros H; try discriminate H. injection H as ->. reflexivity. Qed.
Lemma pop_via_vals m : via_vals (fst (s_pop_via m)) = pop_vals (via_vals m).
Proof.
  unfold s_pop_via, mbind.
  pose proof (typed_get_vals (s2b "Via") pv parse_via HVia m pv_inj) as G.
  pose proof (typed_get_snd (s2b "Via") pv parse_via HVia m) as S.
  change (typed_get (s2b "Via") pv parse_via HVia) with s_get_via in G, S.
  unfold via_vals, pop_vals, sem_via. destruct (s_get_via m) as [m1 r]. cbn [fst snd] in G, S. subst r.
  destruct (hvals (s2b "Via") (m_headers m)) as [|v vs]; cbn [hd_error]; [cbn [fst]; exact G|].
  destruct (semg pv parse_via v) as [[|a [|b l]]| |]; unfold mmodify; cbn [fst m_headers with_headers]; try exact G.
  - rewrite hvals_remove_same, G. reflexivity.
  - rewrite hvals_remove_same, G. reflexivity.
  - unfold set_val. cbn [m_headers with_headers]. rewrite hvals_update_same, G. reflexivity.
Qed.
Lemma sem_via_vrel v v' : vrel (s2b "Via") v v' -> sem_via v' = sem_via v.
Proof. exact (semg_vrel _ _ _ _ v v' ok_via). Qed.
Lemma pop_vals_rel vs vs' : Forall2 (vrel (s2b "Via")) vs vs' -> Forall2 (vrel (s2b "Via")) (pop_vals vs) (pop_vals vs').
Proof.
  intros H. destruct H as [|v v' r r' Hv Hr]; [constructor|]. unfold pop_vals.
  rewrite (sem_via_vrel v v' Hv).
  destruct (sem_via v) as [[|a [|b l]]| |]; try exact Hr; try (constructor; assumption).
  constructor; [left; reflexivity|exact Hr].
Qed.
Lemma top_of_vals_rel vs vs' : Forall2 (vrel (s2b "Via")) vs vs' -> top_of_vals vs' = top_of_vals vs.
Proof.
  intros H. destruct H as [|v v' r r' Hv Hr]; [reflexivity|]. unfold top_of_vals.
  rewrite (sem_via_vrel v v' Hv). reflexivity.
Qed.
(* the Via entry on top once the proxy's own entry has been popped *)
Definition next_top (m : message) : res via_param := top_via_of (fst (s_pop_via m)).
Lemma next_top_vals m : next_top m = top_of_vals (pop_vals (via_vals m)).
Proof. unfold next_top. rewrite top_via_of_vals, pop_via_vals. reflexivity. Qed.
Lemma next_top_keeps N m m' : keeps N m m' -> In (s2b "Via") N -> next_top m' = next_top m.
Proof.
  intros [_ K] H. rewrite !next_top_vals. apply top_of_vals_rel. apply pop_vals_rel. apply K. exact H.
Qed.
Definition hop_of_via (v : via_param) : bytes * Z * bytes :=
  match via_get_received v with
  | Some h => (h, match via_get_rport v with Some p => p | None => via_get_port v end, v_transport v)
  | None => (v_host v, via_get_port v, v_transport v)
  end.
Lemma next_response_hop_snd m : snd (next_response_hop m) = rmap hop_of_via (top_via_of m).
Proof.
  unfold next_response_hop, mbind. rewrite <- s_top_via_snd. destruct (s_top_via m) as [m1 r]. cbn [snd].
  destruct r as [v| |]; cbn; try reflexivity. unfold hop_of_via. destruct (via_get_received v); reflexivity.
Qed.
Definition relay_hop (m : message) : res (bytes * Z * bytes) := rmap hop_of_via (next_top m).

Lemma mtry_snd {A} (x : M A) m : snd (mtry x m) = opt_res (snd (x m)).
Proof. unfold mtry. destruct (x m) as [m1 r]. destruct r; reflexivity. Qed.

(* the names without Via (what survives PopVia and the stamping), without Route (what survives PopRoute) *)
Definition NP : list bytes :=
  [s2b "Route"; s2b "From"; s2b "To"; s2b "CSeq"; s2b "Call-ID"; s2b "Subscription-State"; s2b "Expires"].
Definition NR : list bytes :=
  [s2b "Via"; s2b "From"; s2b "To"; s2b "CSeq"; s2b "Call-ID"; s2b "Subscription-State"; s2b "Expires"].
(* neither *)
Definition NQ : list bytes :=
  [s2b "From"; s2b "To"; s2b "CSeq"; s2b "Call-ID"; s2b "Subscription-State"; s2b "Expires"].
(* membership in the literal lists above, by computation *)
Ltac no_name_tac := split; [intros ? H; cbn in H |- *; tauto|
                            cbn; intros H; repeat (destruct H as [H|H]; [discriminate H|]); exact H].
Lemma NP_novia : no_name (s2b "Via") NP. Proof. no_name_tac. Qed.
Lemma NR_noroute : no_name (s2b "Route") NR. Proof. no_name_tac. Qed.
Lemma NQ_novia : no_name (s2b "Via") NQ. Proof. no_name_tac. Qed.
Lemma NQ_noroute : no_name (s2b "Route") NQ. Proof. no_name_tac. Qed.
Lemma NQ_names : incl NQ names. Proof. apply NQ_novia. Qed.
Lemma NQ_NP : incl NQ NP. Proof. intros ? H; cbn in H |- *; tauto. Qed.
Lemma NQ_NR : incl NQ NR. Proof. intros ? H; cbn in H |- *; tauto. Qed.
Lemma NP_names : incl NP names. Proof. apply NP_novia. Qed.
Lemma NR_names : incl NR names. Proof. apply NR_noroute. Qed.

(* the SUBSCRIBE-response rule of HandleMessage as a function of the views *)
Definition sub_bind_pure (e : env) (p : pstate) (m : message) : pstate :=
  match relay_hop m, method_of m with
  | Ok (host, port, _), Ok meth =>
      if beq meth (s2b "SUBSCRIBE") then
        let addr := host ++ ":"%char :: itoa port in
        match alookup addr (ps_backends p), dialog_of m with
        | Some g, Ok d => with_pins p (pins_add (e_now e) d (pin_val_backend addr g) (get_expires m 0) (ps_pins p))
        | _, _ => p
        end
      else p
  | _, _ => p
  end.
Definition P_hop : pres names next_response_hop := mpres_next_response_hop _ _ names_edits I.
(* the rule run on [m3], the response after its top Via has been popped and the hop and the method read *)
Lemma subscribe_pin_pure e p m m3 : keeps NP m m3 ->
  exists m4, keeps names m3 m4 /\
    subscribe_pin e p (opt_res (relay_hop m)) (opt_res (method_of m)) m3 = (m4, sub_bind_pure e p m).
Proof.
  intros K. unfold subscribe_pin, sub_bind_pure.
  destruct (relay_hop m) as [[[host port] tr]| |]; cbn [opt_res]; try (exists m3; split; [apply keeps_refl|reflexivity]).
  destruct (method_of m) as [meth| |]; cbn [opt_res]; try (exists m3; split; [apply keeps_refl|reflexivity]).
  destruct (beq meth (s2b "SUBSCRIBE")); [|exists m3; split; [apply keeps_refl|reflexivity]].
  cbv zeta. destruct (alookup _ (ps_backends p)) as [g|]; [|exists m3; split; [apply keeps_refl|reflexivity]].
  destruct (run_try s_get_dialog dialog_of m3 P_dialog s_get_dialog_snd) as (m4 & E4 & K4). rewrite E4.
  rewrite (dialog_of_keeps NP m m3 K) by in_names. exists m4. split; [exact K4|].
  destruct (dialog_of m) as [d| |]; cbn [opt_res]; try reflexivity.
  assert (K04 : keeps NP m m4) by exact (keeps_step _ _ _ _ _ NP_names K K4).
  rewrite (k_expires NP m m4 K04 ltac:(in_names)). reflexivity.
Qed.
(* HandleMessage on a response: the rule, then the relay along the Via beneath the proxy's own; [m4] is what
   is left of the popped message when it is sent *)
Lemma handle_message_response_exact e from m x : is_request m = false ->
  exists m4, keeps names (fst (s_pop_via m)) m4 /\
    fst (handle_message e from m x) =
    match relay_hop m with
    | Ok (h, pt, tr) => fst (send_message e h pt tr m4 (ctx_with x (x_learned x) (sub_bind_pure e (x_p x) m)))
    | _ => ctx_with x (x_learned x) (sub_bind_pure e (x_p x) m)
    end.
Proof.
  intros R. rewrite (Pipeline.handle_message_response e from m x R).
  pose proof (pres_try NP _ (pres_pop_via NP NP_novia) m) as K1.
  pose proof (fst_mtry s_pop_via m) as F1.
  destruct (mtry s_pop_via m) as [m1 r0]. cbn [fst] in K1, F1. rewrite <- F1.
  destruct (run_try next_response_hop _ m1 P_hop next_response_hop_snd) as (m2 & E2 & K2). rewrite E2.
  replace (rmap hop_of_via (top_via_of m1)) with (relay_hop m) by (rewrite F1; reflexivity).
  destruct (run_try s_get_method method_of m2 P_method s_get_method_snd) as (m3 & E3 & K3). rewrite E3.
  assert (K02 : keeps NP m m2) by exact (keeps_step _ _ _ _ _ NP_names K1 K2).
  rewrite (method_of_keeps NP m m2 K02 ltac:(in_names)).
  assert (K03 : keeps NP m m3) by exact (keeps_step _ _ _ _ _ NP_names K02 K3).
  destruct (subscribe_pin_pure e (x_p x) m m3 K03) as (m4 & K4 & E4). rewrite E4.
  exists m4. split; [eapply keeps_trans; [exact K2|eapply keeps_trans; eassumption]|].
  unfold respond. destruct (relay_hop m) as [[[host port] tr]| |]; reflexivity.
Qed.

Lemma hd_tail_pure_keeps N e p1 ob m m' : keeps N m m' -> incl NQ N ->
  hd_tail_pure e p1 ob m' = hd_tail_pure e p1 ob m.
Proof.
  intros K I. unfold hd_tail_pure.
  rewrite (method_of_keeps N m m' K), (dialog_of_keeps N m m' K), (k_expires N m m' K); try (apply I; in_names).
  reflexivity.
Qed.
Lemma hd_pure_keeps N e peer port p m m' : keeps N m m' -> incl NR N ->
  hd_pure e peer port p m' = hd_pure e peer port p m.
Proof.
  intros K I. unfold hd_pure.
  assert (IQ : incl NQ N) by (intros a Ha; apply I; apply NQ_NR; exact Ha).
  rewrite (tid_of_keeps N m m' K), (k_is_final N m m' K); try (apply I; in_names).
  destruct (alookup _ _); [apply (hd_tail_pure_keeps N); assumption|].
  destruct (tid_of m); try reflexivity. apply (hd_tail_pure_keeps N); assumption.
Qed.
Lemma sub_bind_pure_keeps N e p m m' : keeps N m m' -> incl NR N ->
  sub_bind_pure e p m' = sub_bind_pure e p m.
Proof.
  intros K I. unfold sub_bind_pure, relay_hop.
  rewrite (next_top_keeps N m m' K), (method_of_keeps N m m' K), (dialog_of_keeps N m m' K), (k_expires N m m' K);
    try (apply I; in_names). reflexivity.
Qed.

(* a response, end to end: handleDialog, then the SUBSCRIBE rule; the transports never touch the
   load-balancing half *)
Definition resp_pure (e : env) (peer : bytes) (port : Z) (p : pstate) (m : message) : pstate :=
  sub_bind_pure e (match hd_pure e peer port p m with Ok p' => p' | _ => p end) m.
(* [m5] is the response when it reaches HandleMessage, [m4] what is left of it when it is sent *)
Lemma process_message_response_exact e peer port from rs tcp m x : is_request m = false ->
  exists m5 m4, keeps NR m m5 /\ keeps names (fst (s_pop_via m5)) m4 /\
    process_message e peer port from rs tcp m x =
    Ok (match relay_hop m with
        | Ok (h, pt, tr) => fst (send_message e h pt tr m4 (ctx_with x (x_learned x) (resp_pure e peer port (x_p x) m)))
        | _ => ctx_with x (x_learned x) (resp_pure e peer port (x_p x) m)
        end).
Proof.
  intros R. rewrite process_message_reach, (reach_response _ _ _ _ _ _ _ _ R). unfold stage_dialog.
  pose proof (pres_try NR _ (pres_try_remove_top_route NR (e_cfg e) from NR_noroute) m) as K4.
  fold (stage_route e from m) in K4. set (m4' := stage_route e from m) in *.
  assert (R4 : is_response m4' = true) by (rewrite (k_is_response NR m m4' K4); unfold is_response; rewrite R; reflexivity).
  rewrite R4.
  destruct (handle_dialog_run e peer port (x_p x) m4') as (m5 & E5 & K5). rewrite E5.
  rewrite (hd_pure_keeps NR e peer port (x_p x) m m4' K4) by (intros a Ha; exact Ha).
  assert (K05 : keeps NR m m5) by exact (keeps_step _ _ _ _ _ NR_names K4 K5).
  assert (R5 : is_request m5 = false) by (rewrite (k_is_request NR m m5 K05); exact R).
  set (p2 := match hd_pure e peer port (x_p x) m with Ok p' => p' | _ => x_p x end).
  destruct (handle_message_response_exact e from m5 (ctx_with x (x_learned x) p2) R5) as (m4 & K & EQ).
  exists m5, m4. split; [exact K05|]. split; [exact K|]. rewrite EQ. cbn [x_p x_learned ctx_with].
  unfold resp_pure. fold p2. rewrite (sub_bind_pure_keeps NR e p2 m m5 K05) by (intros a Ha; exact Ha).
  unfold relay_hop. rewrite (next_top_keeps NR m m5 K05) by in_names. reflexivity.
Qed.
Lemma process_message_response e peer port from rs tcp m x : is_request m = false ->
  exists x', process_message e peer port from rs tcp m x = Ok x' /\
             lb_eq (resp_pure e peer port (x_p x) m) (x_p x').
Proof.
  intros R. destruct (process_message_response_exact e peer port from rs tcp m x R) as (m5 & m4 & _ & _ & EQ).
  eexists. split; [exact EQ|]. destruct (relay_hop m) as [[[h pt] tr]| |]; try apply lb_refl.
  apply (lb_send_message e h pt tr m4 (ctx_with x (x_learned x) (resp_pure e peer port (x_p x) m))).
Qed.

(* everything but the pin TABLE is static across the pin operations *)
Definition static_eq (p p' : pstate) : Prop :=
  ps_backends p' = ps_backends p /\ ps_rr p' = ps_rr p /\ ps_has_rr p' = ps_has_rr p /\ ps_gen p' = ps_gen p /\
  p_timeout (ps_pins p') = p_timeout (ps_pins p).
Lemma static_trans a b c : static_eq a b -> static_eq b c -> static_eq a c.
Proof. unfold static_eq. intros (A1&A2&A3&A4&A5) (B1&B2&B3&B4&B5). repeat split; congruence. Qed.
Lemma static_of_lb p p' : lb_eq p p' -> static_eq p p'.
Proof. unfold lb_eq, static_eq. intros (A1&A2&A3&A4&A5). rewrite A5. repeat split; assumption. Qed.
Lemma timeout_get now k p : p_timeout (fst (pins_get now k p)) = p_timeout p.
Proof. unfold pins_get. destruct (alookup k (p_tab p)) as [e|]; [|reflexivity]. destruct (_ <? _); reflexivity. Qed.
Lemma lifetime_timeout p p' e : p_timeout p' = p_timeout p -> pins_lifetime p' e = pins_lifetime p e.
Proof. unfold pins_lifetime. intros ->. reflexivity. Qed.

(* the pin operations give the proxy object another pin table, of the same time-out, and touch nothing else *)
Definition repinned (p p' : pstate) : Prop := exists x, p' = with_pins p x /\ p_timeout x = p_timeout (ps_pins p).
Lemma repinned_refl p : repinned p p.
Proof. exists (ps_pins p). split; [destruct p; reflexivity|reflexivity]. Qed.
Lemma repinned_trans a b c : repinned a b -> repinned b c -> repinned a c.
Proof. intros (x & -> & Hx) (y & -> & Hy). exists y. split; [reflexivity|]. rewrite Hy. exact Hx. Qed.
Lemma repinned_with p x : p_timeout x = p_timeout (ps_pins p) -> repinned p (with_pins p x).
Proof. intros H. exists x. split; [reflexivity|exact H]. Qed.
Lemma static_of_repinned p p' : repinned p p' -> static_eq p p'.
Proof. intros (x & -> & H). repeat split. exact H. Qed.
Lemma repinned_table p p' : repinned p p' -> ps_table p' = ps_table p.
Proof. intros (x & -> & _). reflexivity. Qed.

Lemma hd_tail_pure_repinned e p1 ob m p' : hd_tail_pure e p1 ob m = Ok p' -> repinned p1 p'.
Proof.
  unfold hd_tail_pure. destruct ob as [b|]; [|intros H; injection H as <-; apply repinned_refl].
  destruct (method_of m) as [meth| |]; try discriminate; [|intros H; injection H as <-; apply repinned_refl].
  destruct (beq meth (s2b "INVITE")).
  { destruct (dialog_of m); try discriminate; intros H; injection H as <-; [|apply repinned_refl].
    apply repinned_with. apply C15.add_timeout. }
  destruct (beq meth (s2b "BYE")); [|intros H; injection H as <-; apply repinned_refl].
  destruct (dialog_of m); try discriminate; intros H; injection H as <-; [|apply repinned_refl].
  apply repinned_with. reflexivity.
Qed.
Lemma hd_pure_repinned e peer port p m p' : hd_pure e peer port p m = Ok p' -> repinned p p'.
Proof.
  unfold hd_pure. destruct (alookup _ _); [apply hd_tail_pure_repinned|].
  destruct (tid_of m) as [tid| |]; try discriminate. intros H. apply hd_tail_pure_repinned in H.
  eapply repinned_trans; [|exact H]. apply repinned_with.
  destruct (is_final_response m); apply timeout_get.
Qed.
Lemma sub_bind_pure_repinned e p m : repinned p (sub_bind_pure e p m).
Proof.
  unfold sub_bind_pure. destruct (relay_hop m) as [[[h pt] tr]| |]; try apply repinned_refl.
  destruct (method_of m); try apply repinned_refl. destruct (beq _ _); [|apply repinned_refl].
  destruct (alookup _ _); [|apply repinned_refl]. destruct (dialog_of m); try apply repinned_refl.
  apply repinned_with. apply C15.add_timeout.
Qed.
Lemma resp_pure_repinned e peer port p m : repinned p (resp_pure e peer port p m).
Proof.
  unfold resp_pure. eapply repinned_trans; [|apply sub_bind_pure_repinned].
  destruct (hd_pure e peer port p m) eqn:E; try apply repinned_refl. eapply hd_pure_repinned. exact E.
Qed.

(* a response whose effect on the proxy object is to bind d, on top of whatever handleDialog did before *)
Lemma bind_tail e peer port from rs tcp m x d v p1 : is_request m = false -> repinned (x_p x) p1 ->
  resp_pure e peer port (x_p x) m = with_pins p1 (pins_add (e_now e) d v (get_expires m 0) (ps_pins p1)) ->
  let life := pins_lifetime (ps_pins (x_p x)) (get_expires m 0) in
  0 <= life ->
  exists x', process_message e peer port from rs tcp m x = Ok x' /\
    pin_at d v (e_now e + life) (ps_pins (x_p x')) /\
    (forall t, t < e_now e + life -> snd (pins_get t d (ps_pins (x_p x'))) = Some v) /\
    static_eq (x_p x) (x_p x').
Proof.
  intros R S1 P life L.
  destruct (process_message_response e peer port from rs tcp m x R) as (x' & E & LB).
  exists x'. split; [exact E|].
  assert (T : p_timeout (ps_pins p1) = p_timeout (ps_pins (x_p x))) by apply (static_of_repinned _ _ S1).
  assert (PA : pin_at d v (e_now e + life) (ps_pins (x_p x'))).
  { destruct LB as (_ & _ & _ & _ & ->). rewrite P. cbn [ps_pins with_pins]. subst life.
    rewrite <- (lifetime_timeout _ _ (get_expires m 0) T). apply pin_at_add_same.
    rewrite (lifetime_timeout _ _ (get_expires m 0) T). exact L. }
  split; [exact PA|]. split.
  - intros t Ht. rewrite (pin_at_get_live d v _ t _ PA Ht). reflexivity.
  - eapply static_trans; [apply static_of_repinned, (resp_pure_repinned e peer port (x_p x) m)|]. apply static_of_lb. exact LB.
Qed.

(* an INVITE response received from a backend address binds its dialog *)
Theorem C04_bind : forall e peer port from rs tcp m x g d,
  is_request m = false ->
  alookup (join_host_port peer port) (ps_backends (x_p x)) = Some g ->
  method_of m = Ok (s2b "INVITE") -> dialog_of m = Ok d ->
  let addr := join_host_port peer port in
  let life := pins_lifetime (ps_pins (x_p x)) (get_expires m 0) in
  0 <= life ->
  exists x', process_message e peer port from rs tcp m x = Ok x' /\
    pin_at d (pin_val_backend addr g) (e_now e + life) (ps_pins (x_p x')) /\
    (forall t, t < e_now e + life -> snd (pins_get t d (ps_pins (x_p x'))) = Some (pin_val_backend addr g)) /\
    static_eq (x_p x) (x_p x').
Proof.
  intros e peer port from rs tcp m x g d R A Hm Hd addr life L.
  apply (bind_tail e peer port from rs tcp m x d (pin_val_backend addr g) (x_p x) R (repinned_refl _)); [|exact L].
  unfold resp_pure, hd_pure. cbv zeta. rewrite A. unfold hd_tail_pure. rewrite Hm, Hd, beq_refl. cbn [bref_val].
  unfold sub_bind_pure. rewrite Hm.
  replace (beq (s2b "INVITE") (s2b "SUBSCRIBE")) with false by (vm_compute; reflexivity).
  destruct (relay_hop m) as [[[h pt] tr]| |]; reflexivity.
Qed.

(* the SUBSCRIBE rule: a SUBSCRIBE response relayed towards a backend address binds its dialog *)
Theorem C04_bind_subscribe : forall e peer port from rs tcp m x host hport tr g d,
  is_request m = false ->
  relay_hop m = Ok (host, hport, tr) ->
  alookup (host ++ ":"%char :: itoa hport) (ps_backends (x_p x)) = Some g ->
  method_of m = Ok (s2b "SUBSCRIBE") -> dialog_of m = Ok d ->
  let addr := host ++ ":"%char :: itoa hport in
  let life := pins_lifetime (ps_pins (x_p x)) (get_expires m 0) in
  0 <= life ->
  exists x', process_message e peer port from rs tcp m x = Ok x' /\
    pin_at d (pin_val_backend addr g) (e_now e + life) (ps_pins (x_p x')) /\
    (forall t, t < e_now e + life -> snd (pins_get t d (ps_pins (x_p x'))) = Some (pin_val_backend addr g)) /\
    static_eq (x_p x) (x_p x').
Proof.
  intros e peer port from rs tcp m x host hport tr g d R Hh A Hm Hd addr life L.
  set (p1 := match hd_pure e peer port (x_p x) m with Ok p' => p' | _ => x_p x end).
  assert (S1 : repinned (x_p x) p1).
  { subst p1. destruct (hd_pure e peer port (x_p x) m) eqn:Eh; try apply repinned_refl. eapply hd_pure_repinned. exact Eh. }
  apply (bind_tail e peer port from rs tcp m x d (pin_val_backend addr g) p1 R S1); [|exact L].
  unfold resp_pure. fold p1. unfold sub_bind_pure. rewrite Hh, Hm, beq_refl.
  destruct (static_of_repinned _ _ S1) as (-> & _). cbv zeta. rewrite A, Hd. reflexivity.
Qed.

(* isRegisteredBackend: the pinned backend OBJECT (address and generation) is still in the set *)
Lemma bref_alive_registered p addr g : alookup addr (ps_backends p) = Some g -> bref_alive p (BObj addr g) = true.
Proof. intros A. unfold bref_alive. rewrite A. apply Nat.eqb_refl. Qed.
Lemma bref_alive_unregistered p addr g : alookup addr (ps_backends p) <> Some g -> bref_alive p (BObj addr g) = false.
Proof.
  intros A. unfold bref_alive. destruct (alookup addr (ps_backends p)) as [g'|]; [|reflexivity].
  apply Nat.eqb_neq. intros ->. apply A. reflexivity.
Qed.
Lemma bref_alive_backends p p' b : ps_backends p' = ps_backends p -> bref_alive p' b = bref_alive p b.
Proof. intros E. unfold bref_alive. rewrite E. reflexivity. Qed.
(* NOTIFY with Subscription-State exactly "terminated" *)
Definition notify_terminated (meth : bytes) (m : message) : bool :=
  beq meth (s2b "NOTIFY") && match get_raw (s2b "Subscription-State") m with Ok s => beq s (s2b "terminated") | _ => false end.

(* findBackendByDialog as a function of the views *)
Definition fbd_pure (e : env) (p : pstate) (m : message) : res (pstate * option bref) :=
  match method_of m with
  | Ok meth =>
      if (negb (fx_indialog_invite (e_fx e)) && (beq meth (s2b "INVITE") || beq meth (s2b "SUBSCRIBE")))%bool then Ok (p, None)
      else
        match dialog_of m with
        | Panic => Panic
        | Err => Ok (p, None)
        | Ok d =>
            let pins1 := fst (pins_get (e_now e) d (ps_pins p)) in
            let ob := snd (pins_get (e_now e) d (ps_pins p)) in
            let p1 := with_pins p pins1 in
            (* the pinned backend object has left the set: the binding is forgotten, the rotation decides *)
            if (fx_stale_pin (e_fx e) && match ob with Some v => negb (bref_alive p1 (bref_of_val v)) | None => false end)%bool
            then Ok (with_pins p1 (pins_remove d (ps_pins p1)), None)
            else
            match get_raw (s2b "Subscription-State") m with
            | Panic => Panic
            | _ => Ok (if notify_terminated meth m then with_pins p1 (pins_remove d (ps_pins p1)) else p1,
                       option_map bref_of_val ob)
            end
        end
  | Err => Err
  | Panic => Panic
  end.
Lemma fbd_run e p m : exists m', find_backend_by_dialog e p m = (m', fbd_pure e p m) /\ keeps names m m'.
Proof.
  unfold find_backend_by_dialog, fbd_pure. unfold mbind at 1.
  destruct (run_view s_get_method method_of m P_method s_get_method_snd) as (m1 & E1 & K1). rewrite E1.
  destruct (method_of m) as [meth| |]; try (exists m1; split; [reflexivity|exact K1]).
  destruct (_ && _)%bool; [exists m1; split; [reflexivity|exact K1]|].
  unfold mbind at 1.
  destruct (run_try s_get_dialog dialog_of m1 P_dialog s_get_dialog_snd) as (m2 & E2 & K2). rewrite E2.
  assert (K02 : keeps names m m2) by (eapply keeps_trans; eassumption).
  rewrite (dialog_of_keeps names m m1 K1) by in_names.
  destruct (dialog_of m) as [d| |]; cbn [opt_res]; try (exists m2; split; [reflexivity|exact K02]).
  destruct (pins_get (e_now e) d (ps_pins p)) as [pins1 ob]. cbn [fst snd]. cbv zeta.
  destruct (_ && _)%bool; [exists m2; split; [reflexivity|exact K02]|].
  unfold mbind, mtry, s_get_raw, mret, notify_terminated.
  rewrite (k_substate names m m2 K02 ltac:(in_names)).
  destruct (get_raw (s2b "Subscription-State") m) as [s| |]; exists m2; (split; [reflexivity|exact K02]).
Qed.

(* the Via the proxy pushes is on top, with the branch of this step *)
Lemma hvals_insert_first n h hs : same_header (h_name h) n = true ->
  hvals n (insert_at (match find_header_pos n hs with Some i => i | None => O end) h hs) = h_val h :: hvals n hs.
Proof.
  intros E. rewrite !hvals_sel, C06.sel_insert_first; [reflexivity|exact E|].
  pose proof (C06.find_header_pos_spec n hs) as S.
  destruct (find_header_pos n hs); [destruct S as (h0 & r & S & _); exact S|reflexivity].
Qed.
Lemma via_vals_add_via v m : via_vals (add_via v m) = HVia [v] :: via_vals m.
Proof.
  unfold add_via, via_vals. cbn [m_headers with_headers].
  apply (hvals_insert_first (s2b "Via") {| h_name := s2b "Via"; h_val := HVia [v] |}). vm_compute. reflexivity.
Qed.
Lemma via_vals_add_record_route r m : via_vals (add_record_route r m) = via_vals m.
Proof.
  unfold add_record_route, via_vals. cbn [m_headers with_headers].
  apply hvals_insert_other. vm_compute. reflexivity.
Qed.
Definition own_via (e : env) (t : stransport) : via_param :=
  via_set_param (s2b "branch") (e_branch e) (create_via_param (t_proto t) (t_addr t) (t_port t)).
Definition fwd_msg (e : env) (t0 : stransport) (m1 : message) : message :=
  px_add_record_route (pa_must_rr (wire_proxy (e_lc e))) t0 (px_add_via e t0 m1).
Lemma fwd_msg_top e t0 m1 : top_via_of (fwd_msg e t0 m1) = Ok (own_via e t0).
Proof.
  rewrite top_via_of_vals. unfold fwd_msg, px_add_record_route, px_add_via.
  destruct (_ && _)%bool; [|rewrite via_vals_add_record_route]; rewrite via_vals_add_via; reflexivity.
Qed.
Lemma own_via_branch e t : via_get_branch (own_via e t) = Some (e_branch e).
Proof. unfold own_via, via_get_branch, via_set_param, create_via_param. cbn. reflexivity. Qed.
Lemma fwd_msg_keeps e t0 m1 : keeps NP m1 (fwd_msg e t0 m1).
Proof.
  unfold fwd_msg, px_add_record_route. eapply keeps_trans; [apply keeps_add_via; apply NP_novia|].
  destruct (_ && _)%bool; [apply keeps_refl|apply keeps_add_record_route; apply NP_names].
Qed.
Lemma fwd_msg_tid e t0 m1 :
  tid_of (fwd_msg e t0 m1) = let! c := snd (s_get_cseq m1) in Ok (cs_method c ++ "-"%char :: e_branch e).
Proof.
  unfold tid_of. rewrite fwd_msg_top, (k_cseq NP m1 _ (fwd_msg_keeps e t0 m1) ltac:(in_names)).
  destruct (snd (s_get_cseq m1)); cbn; reflexivity.
Qed.

(* sendToBackend as a function of the views (the bytes are those of the relayed message) *)
Definition stb_sel (e : env) (p : pstate) (m : message) : pstate * bref :=
  let '(p1, ob) := match fbd_pure e p m with Ok v => v | _ => (p, None) end in
  (p1, match ob with Some b => b | None => BRR end).
Definition fwd_bytes (e : env) (t0 : stransport) (p : pstate) (m : message) : bytes :=
  write_message (fwd_msg e t0 (fst (find_backend_by_dialog e p m))).
Definition trans_key (e : env) (c : cseq) : bytes := cs_method c ++ "-"%char :: e_branch e.
Definition stb_pure (e : env) (t0 : stransport) (p : pstate) (m : message) : pstate * list output :=
  let '(p1, b) := stb_sel e p m in
  let '(p2, outs, ok) := backend_send b (fwd_bytes e t0 p m) p1 in
  if ok then
    (match snd (s_get_cseq m) with
     | Ok c => with_pins p2 (pins_add (e_now e) (trans_key e c) (bref_val b) (get_expires m 0) (ps_pins p2))
     | _ => p2
     end, outs)
  else (p2, []).
Lemma send_to_backend_spec e m x t0 : ps_has_rr (x_p x) = true -> first_transport (e_lc e) = Some t0 ->
  let x' := fst (send_to_backend e m x) in
  x_p x' = fst (stb_pure e t0 (x_p x) m) /\ x_outs x' = x_outs x ++ snd (stb_pure e t0 (x_p x) m) /\
  x_learned x' = x_learned x /\ x_conns x' = x_conns x /\ x_world x' = x_world x.
Proof.
  intros HR FT. unfold send_to_backend, stb_pure, stb_sel, fwd_bytes. rewrite HR, FT. cbn [negb].
  destruct (fbd_run e (x_p x) m) as (m1 & E1 & K1). rewrite E1. cbn [fst].
  destruct (match fbd_pure e (x_p x) m with Ok v => v | _ => (x_p x, None) end) as [p1 ob].
  set (b := match ob with Some b => b | None => BRR end). fold (fwd_msg e t0 m1).
  destruct (backend_send b (write_message (fwd_msg e t0 m1)) p1) as [[p2 outs] ok].
  destruct ok; cbn [fst snd x_p x_outs x_learned x_conns x_world].
  2:{ rewrite app_nil_r. repeat split. }
  pose proof (mtry_snd s_client_transaction (fwd_msg e t0 m1)) as S3.
  pose proof (pres_try names _ P_tid (fwd_msg e t0 m1)) as K3.
  destruct (mtry s_client_transaction (fwd_msg e t0 m1)) as [m3 tid]. cbn [fst snd] in S3, K3.
  rewrite s_client_transaction_snd, fwd_msg_tid, (k_cseq names m m1 K1 ltac:(in_names)) in S3. subst tid.
  cbn [fst snd x_p x_outs x_learned x_conns x_world]. repeat split.
  assert (K0 : keeps NP m (fwd_msg e t0 m1))
    by exact (keeps_trans _ _ _ _ (keeps_incl _ _ _ _ NP_names K1) (fwd_msg_keeps e t0 m1)).
  assert (K : keeps NP m m3) by exact (keeps_step _ _ _ _ _ NP_names K0 K3).
  destruct (snd (s_get_cseq m)) as [c| |]; cbn [rbind opt_res]; [|reflexivity|reflexivity].
  rewrite (k_expires NP m m3 K ltac:(in_names)). reflexivity.
Qed.

(* without a rotation or without a port sendToBackend does nothing *)
Lemma send_to_backend_idle e m x :
  fst (send_to_backend e m x) = x \/ exists t0, ps_has_rr (x_p x) = true /\ first_transport (e_lc e) = Some t0.
Proof.
  unfold send_to_backend. destruct (ps_has_rr (x_p x)); [|left; reflexivity].
  destruct (first_transport (e_lc e)) as [t0|]; [right; exists t0; split; reflexivity|left; reflexivity].
Qed.

Definition req_method (m : message) : bytes := match m_start m with SReq meth _ _ => meth | _ => [] end.
Lemma method_of_request m : is_request m = true -> method_of m = Ok (req_method m).
Proof. unfold is_request, method_of, req_method. destruct (m_start m); [reflexivity|discriminate]. Qed.
Lemma get_raw_not_panic n m : get_raw n m <> Panic.
Proof. unfold get_raw. destruct (get_header n (m_headers m)) as [h|]; [destruct (h_val h)|]; discriminate. Qed.

Definition to_addr_outs (a : bytes) (b : bytes) : list output :=
  match addr_dest a with Some d => [(d, b)] | None => [] end.
Lemma backend_send_obj a g b p : In (a, g) (ps_backends p) ->
  backend_send (BObj a g) b p = (p, if fits_datagram b then to_addr_outs a b else [], fits_datagram b).
Proof.
  intros HI. unfold backend_send, to_addr_outs, addr_dest.
  assert (E : existsb (fun '(a', g') => beq a a' && Nat.eqb g g') (ps_backends p) = true).
  { apply existsb_exists. exists (a, g). split; [exact HI|]. rewrite beq_refl, Nat.eqb_refl. reflexivity. }
  rewrite E. cbn [andb]. destruct (fits_datagram b); [|reflexivity].
  destruct (last_index_byte ":"%char a); reflexivity.
Qed.
Lemma backend_send_obj_dead a g b p : ~ In (a, g) (ps_backends p) -> backend_send (BObj a g) b p = (p, [], false).
Proof.
  intros HI. unfold backend_send.
  assert (E : existsb (fun '(a', g') => beq a a' && Nat.eqb g g') (ps_backends p) = false).
  { apply not_true_is_false. intros H. apply existsb_exists in H. destruct H as ([a' g'] & H1 & H2).
    apply andb_true_iff in H2. destruct H2 as [H2 H3]. apply beq_eq in H2. apply Nat.eqb_eq in H3. subst. contradiction. }
  rewrite E. reflexivity.
Qed.
Lemma backend_send_rr b p :
  backend_send BRR b p =
  (with_rr p (fst (rr_dispatch (ps_rr p))),
   match snd (rr_dispatch (ps_rr p)) with Some a => if fits_datagram b then to_addr_outs a b else [] | None => [] end,
   match snd (rr_dispatch (ps_rr p)) with Some a => fits_datagram b | None => false end).
Proof.
  unfold backend_send, to_addr_outs, addr_dest. destruct (rr_dispatch (ps_rr p)) as [r' o]. cbn [fst snd].
  destruct o as [a|]; [|reflexivity]. destruct (fits_datagram b); [|reflexivity].
  destruct (last_index_byte ":"%char a); reflexivity.
Qed.

(* the selection made for a request of a live-pinned dialog *)
Lemma stb_sel_pinned e p m d addr g ex :
  fx_indialog_invite (e_fx e) = true -> is_request m = true -> dialog_of m = Ok d ->
  pin_at d (pin_val_backend addr g) ex (ps_pins p) -> e_now e < ex -> gen_ok g ->
  alookup addr (ps_backends p) = Some g ->
  stb_sel e p m =
  (if notify_terminated (req_method m) m
   then with_pins (with_pins p (ps_pins p)) (pins_remove d (ps_pins p)) else with_pins p (ps_pins p),
   BObj addr g).
Proof.
  intros FX R D P L G A. unfold stb_sel, fbd_pure. rewrite (method_of_request m R), FX, D. cbn [negb andb].
  rewrite (pin_at_get_live d _ ex (e_now e) (ps_pins p) P L). cbn [fst snd option_map].
  rewrite (bref_of_val_backend addr g G).
  rewrite (bref_alive_registered (with_pins p (ps_pins p)) addr g A). cbn [negb]. rewrite andb_false_r.
  pose proof (get_raw_not_panic (s2b "Subscription-State") m) as NP.
  destruct (get_raw (s2b "Subscription-State") m) eqn:E; try contradiction; reflexivity.
Qed.

(* what a pinned request does to the pin of its own dialog, for either outcome [okb] of the send: it stays,
   except after a terminating NOTIFY, which removes it *)
Lemma sticky_pin_clause e m p d addr g ex (okb : bool) :
  pin_at d (pin_val_backend addr g) ex (ps_pins p) -> e_now e < ex ->
  (forall c, snd (s_get_cseq m) = Ok c -> trans_key e c <> d) ->
  let p1 := if notify_terminated (req_method m) m
            then with_pins (with_pins p (ps_pins p)) (pins_remove d (ps_pins p)) else with_pins p (ps_pins p) in
  let pf := if okb
            then match snd (s_get_cseq m) with
                 | Ok c => with_pins p1 (pins_add (e_now e) (trans_key e c) (bref_val (BObj addr g)) (get_expires m 0) (ps_pins p1))
                 | _ => p1 end
            else p1 in
  if notify_terminated (req_method m) m
  then alookup d (p_tab (ps_pins pf)) = None
  else pin_at d (pin_val_backend addr g) ex (ps_pins pf).
Proof.
  intros P L NK p1 pf. subst pf p1. destruct okb.
  - destruct (notify_terminated (req_method m) m).
    + destruct (snd (s_get_cseq m)) as [c| |] eqn:EC; cbn [ps_pins with_pins pins_remove p_tab];
        try apply alookup_adel_same.
      apply pins_add_absent; [apply (NK c eq_refl)|apply alookup_adel_same].
    + destruct (snd (s_get_cseq m)) as [c| |] eqn:EC; cbn [ps_pins with_pins]; try exact P.
      apply pin_at_add_other; [apply (NK c eq_refl)|lia|exact P].
  - destruct (notify_terminated (req_method m) m); cbn [ps_pins with_pins pins_remove p_tab].
    + apply alookup_adel_same.
    + exact P.
Qed.

Theorem C04_sticky_step : forall e m x t0 d addr g ex dst,
  fx_indialog_invite (e_fx e) = true ->
  ps_has_rr (x_p x) = true -> first_transport (e_lc e) = Some t0 ->
  is_request m = true -> dialog_of m = Ok d ->
  pin_at d (pin_val_backend addr g) ex (ps_pins (x_p x)) -> e_now e < ex ->
  alookup addr (ps_backends (x_p x)) = Some g -> gen_ok g -> addr_dest addr = Some dst ->
  let b := fwd_bytes e t0 (x_p x) m in
  let x' := fst (send_to_backend e m x) in
  (* exactly one datagram, to the pinned backend (none at all if it exceeds a datagram) *)
  x_outs x' = x_outs x ++ (if fits_datagram b then [(dst, b)] else []) /\
  (* the rotation did not move, the members did not change *)
  ps_rr (x_p x') = ps_rr (x_p x) /\ ps_backends (x_p x') = ps_backends (x_p x) /\
  (* the pin stays, except after a terminating NOTIFY which removes it after having used it *)
  ((forall c, snd (s_get_cseq m) = Ok c -> trans_key e c <> d) ->
   if notify_terminated (req_method m) m
   then alookup d (p_tab (ps_pins (x_p x'))) = None
   else pin_at d (pin_val_backend addr g) ex (ps_pins (x_p x'))).
Proof.
  intros e m x t0 d addr g ex dst FX HR FT R D P L A G AD b x'.
  destruct (send_to_backend_spec e m x t0 HR FT) as (EP & EO & _). fold x' in EP, EO.
  unfold stb_pure in EP, EO. rewrite (stb_sel_pinned e (x_p x) m d addr g ex FX R D P L G A) in EP, EO.
  fold b in EP, EO.
  set (p1 := if notify_terminated (req_method m) m
             then with_pins (with_pins (x_p x) (ps_pins (x_p x))) (pins_remove d (ps_pins (x_p x)))
             else with_pins (x_p x) (ps_pins (x_p x))) in *.
  assert (B1 : ps_backends p1 = ps_backends (x_p x)) by (subst p1; destruct (notify_terminated _ _); reflexivity).
  assert (R1 : ps_rr p1 = ps_rr (x_p x)) by (subst p1; destruct (notify_terminated _ _); reflexivity).
  rewrite (backend_send_obj addr g b p1) in EP, EO by (rewrite B1; apply alookup_in; exact A).
  unfold to_addr_outs in EO. rewrite AD in EO.
  pose proof (fun NK => sticky_pin_clause e m (x_p x) d addr g ex (fits_datagram b) P L NK) as PC. cbv zeta in PC. fold p1 in PC.
  destruct (fits_datagram b); cbn [fst snd] in EP, EO; (split; [exact EO|]); rewrite EP.
  - split; [destruct (snd (s_get_cseq m)); exact R1|]. split; [destruct (snd (s_get_cseq m)); exact B1|exact PC].
  - split; [exact R1|]. split; [exact B1|exact PC].
Qed.

(* the same step for a request arriving from the other party: From/To exchanged, same dialog *)
Corollary C04_sticky_step_reverse : forall e m m' x t0 d addr g ex dst cid f t f' t',
  get_raw (s2b "Call-ID") m = Ok cid -> get_raw (s2b "Call-ID") m' = Ok cid ->
  snd (s_get_from m) = Ok f -> snd (s_get_to m) = Ok t ->
  snd (s_get_from m') = Ok f' -> snd (s_get_to m') = Ok t' ->
  fromto_tag f' = fromto_tag t -> fromto_tag t' = fromto_tag f ->
  dialog_addr (fromto_addr_spec f') = dialog_addr (fromto_addr_spec t) ->
  dialog_addr (fromto_addr_spec t') = dialog_addr (fromto_addr_spec f) ->
  dialog_of m = Ok d ->
  fx_indialog_invite (e_fx e) = true -> ps_has_rr (x_p x) = true -> first_transport (e_lc e) = Some t0 ->
  is_request m' = true ->
  pin_at d (pin_val_backend addr g) ex (ps_pins (x_p x)) -> e_now e < ex ->
  alookup addr (ps_backends (x_p x)) = Some g -> gen_ok g -> addr_dest addr = Some dst ->
  let b := fwd_bytes e t0 (x_p x) m' in
  let x' := fst (send_to_backend e m' x) in
  x_outs x' = x_outs x ++ (if fits_datagram b then [(dst, b)] else []) /\
  ps_rr (x_p x') = ps_rr (x_p x) /\ ps_backends (x_p x') = ps_backends (x_p x).
Proof.
  intros e m m' x t0 d addr g ex dst cid f t f' t' C C' F T F' T' E1 E2 A1 A2 D FX HR FT R P L A G AD.
  assert (D' : dialog_of m' = Ok d) by (rewrite (dialog_of_symmetric m m' cid f t f' t'); assumption).
  destruct (C04_sticky_step e m' x t0 d addr g ex dst FX HR FT R D' P L A G AD) as (H1 & H2 & H3 & _).
  repeat split; assumption.
Qed.

(* membership half: unchanged by every message *)
Definition mem_eq (p p' : pstate) : Prop :=
  ps_backends p' = ps_backends p /\ ps_has_rr p' = ps_has_rr p /\ ps_gen p' = ps_gen p.
Lemma mem_refl p : mem_eq p p. Proof. repeat split. Qed.
Lemma mem_trans a b c : mem_eq a b -> mem_eq b c -> mem_eq a c.
Proof. unfold mem_eq. intros (A1&A2&A3) (B1&B2&B3). repeat split; congruence. Qed.
Lemma mem_of_lb p p' : lb_eq p p' -> mem_eq p p'.
Proof. unfold lb_eq, mem_eq. intros (A1&A2&A3&A4&A5). repeat split; assumption. Qed.
Lemma mem_of_static p p' : static_eq p p' -> mem_eq p p'.
Proof. unfold static_eq, mem_eq. intros (A1&A2&A3&A4&A5). repeat split; assumption. Qed.

Lemma stb_sel_repinned e p m : repinned p (fst (stb_sel e p m)).
Proof.
  unfold stb_sel, fbd_pure.
  destruct (method_of m) as [meth| |]; try apply repinned_refl.
  destruct (_ && _)%bool; [apply repinned_refl|].
  destruct (dialog_of m) as [d| |]; try apply repinned_refl.
  pose proof (timeout_get (e_now e) d (ps_pins p)) as T.
  cbv zeta. destruct (_ && _)%bool; [apply (repinned_with p); exact T|].
  destruct (get_raw _ m); cbn [fst]; try apply repinned_refl;
    destruct (notify_terminated meth m); apply (repinned_with p); exact T.
Qed.
Lemma stb_sel_mem e p m : mem_eq p (fst (stb_sel e p m)) /\ ps_rr (fst (stb_sel e p m)) = ps_rr p.
Proof.
  pose proof (static_of_repinned _ _ (stb_sel_repinned e p m)) as S.
  split; [apply mem_of_static; exact S|apply S].
Qed.
Lemma backend_send_rr_only b bs p : exists r, fst (fst (backend_send b bs p)) = with_rr p r.
Proof.
  unfold backend_send. destruct b as [a g|].
  - exists (ps_rr p). destruct (_ && _)%bool; destruct p; reflexivity.
  - destruct (rr_dispatch (ps_rr p)) as [r' o]. exists r'. destruct o as [a|]; [destruct (fits_datagram bs)|]; reflexivity.
Qed.
(* the pin of d survives the selection when the object it names is still registered (a pin whose
   object has left the set is forgotten by the request of its own dialog) *)
Lemma stb_sel_pin e p m d v ex : is_request m = true ->
  pin_at d v ex (ps_pins p) -> e_now e < ex ->
  bref_alive p (bref_of_val v) = true ->
  (dialog_of m = Ok d -> notify_terminated (req_method m) m = false) ->
  pin_at d v ex (ps_pins (fst (stb_sel e p m))).
Proof.
  intros R P L AL NT. unfold stb_sel, fbd_pure. rewrite (method_of_request m R).
  destruct (_ && _)%bool; [exact P|].
  destruct (dialog_of m) as [d'| |]; try exact P.
  pose proof (get_raw_not_panic (s2b "Subscription-State") m) as NP.
  assert (P1 : pin_at d v ex (fst (pins_get (e_now e) d' (ps_pins p)))) by (apply pin_at_get; assumption).
  cbv zeta. destruct (fx_stale_pin (e_fx e) && _)%bool eqn:ST.
  { cbn [fst ps_pins with_pins]. apply pin_at_remove_other; [|exact P1].
    intros ->. rewrite (pin_at_get_live d v ex (e_now e) (ps_pins p) P L) in ST. cbn [fst snd] in ST.
    rewrite (bref_alive_backends p (with_pins p (ps_pins p)) (bref_of_val v) eq_refl), AL in ST.
    rewrite andb_false_r in ST. discriminate ST. }
  assert (G : pin_at d v ex (ps_pins
            (if notify_terminated (req_method m) m
             then with_pins (with_pins p (fst (pins_get (e_now e) d' (ps_pins p))))
                    (pins_remove d' (ps_pins (with_pins p (fst (pins_get (e_now e) d' (ps_pins p))))))
             else with_pins p (fst (pins_get (e_now e) d' (ps_pins p)))))).
  { destruct (notify_terminated (req_method m) m) eqn:EN; cbn [ps_pins with_pins]; [|exact P1].
    apply pin_at_remove_other; [|exact P1]. intros E. subst d'. discriminate (NT eq_refl). }
  destruct (get_raw (s2b "Subscription-State") m); try contradiction; exact G.
Qed.
(* sendToBackend for ANY request keeps the pin of d, provided the pinned object is still registered, it is not
   the terminating NOTIFY of d and its transaction key is not d *)
Lemma stb_pin_preserved e t0 p m d v ex : is_request m = true ->
  pin_at d v ex (ps_pins p) -> e_now e < ex ->
  bref_alive p (bref_of_val v) = true ->
  (forall c, snd (s_get_cseq m) = Ok c -> trans_key e c <> d) ->
  (dialog_of m = Ok d -> notify_terminated (req_method m) m = false) ->
  pin_at d v ex (ps_pins (fst (stb_pure e t0 p m))) /\ mem_eq p (fst (stb_pure e t0 p m)).
Proof.
  intros R P L AL NK NT. unfold stb_pure.
  pose proof (stb_sel_pin e p m d v ex R P L AL NT) as P1. pose proof (stb_sel_mem e p m) as [M1 _].
  destruct (stb_sel e p m) as [p1 b]. cbn [fst] in P1, M1.
  destruct (backend_send_rr_only b (fwd_bytes e t0 p m) p1) as [r B].
  destruct (backend_send b (fwd_bytes e t0 p m) p1) as [[p2 outs] ok]. cbn [fst] in B.
  assert (B1 : ps_pins p2 = ps_pins p1) by (rewrite B; reflexivity).
  assert (B2 : mem_eq p1 p2) by (rewrite B; repeat split).
  assert (M2 : mem_eq p p2) by (eapply mem_trans; eassumption).
  destruct ok; cbn [fst]; [|rewrite B1; split; assumption].
  destruct (snd (s_get_cseq m)) as [c| |] eqn:EC; try (rewrite B1; split; assumption).
  cbn [ps_pins with_pins]. split.
  - apply pin_at_add_other; [apply (NK c eq_refl)|lia|rewrite B1; exact P1].
  - eapply mem_trans; [exact M2|]. repeat split.
Qed.

(* the Route set of a request: nothing left to follow once the proxy's own entry is consumed *)
Definition pr (v : hval) : option (list route_param) := match v with HRoute l => Some l | _ => None end.
Definition sem_route (v : hval) : res (list route_param) := semg pr parse_route v.
Definition own_route (c : cfg) (from : stransport) (rp : route_param) : bool :=
  match na_addr (r_addr rp) with
  | ASip u => Z.eqb (sip_uri_get_port u) (t_port from) && is_same_address c (u_host u) (t_addr from)
  | AAbs _ => false
  end.
(* no Route header at all, or exactly one Route header with exactly one entry, which designates
   the receiving listener (tryRemoveTopRoute consumes it) *)
Definition route_consumed (c : cfg) (from : stransport) (m : message) : Prop :=
  hvals (s2b "Route") (m_headers m) = [] \/
  exists v0 rp, hvals (s2b "Route") (m_headers m) = [v0] /\ sem_route v0 = Ok [rp] /\ own_route c from rp = true.
Lemma sem_route_vrel v v' : vrel (s2b "Route") v v' -> sem_route v' = sem_route v.
Proof. exact (semg_vrel _ _ _ _ v v' ok_route). Qed.
Lemma route_consumed_keeps N c from m m' : keeps N m m' -> In (s2b "Route") N ->
  route_consumed c from m -> route_consumed c from m'.
Proof.
  intros [_ K] HN HC. specialize (K _ HN). unfold hrel in K.
  remember (hvals (s2b "Route") (m_headers m')) as l' eqn:EL.
  destruct HC as [H|(v0 & rp & H & S & O)]; rewrite H in K.
  - left. rewrite <- EL. apply (F2_nil _ _ K).
  - right. destruct (F2_single _ _ _ K) as (b & E1 & Hab).
    exists b, rp. split; [rewrite <- EL; exact E1|].
    split; [rewrite (sem_route_vrel v0 b Hab); exact S|exact O].
Qed.
Lemma pr_inj v l : pr v = Some l -> v = HRoute l.
Proof. destruct v; intros H; try discriminate H. injection H as ->. reflexivity. Qed.
Lemma get_route_vals m :
  snd (s_get_route m) = match hvals (s2b "Route") (m_headers m) with v :: _ => sem_route v | [] => Err end /\
  hvals (s2b "Route") (m_headers (fst (s_get_route m))) =
  match hvals (s2b "Route") (m_headers m) with
  | v :: r => match sem_route v with Ok l => HRoute l :: r | _ => v :: r end
  | [] => []
  end.
Proof.
  split; [|exact (typed_get_vals (s2b "Route") pr parse_route HRoute m pr_inj)].
  unfold s_get_route. rewrite typed_get_snd. destruct (hvals _ _); reflexivity.
Qed.
Lemma get_route_none m : hvals (s2b "Route") (m_headers m) = [] -> s_get_route m = (m, Err).
Proof.
  intros H. unfold s_get_route, typed_get. pose proof (get_header_hvals (s2b "Route") (m_headers m)) as Eh.
  rewrite H in Eh. destruct (get_header (s2b "Route") (m_headers m)); [discriminate|reflexivity].
Qed.
Lemma try_remove_consumes c from m : route_consumed c from m ->
  hvals (s2b "Route") (m_headers (fst (mtry (try_remove_top_route c from) m))) = [].
Proof.
  intros [H|(v0 & rp & H & S & O)]; rewrite fst_mtry; unfold try_remove_top_route, mbind.
  - rewrite (get_route_none m H). exact H.
  - destruct (get_route_vals m) as [Sn G]. rewrite H, S in Sn, G.
    destruct (s_get_route m) as [m1 r]. cbn [fst snd] in G, Sn. subst r.
    unfold own_route in O. destruct (na_addr (r_addr rp)) as [u|s]; [|discriminate]. rewrite O.
    unfold s_pop_route, mbind.
    destruct (get_route_vals m1) as [S2 G2]. rewrite G in S2, G2. unfold sem_route, semg in S2, G2. cbn [pr] in S2, G2.
    destruct (s_get_route m1) as [m2 r2]. cbn [fst snd] in G2, S2. subst r2.
    unfold mmodify. cbn [fst m_headers with_headers]. rewrite hvals_remove_same, G2. reflexivity.
Qed.

Lemma stage_conn_lb e tcp m2 p m3 p1 : stage_conn e tcp m2 p = (m3, Ok p1) -> lb_eq p p1.
Proof.
  intros E.
  destruct (stage_conn_cases e tcp m2 p) as [H|(c & _ & _ & [H|[H|[H|[H|(h & pt & t & H)]]]])]; rewrite H in E;
    try discriminate E; injection E as _ <-; try apply lb_refl.
  destruct (register_conn_cases e c h pt t p) as [->|(key & _ & ->)]; [apply lb_get_transport|].
  eapply lb_trans; [apply lb_get_transport|apply lb_set_primary].
Qed.
(* [m2]: learned from and stamped; [m3]: after the connection has been registered; then the proxy's own Route
   entry goes, and handleDialog does not look at a request *)
Lemma request_stages_keep e peer port from rs tcp m x m5 x1 : is_request m = true ->
  reach e peer port from rs tcp m x = Ok (m5, x1) ->
  let m2 := stage_stamp peer port rs (fst (stage_learn peer from m x)) in
  exists m3, keeps NP m m2 /\ stage_conn e tcp m2 (x_p x) = (m3, Ok (x_p x1)) /\ keeps NQ m m5 /\
             (route_consumed (e_cfg e) from m -> hvals (s2b "Route") (m_headers m5) = []) /\
             x1 = ctx_with x (snd (stage_learn peer from m x)) (x_p x1).
Proof.
  intros R. rewrite (reach_of_request _ _ _ _ _ _ _ _ R).
  pose proof (stage_learn_rel (keeps NP) (keeps_refl NP) peer from x (pres_all_via_params NP NP_names) m) as K1.
  destruct (stage_learn peer from m x) as [m1 l1]. cbn [fst snd] in *.
  pose proof (stage_stamp_rel (keeps NP) (keeps_refl NP) peer port rs (mpres_s_set_received _ _ (keeps_edits NP NP_names) peer port I (keeps_top_via NP NP_novia)) m1) as K2.
  assert (K02 : keeps NP m (stage_stamp peer port rs m1)) by (eapply keeps_trans; eassumption).
  pose proof (stage_conn_rel (keeps names) (keeps_refl names) (keeps_trans names) e tcp (x_p x)
                             (pres_try names _ P_hop) (pres_try names _ P_tid) (stage_stamp peer port rs m1)) as K3.
  destruct (stage_conn e tcp (stage_stamp peer port rs m1) (x_p x)) as [m3 [p1| |]]; try discriminate. cbn [fst] in K3.
  assert (K03 : keeps NP m m3) by exact (keeps_step _ _ _ _ _ NP_names K02 K3).
  pose proof (pres_try NQ _ (pres_try_remove_top_route NQ (e_cfg e) from NQ_noroute) m3) as K4.
  fold (stage_route e from m3) in K4.
  intros E. injection E as <- <-.
  exists m3. split; [exact K02|]. split; [reflexivity|]. split; [|split; [|reflexivity]].
  - eapply keeps_trans; [eapply keeps_incl; [apply NQ_NP|exact K03]|exact K4].
  - intros HR. apply try_remove_consumes. apply (route_consumed_keeps NP (e_cfg e) from m m3 K03); [in_names|exact HR].
Qed.

(* HandleMessage on a request: relayed along a Route / static route, or handed to sendToBackend, or dropped *)
Definition hop_result (e : env) (m : message) : res (bytes * Z * bytes) :=
  snd (next_request_hop (c_keep_next_hop (e_cfg e)) (route_table_of (e_cfg e)) m).
Definition for_service (e : env) (from : stransport) (m : message) : bool :=
  match hop_result e m with Ok _ => false | _ => is_my_message (new_my_name (c_name (e_cfg e))) from m end.
Lemma handle_request_cases e from m x : is_request m = true ->
  let x' := fst (handle_message e from m x) in
  match hop_result e m with
  | Ok _ => lb_eq (x_p x) (x_p x')
  | _ => if is_my_message (new_my_name (c_name (e_cfg e))) from m
         then exists m', keeps NQ m m' /\ x' = fst (send_to_backend e m' x)
         else x' = x
  end.
Proof.
  intros R. unfold handle_message, hop_result. rewrite R.
  pose proof (pres_next_request_hop NQ (c_keep_next_hop (e_cfg e)) (route_table_of (e_cfg e)) NQ_noroute m) as K.
  destruct (next_request_hop (c_keep_next_hop (e_cfg e)) (route_table_of (e_cfg e)) m) as [m1 r]. cbn [fst snd] in *.
  rewrite (C03.is_my_message_start _ from m m1 (proj1 K)).
  destruct r as [[[host port] tr]| |].
  - apply lb_send_message.
  - destruct (is_my_message _ from m); [exists m1; split; [exact K|reflexivity]|reflexivity].
  - destruct (is_my_message _ from m); [exists m1; split; [exact K|reflexivity]|reflexivity].
Qed.

(* a request, end to end: [m4] and [x1] are what reaches HandleMessage *)
Lemma request_cases e peer port from rs tcp m x x' : is_request m = true ->
  process_message e peer port from rs tcp m x = Ok x' ->
  exists m4 x1, keeps NQ m m4 /\
                (route_consumed (e_cfg e) from m -> hvals (s2b "Route") (m_headers m4) = []) /\
                lb_eq (x_p x) (x_p x1) /\ x_outs x1 = x_outs x /\
                match hop_result e m4 with
                | Ok _ => lb_eq (x_p x1) (x_p x')
                | _ => if is_my_message (new_my_name (c_name (e_cfg e))) from m
                       then exists m', keeps NQ m m' /\ x' = fst (send_to_backend e m' x1)
                       else x' = x1
                end.
Proof.
  intros R E. rewrite process_message_reach in E.
  destruct (reach e peer port from rs tcp m x) as [[m5 x1]| |] eqn:ER; try discriminate. injection E as <-.
  destruct (request_stages_keep e peer port from rs tcp m x m5 x1 R ER) as (m3 & _ & SC & K5 & HR5 & EX).
  exists m5, x1. split; [exact K5|]. split; [exact HR5|].
  split; [exact (stage_conn_lb _ _ _ _ _ _ SC)|]. split; [rewrite EX; reflexivity|].
  assert (R5 : is_request m5 = true) by (rewrite (k_is_request NQ m m5 K5); exact R).
  pose proof (handle_request_cases e from m5 x1 R5) as H. cbv zeta in H.
  rewrite (C03.is_my_message_start _ from m m5 (proj1 K5)) in H.
  destruct (hop_result e m5); [exact H| |];
    (destruct (is_my_message _ from m); [|exact H]; destruct H as (m' & K' & ->); exists m';
     split; [eapply keeps_trans; eassumption|reflexivity]).
Qed.

Lemma req_method_keeps N m m' : keeps N m m' -> req_method m' = req_method m.
Proof. intros [S _]. unfold req_method. rewrite S. reflexivity. Qed.
Lemma notify_terminated_keeps N meth m m' : keeps N m m' -> In (s2b "Subscription-State") N ->
  notify_terminated meth m' = notify_terminated meth m.
Proof. intros K H. unfold notify_terminated. rewrite (k_substate N m m' K H). reflexivity. Qed.

Lemma send_to_backend_pin e m x d v ex : is_request m = true ->
  pin_at d v ex (ps_pins (x_p x)) -> e_now e < ex ->
  bref_alive (x_p x) (bref_of_val v) = true ->
  (forall c, snd (s_get_cseq m) = Ok c -> trans_key e c <> d) ->
  (dialog_of m = Ok d -> notify_terminated (req_method m) m = false) ->
  pin_at d v ex (ps_pins (x_p (fst (send_to_backend e m x)))) /\ mem_eq (x_p x) (x_p (fst (send_to_backend e m x))).
Proof.
  intros R P L AL NK NT.
  destruct (send_to_backend_idle e m x) as [->|(t0 & HR & FT)]; [split; [exact P|apply mem_refl]|].
  destruct (send_to_backend_spec e m x t0 HR FT) as (EP & _). rewrite EP.
  apply stb_pin_preserved; assumption.
Qed.

(* any request whatsoever, end to end *)
Lemma request_pin_preserved e peer port from rs tcp m x x' d v ex : is_request m = true ->
  process_message e peer port from rs tcp m x = Ok x' ->
  pin_at d v ex (ps_pins (x_p x)) -> e_now e < ex ->
  bref_alive (x_p x) (bref_of_val v) = true ->
  (forall c, snd (s_get_cseq m) = Ok c -> trans_key e c <> d) ->
  (dialog_of m = Ok d -> notify_terminated (req_method m) m = false) ->
  pin_at d v ex (ps_pins (x_p x')) /\ mem_eq (x_p x) (x_p x').
Proof.
  intros R E P L AL NK NT.
  destruct (request_cases e peer port from rs tcp m x x' R E) as (m4 & x1 & _ & _ & LB & _ & H).
  assert (P1 : pin_at d v ex (ps_pins (x_p x1))) by (destruct LB as (_&_&_&_&->); exact P).
  assert (AL1 : bref_alive (x_p x1) (bref_of_val v) = true)
    by (rewrite (bref_alive_backends (x_p x) (x_p x1) _ (proj1 LB)); exact AL).
  assert (LBP : forall y, lb_eq (x_p x1) (x_p y) -> pin_at d v ex (ps_pins (x_p y)) /\ mem_eq (x_p x) (x_p y)).
  { intros y LY. split; [destruct LY as (_&_&_&_&->); exact P1|].
    eapply mem_trans; apply mem_of_lb; eassumption. }
  assert (SB : (exists m', keeps NQ m m' /\ x' = fst (send_to_backend e m' x1)) ->
               pin_at d v ex (ps_pins (x_p x')) /\ mem_eq (x_p x) (x_p x')).
  { intros (m' & K & ->).
    destruct (send_to_backend_pin e m' x1 d v ex) as [Q1 Q2].
    - rewrite (k_is_request NQ m m' K). exact R.
    - exact P1.
    - exact L.
    - exact AL1.
    - intros c Hc. apply NK. rewrite <- (k_cseq NQ m m' K) by in_names. exact Hc.
    - intros Hd. rewrite (req_method_keeps NQ m m' K), (notify_terminated_keeps NQ _ m m' K) by in_names.
      apply NT. rewrite <- (dialog_of_keeps NQ m m' K) by in_names. exact Hd.
    - split; [exact Q1|]. eapply mem_trans; [apply mem_of_lb; exact LB|exact Q2]. }
  destruct (hop_result e m4); [apply LBP; exact H| |];
    (destruct (is_my_message _ from m); [apply SB; exact H|rewrite H; apply LBP; apply lb_refl]).
Qed.

Definition static_hop (e : env) (m : message) : res (bytes * Z * bytes) :=
  let! t := snd (s_get_to m) in
  match fromto_host t with
  | None => Err
  | Some h => match find_route (route_table_of (e_cfg e)) h with
              | Some it => Ok (ri_host it, ri_port it, ri_proto it)
              | None => Err
              end
  end.
(* no Route entry to follow (none at all, or only the proxy's own), no static route for the To host,
   Request-URI designates the service *)
Definition addressed_to_service (e : env) (from : stransport) (m : message) : Prop :=
  is_request m = true /\ route_consumed (e_cfg e) from m /\
  (forall v, static_hop e m <> Ok v) /\
  is_my_message (new_my_name (c_name (e_cfg e))) from m = true.
Lemma hop_result_no_route e m : hvals (s2b "Route") (m_headers m) = [] -> hop_result e m = static_hop e m.
Proof.
  intros HR. unfold hop_result, next_request_hop, next_hop_by_route, mbind.
  rewrite (get_route_none m HR). unfold next_hop_by_config, static_hop, mbind.
  destruct (s_get_to m) as [m1 r]. cbn [snd]. destruct r as [t| |]; try reflexivity. cbn [rbind].
  destruct (fromto_host t) as [h|]; [|reflexivity]. destruct (find_route _ h); reflexivity.
Qed.
Lemma static_hop_keeps N e m m' : keeps N m m' -> In (s2b "To") N -> static_hop e m' = static_hop e m.
Proof. intros K H. unfold static_hop. rewrite (k_to N m m' K H). reflexivity. Qed.
Lemma process_message_to_backend e peer port from rs tcp m x x' : addressed_to_service e from m ->
  process_message e peer port from rs tcp m x = Ok x' ->
  exists m' xa, keeps NQ m m' /\ lb_eq (x_p x) (x_p xa) /\ x_outs xa = x_outs x /\ x' = fst (send_to_backend e m' xa).
Proof.
  intros (R & HR & NS & MY) E.
  destruct (request_cases e peer port from rs tcp m x x' R E) as (m4 & x1 & K4 & HR4 & LB & EO & H).
  rewrite (hop_result_no_route e m4 (HR4 HR)), (static_hop_keeps NQ e m m4 K4 ltac:(in_names)), MY in H.
  destruct (static_hop e m) as [v| |] eqn:ES; [exfalso; exact (NS v eq_refl)| |];
    destruct H as (m' & K' & ->); exists m', x1;
    (split; [exact K'|]; split; [exact LB|]; split; [exact EO|reflexivity]).
Qed.

Definition binding_method (meth : bytes) : bool :=
  beq meth (s2b "INVITE") || beq meth (s2b "BYE") || beq meth (s2b "SUBSCRIBE").
Lemma hd_tail_pure_pin e p1 ob m d v ex p' :
  pin_at d v ex (ps_pins p1) -> e_now e <= ex ->
  (dialog_of m = Ok d -> forall meth, method_of m = Ok meth -> binding_method meth = false) ->
  hd_tail_pure e p1 ob m = Ok p' -> pin_at d v ex (ps_pins p').
Proof.
  intros P L NB. unfold hd_tail_pure. destruct ob as [b|]; [|intros H; injection H as <-; exact P].
  destruct (method_of m) as [meth| |] eqn:EM; try discriminate; [|intros H; injection H as <-; exact P].
  destruct (beq meth (s2b "INVITE")) eqn:E1.
  { destruct (dialog_of m) as [d'| |] eqn:ED; try discriminate; intros H; injection H as <-; [|exact P].
    cbn [ps_pins with_pins]. apply pin_at_add_other; [|exact L|exact P].
    intros ->. specialize (NB eq_refl meth eq_refl). unfold binding_method in NB. rewrite E1 in NB. discriminate. }
  destruct (beq meth (s2b "BYE")) eqn:E2; [|intros H; injection H as <-; exact P].
  destruct (dialog_of m) as [d'| |] eqn:ED; try discriminate; intros H; injection H as <-; [|exact P].
  cbn [ps_pins with_pins]. apply pin_at_remove_other; [|exact P].
  intros ->. specialize (NB eq_refl meth eq_refl). unfold binding_method in NB. rewrite E1, E2 in NB. discriminate.
Qed.
Lemma resp_pure_pin e peer port p m d v ex :
  pin_at d v ex (ps_pins p) -> e_now e < ex ->
  (forall t, tid_of m = Ok t -> t <> d) ->
  (dialog_of m = Ok d -> forall meth, method_of m = Ok meth -> binding_method meth = false) ->
  pin_at d v ex (ps_pins (resp_pure e peer port p m)).
Proof.
  intros P L NK NB. unfold resp_pure.
  assert (P1 : pin_at d v ex (ps_pins (match hd_pure e peer port p m with Ok p' => p' | _ => p end))).
  { destruct (hd_pure e peer port p m) as [p'| |] eqn:EH; try exact P.
    unfold hd_pure in EH. destruct (alookup _ (ps_backends p)).
    - apply (hd_tail_pure_pin e p _ m d v ex p' P ltac:(lia) NB EH).
    - destruct (tid_of m) as [tid| |] eqn:ET; try discriminate.
      refine (hd_tail_pure_pin e _ _ m d v ex p' _ ltac:(lia) NB EH). cbn [ps_pins with_pins].
      assert (P0 : pin_at d v ex (fst (pins_get (e_now e) tid (ps_pins p)))) by (apply pin_at_get; assumption).
      destruct (is_final_response m); [|exact P0]. apply pin_at_remove_other; [apply (NK tid eq_refl)|exact P0]. }
  set (p1 := match hd_pure e peer port p m with Ok p' => p' | _ => p end) in *. clearbody p1.
  unfold sub_bind_pure. destruct (relay_hop m) as [[[h pt] tr]| |]; try exact P1.
  destruct (method_of m) as [meth| |] eqn:EM; try exact P1.
  destruct (beq meth (s2b "SUBSCRIBE")) eqn:E3; [|exact P1].
  destruct (alookup _ (ps_backends p1)); [|exact P1]. destruct (dialog_of m) as [d'| |] eqn:ED; try exact P1.
  cbn [ps_pins with_pins]. apply pin_at_add_other; [|lia|exact P1].
  intros ->. specialize (NB eq_refl meth eq_refl). unfold binding_method in NB. rewrite E3 in NB.
  rewrite orb_true_r in NB. discriminate.
Qed.

(* [msg_ok d branch m]: processing m (with proxy branch [branch]) is not a terminator / re-binder for d *)
Definition msg_ok (d branch : bytes) (m : message) : Prop :=
  if is_request m then
    (forall c, snd (s_get_cseq m) = Ok c -> cs_method c ++ "-"%char :: branch <> d) /\
    (dialog_of m = Ok d -> notify_terminated (req_method m) m = false)
  else
    (forall t, tid_of m = Ok t -> t <> d) /\
    (dialog_of m = Ok d -> forall meth, method_of m = Ok meth -> binding_method meth = false).

Theorem C04_preserved_message : forall e peer port from rs tcp m x x' d v ex,
  process_message e peer port from rs tcp m x = Ok x' ->
  msg_ok d (e_branch e) m ->
  pin_at d v ex (ps_pins (x_p x)) -> e_now e < ex ->
  (* the pinned backend object is still registered (a pin whose object has left the set is forgotten
     by the next request of its dialog, C04_stale_pin_balanced) *)
  bref_alive (x_p x) (bref_of_val v) = true ->
  pin_at d v ex (ps_pins (x_p x')) /\ mem_eq (x_p x) (x_p x').
Proof.
  intros e peer port from rs tcp m x x' d v ex E OK P L AL. unfold msg_ok in OK.
  destruct (is_request m) eqn:R.
  - destruct OK as [NK NT]. eapply request_pin_preserved; eassumption.
  - destruct OK as [NK NB].
    destruct (process_message_response e peer port from rs tcp m x R) as (x2 & E2 & LB).
    rewrite E in E2. injection E2 as <-. split.
    + destruct LB as (_&_&_&_&->). apply resp_pure_pin; assumption.
    + eapply mem_trans; [apply mem_of_static, static_of_repinned, (resp_pure_repinned e peer port (x_p x) m)|apply mem_of_lb; exact LB].
Qed.

(* no live pin for the dialog of the request: the rotation is selected *)
Lemma stb_sel_unpinned e p m : is_request m = true ->
  (forall d, dialog_of m = Ok d -> snd (pins_get (e_now e) d (ps_pins p)) = None) -> snd (stb_sel e p m) = BRR.
Proof.
  intros R NP. unfold stb_sel, fbd_pure. rewrite (method_of_request m R).
  destruct (_ && _)%bool; [reflexivity|].
  destruct (dialog_of m) as [d| |] eqn:ED; try reflexivity. rewrite (NP d eq_refl).
  cbv beta iota zeta. rewrite andb_false_r.
  destruct (get_raw _ m); reflexivity.
Qed.

(* whenever the rotation is selected: the request goes to its next backend, and a dialog key that the selection left
   unbound stays unbound *)
Lemma stb_pure_rr e t0 p m : snd (stb_sel e p m) = BRR ->
  let b := fwd_bytes e t0 p m in
  snd (stb_pure e t0 p m) =
    match snd (rr_dispatch (ps_rr p)) with Some a => if fits_datagram b then to_addr_outs a b else [] | None => [] end /\
  ps_rr (fst (stb_pure e t0 p m)) = fst (rr_dispatch (ps_rr p)) /\
  forall d, alookup d (p_tab (ps_pins (fst (stb_sel e p m)))) = None ->
    (forall c, snd (s_get_cseq m) = Ok c -> trans_key e c <> d) ->
    alookup d (p_tab (ps_pins (fst (stb_pure e t0 p m)))) = None.
Proof.
  intros S b. unfold stb_pure. fold b. pose proof (stb_sel_mem e p m) as [_ RR].
  destruct (stb_sel e p m) as [p1 sel]. cbn [fst snd] in RR, S |- *. subst sel. rewrite backend_send_rr, RR.
  destruct (snd (rr_dispatch (ps_rr p))) as [a|]; cbn [fst snd].
  2:{ split; [reflexivity|]. split; [reflexivity|]. intros d PN _. exact PN. }
  destruct (fits_datagram b); cbn [fst snd].
  2:{ split; [reflexivity|]. split; [reflexivity|]. intros d PN _. exact PN. }
  split; [reflexivity|]. split; [destruct (snd (s_get_cseq m)); reflexivity|]. intros d PN NK.
  destruct (snd (s_get_cseq m)) as [c| |] eqn:EC; try exact PN.
  cbn [ps_pins with_pins]. apply pins_add_absent; [apply (NK c eq_refl)|exact PN].
Qed.

(* the converse step: no live pin => the rotation decides (C05) *)
Theorem C04_unpinned_step : forall e m x t0,
  ps_has_rr (x_p x) = true -> first_transport (e_lc e) = Some t0 -> is_request m = true ->
  (forall d, dialog_of m = Ok d -> snd (pins_get (e_now e) d (ps_pins (x_p x))) = None) ->
  let b := fwd_bytes e t0 (x_p x) m in
  let x' := fst (send_to_backend e m x) in
  x_outs x' = x_outs x ++
    match snd (rr_dispatch (ps_rr (x_p x))) with
    | Some a => if fits_datagram b then to_addr_outs a b else []
    | None => []
    end /\
  ps_rr (x_p x') = fst (rr_dispatch (ps_rr (x_p x))).
Proof.
  intros e m x t0 HR FT R NP b x'.
  destruct (send_to_backend_spec e m x t0 HR FT) as (EP & EO & _). fold x' in EP, EO.
  destruct (stb_pure_rr e t0 (x_p x) m (stb_sel_unpinned e (x_p x) m R NP)) as (O & RR & _).
  rewrite EO, EP, O. split; [reflexivity|exact RR].
Qed.

(* a live pin whose backend OBJECT has left the set (removed by the resolver, socket closed): the binding is
   forgotten and the request is balanced like one of an unknown dialog (Proxy.findBackendByDialog + isRegisteredBackend),
   instead of being written on the closed backend and lost *)
(* the selection made for a request of a dialog pinned to an object that is not registered any more *)
Lemma stb_sel_stale e p m d addr g ex :
  fx_stale_pin (e_fx e) = true -> is_request m = true -> dialog_of m = Ok d ->
  pin_at d (pin_val_backend addr g) ex (ps_pins p) -> e_now e < ex -> gen_ok g ->
  alookup addr (ps_backends p) <> Some g ->
  snd (stb_sel e p m) = BRR /\
  (fx_indialog_invite (e_fx e) = true ->
   fst (stb_sel e p m) = with_pins (with_pins p (ps_pins p)) (pins_remove d (ps_pins p))).
Proof.
  intros FS R D P L G A. unfold stb_sel, fbd_pure. rewrite (method_of_request m R), D. cbv beta iota.
  rewrite (pin_at_get_live d _ ex (e_now e) (ps_pins p) P L). cbn [fst snd].
  rewrite (bref_of_val_backend addr g G), FS.
  rewrite (bref_alive_unregistered (with_pins p (ps_pins p)) addr g A). cbn [negb andb].
  destruct (fx_indialog_invite (e_fx e)); cbn [negb andb].
  - split; [reflexivity|intros _; reflexivity].
  - destruct (_ || _)%bool; split; try reflexivity; intros H; discriminate H.
Qed.

Theorem C04_stale_pin_balanced : forall e m x t0 d addr g ex,
  fx_stale_pin (e_fx e) = true ->
  ps_has_rr (x_p x) = true -> first_transport (e_lc e) = Some t0 ->
  is_request m = true -> dialog_of m = Ok d ->
  (* the dialog is bound, the binding has not expired ... *)
  pin_at d (pin_val_backend addr g) ex (ps_pins (x_p x)) -> e_now e < ex ->
  (* ... but the backend object it names is not registered any more *)
  alookup addr (ps_backends (x_p x)) <> Some g -> gen_ok g ->
  let b := fwd_bytes e t0 (x_p x) m in
  let x' := fst (send_to_backend e m x) in
  (* exactly what an unpinned request gets (C04_unpinned_step): the rotation's next backend *)
  x_outs x' = x_outs x ++
    match snd (rr_dispatch (ps_rr (x_p x))) with
    | Some a => if fits_datagram b then to_addr_outs a b else []
    | None => []
    end /\
  ps_rr (x_p x') = fst (rr_dispatch (ps_rr (x_p x))) /\
  (* and the stale binding is gone *)
  (fx_indialog_invite (e_fx e) = true ->
   (forall c, snd (s_get_cseq m) = Ok c -> trans_key e c <> d) ->
   alookup d (p_tab (ps_pins (x_p x'))) = None).
Proof.
  intros e m x t0 d addr g ex FS HR FT R D P L A G b x'.
  destruct (send_to_backend_spec e m x t0 HR FT) as (EP & EO & _). fold x' in EP, EO.
  destruct (stb_sel_stale e (x_p x) m d addr g ex FS R D P L G A) as [S F1].
  destruct (stb_pure_rr e t0 (x_p x) m S) as (O & RR & PN).
  rewrite EO, EP, O. split; [reflexivity|]. split; [exact RR|].
  intros FX NK. apply (PN d); [|exact NK]. rewrite (F1 FX). cbn [ps_pins with_pins pins_remove p_tab]. apply alookup_adel_same.
Qed.

(* an accepted connection is appended to the connections, and the proxy object of its listener files the
   connection-level key of the peer *)
Lemma proxy_step_accept_inv fx c now br st li src sport st' outs :
  proxy_step fx c now br st (EvTcpAccept li src sport) = Ok (st', outs) ->
  st' = st \/
  exists p cn, nth_p (st_proxies st) li = Some p /\ st_conns st' = st_conns st ++ [cn] /\
    let g := get_transport (now / second) (s2b "tcp") src sport [] p in
    st_proxies st' = set_nth_p (st_proxies st) li
      match snd g with
      | Ok key => set_primary key (PConn (w_next_conn (st_world st)) (now / second + 3600)) (fst g)
      | _ => fst g
      end.
Proof.
  cbn [proxy_step]. destruct (nth_opt (c_listens c) li) as [lc|]; [|intros E; injection E as <- _; left; reflexivity].
  destruct (nth_p (st_proxies st) li) as [p|]; [|intros E; injection E as <- _; left; reflexivity].
  cbv zeta. change (now_s _) with (now / second). intros E. right. exists p. eexists. split; [reflexivity|]. revert E.
  destruct (get_transport (now / second) (s2b "tcp") src sport [] p) as [p1 rk]. intros E. injection E as <- _.
  split; reflexivity.
Qed.

Section Pinned.
  Variables (li : nat) (d addr : bytes) (g : nat) (ex : Z).
  Let v := pin_val_backend addr g.
  (* the dialog is bound to (addr, g) until ex and that backend object is registered *)
  Definition pinned_p (p : pstate) : Prop :=
    pin_at d v ex (ps_pins p) /\ alookup addr (ps_backends p) = Some g /\ ps_has_rr p = true.
  Definition pinned (st : state) : Prop := exists p, nth_p (st_proxies st) li = Some p /\ pinned_p p.

  Lemma pinned_p_message e peer port from rs tcp m x x' :
    process_message e peer port from rs tcp m x = Ok x' -> msg_ok d (e_branch e) m -> e_now e < ex -> gen_ok g ->
    pinned_p (x_p x) -> pinned_p (x_p x').
  Proof.
    intros E OK L G (P & A & H).
    assert (AL : bref_alive (x_p x) (bref_of_val v) = true)
      by (unfold v; rewrite (bref_of_val_backend addr g G); apply bref_alive_registered; exact A).
    destruct (C04_preserved_message e peer port from rs tcp m x x' d v ex E OK P L AL) as (P' & B & HR & _).
    split; [exact P'|]. split; [rewrite B; exact A|rewrite HR; exact H].
  Qed.

  Lemma pinned_p_lb p p' : lb_eq p p' -> pinned_p p -> pinned_p p'.
  Proof. intros (B & _ & H & _ & PI) (P & A & HR). unfold pinned_p. rewrite B, H, PI. repeat split; assumption. Qed.

  (* the messages a TCP chunk is cut into *)
  Fixpoint chunk_msgs (fuel : nat) (s : bytes) : list message :=
    match fuel with
    | O => []
    | S f => match trim_left s with
             | [] => []
             | _ => match parse_message s with Ok (m, rest) => m :: chunk_msgs f rest | _ => [] end
             end
    end.
  (* what every message of the chunk keeps, if it satisfies Q, and closing the connection keeps, the chunk keeps *)
  Lemma tcp_messages_chunk (I : ctx -> Prop) (Q : message -> Prop) e cn :
    (forall m x x', Q m -> I x ->
       process_message e (cn_peer cn) (cn_peer_port cn) (cn_from cn) (cn_received_support cn) (Some (cn_id cn)) m x = Ok x' -> I x') ->
    (forall x, I x -> I (close_ctx (cn_id cn) x)) ->
    forall fuel s x x', Forall Q (chunk_msgs fuel s) -> I x -> tcp_messages fuel e cn s x = Ok x' -> I x'.
  Proof.
    intros PM CL. induction fuel as [|f IH]; intros s x x' F Ix E; cbn [tcp_messages chunk_msgs] in E, F.
    - injection E as <-. exact Ix.
    - destruct (trim_left s); [injection E as <-; exact Ix|].
      destruct (parse_message s) as [[m rest]| |]; try (injection E as <-; apply CL; exact Ix).
      inversion F as [|m0 l0 Qm F']; subst.
      destruct (process_message e (cn_peer cn) (cn_peer_port cn) (cn_from cn) (cn_received_support cn) (Some (cn_id cn)) m x)
        as [x1| |] eqn:E1; try discriminate.
      exact (IH rest x1 x' F' (PM m x x1 Qm Ix E1) E).
  Qed.

  Definition ev_ok (branch : bytes) (ev : event) : Prop :=
    match ev with
    | EvUdp li' _ _ data => li' = li -> forall m rest, parse_message data = Ok (m, rest) -> msg_ok d branch m
    | EvTcpData _ data => Forall (msg_ok d branch) (chunk_msgs (S (List.length data)) data)
    | EvBackendAdd li' a => li' = li -> a <> addr
    | EvBackendRemove li' a => li' = li -> a <> addr
    | EvTcpAccept _ _ _ => True
    | EvTcpClose _ => True
    end.

  (* C04_preserved: every event that is not a terminator for d keeps the binding *)
  Theorem C04_preserved : forall fx c now branch st ev st' outs,
    proxy_step fx c now branch st ev = Ok (st', outs) ->
    ev_ok branch ev -> now < ex -> gen_ok g -> pinned st -> pinned st'.
  Proof.
    intros fx c now branch st ev st' outs E OK L GK Q.
    destruct ev as [li' src sport data|li' src sport|cid data|cid|li' a|li' a]; cbn [ev_ok] in OK.
    - (* UDP datagram *)
      apply proxy_step_udp_inv in E.
      destruct E as [(-> & _)|(lc & m & rest & p & x' & _ & EP & N & E & -> & _)]; [exact Q|].
      apply (at_li_ctx_state li pinned_p); [exact Q|]. intros ->.
      exact (pinned_p_message _ _ _ _ _ _ m _ x' E (OK eq_refl m rest EP) L GK (at_li_nth _ _ _ _ Q N)).
    - (* accept *)
      destruct (proxy_step_accept_inv _ _ _ _ _ _ _ _ _ _ E) as [->|(p0 & cn & N0 & _ & EP)]; [exact Q|].
      eapply (at_li_set li pinned_p); [exact Q|exact EP|]. intros ->.
      apply (pinned_p_lb p0); [|exact (at_li_nth _ _ _ _ Q N0)].
      destruct (snd _); try apply lb_get_transport. eapply lb_trans; [apply lb_get_transport|apply lb_set_primary].
    - (* TCP data *)
      apply proxy_step_tcp_inv in E.
      destruct E as [(-> & _)|(cn & lc & p & x' & _ & _ & _ & _ & N & E & -> & _)]; [exact Q|].
      apply (at_li_ctx_state li pinned_p); [exact Q|]. intros ELI. rewrite ELI in N.
      refine (tcp_messages_chunk (fun y => pinned_p (x_p y)) (msg_ok d branch) _ cn _ _ _ _ (start_ctx st p) x' OK (at_li_nth _ _ _ _ Q N) E).
      + intros m y y' OKm Qy Ey. exact (pinned_p_message _ _ _ _ _ _ m y y' Ey OKm L GK Qy).
      + intros y Qy. exact Qy.
    - (* close *)
      cbn [proxy_step] in E. injection E as <- _. exact Q.
    - (* backend added *)
      cbn [proxy_step] in E.
      destruct (nth_p (st_proxies st) li') as [p0|] eqn:N0; [|injection E as <- _; exact Q].
      injection E as <- _. eapply (at_li_set li pinned_p); [exact Q|reflexivity|]. intros ->.
      destruct (at_li_nth _ _ _ _ Q N0) as (P & A & HR). unfold pinned_p. cbn [ps_pins ps_backends ps_has_rr].
      rewrite alookup_aset_other by (intros H; apply (OK eq_refl); symmetry; exact H). repeat split; assumption.
    - (* backend removed *)
      cbn [proxy_step] in E.
      destruct (nth_p (st_proxies st) li') as [p0|] eqn:N0; [|injection E as <- _; exact Q].
      destruct (rr_remove a (ps_rr p0)) as [r' closed]. injection E as <- _.
      eapply (at_li_set li pinned_p); [exact Q|reflexivity|]. intros ->.
      destruct (at_li_nth _ _ _ _ Q N0) as (P & A & HR). unfold pinned_p. cbn [ps_pins ps_backends ps_has_rr].
      split; [exact P|]. split; [|exact HR].
      destruct (mem_bytes a (rr_map (ps_rr p0))); [|exact A].
      rewrite alookup_adel_other by (intros H; apply (OK eq_refl); symmetry; exact H). exact A.
  Qed.
End Pinned.

(* histories: every event carries its own time and the branch the proxy generates *)
Definition hist := list (Z * bytes * event).
Fixpoint run (fx : fixes) (c : cfg) (st : state) (h : hist) : res (state * list (list output)) :=
  match h with
  | [] => Ok (st, [])
  | (now, br, ev) :: r =>
      let! (st1, o) := proxy_step fx c now br st ev in
      let! (st2, os) := run fx c st1 r in
      Ok (st2, o :: os)
  end.
Lemma run_app fx c h1 : forall h2 st,
  run fx c st (h1 ++ h2) =
  (let! (st1, o1) := run fx c st h1 in let! (st2, o2) := run fx c st1 h2 in Ok (st2, o1 ++ o2)).
Proof.
  induction h1 as [|[[now br] ev] r IH]; intros h2 st; cbn [run app].
  - cbn. destruct (run fx c st h2) as [[st2 o2]| |]; reflexivity.
  - destruct (proxy_step fx c now br st ev) as [[st1 o]| |]; cbn [rbind]; try reflexivity.
    rewrite IH. destruct (run fx c st1 r) as [[st2 os]| |]; cbn [rbind]; try reflexivity.
    destruct (run fx c st2 h2) as [[st3 o3]| |]; reflexivity.
Qed.
Theorem C04_preserved_history : forall li d addr g ex fx c h st st' outss,
  run fx c st h = Ok (st', outss) ->
  Forall (fun '(now, br, ev) => now < ex /\ ev_ok li d addr br ev) h ->
  gen_ok g ->
  pinned li d addr g ex st -> pinned li d addr g ex st'.
Proof.
  intros li d addr g ex fx c. induction h as [|[[now br] ev] r IH]; intros st st' outss E F G Q; cbn [run] in E.
  - injection E as <- _. exact Q.
  - inversion F as [|x0 l0 HH F']; subst. cbv beta iota in HH. destruct HH as [L OK].
    destruct (proxy_step fx c now br st ev) as [[st1 o]| |] eqn:E1; cbn [rbind] in E; try discriminate.
    destruct (run fx c st1 r) as [[st2 os]| |] eqn:E2; cbn [rbind] in E; try discriminate.
    injection E as <- _. eapply IH; [exact E2|exact F'|exact G|].
    eapply C04_preserved; eassumption.
Qed.

Definition udp_from (lc : listen_cfg) : stransport := {| t_kind := KUdp; t_addr := lc_addr lc; t_port := lc_udp lc |}.

(* a response that binds d (by the INVITE rule, C04_bind, or the SUBSCRIBE rule, C04_bind_subscribe), as an event *)
Lemma bound_event fx c li lc now br st st' outs peer port data m rest p d addr g ex :
  nth_opt (c_listens c) li = Some lc -> nth_p (st_proxies st) li = Some p ->
  proxy_step fx c now br st (EvUdp li peer port data) = Ok (st', outs) -> parse_message data = Ok (m, rest) ->
  (exists x', process_message (listener_env fx c now br li lc) peer port (udp_transport lc)
                (e_item_rs (listener_env fx c now br li lc)) None m (start_ctx st p) = Ok x' /\
              pin_at d (pin_val_backend addr g) ex (ps_pins (x_p x')) /\ static_eq p (x_p x')) ->
  alookup addr (ps_backends p) = Some g -> ps_has_rr p = true -> pinned li d addr g ex st'.
Proof.
  intros NL NP E EP (x' & E' & PA & B & _ & H & _) A HR.
  destruct (proxy_step_udp_single _ _ _ _ _ _ lc p _ _ _ m rest _ _ NL EP NP E) as (x2 & E2 & -> & _).
  rewrite E' in E2. injection E2 as <-.
  exists (x_p x'). split; [exact (Pipeline.nth_set_same _ _ _ _ NP)|].
  split; [exact PA|]. split; [rewrite B; exact A|rewrite H; exact HR].
Qed.
Lemma bind_event fx c li lc now br st st' outs peer port data m rest p g d :
  nth_opt (c_listens c) li = Some lc -> nth_p (st_proxies st) li = Some p ->
  proxy_step fx c now br st (EvUdp li peer port data) = Ok (st', outs) ->
  parse_message data = Ok (m, rest) -> is_request m = false ->
  alookup (join_host_port peer port) (ps_backends p) = Some g -> ps_has_rr p = true ->
  method_of m = Ok (s2b "INVITE") -> dialog_of m = Ok d ->
  0 <= pins_lifetime (ps_pins p) (get_expires m 0) ->
  pinned li d (join_host_port peer port) g (now + pins_lifetime (ps_pins p) (get_expires m 0)) st'.
Proof.
  intros NL NP E EP R A HR Hm Hd L. refine (bound_event fx c li lc now br st st' outs peer port data m rest p d _ g _ NL NP E EP _ A HR).
  destruct (C04_bind (listener_env fx c now br li lc) peer port (udp_transport lc) (e_item_rs (listener_env fx c now br li lc)) None
                     m (start_ctx st p) g d R A Hm Hd L) as (x' & E' & PA & _ & ST).
  exists x'. split; [exact E'|]. split; [exact PA|exact ST].
Qed.
Lemma bind_subscribe_event fx c li lc now br st st' outs peer port data m rest p host hport tr g d :
  nth_opt (c_listens c) li = Some lc -> nth_p (st_proxies st) li = Some p ->
  proxy_step fx c now br st (EvUdp li peer port data) = Ok (st', outs) ->
  parse_message data = Ok (m, rest) -> is_request m = false ->
  relay_hop m = Ok (host, hport, tr) ->
  alookup (host ++ ":"%char :: itoa hport) (ps_backends p) = Some g -> ps_has_rr p = true ->
  method_of m = Ok (s2b "SUBSCRIBE") -> dialog_of m = Ok d ->
  0 <= pins_lifetime (ps_pins p) (get_expires m 0) ->
  pinned li d (host ++ ":"%char :: itoa hport) g (now + pins_lifetime (ps_pins p) (get_expires m 0)) st'.
Proof.
  intros NL NP E EP R RH A HR Hm Hd L.
  refine (bound_event fx c li lc now br st st' outs peer port data m rest p d _ g _ NL NP E EP _ A HR).
  destruct (C04_bind_subscribe (listener_env fx c now br li lc) peer port (udp_transport lc) (e_item_rs (listener_env fx c now br li lc)) None
                               m (start_ctx st p) host hport tr g d R RH A Hm Hd L) as (x' & E' & PA & _ & ST).
  exists x'. split; [exact E'|]. split; [exact PA|exact ST].
Qed.

(* the in-dialog request as an event *)
Lemma sticky_event c li lc t0 now br st st' outs src sport data m rest d addr g ex dst :
  nth_opt (c_listens c) li = Some lc -> first_transport lc = Some t0 ->
  proxy_step all_fixed c now br st (EvUdp li src sport data) = Ok (st', outs) ->
  parse_message data = Ok (m, rest) -> dialog_of m = Ok d ->
  addressed_to_service (mk_env all_fixed c (item_rs_of true) li lc now br) (udp_from lc) m ->
  pinned li d addr g ex st -> now < ex -> gen_ok g -> addr_dest addr = Some dst ->
  exists b, outs = if fits_datagram b then [(dst, b)] else [].
Proof.
  intros NL FT E EP Hd AS (p & NP & P & A & HR) L G AD.
  destruct (proxy_step_udp_single _ _ _ _ _ _ lc p _ _ _ m rest _ _ NL EP NP E) as (x' & E' & _ & ->).
  destruct (process_message_to_backend (listener_env all_fixed c now br li lc) _ _ _ _ _ m _ x' AS E') as (m' & xa & K & LB & EO & ->).
  destruct LB as (B & _ & H & _ & PI). cbn [x_p start_ctx] in B, H, PI.
  assert (R' : is_request m' = true) by (rewrite (k_is_request NQ m m' K); apply AS).
  assert (D' : dialog_of m' = Ok d) by (rewrite (dialog_of_keeps NQ m m' K) by in_names; exact Hd).
  destruct (C04_sticky_step (listener_env all_fixed c now br li lc) m' xa t0 d addr g ex dst eq_refl) as (O & _); try assumption.
  - rewrite H. exact HR.
  - rewrite PI. exact P.
  - rewrite B. exact A.
  - eexists. rewrite O, EO. reflexivity.
Qed.

(* from any state in which the binding holds (whatever created it: the INVITE rule, the SUBSCRIBE rule): the
   history ends with the datagram to the pinned backend *)
Lemma sticky_tail c li lc t0 h2 tr br src sport datar st2 stf outss mr restr addr g d ex dst :
  nth_opt (c_listens c) li = Some lc -> first_transport lc = Some t0 ->
  pinned li d addr g ex st2 -> gen_ok g -> addr_dest addr = Some dst ->
  run all_fixed c st2 (h2 ++ [(tr, br, EvUdp li src sport datar)]) = Ok (stf, outss) ->
  Forall (fun '(now, b, ev) => now < ex /\ ev_ok li d addr b ev) h2 ->
  parse_message datar = Ok (mr, restr) -> dialog_of mr = Ok d -> tr < ex ->
  addressed_to_service (mk_env all_fixed c (item_rs_of true) li lc tr br) (udp_from lc) mr ->
  exists b o, outss = o ++ [if fits_datagram b then [(dst, b)] else []].
Proof.
  intros NL FT Q2 G AD E F EPr Dr Lr AS. rewrite run_app in E.
  destruct (run all_fixed c st2 h2) as [[st3 o3]| |] eqn:E3; cbn [rbind run] in E; try discriminate.
  destruct (proxy_step all_fixed c tr br st3 (EvUdp li src sport datar)) as [[st4 outs]| |] eqn:E4; cbn [rbind] in E; try discriminate.
  injection E as _ <-.
  assert (Q3 : pinned li d addr g ex st3) by (eapply C04_preserved_history; eassumption).
  destruct (sticky_event c li lc t0 tr br st3 st4 outs src sport datar mr restr d addr g ex dst) as (b & ->); try assumption.
  exists b, o3. reflexivity.
Qed.
Theorem C04_sticky_pinned : forall c li lc t0 h2 tr br src sport datar st2 stf outss mr restr addr g d ex dst,
  nth_opt (c_listens c) li = Some lc -> first_transport lc = Some t0 ->
  pinned li d addr g ex st2 -> gen_ok g -> addr_dest addr = Some dst ->
  run all_fixed c st2 (h2 ++ [(tr, br, EvUdp li src sport datar)]) = Ok (stf, outss) ->
  Forall (fun '(now, b, ev) => now < ex /\ ev_ok li d addr b ev) h2 ->
  parse_message datar = Ok (mr, restr) -> dialog_of mr = Ok d -> tr < ex ->
  addressed_to_service (mk_env all_fixed c (item_rs_of true) li lc tr br) (udp_from lc) mr ->
  exists b, last outss [] = if fits_datagram b then [(dst, b)] else [].
Proof.
  intros c li lc t0 h2 tr br src sport datar st2 stf outss mr restr addr g d ex dst NL FT Q2 G AD E F EPr Dr Lr AS.
  destruct (sticky_tail c li lc t0 h2 tr br src sport datar st2 stf outss mr restr addr g d ex dst) as (b & o & ->); try assumption.
  exists b. apply last_last.
Qed.

Theorem C04_sticky : forall c li lc t0 h1 tb bb peer port datab h2 tr br src sport datar st0 stf outss
                            st1 o1 p1 mb restb mr restr g d dst,
  nth_opt (c_listens c) li = Some lc -> first_transport lc = Some t0 ->
  run all_fixed c st0 (h1 ++ (tb, bb, EvUdp li peer port datab) :: h2 ++ [(tr, br, EvUdp li src sport datar)])
    = Ok (stf, outss) ->
  (* when the response arrives its sender is a registered backend (generation g) *)
  run all_fixed c st0 h1 = Ok (st1, o1) -> nth_p (st_proxies st1) li = Some p1 ->
  let addr := join_host_port peer port in
  alookup addr (ps_backends p1) = Some g -> gen_ok g -> ps_has_rr p1 = true -> addr_dest addr = Some dst ->
  (* the binding response: INVITE in CSeq, both tags *)
  parse_message datab = Ok (mb, restb) -> is_request mb = false ->
  method_of mb = Ok (s2b "INVITE") -> dialog_of mb = Ok d ->
  let life := pins_lifetime (ps_pins p1) (get_expires mb 0) in
  0 <= life ->
  (* in between: anything but a terminator for d, within the lifetime *)
  Forall (fun '(now, b, ev) => now < tb + life /\ ev_ok li d addr b ev) h2 ->
  (* the request: same dialog (either direction, any method), addressed to the service *)
  parse_message datar = Ok (mr, restr) -> dialog_of mr = Ok d -> tr < tb + life ->
  addressed_to_service (mk_env all_fixed c (item_rs_of true) li lc tr br) (udp_from lc) mr ->
  exists b, last outss [] = if fits_datagram b then [(dst, b)] else [].
Proof.
  intros c li lc t0 h1 tb bb peer port datab h2 tr br src sport datar st0 stf outss st1 o1 p1 mb restb mr restr g d dst
         NL FT E E1 NP addr A G HR AD EPb Rb Mb Db life L F EPr Dr Lr AS.
  rewrite run_app, E1 in E. cbn [rbind run] in E.
  destruct (proxy_step all_fixed c tb bb st1 (EvUdp li peer port datab)) as [[st2 ob]| |] eqn:E2; cbn [rbind] in E; try discriminate.
  destruct (run all_fixed c st2 (h2 ++ [(tr, br, EvUdp li src sport datar)])) as [[st3 o3]| |] eqn:E3; cbn [rbind] in E; try discriminate.
  injection E as _ <-.
  assert (Q2 : pinned li d addr g (tb + life) st2) by (eapply bind_event; eassumption).
  destruct (sticky_tail c li lc t0 h2 tr br src sport datar st2 st3 o3 mr restr addr g d (tb + life) dst) as (b & o & ->); try assumption.
  exists b. rewrite app_comm_cons, app_assoc. apply last_last.
Qed.

Theorem C04_unpinned_balanced : forall e peer port from rs tcp m x x' t0,
  addressed_to_service e from m -> process_message e peer port from rs tcp m x = Ok x' ->
  ps_has_rr (x_p x) = true -> first_transport (e_lc e) = Some t0 ->
  (forall d, dialog_of m = Ok d -> snd (pins_get (e_now e) d (ps_pins (x_p x))) = None) ->
  exists b,
    x_outs x' = x_outs x ++
      match snd (rr_dispatch (ps_rr (x_p x))) with
      | Some a => if fits_datagram b then to_addr_outs a b else []
      | None => []
      end /\
    ps_rr (x_p x') = fst (rr_dispatch (ps_rr (x_p x))).
Proof.
  intros e peer port from rs tcp m x x' t0 AS E HR FT NP.
  destruct (process_message_to_backend e peer port from rs tcp m x x' AS E) as (m' & xa & K & LB & EO & ->).
  destruct LB as (_ & RR & H & _ & PI).
  destruct (C04_unpinned_step e m' xa t0) as (O & R2); try assumption.
  - rewrite H. exact HR.
  - rewrite (k_is_request NQ m m' K). apply AS.
  - intros d Hd. rewrite PI. apply NP. rewrite <- (dialog_of_keeps NQ m m' K) by in_names. exact Hd.
  - eexists. rewrite O, R2, RR, EO. split; reflexivity.
Qed.

(* the key hypothesis: transaction keys differ from the dialog key.  Sufficient syntactic
   condition: the method has no '-', the branch carries the RFC 3261 cookie, and what follows
   the first '-' of d does not start with the cookie *)
Definition cookie : bytes := s2b "z9hG4bK".
Lemma has_prefix_app p r : has_prefix p (p ++ r) = true.
Proof. induction p as [|x p IH]; cbn; [reflexivity|]. rewrite Ascii.eqb_refl, IH. reflexivity. Qed.
Theorem key_neq_dialog : forall meth branch d,
  ~ In "-"%char meth -> has_prefix cookie branch = true ->
  match index_byte "-"%char d with
  | Some i => has_prefix cookie (skipn (S i) d) = false
  | None => True
  end ->
  meth ++ "-"%char :: branch <> d.
Proof.
  intros meth branch d NI HP H E. subst d.
  rewrite (index_byte_app_notin "-"%char meth branch NI), skipn_S_length_app in H. congruence.
Qed.
Example key_neq_dialog_ex :
  s2b "INVITE" ++ "-"%char :: s2b "z9hG4bKpx3" <> s2b "c-1@ua-a-1-sip:alice@ua.example.org-b-2-sip:bob@sip.example.com".
Proof. apply key_neq_dialog; [intros H; cbn in H; repeat (destruct H as [H|H]; [discriminate H|]); exact H|reflexivity|reflexivity]. Qed.

(* executable versions of the hypotheses (for concrete histories and for judges) *)
Definition msg_ok_b (d branch : bytes) (m : message) : bool :=
  if is_request m then
    match snd (s_get_cseq m) with Ok c => negb (beq (cs_method c ++ "-"%char :: branch) d) | _ => true end &&
    match dialog_of m with
    | Ok d' => if beq d' d then negb (notify_terminated (req_method m) m) else true
    | _ => true
    end
  else
    match tid_of m with Ok t => negb (beq t d) | _ => true end &&
    match dialog_of m with
    | Ok d' => if beq d' d then match method_of m with Ok meth => negb (binding_method meth) | _ => true end else true
    | _ => true
    end.
Lemma negb_beq_neq a b : negb (beq a b) = true -> a <> b.
Proof. intros H. apply beq_neq, negb_true_iff. exact H. Qed.
Lemma msg_ok_b_sound d branch m : msg_ok_b d branch m = true -> msg_ok d branch m.
Proof.
  unfold msg_ok_b, msg_ok. destruct (is_request m); intros H; apply andb_true_iff in H; destruct H as [H1 H2]; split.
  - intros c Hc. rewrite Hc in H1. apply negb_beq_neq. exact H1.
  - intros Hd. rewrite Hd, beq_refl in H2. apply negb_true_iff in H2. exact H2.
  - intros t Ht. rewrite Ht in H1. apply negb_beq_neq. exact H1.
  - intros Hd meth Hm. rewrite Hd, beq_refl, Hm in H2. apply negb_true_iff in H2. exact H2.
Qed.
Definition ev_ok_b (li : nat) (d addr branch : bytes) (ev : event) : bool :=
  match ev with
  | EvUdp li' _ _ data =>
      negb (Nat.eqb li' li) || match parse_message data with Ok (m, _) => msg_ok_b d branch m | _ => true end
  | EvTcpData _ data => forallb (msg_ok_b d branch) (chunk_msgs (S (List.length data)) data)
  | EvBackendAdd li' a => negb (Nat.eqb li' li) || negb (beq a addr)
  | EvBackendRemove li' a => negb (Nat.eqb li' li) || negb (beq a addr)
  | EvTcpAccept _ _ _ => true
  | EvTcpClose _ => true
  end.
Lemma ev_ok_b_sound li d addr branch ev : ev_ok_b li d addr branch ev = true -> ev_ok li d addr branch ev.
Proof.
  destruct ev as [li' src sport data|li' src sport|cid data|cid|li' a|li' a]; cbn [ev_ok_b ev_ok]; intros H; try exact I.
  - intros -> m rest EP. rewrite Nat.eqb_refl, EP in H. apply msg_ok_b_sound. exact H.
  - apply Forall_forall. intros m Hm. apply msg_ok_b_sound. rewrite forallb_forall in H. apply H. exact Hm.
  - intros ->. rewrite Nat.eqb_refl in H. apply negb_beq_neq. exact H.
  - intros ->. rewrite Nat.eqb_refl in H. apply negb_beq_neq. exact H.
Qed.
Definition route_consumed_b (c : cfg) (from : stransport) (m : message) : bool :=
  match hvals (s2b "Route") (m_headers m) with
  | [] => true
  | [v0] => match sem_route v0 with Ok [rp] => own_route c from rp | _ => false end
  | _ => false
  end.
Lemma route_consumed_b_sound c from m : route_consumed_b c from m = true -> route_consumed c from m.
Proof.
  unfold route_consumed_b, route_consumed. destruct (hvals (s2b "Route") (m_headers m)) as [|v0 [|v1 l]]; intros H.
  - left. reflexivity.
  - right. destruct (sem_route v0) as [[|rp [|rp' l']]| |] eqn:S; try discriminate.
    exists v0, rp. split; [reflexivity|]. split; [exact S|exact H].
  - discriminate.
Qed.
Definition addressed_to_service_b (e : env) (from : stransport) (m : message) : bool :=
  is_request m && route_consumed_b (e_cfg e) from m &&
  match static_hop e m with Ok _ => false | _ => true end &&
  is_my_message (new_my_name (c_name (e_cfg e))) from m.
Lemma addressed_to_service_b_sound e from m : addressed_to_service_b e from m = true -> addressed_to_service e from m.
Proof.
  unfold addressed_to_service_b, addressed_to_service. intros H.
  apply andb_true_iff in H. destruct H as [H H4]. apply andb_true_iff in H. destruct H as [H H3].
  apply andb_true_iff in H. destruct H as [H1 H2]. split; [exact H1|]. split; [apply route_consumed_b_sound; exact H2|].
  split; [|exact H4]. intros v Hv. rewrite Hv in H3. discriminate.
Qed.

(* a concrete history on which the hypotheses of C04_sticky hold, and the witnesses against the earlier findBackendByDialog *)
Definition sip (lines : list string) : bytes := flat_map (fun l => s2b l ++ crlf) lines ++ crlf.
Definition ex_lc : listen_cfg :=
  {| lc_addr := s2b "10.0.0.1"; lc_udp := 5060; lc_tcp := 5060;
     lc_backends := [s2b "10.0.0.11:5070"; s2b "10.0.0.12:5070"; s2b "10.0.0.13:5070"];
     lc_dynamic := false; lc_no_received := false; lc_def_route := false; lc_must_rr := false |}.
Definition ex_cfg : cfg :=
  {| c_name := s2b "sip.example.com"; c_keep_next_hop := false; c_dialog_timeout := 1800;
     c_routes := []; c_hosts := []; c_listens := [ex_lc] |}.
Definition ex_invite : bytes := sip [
  "INVITE sip:bob@sip.example.com SIP/2.0";
  "Via: SIP/2.0/UDP 10.0.0.99:5060;branch=z9hG4bKua1";
  "From: <sip:alice@ua.example.org>;tag=a-1";
  "To: <sip:bob@sip.example.com>";
  "Call-ID: c-1@ua";
  "CSeq: 1 INVITE";
  "Content-Length: 0"]%string.
Definition ex_200 : bytes := sip [
  "SIP/2.0 200 OK";
  "Via: SIP/2.0/UDP 10.0.0.1:5060;branch=z9hG4bKpx0";
  "Via: SIP/2.0/UDP 10.0.0.99:5060;branch=z9hG4bKua1;received=10.0.0.99";
  "From: <sip:alice@ua.example.org>;tag=a-1";
  "To: <sip:bob@sip.example.com>;tag=b-2";
  "Call-ID: c-1@ua";
  "CSeq: 1 INVITE";
  "Content-Length: 0"]%string.
Definition ex_options (n : string) : bytes := sip [
  "OPTIONS sip:svc@sip.example.com SIP/2.0";
  ("Via: SIP/2.0/UDP 10.0.0.98:5060;branch=z9hG4bKo" ++ n)%string;
  "From: <sip:carol@ua.example.org>;tag=c-3";
  "To: <sip:svc@sip.example.com>";
  ("Call-ID: o-" ++ n)%string;
  "CSeq: 7 OPTIONS";
  "Content-Length: 0"]%string.
(* the callee side re-INVITEs: From/To exchanged *)
Definition ex_reinvite : bytes := sip [
  "INVITE sip:alice@sip.example.com SIP/2.0";
  "Via: SIP/2.0/UDP 10.0.0.77:5060;branch=z9hG4bKb1";
  "From: <sip:bob@sip.example.com>;tag=b-2";
  "To: <sip:alice@ua.example.org>;tag=a-1";
  "Call-ID: c-1@ua";
  "CSeq: 1 INVITE";
  "Content-Length: 0"]%string.
Definition ex_bye : bytes := sip [
  "BYE sip:bob@sip.example.com SIP/2.0";
  "Route: <sip:10.0.0.1:5060;lr>";
  "Via: SIP/2.0/UDP 10.0.0.99:5060;branch=z9hG4bKua2";
  "From: <sip:alice@ua.example.org>;tag=a-1";
  "To: <sip:bob@sip.example.com>;tag=b-2";
  "Call-ID: c-1@ua";
  "CSeq: 2 BYE";
  "Content-Length: 0"]%string.
Definition sec (n : Z) : Z := n * second.
Definition ex_hist : hist :=
  [ (sec 1, s2b "z9hG4bKpx0", EvUdp 0 (s2b "10.0.0.99") 5060 ex_invite);
    (sec 2, s2b "z9hG4bKpx1", EvUdp 0 (s2b "10.0.0.12") 5070 ex_200);
    (sec 3, s2b "z9hG4bKpx2", EvUdp 0 (s2b "10.0.0.98") 5060 (ex_options "1"));
    (sec 4, s2b "z9hG4bKpx3", EvUdp 0 (s2b "10.0.0.77") 5060 ex_reinvite);
    (sec 5, s2b "z9hG4bKpx4", EvUdp 0 (s2b "10.0.0.98") 5060 (ex_options "2"));
    (sec 6, s2b "z9hG4bKpx5", EvUdp 0 (s2b "10.0.0.99") 5060 ex_bye) ].

Definition ex_st0 : state := init_state ex_cfg 0 [].
Definition ex_outs : list (list output) := match run all_fixed ex_cfg ex_st0 ex_hist with Ok (_, o) => o | _ => [] end.
Definition ex_h1 : hist := [(sec 1, s2b "z9hG4bKpx0", EvUdp 0 (s2b "10.0.0.99") 5060 ex_invite)].
Definition ex_h2 : hist :=
  [(sec 3, s2b "z9hG4bKpx2", EvUdp 0 (s2b "10.0.0.98") 5060 (ex_options "1"));
   (sec 4, s2b "z9hG4bKpx3", EvUdp 0 (s2b "10.0.0.77") 5060 ex_reinvite);
   (sec 5, s2b "z9hG4bKpx4", EvUdp 0 (s2b "10.0.0.98") 5060 (ex_options "2"))].
Definition msg_of (b : bytes) : message :=
  match parse_message b with Ok (m, _) => m | _ => {| m_start := SResp [] 0 []; m_headers := []; m_body := [] |} end.
Definition ex_d : bytes := s2b "c-1@ua-a-1-sip:alice@ua.example.org-b-2-sip:bob@sip.example.com".
(* what the whole history does: INVITE -> .12 (rotation), 200 -> caller, OPTIONS -> .13, re-INVITE from the
   callee side -> .12 (pinned; the rotation would have said .11), OPTIONS -> .11, BYE -> .12 *)
Definition dests (r : res (state * list (list output))) : list (list dest) :=
  match r with Ok (_, o) => map (map fst) o | _ => [] end.
Example C04_history_ex :
  dests (run all_fixed ex_cfg ex_st0 ex_hist) =
  [ [DUdp (s2b "10.0.0.12") 5070]; [DUdp (s2b "10.0.0.99") 5060]; [DUdp (s2b "10.0.0.13") 5070];
    [DUdp (s2b "10.0.0.12") 5070]; [DUdp (s2b "10.0.0.11") 5070]; [DUdp (s2b "10.0.0.12") 5070] ].
Proof. vm_compute. reflexivity. Qed.
Example C04_sticky_ex :
  exists b, last ex_outs [] = if fits_datagram b then [(DUdp (s2b "10.0.0.12") 5070, b)] else [].
Proof.
  unfold ex_outs.
  destruct (run all_fixed ex_cfg ex_st0 ex_hist) as [[stf outss]| |] eqn:E.
  2,3: pose proof C04_history_ex as H; rewrite E in H; discriminate H.
  (* what C04_sticky asks of the state the 200 finds, of the 200 and of the BYE, computed once *)
  assert (F : match run all_fixed ex_cfg ex_st0 ex_h1, parse_message ex_200, parse_message ex_bye with
              | Ok (st1, _), Ok (mb, _), Ok (mr, _) =>
                  match nth_p (st_proxies st1) 0 with
                  | Some p1 =>
                      alookup (join_host_port (s2b "10.0.0.12") 5070) (ps_backends p1) = Some 1%nat /\ ps_has_rr p1 = true /\
                      is_request mb = false /\ method_of mb = Ok (s2b "INVITE") /\ dialog_of mb = Ok ex_d /\
                      pins_lifetime (ps_pins p1) (get_expires mb 0) = sec 1800 /\
                      dialog_of mr = Ok ex_d /\
                      addressed_to_service_b (mk_env all_fixed ex_cfg (item_rs_of true) 0 ex_lc (sec 6) (s2b "z9hG4bKpx5"))
                                             (udp_from ex_lc) mr = true
                  | None => False
                  end
              | _, _, _ => False
              end)
    by (vm_compute; repeat split; reflexivity).
  revert F.
  destruct (run all_fixed ex_cfg ex_st0 ex_h1) as [[st1 o1]| |] eqn:E1; [|intros []..].
  destruct (parse_message ex_200) as [[mb restb]| |] eqn:EPb; [|intros []..].
  destruct (parse_message ex_bye) as [[mr restr]| |] eqn:EPr; [|intros []..].
  destruct (nth_p (st_proxies st1) 0) as [p1|] eqn:NP; [|intros []].
  intros (A & HR & Rb & Mb & Db & L & Dr & AS).
  refine (C04_sticky ex_cfg 0%nat ex_lc (udp_from ex_lc) ex_h1
            (sec 2) (s2b "z9hG4bKpx1") (s2b "10.0.0.12") 5070 ex_200 ex_h2
            (sec 6) (s2b "z9hG4bKpx5") (s2b "10.0.0.99") 5060 ex_bye ex_st0 stf outss
            st1 o1 p1 mb restb mr restr 1%nat ex_d (DUdp (s2b "10.0.0.12") 5070)
            eq_refl eq_refl E E1 NP A _ HR eq_refl EPb Rb Mb Db _ _ EPr Dr _ (addressed_to_service_b_sound _ _ _ AS));
    try rewrite L.
  - unfold gen_ok. vm_compute. discriminate.
  - discriminate.
  - repeat (apply Forall_cons; [split; [reflexivity|apply ev_ok_b_sound; vm_compute; reflexivity]|]). apply Forall_nil.
  - reflexivity.
Qed.

(* the bind on that history, and the state it leaves: honoured before, not after the lifetime *)
Example C04_bind_ex :
  let st2 := match run all_fixed ex_cfg ex_st0 (firstn 2 ex_hist) with Ok (s, _) => s | _ => ex_st0 end in
  match nth_p (st_proxies st2) 0 with
  | Some p => snd (pins_get (sec 1000) ex_d (ps_pins p)) = Some (pin_val_backend (s2b "10.0.0.12:5070") 1) /\
              snd (pins_get (sec 1802) ex_d (ps_pins p)) = None
  | None => False
  end.
Proof. vm_compute. split; reflexivity. Qed.

(* before the repair of findBackendByDialog (fx_indialog_invite = false): the re-INVITE inside the
   pinned dialog goes to the rotation's next backend (.11) although the pin (.12) is live *)
Definition legacy_fixes : fixes :=
  {| fx_wiring := true; fx_udp_via_listener := true; fx_indialog_invite := false; fx_bracket_host := true; fx_resolved_key := true; fx_stale_pin := true |}.
Theorem C04_legacy_refuted :
  let h := firstn 4 ex_hist in
  let st3 := match run legacy_fixes ex_cfg ex_st0 (firstn 3 ex_hist) with Ok (s, _) => s | _ => ex_st0 end in
  (* the binding is there and live when the re-INVITE arrives (t = 4 s) *)
  match nth_p (st_proxies st3) 0 with
  | Some p => snd (pins_get (sec 4) ex_d (ps_pins p)) = Some (pin_val_backend (s2b "10.0.0.12:5070") 1)
  | None => False
  end /\
  dialog_of (msg_of ex_reinvite) = Ok ex_d /\
  last (dests (run legacy_fixes ex_cfg ex_st0 h)) [] = [DUdp (s2b "10.0.0.11") 5070] /\
  last (dests (run all_fixed ex_cfg ex_st0 h)) [] = [DUdp (s2b "10.0.0.12") 5070].
Proof. vm_compute. repeat split; reflexivity. Qed.

(* a dialog answered by a DYNAMIC backend which the resolver then removes.  Before the repair of
   findBackendByDialog (fx_stale_pin = false) the BYE of that dialog is written on the closed backend object and
   lost although another backend is registered; with the repair the binding is forgotten and the request balanced *)
Definition dyn_lc : listen_cfg :=
  {| lc_addr := s2b "10.0.0.1"; lc_udp := 5060; lc_tcp := 5060;
     lc_backends := [s2b "10.0.0.11:5070"];
     lc_dynamic := true; lc_no_received := false; lc_def_route := false; lc_must_rr := false |}.
Definition dyn_cfg : cfg :=
  {| c_name := s2b "sip.example.com"; c_keep_next_hop := false; c_dialog_timeout := 1800;
     c_routes := []; c_hosts := []; c_listens := [dyn_lc] |}.
Definition dyn_hist : hist :=
  [ (sec 1, [], EvBackendAdd 0 (s2b "10.0.0.12:5070"));
    (sec 2, s2b "z9hG4bKpx0", EvUdp 0 (s2b "10.0.0.99") 5060 ex_invite);
    (sec 3, s2b "z9hG4bKpx1", EvUdp 0 (s2b "10.0.0.12") 5070 ex_200);
    (sec 4, [], EvBackendRemove 0 (s2b "10.0.0.12:5070"));
    (sec 5, s2b "z9hG4bKpx2", EvUdp 0 (s2b "10.0.0.99") 5060 ex_bye) ].
Definition dyn_st0 : state := init_state dyn_cfg 0 [].
Definition stale_legacy_fixes : fixes :=
  {| fx_wiring := true; fx_udp_via_listener := true; fx_indialog_invite := true; fx_bracket_host := true; fx_resolved_key := true; fx_stale_pin := false |}.
Definition dyn_st4 (fx : fixes) : state := match run fx dyn_cfg dyn_st0 (firstn 4 dyn_hist) with Ok (s, _) => s | _ => dyn_st0 end.
Definition dyn_p4 (fx : fixes) : pstate :=
  match nth_p (st_proxies (dyn_st4 fx)) 0 with Some p => p | None => init_pstate dyn_cfg 0 dyn_lc end.
Theorem C04_stale_pin_legacy_refuted :
  (* when the BYE arrives (t = 5 s) the binding to the object 10.0.0.12:5070#1 is there and live, that object is not
     registered any more, 10.0.0.11:5070 is *)
  match nth_p (st_proxies (dyn_st4 stale_legacy_fixes)) 0 with
  | Some p => snd (pins_get (sec 5) ex_d (ps_pins p)) = Some (pin_val_backend (s2b "10.0.0.12:5070") 1) /\
              alookup (s2b "10.0.0.12:5070") (ps_backends p) = None /\
              alookup (s2b "10.0.0.11:5070") (ps_backends p) = Some 0%nat
  | None => False
  end /\
  dialog_of (msg_of ex_bye) = Ok ex_d /\
  (* INVITE -> .12 (the dynamic backend), 200 -> caller, BYE -> nowhere *)
  dests (run stale_legacy_fixes dyn_cfg dyn_st0 dyn_hist) =
    [ []; [DUdp (s2b "10.0.0.12") 5070]; [DUdp (s2b "10.0.0.99") 5060]; []; [] ] /\
  (* with the repair: BYE -> .11, the registered backend *)
  dests (run all_fixed dyn_cfg dyn_st0 dyn_hist) =
    [ []; [DUdp (s2b "10.0.0.12") 5070]; [DUdp (s2b "10.0.0.99") 5060]; []; [DUdp (s2b "10.0.0.11") 5070] ].
Proof. vm_compute. repeat split; reflexivity. Qed.

(* the hypotheses of C04_stale_pin_balanced hold on that history (the state the BYE finds) *)
Example C04_stale_pin_balanced_ex :
  let e := mk_env all_fixed dyn_cfg (item_rs_of true) 0 dyn_lc (sec 5) (s2b "z9hG4bKpx2") in
  let st := dyn_st4 all_fixed in
  let x := {| x_learned := st_learned st; x_p := dyn_p4 all_fixed; x_conns := st_conns st; x_world := st_world st; x_outs := [] |} in
  let x' := fst (send_to_backend e (msg_of ex_bye) x) in
  ps_rr (x_p x') = fst (rr_dispatch (ps_rr (dyn_p4 all_fixed))) /\ alookup ex_d (p_tab (ps_pins (x_p x'))) = None.
Proof.
  intros e st x x'.
  (* what C04_stale_pin_balanced asks of the state the BYE finds and of the BYE, computed once *)
  assert (F : let p := dyn_p4 all_fixed in let m := msg_of ex_bye in
              ps_has_rr p = true /\ is_request m = true /\ dialog_of m = Ok ex_d /\
              pin_at ex_d (pin_val_backend (s2b "10.0.0.12:5070") 1) (sec 1803) (ps_pins p) /\
              alookup (s2b "10.0.0.12:5070") (ps_backends p) = None /\
              rmap cs_method (snd (s_get_cseq m)) = Ok (s2b "BYE"))
    by (vm_compute; repeat split; reflexivity).
  (* from here on the state and the message are variables: no step below evaluates the history again *)
  subst x' x. clearbody st. revert F. generalize (dyn_p4 all_fixed) (msg_of ex_bye). cbv zeta.
  intros p m (HR & R & D & P & A & C).
  set (x := start_ctx st p).
  destruct (C04_stale_pin_balanced e m x (udp_from dyn_lc) ex_d (s2b "10.0.0.12:5070") 1%nat (sec 1803)) as (_ & H2 & H3);
    try assumption; try reflexivity.
  - cbn [x_p x start_ctx]. rewrite A. discriminate.
  - unfold gen_ok. vm_compute. discriminate.
  - split; [exact H2|]. apply H3; [reflexivity|].
    intros c Hc E. rewrite Hc in C. injection C as C. unfold trans_key in E. rewrite C in E. vm_compute in E. discriminate E.
Qed.

Print Assumptions bref_of_val_backend.
Print Assumptions bref_round_trip.
Print Assumptions dialog_of_symmetric.
Print Assumptions C04_bind.
Print Assumptions C04_bind_subscribe.
Print Assumptions C04_sticky_step.
Print Assumptions C04_sticky_step_reverse.
Print Assumptions C04_preserved_message.
Print Assumptions C04_preserved.
Print Assumptions C04_preserved_history.
Print Assumptions C04_sticky.
Print Assumptions C04_sticky_pinned.
Print Assumptions C04_unpinned_step.
Print Assumptions C04_unpinned_balanced.
Print Assumptions key_neq_dialog.
Print Assumptions C04_legacy_refuted.
Print Assumptions C04_sticky_ex.
Print Assumptions C04_stale_pin_balanced.
Print Assumptions C04_stale_pin_legacy_refuted.
Print Assumptions C04_stale_pin_balanced_ex.
