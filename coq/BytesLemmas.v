(* BytesLemmas.v — general facts about the definitions of Bytes.v, and the list facts that
   several proofs under proofs/ share.  No axioms, no admits. *)
From Coq Require Import List Ascii String ZArith NArith Bool Lia.
From Model Require Import Bytes.
Import ListNotations.
Open Scope list_scope.

Lemma fold_left_inv {A B} (P : A -> Prop) (f : A -> B -> A) l :
  (forall a b, In b l -> P a -> P (f a b)) -> forall a, P a -> P (fold_left f l a).
Proof.
  induction l as [|b l IH]; intros H a Ha; cbn [fold_left]; [exact Ha|].
  apply IH.
  - intros a' b' Hb'. apply H. right. exact Hb'.
  - apply H; [left; reflexivity|exact Ha].
Qed.

(* two folds over one list stay related; [dom s l]: the list [l] still to come is admissible
   from the state [s] of the second fold (a judge's own domain check, which may depend on [s]) *)
Lemma fold_left_sim {A S B} (R : A -> S -> Prop) (dom : S -> list B -> Prop)
      (f : A -> B -> A) (g : S -> B -> S) :
  (forall a s b l, R a s -> dom s (b :: l) -> R (f a b) (g s b) /\ dom (g s b) l) ->
  forall l a s, R a s -> dom s l -> R (fold_left f l a) (fold_left g l s).
Proof.
  intros H. induction l as [|b l IH]; intros a s HR HD; cbn [fold_left]; [exact HR|].
  destruct (H a s b l HR HD) as [HR1 HD1]. apply IH; assumption.
Qed.

Lemma NoDup_map_inj_on {A B} (f : A -> B) l :
  NoDup l -> (forall x y, In x l -> In y l -> f x = f y -> x = y) -> NoDup (map f l).
Proof.
  induction 1 as [|x l Hx Hl IH]; intros Hinj; cbn [map]; constructor.
  - intros H. apply in_map_iff in H. destruct H as (y & Hy & Iy).
    apply Hx. rewrite <- (Hinj y x); [exact Iy|right; exact Iy|left; reflexivity|exact Hy].
  - apply IH. intros a b Ia Ib. apply Hinj; right; assumption.
Qed.

Lemma NoDup_app_iff {A} (l1 l2 : list A) :
  NoDup (l1 ++ l2) <-> NoDup l1 /\ NoDup l2 /\ (forall x, In x l1 -> ~ In x l2).
Proof.
  induction l1 as [|x l1 IH]; cbn [app].
  - split; [intros H; repeat split; [constructor|exact H|intros x []]|intros (_ & H & _); exact H].
  - rewrite !NoDup_cons_iff, IH, in_app_iff. split.
    + intros (Hx & N1 & N2 & D). repeat split; try tauto.
      intros y [<-|Hy]; [tauto|apply D; exact Hy].
    + intros ((Hx & N1) & N2 & D). repeat split; try assumption.
      * intros [H|H]; [exact (Hx H)|exact (D x (or_introl eq_refl) H)].
      * intros y Hy. apply D. right. exact Hy.
Qed.

Lemma NoDup_map_filter {A B} (g : A -> B) f l : NoDup (map g l) -> NoDup (map g (filter f l)).
Proof.
  induction l as [|x l IH]; cbn [map filter]; intros ND; [constructor|].
  apply NoDup_cons_iff in ND. destruct ND as [Hx Hl].
  destruct (f x); [|exact (IH Hl)]. cbn [map]. constructor; [|exact (IH Hl)].
  intros H. apply Hx. exact (incl_map g (incl_filter f l) _ H).
Qed.

Lemma nth_opt_nth_error {A} (l : list A) i : nth_opt l i = nth_error l i.
Proof. revert i. induction l as [|x l IH]; intros [|i]; cbn; auto. Qed.

Lemma nth_opt_lt {A} (l : list A) i : i < List.length l -> exists x, nth_opt l i = Some x.
Proof.
  rewrite nth_opt_nth_error. intros H. apply nth_error_Some in H.
  destruct (nth_error l i) as [x|]; [exists x; reflexivity|contradiction].
Qed.

Lemma nth_opt_Some_lt {A} (l : list A) i x : nth_opt l i = Some x -> i < List.length l.
Proof. rewrite nth_opt_nth_error. intros H. apply nth_error_Some. congruence. Qed.

Lemma nth_opt_In {A} (l : list A) i x : nth_opt l i = Some x -> In x l.
Proof. rewrite nth_opt_nth_error. apply nth_error_In. Qed.

Lemma nth_opt_NoDup_inj {A} (l : list A) i j x :
  NoDup l -> nth_opt l i = Some x -> nth_opt l j = Some x -> i = j.
Proof.
  intros ND Hi Hj. apply (proj1 (NoDup_nth_error l) ND).
  - exact (nth_opt_Some_lt _ _ _ Hi).
  - rewrite <- !nth_opt_nth_error. congruence.
Qed.

Lemma map_nth_opt_seq {A} (l : list A) : map (nth_opt l) (seq 0 (List.length l)) = map Some l.
Proof.
  induction l as [|x l IH]; [reflexivity|].
  cbn [List.length seq map]. f_equal.
  rewrite <- seq_shift, map_map. exact IH.
Qed.

Lemma In_firstn_nth {A} (x : A) m l :
  In x (firstn m l) -> exists d, d < m /\ nth_opt l d = Some x.
Proof.
  revert l. induction m as [|m IH]; intros [|y l] H; cbn in H; try contradiction.
  destruct H as [H|H].
  - subst y. exists 0. split; [lia|reflexivity].
  - destruct (IH l H) as (d & Hd & E). exists (S d). split; [lia|exact E].
Qed.

Lemma beq_spec a b : reflect (a = b) (beq a b).
Proof.
  revert b. induction a as [|x a IH]; intros [|y b]; cbn [beq]; try (constructor; congruence).
  destruct (Ascii.eqb_spec x y) as [->|N]; cbn [andb]; [|constructor; congruence].
  destruct (IH b) as [->|N]; constructor; congruence.
Qed.

Lemma beq_eq a b : beq a b = true <-> a = b.
Proof. destruct (beq_spec a b); split; congruence. Qed.

Lemma beq_neq a b : beq a b = false <-> a <> b.
Proof. destruct (beq_spec a b); split; congruence. Qed.

Lemma beq_refl a : beq a a = true.
Proof. apply beq_eq. reflexivity. Qed.

Lemma beq_sym a b : beq a b = beq b a.
Proof.
  destruct (beq_spec a b) as [->|N]; symmetry; [apply beq_refl|].
  apply beq_neq. congruence.
Qed.

Lemma equal_fold_sym a b : equal_fold a b = equal_fold b a.
Proof. unfold equal_fold. apply beq_sym. Qed.

Lemma mem_bytes_In a l : mem_bytes a l = true <-> In a l.
Proof.
  unfold mem_bytes. rewrite existsb_exists. split.
  - intros (x & Hx & E). apply beq_eq in E. subst x. exact Hx.
  - intros H. exists a. split; [exact H|apply beq_refl].
Qed.

Lemma mem_bytes_notIn a l : mem_bytes a l = false <-> ~ In a l.
Proof. rewrite <- mem_bytes_In. destruct (mem_bytes a l); split; congruence. Qed.

(* a duplicate check written with [mem_bytes] (the judges have their own: c05_nodup, nodup_b) *)
Lemma nodup_mem_bytes (nd : list bytes -> bool) :
  nd [] = true -> (forall x r, nd (x :: r) = negb (mem_bytes x r) && nd r) ->
  forall l, nd l = true <-> NoDup l.
Proof.
  intros H0 HS. induction l as [|x r IH].
  - split; [constructor|intros _; exact H0].
  - rewrite HS, andb_true_iff, negb_true_iff, mem_bytes_notIn, IH, NoDup_cons_iff. reflexivity.
Qed.

Lemma byte_ltb_asym x y : byte_ltb x y = true -> byte_ltb y x = false.
Proof. unfold byte_ltb. rewrite N.ltb_lt, N.ltb_ge. lia. Qed.

Lemma byte_ltb_total x y : byte_ltb x y = false -> byte_ltb y x = false -> x = y.
Proof.
  unfold byte_ltb. rewrite !N.ltb_ge. intros H1 H2.
  assert (E : N_of_ascii x = N_of_ascii y) by lia.
  rewrite <- (ascii_N_embedding x), <- (ascii_N_embedding y), E. reflexivity.
Qed.

Lemma blt_irrefl x : blt x x = false.
Proof. induction x as [|c x IH]; cbn; [reflexivity|]. rewrite Ascii.eqb_refl. exact IH. Qed.

Lemma blt_asym x : forall y, blt x y = true -> blt y x = false.
Proof.
  induction x as [|c x IH]; intros [|d y] H; cbn in *; try reflexivity; try discriminate.
  rewrite (Ascii.eqb_sym d c). destruct (Ascii.eqb c d) eqn:E.
  - apply IH. exact H.
  - apply byte_ltb_asym. exact H.
Qed.

Lemma blt_total x : forall y, blt x y = false -> blt y x = false -> x = y.
Proof.
  induction x as [|c x IH]; intros [|d y] H1 H2; cbn in *; try reflexivity; try discriminate.
  rewrite (Ascii.eqb_sym d c) in H2. destruct (Ascii.eqb c d) eqn:E.
  - apply Ascii.eqb_eq in E. subst d. f_equal. apply IH; assumption.
  - apply Ascii.eqb_neq in E. exfalso. apply E. apply byte_ltb_total; assumption.
Qed.

(* exactly one of  x < y,  x = y,  y < x *)
Theorem blt_trichotomy x y :
  (blt x y = true /\ x <> y /\ blt y x = false) \/
  (blt x y = false /\ x = y /\ blt y x = false) \/
  (blt x y = false /\ x <> y /\ blt y x = true).
Proof.
  destruct (blt x y) eqn:E1.
  - left. split; [reflexivity|]. split; [|apply blt_asym; exact E1].
    intros ->. rewrite blt_irrefl in E1. discriminate.
  - destruct (blt y x) eqn:E2.
    + right. right. split; [reflexivity|]. split; [|reflexivity].
      intros ->. rewrite blt_irrefl in E2. discriminate.
    + right. left. split; [reflexivity|]. split; [|reflexivity]. apply blt_total; assumption.
Qed.

Lemma has_prefix_app_same (t : bytes) x y : has_prefix (t ++ x) (t ++ y) = has_prefix x y.
Proof. induction t as [|c t IH]; cbn; [reflexivity|]. rewrite Ascii.eqb_refl. exact IH. Qed.

Lemma has_prefix_app_eq (l1 : bytes) : forall l2 r1 r2,
  l1 ++ r1 = l2 ++ r2 -> has_prefix l1 l2 = true \/ has_prefix l2 l1 = true.
Proof.
  induction l1 as [|x l1 IH]; intros [|y l2] r1 r2 E; cbn in *; auto.
  injection E as -> E. rewrite Ascii.eqb_refl. cbn. eapply IH. exact E.
Qed.

Lemma has_prefix_sep_eq c (t : bytes) : forall t' r r',
  ~ In c t -> ~ In c t' -> has_prefix (t ++ c :: r) (t' ++ c :: r') = true -> t = t'.
Proof.
  induction t as [|x t IH]; intros [|y t'] r r' N1 N2 H; cbn [has_prefix app] in H;
    try reflexivity; apply andb_true_iff in H; destruct H as [H1 H2]; apply Ascii.eqb_eq in H1.
  - exfalso. apply N2. left. symmetry. exact H1.
  - exfalso. apply N1. left. exact H1.
  - subst y. f_equal. apply (IH t' r r'); [| |exact H2]; intros I; [apply N1|apply N2]; right; exact I.
Qed.

Lemma has_prefix_len_eq (t : bytes) : forall t' r r',
  List.length t = List.length t' -> has_prefix (t ++ r) (t' ++ r') = true -> t = t'.
Proof.
  induction t as [|x t IH]; intros [|y t'] r r' L H; cbn in *; try discriminate; [reflexivity|].
  apply andb_true_iff in H. destruct H as [H1 H2]. apply Ascii.eqb_eq in H1. subst y. f_equal.
  apply (IH t' r r'); [lia|exact H2].
Qed.

Lemma notin_cons_inv (c x : ascii) a : ~ In c (x :: a) -> Ascii.eqb x c = false /\ ~ In c a.
Proof.
  intros H. split.
  - apply Ascii.eqb_neq. intros E. apply H. left. exact E.
  - intros I. apply H. right. exact I.
Qed.

Lemma index_byte_none c s : index_byte c s = None <-> ~ In c s.
Proof.
  induction s as [|x r IH]; cbn [index_byte].
  - split; [intros _ []|reflexivity].
  - destruct (Ascii.eqb_spec x c) as [E|E].
    + split; [discriminate|]. intros H. exfalso. apply H. left. exact E.
    + rewrite not_in_cons, <- IH. destruct (index_byte c r).
      * split; [discriminate|intros [_ H]; discriminate H].
      * split; [intros _; split; [congruence|reflexivity]|reflexivity].
Qed.

Lemma index_byte_some c s n : index_byte c s = Some n ->
   s = firstn n s ++ c :: skipn (S n) s /\ ~ In c (firstn n s) /\ n < List.length s.
Proof.
  revert n. induction s as [|x r IH]; intros n H; cbn in H; [discriminate|].
  destruct (Ascii.eqb_spec x c) as [E|E].
  - injection H as <-. subst x. cbn. repeat split; [tauto|lia].
  - destruct (index_byte c r) as [m|] eqn:Er; [|discriminate].
    injection H as <-.
    destruct (IH m eq_refl) as (H1 & H2 & H3).
    cbn [firstn skipn List.length app]. repeat split.
    + f_equal. exact H1.
    + intros [H|H]; [contradiction|]. apply H2. exact H.
    + lia.
Qed.

Lemma index_byte_app_notin c a b : ~ In c a -> index_byte c (a ++ c :: b) = Some (List.length a).
Proof.
  induction a as [|x a IH]; intros H; cbn.
  - rewrite Ascii.eqb_refl. reflexivity.
  - destruct (notin_cons_inv _ _ _ H) as [E N]. rewrite E, (IH N). reflexivity.
Qed.

Lemma index_byte_app_some c x y i : index_byte c x = Some i -> index_byte c (x ++ y) = Some i.
Proof.
  revert i. induction x as [|a x IH]; intros i H; cbn in *; [discriminate|].
  destruct (Ascii.eqb a c); [exact H|].
  destruct (index_byte c x) as [m|]; [|discriminate]. rewrite (IH m eq_refl). exact H.
Qed.

Lemma index_byte_firstn_S c a i : index_byte c a = Some i -> firstn (S i) a = firstn i a ++ [c].
Proof.
  intros H. destruct (index_byte_some _ _ _ H) as (Hs & _ & Hl).
  rewrite Hs at 1. replace (S i) with (List.length (firstn i a) + 1) by (rewrite firstn_length; lia).
  rewrite firstn_app_2. reflexivity.
Qed.
Lemma index_byte_firstn_some c a i n : index_byte c a = Some i -> i < n -> index_byte c (firstn n a) = Some i.
Proof.
  intros H Hn. destruct (index_byte_some _ _ _ H) as (Hs & Hni & Hl).
  rewrite Hs. rewrite firstn_app. rewrite firstn_length.
  replace (n - Nat.min i (List.length a)) with (S (n - S i)) by lia.
  rewrite (firstn_all2 (n := n)); [|rewrite firstn_length; lia].
  cbn [firstn]. rewrite index_byte_app_notin; [|exact Hni]. rewrite firstn_length. f_equal. lia.
Qed.

Lemma firstn_subset {A} (x : A) n l : In x (firstn n l) -> In x l.
Proof.
  intros H. rewrite <- (firstn_skipn n l). apply in_or_app. left. exact H.
Qed.

Lemma index_byte_firstn_none c a i n : index_byte c a = Some i -> n <= i -> index_byte c (firstn n a) = None.
Proof.
  intros H Hn. destruct (index_byte_some _ _ _ H) as (Hs & Hni & Hl).
  apply index_byte_none. intros Hin. apply Hni.
  assert (Hf : firstn n a = firstn n (firstn i a)) by (rewrite firstn_firstn; f_equal; lia).
  rewrite Hf in Hin. exact (firstn_subset _ _ _ Hin).
Qed.

Lemma index_byte_firstn_absent c a n : index_byte c a = None -> index_byte c (firstn n a) = None.
Proof.
  intros H. apply index_byte_none. apply index_byte_none in H. intros Hin. exact (H (firstn_subset _ _ _ Hin)).
Qed.

Lemma index_byte_skipn_none c a n : index_byte c a = None -> index_byte c (skipn n a) = None.
Proof.
  intros H. apply index_byte_none. apply index_byte_none in H. intros Hin. apply H.
  rewrite <- (firstn_skipn n a). apply in_or_app. right. exact Hin.
Qed.

Lemma index_byte_skipn c a i k : index_byte c a = Some i -> k <= i -> index_byte c (skipn k a) = Some (i - k).
Proof.
  intros H Hk. destruct (index_byte_some _ _ _ H) as (Hs & Hni & Hl).
  rewrite Hs. rewrite skipn_app. rewrite firstn_length.
  replace (k - Nat.min i (List.length a)) with 0 by lia. cbn [skipn].
  rewrite index_byte_app_notin.
  - rewrite skipn_length, firstn_length. f_equal. lia.
  - intros Hin. apply Hni. rewrite <- (firstn_skipn k (firstn i a)). apply in_or_app. right. exact Hin.
Qed.

Lemma firstn_add {A} (l : list A) k j : firstn (k + j) l = firstn k l ++ firstn j (skipn k l).
Proof.
  revert l. induction k as [|k IH]; intros l; cbn; [reflexivity|].
  destruct l as [|x l]; cbn; [rewrite firstn_nil; reflexivity|]. f_equal. apply IH.
Qed.

Lemma skipn_add {A} (l : list A) k j : skipn (k + j) l = skipn j (skipn k l).
Proof.
  revert l. induction k as [|k IH]; intros l; cbn; [reflexivity|].
  destruct l as [|x l]; cbn; [rewrite skipn_nil; reflexivity|]. apply IH.
Qed.

Lemma firstn_S_last {A} n (a : list A) : n < List.length a ->
  exists z, firstn (S n) a = firstn n a ++ [z] /\ skipn n a = z :: skipn (S n) a.
Proof.
  revert a. induction n as [|n IH]; intros [|x a] H; cbn [List.length] in H; try lia.
  - exists x. split; reflexivity.
  - destruct (IH a) as (z & E1 & E2); [lia|]. exists z. cbn [firstn skipn app] in *. rewrite E1. split; [reflexivity|exact E2].
Qed.

Lemma firstn_length_app {A} (a b : list A) : firstn (List.length a) (a ++ b) = a.
Proof. induction a as [|x a IH]; cbn [List.length firstn app]; [destruct b; reflexivity|]. rewrite IH. reflexivity. Qed.
Lemma skipn_length_app {A} (a b : list A) : skipn (List.length a) (a ++ b) = b.
Proof. induction a as [|x a IH]; cbn [List.length skipn app]; [reflexivity|exact IH]. Qed.
Lemma skipn_S_length_app {A} (a : list A) c b : skipn (S (List.length a)) (a ++ c :: b) = b.
Proof. induction a as [|x a IH]; cbn [List.length skipn app]; [reflexivity|exact IH]. Qed.

(* a list is cut in one way only at the first (at the last) occurrence of [c] *)
Lemma sep_first {A} (c : A) : forall l1 l2 r1 r2,
  ~ In c l1 -> ~ In c l2 -> l1 ++ c :: r1 = l2 ++ c :: r2 -> l1 = l2 /\ r1 = r2.
Proof.
  induction l1 as [|x l1 IH]; intros [|y l2] r1 r2 N1 N2 E; cbn [app] in E.
  - injection E as ->. split; reflexivity.
  - injection E as E _. exfalso. apply N2. left. symmetry. exact E.
  - injection E as E _. exfalso. apply N1. left. exact E.
  - injection E as -> E. destruct (IH l2 r1 r2) as (-> & ->);
      [intros I; apply N1; right; exact I|intros I; apply N2; right; exact I|exact E|]. split; reflexivity.
Qed.
Lemma sep_last {A} (c : A) l1 l2 r1 r2 :
  ~ In c r1 -> ~ In c r2 -> l1 ++ c :: r1 = l2 ++ c :: r2 -> l1 = l2 /\ r1 = r2.
Proof.
  intros N1 N2 E. apply (f_equal (@rev A)) in E. rewrite !rev_app_distr in E. cbn [rev] in E.
  rewrite <- !app_assoc in E. cbn [app] in E.
  apply sep_first in E; [|rewrite <- in_rev; exact N1|rewrite <- in_rev; exact N2].
  destruct E as (E1 & E2). apply (f_equal (@rev A)) in E1. apply (f_equal (@rev A)) in E2.
  rewrite !rev_involutive in E1, E2. split; assumption.
Qed.

Lemma last_index_byte_none c s : last_index_byte c s = None <-> ~ In c s.
Proof.
  induction s as [|x r IH]; cbn [last_index_byte].
  - split; [intros _ []|reflexivity].
  - rewrite not_in_cons, <- IH. destruct (last_index_byte c r); [split; [discriminate|intros [_ H]; discriminate H]|].
    destruct (Ascii.eqb_spec x c) as [E|E].
    + split; [discriminate|intros [N _]; congruence].
    + split; [intros _; split; [congruence|reflexivity]|reflexivity].
Qed.

Lemma last_index_byte_app c a b : ~ In c b -> last_index_byte c (a ++ c :: b) = Some (List.length a).
Proof.
  intros H. induction a as [|x a IH]; cbn.
  - rewrite (proj2 (last_index_byte_none c b) H). rewrite Ascii.eqb_refl. reflexivity.
  - rewrite IH. reflexivity.
Qed.

Lemma contains_byte_in c s : contains_byte c s = true <-> In c s.
Proof.
  unfold contains_byte. destruct (index_byte c s) as [n|] eqn:E.
  - split; [intros _|reflexivity].
    destruct (index_byte_some c s n E) as (-> & _). apply in_elt.
  - split; [discriminate|]. intros H. apply index_byte_none in E. contradiction.
Qed.

Lemma split_byte_nonempty c s : split_byte c s <> [].
Proof.
  destruct s as [|x r]; cbn; [discriminate|].
  destruct (Ascii.eqb x c); [discriminate|].
  destruct (split_byte c r); discriminate.
Qed.

Lemma split_byte_notin c s : Forall (fun x => ~ In c x) (split_byte c s).
Proof.
  induction s as [|x r IH]; cbn.
  - constructor; [intros []|constructor].
  - destruct (Ascii.eqb_spec x c) as [E|E].
    + constructor; [intros []|exact IH].
    + destruct (split_byte c r) as [|h t].
      * constructor; [|constructor]. intros [H|[]]. contradiction.
      * inversion IH as [|h' t' Hh Ht]; subst. constructor; [|exact Ht].
        intros [H|H]; contradiction.
Qed.

Lemma join_byte_cons2 c a l : l <> [] -> join_byte c (a :: l) = a ++ c :: join_byte c l.
Proof. destruct l; [contradiction|reflexivity]. Qed.

Lemma join_byte_cons_head c x h t : join_byte c ((x :: h) :: t) = x :: join_byte c (h :: t).
Proof. destruct t; reflexivity. Qed.

Lemma join_split c s : join_byte c (split_byte c s) = s.
Proof.
  induction s as [|x r IH]; cbn [split_byte]; [reflexivity|].
  destruct (Ascii.eqb_spec x c) as [E|E].
  - subst x. rewrite join_byte_cons2 by apply split_byte_nonempty.
    rewrite IH. reflexivity.
  - pose proof (split_byte_nonempty c r) as NE.
    destruct (split_byte c r) as [|h t]; [contradiction|].
    rewrite join_byte_cons_head. f_equal. exact IH.
Qed.

Lemma split_byte_single c a : ~ In c a -> split_byte c a = [a].
Proof.
  induction a as [|x a IH]; intros H; cbn; [reflexivity|].
  destruct (notin_cons_inv _ _ _ H) as [E N]. rewrite E, (IH N). reflexivity.
Qed.

Lemma split_byte_app c a s : ~ In c a -> split_byte c (a ++ c :: s) = a :: split_byte c s.
Proof.
  induction a as [|x a IH]; intros H; cbn.
  - rewrite Ascii.eqb_refl. reflexivity.
  - destruct (notin_cons_inv _ _ _ H) as [E N]. rewrite E, (IH N). reflexivity.
Qed.

Lemma split_join c l : l <> [] -> Forall (fun x => ~ In c x) l ->
  split_byte c (join_byte c l) = l.
Proof.
  induction l as [|a l IH]; intros NE HF; [contradiction|].
  inversion HF as [|a' l' Ha Hl]; subst.
  destruct l as [|b l].
  - cbn. apply split_byte_single. exact Ha.
  - rewrite join_byte_cons2 by discriminate.
    rewrite split_byte_app by exact Ha.
    f_equal. apply IH; [discriminate|exact Hl].
Qed.

Lemma N_of_digit m : (m < 10)%N -> N_of_ascii (ascii_of_N (48 + m)) = (48 + m)%N.
Proof. intros H. apply N_ascii_embedding. lia. Qed.

Lemma is_digit_range c : is_digit c = true <-> (48 <= N_of_ascii c <= 57)%N.
Proof. unfold is_digit. cbv zeta. rewrite andb_true_iff, !N.leb_le. reflexivity. Qed.

Lemma is_digit_of_digit m : (m < 10)%N -> is_digit (ascii_of_N (48 + m)) = true.
Proof. intros H. apply is_digit_range. rewrite N_of_digit by exact H. lia. Qed.

Lemma digit_val_of_digit m : (m < 10)%N -> digit_val (ascii_of_N (48 + m)) = Z.of_N m.
Proof. intros H. unfold digit_val. rewrite N_of_digit by exact H. lia. Qed.

Lemma utoa_fuel_app f : forall n acc, utoa_fuel f n acc = utoa_fuel f n [] ++ acc.
Proof.
  induction f as [|f IH]; intros n acc; cbn [utoa_fuel].
  - reflexivity.
  - destruct (N.eqb (n / 10) 0).
    + reflexivity.
    + rewrite IH. rewrite (IH _ [_]). rewrite <- app_assoc. reflexivity.
Qed.

Lemma utoa_fuel_digits f : forall n, Forall (fun c => is_digit c = true) (utoa_fuel f n []).
Proof.
  induction f as [|f IH]; intros n; cbn [utoa_fuel]; [constructor|].
  assert (D : is_digit (ascii_of_N (48 + n mod 10)) = true).
  { apply is_digit_of_digit. apply N.mod_lt. lia. }
  destruct (N.eqb (n / 10) 0).
  - constructor; [exact D|constructor].
  - rewrite utoa_fuel_app. apply Forall_app. split; [apply IH|].
    constructor; [exact D|constructor].
Qed.

Lemma utoa_digits n : utoa n <> [] /\ Forall (fun c => is_digit c = true) (utoa n).
Proof.
  split; [|apply utoa_fuel_digits].
  unfold utoa. cbn [utoa_fuel].
  destruct (N.eqb (n / 10) 0); [discriminate|].
  rewrite utoa_fuel_app. intros H. apply app_eq_nil in H. destruct H as [_ H]. discriminate.
Qed.

Lemma digits_val_app l c : forall a,
  digits_val (l ++ [c]) a =
  match digits_val l a with
  | Some v => if is_digit c then Some (v * 10 + digit_val c)%Z else None
  | None => None
  end.
Proof.
  induction l as [|x l IH]; intros a; cbn [digits_val app].
  - destruct (is_digit c); reflexivity.
  - destruct (is_digit x); [apply IH|reflexivity].
Qed.

Lemma N_lt_pow2_size n : (n < 2 ^ N.of_nat (N.size_nat n))%N.
Proof.
  destruct n as [|p]; [cbn; lia|].
  cbn [N.size_nat].
  induction p as [p IH|p IH|]; cbn [Pos.size_nat].
  - rewrite Nat2N.inj_succ, N.pow_succ_r'. lia.
  - rewrite Nat2N.inj_succ, N.pow_succ_r'. lia.
  - cbn. lia.
Qed.

Lemma digits_val_utoa_fuel f : forall n, (n < 2 ^ N.of_nat f)%N ->
  digits_val (utoa_fuel f n []) 0 = Some (Z.of_N n).
Proof.
  induction f as [|f IH]; intros n H.
  - cbn in H. assert (n = 0%N) by lia. subst n. reflexivity.
  - cbn [utoa_fuel].
    assert (Hm : (n mod 10 < 10)%N) by (apply N.mod_lt; lia).
    pose proof (N.div_mod n 10 ltac:(lia)) as Hd.
    pose proof (is_digit_of_digit _ Hm) as D.
    pose proof (digit_val_of_digit _ Hm) as DV.
    destruct (N.eqb_spec (n / 10) 0) as [E|E].
    + cbn [digits_val]. rewrite D, DV. f_equal. lia.
    + rewrite utoa_fuel_app, digits_val_app, IH, D, DV.
      * f_equal. lia.
      * rewrite Nat2N.inj_succ, N.pow_succ_r' in H.
        apply N.div_lt_upper_bound; lia.
Qed.

Lemma digits_val_utoa n : digits_val (utoa n) 0 = Some (Z.of_N n).
Proof.
  unfold utoa. apply digits_val_utoa_fuel.
  pose proof (N_lt_pow2_size n) as H.
  rewrite Nat2N.inj_succ, N.pow_succ_r'. lia.
Qed.

Lemma is_digit_not_sign c : is_digit c = true ->
  Ascii.eqb c "-" = false /\ Ascii.eqb c "+" = false.
Proof.
  intros H. split.
  - destruct (Ascii.eqb_spec c "-") as [E|E]; [subst; discriminate|reflexivity].
  - destruct (Ascii.eqb_spec c "+") as [E|E]; [subst; discriminate|reflexivity].
Qed.

(* atoi on an unsigned, non-empty, all-digit text *)
Lemma atoi_unsigned s v : s <> [] -> Forall (fun c => is_digit c = true) s ->
  digits_val s 0 = Some v -> (int_min <= v <= int_max)%Z -> atoi s = Some v.
Proof.
  intros NE HF HV [Hlo Hhi].
  destruct s as [|c r]; [contradiction|].
  inversion HF as [|c' r' Hc Hr]; subst.
  destruct (is_digit_not_sign c Hc) as [E1 E2].
  unfold atoi. rewrite E1, E2. cbn [orb]. rewrite HV.
  apply Z.leb_le in Hlo. apply Z.leb_le in Hhi. rewrite Hlo, Hhi. reflexivity.
Qed.

Lemma atoi_itoa z : (int_min <= z <= int_max)%Z -> atoi (itoa z) = Some z.
Proof.
  intros [Hlo Hhi]. unfold itoa.
  destruct (Z.ltb_spec z 0) as [Hn|Hn].
  - destruct (utoa_digits (Z.to_N (- z))) as [NE _].
    pose proof (digits_val_utoa (Z.to_N (- z))) as HV.
    rewrite Z2N.id in HV by lia.
    unfold atoi. rewrite Ascii.eqb_refl. cbn [orb].
    destruct (utoa (Z.to_N (- z))) as [|c r]; [contradiction|].
    rewrite HV. rewrite Z.opp_involutive.
    apply Z.leb_le in Hlo. apply Z.leb_le in Hhi. rewrite Hlo, Hhi. reflexivity.
  - destruct (utoa_digits (Z.to_N z)) as [NE HF].
    apply atoi_unsigned; [exact NE|exact HF| |lia].
    rewrite digits_val_utoa. rewrite Z2N.id by lia. reflexivity.
Qed.

(* every byte of itoa z is a digit or '-' *)
Lemma itoa_Forall (P : ascii -> Prop) z :
  (forall c, is_digit c = true -> P c) -> P "-"%char -> Forall P (itoa z).
Proof.
  intros HD HM.
  assert (U : forall n, Forall P (utoa n)).
  { intros n. apply (Forall_impl P HD). apply utoa_digits. }
  unfold itoa. destruct (Z.ltb z 0); [constructor; [exact HM|apply U]|apply U].
Qed.

Lemma itoa_chars z : Forall (fun c => is_digit c = true \/ c = "-"%char) (itoa z).
Proof. apply itoa_Forall; [intros c H; left; exact H|right; reflexivity]. Qed.

Lemma itoa_notin d z : is_digit d = false -> d <> "-"%char -> ~ In d (itoa z).
Proof.
  intros Hd Hm Hin. apply (proj1 (Forall_forall (fun c => c <> d) (itoa z))) in Hin; [exact (Hin eq_refl)|].
  apply itoa_Forall; [intros c D ->; congruence|congruence].
Qed.

Lemma itoa_no_colon z : ~ In ":"%char (itoa z).
Proof. apply itoa_notin; [reflexivity|discriminate]. Qed.

Lemma itoa_nonempty z : itoa z <> [].
Proof.
  unfold itoa. destruct (Z.ltb z 0); [discriminate|].
  apply utoa_digits.
Qed.

Lemma alookup_aset {V} k k' (v:V) m :
  alookup k (aset k' v m) = if beq k k' then Some v else alookup k m.
Proof.
  induction m as [|[k0 v0] r IH]; cbn [aset alookup]; [reflexivity|].
  destruct (beq_spec k' k0) as [<-|N]; cbn [alookup].
  - destruct (beq k k'); reflexivity.
  - rewrite IH. destruct (beq_spec k k0) as [->|_]; [|reflexivity].
    apply beq_neq in N. rewrite beq_sym, N. reflexivity.
Qed.

Lemma alookup_adel {V} k k' (m : list (bytes*V)) :
  alookup k (adel k' m) = if beq k k' then None else alookup k m.
Proof.
  induction m as [|[k0 v0] r IH]; cbn [adel alookup]; [destruct (beq k k'); reflexivity|].
  destruct (beq_spec k' k0) as [<-|N]; cbn [alookup]; rewrite IH.
  - destruct (beq k k'); reflexivity.
  - destruct (beq_spec k k0) as [->|_]; [|reflexivity].
    apply beq_neq in N. rewrite beq_sym, N. reflexivity.
Qed.

Lemma alookup_aset_same {V} k (v:V) m : alookup k (aset k v m) = Some v.
Proof. rewrite alookup_aset, beq_refl. reflexivity. Qed.

Lemma alookup_aset_other {V} k k' (v:V) m : k <> k' -> alookup k (aset k' v m) = alookup k m.
Proof. intros NE. apply beq_neq in NE. rewrite alookup_aset, NE. reflexivity. Qed.

Lemma alookup_adel_same {V} k (m:list (bytes*V)) : alookup k (adel k m) = None.
Proof. rewrite alookup_adel, beq_refl. reflexivity. Qed.

Lemma alookup_adel_other {V} k k' (m:list (bytes*V)) : k <> k' ->
  alookup k (adel k' m) = alookup k m.
Proof. intros NE. apply beq_neq in NE. rewrite alookup_adel, NE. reflexivity. Qed.

Lemma aset_in {V} d x k (v:V) m :
  In (d, x) (aset k v m) -> (d = k /\ x = v) \/ In (d, x) m.
Proof.
  induction m as [|[k' v'] r IH]; cbn.
  - intros [H|[]]. injection H as <- <-. left. split; reflexivity.
  - destruct (beq k k') eqn:E; cbn; intros [H|H].
    + apply beq_eq in E. subst k'. injection H as <- <-. left. split; reflexivity.
    + right. right. exact H.
    + right. left. exact H.
    + destruct (IH H) as [H1|H1]; [left; exact H1|right; right; exact H1].
Qed.

Lemma aset_keys_nodup {V} k (v:V) m : NoDup (map fst m) -> NoDup (map fst (aset k v m)).
Proof.
  induction m as [|[k' v'] r IH]; cbn; intros ND.
  - constructor; [intros []|constructor].
  - inversion ND as [|k0 l0 Hnin Hnd]; subst.
    destruct (beq k k') eqn:E; cbn.
    + constructor; assumption.
    + constructor; [|apply IH; exact Hnd].
      intros H. apply in_map_iff in H. destruct H as [[d w] [<- H]]. apply aset_in in H.
      destruct H as [[-> _]|H]; [rewrite beq_refl in E; discriminate|].
      apply Hnin. exact (in_map fst _ _ H).
Qed.

Lemma alookup_in {V} k (v:V) m : alookup k m = Some v -> In (k, v) m.
Proof.
  induction m as [|[k' v'] r IH]; cbn; [discriminate|].
  destruct (beq_spec k k') as [<-|_]; intros H; [injection H as <-; left; reflexivity|].
  right. apply IH. exact H.
Qed.

Lemma alookup_none {V} k (m : list (bytes*V)) : alookup k m = None <-> ~ In k (map fst m).
Proof.
  induction m as [|[k' v'] r IH]; cbn [alookup map fst].
  - split; [intros _ []|reflexivity].
  - rewrite not_in_cons, <- IH. destruct (beq_spec k k') as [E|E].
    + split; [discriminate|intros [N _]; contradiction].
    + split; [intros H; split; assumption|intros [_ H]; exact H].
Qed.

Lemma in_alookup {V} k (v:V) m : NoDup (map fst m) -> In (k, v) m -> alookup k m = Some v.
Proof.
  induction m as [|[k' v'] r IH]; cbn; intros ND HI; [contradiction|].
  apply NoDup_cons_iff in ND. destruct ND as [Hnin Hnd].
  destruct HI as [H|H]; [injection H as -> ->; rewrite beq_refl; reflexivity|].
  destruct (beq_spec k k') as [<-|_]; [|apply IH; assumption].
  exfalso. apply Hnin. exact (in_map fst _ _ H).
Qed.

Lemma adel_filter {V} k (m : list (bytes*V)) : adel k m = filter (fun kv => negb (beq k (fst kv))) m.
Proof.
  induction m as [|[k' v'] r IH]; cbn [adel filter fst]; [reflexivity|].
  rewrite IH. destruct (beq k k'); reflexivity.
Qed.

Lemma alookup_filter {V} (f : bytes * V -> bool) k m : NoDup (map fst m) ->
  alookup k (filter f m) =
  match alookup k m with Some v => if f (k, v) then Some v else None | None => None end.
Proof.
  induction m as [|[k' v'] r IH]; cbn [filter alookup map fst]; intros ND; [reflexivity|].
  apply NoDup_cons_iff in ND. destruct ND as [Hnin Hnd].
  destruct (beq_spec k k') as [<-|N].
  - destruct (f (k, v')); cbn [alookup]; [rewrite beq_refl; reflexivity|].
    apply alookup_none. intros H. apply Hnin. exact (incl_map fst (incl_filter f r) _ H).
  - rewrite <- (IH Hnd). destruct (f (k', v')); cbn [alookup]; [|reflexivity].
    apply beq_neq in N. rewrite N. reflexivity.
Qed.

(* without the NoDup: what is kept, is found; what was not there, is not found *)
Lemma alookup_filter_some {V} (P : bytes * V -> bool) k v l :
  alookup k l = Some v -> P (k, v) = true -> alookup k (filter P l) = Some v.
Proof.
  induction l as [|[k' v'] r IH]; cbn; [discriminate|].
  destruct (beq k k') eqn:E.
  - intros H HP. injection H as ->. apply beq_eq in E. subst k'. rewrite HP. cbn. rewrite beq_refl. reflexivity.
  - intros H HP. destruct (P (k', v')); cbn; [rewrite E|]; apply IH; assumption.
Qed.
Lemma alookup_filter_none {V} (P : bytes * V -> bool) k l : alookup k l = None -> alookup k (filter P l) = None.
Proof.
  induction l as [|[k' v'] r IH]; cbn; [reflexivity|].
  destruct (beq k k') eqn:E; [discriminate|]. intros H. destruct (P (k', v')); cbn; [rewrite E|]; apply IH; exact H.
Qed.
Lemma alookup_filter_in {V} (P : bytes * V -> bool) k v l : alookup k (filter P l) = Some v -> In (k, v) l.
Proof. intros H. apply alookup_in in H. apply filter_In in H. apply H. Qed.

Lemma bytes_ind_len (P : bytes -> Prop) :
  (forall s, (forall t, List.length t < List.length s -> P t) -> P s) -> forall s, P s.
Proof.
  intros H s. assert (G : forall n t, List.length t < n -> P t).
  { induction n as [|n IH]; intros t Ht; [lia|]. apply H. intros u Hu. apply IH. lia. }
  apply (G (S (List.length s))). lia.
Qed.

Definition head_ascii (s : bytes) : bool := match s with [] => true | c :: _ => is_ascii c end.
Definition all_space (s : bytes) : Prop := Forall (fun c => is_space c = true) s.
Definition no_space (s : bytes) : Prop := forall c, In c s -> is_space c = false.

Lemma is_space_range c : is_space c = true -> (9 <= N_of_ascii c <= 13 \/ N_of_ascii c = 32)%N.
Proof. unfold is_space. cbv zeta. rewrite !orb_true_iff, !N.eqb_eq. lia. Qed.

Lemma is_space_ascii c : is_space c = true -> is_ascii c = true.
Proof. intros H. apply is_space_range in H. apply N.ltb_lt. lia. Qed.

(* every byte of a [p2]/[p3] sequence is >= 128 *)
Definition seq_nonascii (p2 : ascii -> ascii -> bool) (p3 : ascii -> ascii -> ascii -> bool) : Prop :=
  (forall a b, p2 a b = true -> is_ascii a = false /\ is_ascii b = false) /\
  (forall a b c, p3 a b c = true -> is_ascii a = false /\ is_ascii b = false /\ is_ascii c = false).

Lemma eqb_nonascii x k : N.leb 128 k = true -> N.eqb (N_of_ascii x) k = true -> is_ascii x = false.
Proof. intros Hk E. apply N.eqb_eq in E. apply N.leb_le in Hk. apply N.ltb_ge. lia. Qed.

(* every test in [usp2]/[usp3] compares a byte with a constant >= 128 (the lead byte is C2, E1,
   E2 or E3, the others are continuation bytes), or bounds it from below by 128 *)
Lemma usp_nonascii : seq_nonascii usp2 usp3.
Proof.
  split.
  - intros a b H. unfold usp2 in H. cbv zeta in H. apply andb_true_iff in H. destruct H as [Ha Hb].
    split; [revert Ha; apply eqb_nonascii; reflexivity|].
    apply orb_true_iff in Hb. destruct Hb as [Hb|Hb]; revert Hb; apply eqb_nonascii; reflexivity.
  - intros a b c.
    assert (T : forall kx ky Z, N.leb 128 kx = true -> N.leb 128 ky = true ->
                (Z = true -> is_ascii c = false) ->
                (N.eqb (N_of_ascii a) kx && N.eqb (N_of_ascii b) ky && Z)%bool = true ->
                is_ascii a = false /\ is_ascii b = false /\ is_ascii c = false).
    { intros kx ky Z Hx Hy HZ H. apply andb_true_iff in H. destruct H as [H Hz].
      apply andb_true_iff in H. destruct H as [Ha Hb].
      split; [exact (eqb_nonascii a kx Hx Ha)|]. split; [exact (eqb_nonascii b ky Hy Hb)|exact (HZ Hz)]. }
    unfold usp3. cbv zeta. intros H.
    repeat (apply orb_true_iff in H; destruct H as [H|H]); revert H; apply T; try reflexivity;
      try (apply eqb_nonascii; reflexivity).
    (* U+2000..U+200A, U+2028, U+2029, U+202F: the third byte *)
    intros H. repeat (apply orb_true_iff in H; destruct H as [H|H]);
      try (revert H; apply eqb_nonascii; reflexivity).
    apply andb_true_iff in H. destruct H as [H _]. apply N.leb_le in H. apply N.ltb_ge. exact H.
Qed.
Lemma uspr_nonascii : seq_nonascii usp2r usp3r.
Proof.
  split; intros *; [intros H; apply (proj1 usp_nonascii) in H|intros H; apply (proj2 usp_nonascii) in H]; tauto.
Qed.

Section TrimU.
  Variables (p2 : ascii -> ascii -> bool) (p3 : ascii -> ascii -> ascii -> bool).
  Notation tl_u := (trim_left_u p2 p3).

  (* nothing can be stripped at the left end *)
  Definition lstuck (s : bytes) : bool :=
    match s with [] => true | c :: _ => negb (is_space c) && negb (uprefix p2 p3 s) end.

  (* [trim_left_u] strips a blank, a [p2] pair or a [p3] triple as long as there is one, and stops
     at a string that begins with none: a relation closed under these four rules holds between
     every string and what is left of it *)
  Lemma trim_left_u_ind (P : bytes -> bytes -> Prop) :
    (forall s, lstuck s = true -> P s s) ->
    (forall c s r, is_space c = true -> P s r -> P (c :: s) r) ->
    (forall c c2 s r, p2 c c2 = true -> P s r -> P (c :: c2 :: s) r) ->
    (forall c c2 c3 s r, p3 c c2 c3 = true -> P s r -> P (c :: c2 :: c3 :: s) r) ->
    forall s, P s (tl_u s).
  Proof.
    intros H0 H1 H2 H3 s. induction s as [s IH] using bytes_ind_len.
    destruct s as [|c r]; [apply H0; reflexivity|]. cbn [trim_left_u].
    destruct (is_space c) eqn:Ec; [apply H1; [exact Ec|apply IH; cbn [List.length]; lia]|].
    destruct r as [|c2 r2]; [apply H0; cbn [lstuck uprefix]; rewrite Ec; reflexivity|].
    destruct (p2 c c2) eqn:E2; [apply H2; [exact E2|apply IH; cbn [List.length]; lia]|].
    destruct r2 as [|c3 r3]; [apply H0; cbn [lstuck uprefix]; rewrite Ec, E2; reflexivity|].
    destruct (p3 c c2 c3) eqn:E3; [apply H3; [exact E3|apply IH; cbn [List.length]; lia]|].
    apply H0. cbn [lstuck uprefix]. rewrite Ec, E2, E3. reflexivity.
  Qed.

  Lemma trim_left_u_split s : exists w, s = w ++ tl_u s.
  Proof.
    apply (trim_left_u_ind (fun s r => exists w, s = w ++ r)).
    - intros s0 _. exists []. reflexivity.
    - intros c s0 r _ [w ->]. exists (c :: w). reflexivity.
    - intros c c2 s0 r _ [w ->]. exists (c :: c2 :: w). reflexivity.
    - intros c c2 c3 s0 r _ [w ->]. exists (c :: c2 :: c3 :: w). reflexivity.
  Qed.

  Lemma trim_left_u_length s : List.length (tl_u s) <= List.length s.
  Proof.
    destruct (trim_left_u_split s) as [w E]. rewrite E at 2. rewrite app_length. lia.
  Qed.

  Lemma trim_left_u_len_fix s : List.length (tl_u s) = List.length s -> tl_u s = s.
  Proof.
    intros H. destruct (trim_left_u_split s) as [w E].
    assert (L : List.length s = List.length w + List.length (tl_u s)) by (rewrite E at 1; apply app_length).
    destruct w as [|x w]; [symmetry; exact E|]. cbn [List.length] in L. lia.
  Qed.

  Lemma lstuck_fix s : lstuck s = true -> tl_u s = s.
  Proof.
    destruct s as [|c r]; [reflexivity|]. cbn [lstuck uprefix trim_left_u].
    destruct (is_space c); [discriminate|]. destruct r as [|c2 r2]; [reflexivity|].
    destruct (p2 c c2); [discriminate|]. destruct r2 as [|c3 r3]; [reflexivity|].
    destruct (p3 c c2 c3); [discriminate|reflexivity].
  Qed.

  Lemma trim_left_u_lstuck s : lstuck (tl_u s) = true.
  Proof. apply (trim_left_u_ind (fun _ r => lstuck r = true)); auto. Qed.

  Lemma lstuck_of_fix s : tl_u s = s -> lstuck s = true.
  Proof. intros H. rewrite <- H. apply trim_left_u_lstuck. Qed.

  Lemma trim_left_u_idem s : tl_u (tl_u s) = tl_u s.
  Proof. apply lstuck_fix, trim_left_u_lstuck. Qed.

  Lemma lstuck_prefix a b : lstuck (a ++ b) = true -> lstuck a = true.
  Proof.
    intros H. destruct a as [|c [|c2 [|c3 r3]]]; cbn [app lstuck uprefix] in *; try reflexivity; try exact H.
    - destruct (is_space c); [destruct b; discriminate H|reflexivity].
    - destruct (is_space c); [discriminate H|]. cbn [negb andb] in *.
      destruct (p2 c c2); [discriminate H|reflexivity].
  Qed.

  Lemma trim_left_u_blank pad s : all_space pad -> tl_u (pad ++ s) = tl_u s.
  Proof.
    intros H. induction H as [|c pad Hc Hp IH]; [reflexivity|].
    cbn [app trim_left_u]. rewrite Hc. exact IH.
  Qed.

  Lemma trim_left_u_all_blank pad : all_space pad -> tl_u pad = [].
  Proof. intros H. rewrite <- (app_nil_r pad), trim_left_u_blank by exact H. reflexivity. Qed.

  Hypothesis NA : seq_nonascii p2 p3.

  Lemma p2_ascii_l a b : is_ascii a = true -> p2 a b = false.
  Proof. intros H. destruct (p2 a b) eqn:E; [|reflexivity]. destruct (proj1 NA a b E). congruence. Qed.
  Lemma p2_ascii_r a b : is_ascii b = true -> p2 a b = false.
  Proof. intros H. destruct (p2 a b) eqn:E; [|reflexivity]. destruct (proj1 NA a b E). congruence. Qed.
  Lemma p3_ascii_1 a b c : is_ascii a = true -> p3 a b c = false.
  Proof. intros H. destruct (p3 a b c) eqn:E; [|reflexivity]. destruct (proj2 NA a b c E) as (?&?&?). congruence. Qed.
  Lemma p3_ascii_2 a b c : is_ascii b = true -> p3 a b c = false.
  Proof. intros H. destruct (p3 a b c) eqn:E; [|reflexivity]. destruct (proj2 NA a b c E) as (?&?&?). congruence. Qed.
  Lemma p3_ascii_3 a b c : is_ascii c = true -> p3 a b c = false.
  Proof. intros H. destruct (p3 a b c) eqn:E; [|reflexivity]. destruct (proj2 NA a b c E) as (?&?&?). congruence. Qed.

  Lemma uprefix_head_ascii s : head_ascii s = true -> uprefix p2 p3 s = false.
  Proof.
    destruct s as [|c [|c2 [|c3 r]]]; cbn [head_ascii uprefix]; intros H; try reflexivity.
    - rewrite p2_ascii_l by exact H. reflexivity.
    - rewrite p2_ascii_l, p3_ascii_1 by exact H. reflexivity.
  Qed.

  (* where the ASCII trim stops at an ASCII byte (or at the end), the Unicode trim stops too *)
  Lemma trim_left_u_ascii s : head_ascii (trim_left s) = true -> tl_u s = trim_left s.
  Proof.
    induction s as [|c r IH]; [reflexivity|]. cbn [trim_left trim_left_u].
    destruct (is_space c) eqn:Ec; [exact IH|]. cbn [head_ascii]. intros H.
    destruct r as [|c2 r2]; [reflexivity|]. rewrite p2_ascii_l by exact H.
    destruct r2 as [|c3 r3]; [reflexivity|]. rewrite p3_ascii_1 by exact H. reflexivity.
  Qed.

  (* ASCII blanks after a non-empty stuck string do not complete a sequence *)
  Lemma lstuck_app_blank v pad : v <> [] -> lstuck v = true -> all_space pad -> lstuck (v ++ pad) = true.
  Proof.
    intros Hne Hv Hp.
    assert (A : forall d, In d pad -> is_ascii d = true).
    { intros d Hd. apply is_space_ascii. unfold all_space in Hp. rewrite Forall_forall in Hp. exact (Hp d Hd). }
    destruct v as [|c [|c2 [|c3 r3]]]; [contradiction| | |exact Hv]; cbn [app lstuck uprefix] in *.
    - destruct (is_space c); [discriminate Hv|]. cbn [negb andb].
      destruct pad as [|d [|e pad]]; [reflexivity| |].
      + rewrite p2_ascii_r by (apply A; left; reflexivity). reflexivity.
      + rewrite p2_ascii_r, p3_ascii_2 by (apply A; left; reflexivity). reflexivity.
    - destruct (is_space c); [discriminate Hv|]. cbn [negb andb] in *.
      destruct (p2 c c2); [discriminate Hv|]. cbn [orb].
      destruct pad as [|d pad]; [reflexivity|].
      rewrite p3_ascii_3 by (apply A; left; reflexivity). reflexivity.
  Qed.
End TrimU.

Lemma trim_left_go_split s : exists w, s = w ++ trim_left_go s.
Proof. apply trim_left_u_split. Qed.
Lemma trim_right_go_split s : exists w, s = trim_right_go s ++ w.
Proof.
  unfold trim_right_go, trim_left_go_r. destruct (trim_left_u_split usp2r usp3r (rev s)) as [w E].
  exists (rev w). rewrite <- rev_app_distr, <- E, rev_involutive. reflexivity.
Qed.
(* TrimSpace only removes a prefix and a suffix *)
Lemma trim_space_go_split s : exists a b, s = a ++ trim_space_go s ++ b.
Proof.
  destruct (trim_left_go_split s) as [a Ea]. destruct (trim_right_go_split (trim_left_go s)) as [b Eb].
  exists a, b. unfold trim_space_go. rewrite <- Eb. exact Ea.
Qed.
Lemma trim_space_go_in c s : In c (trim_space_go s) -> In c s.
Proof.
  intros H. destruct (trim_space_go_split s) as (a & b & E). rewrite E.
  apply in_or_app. right. apply in_or_app. left. exact H.
Qed.
Lemma trim_space_go_notin c s : ~ In c s -> ~ In c (trim_space_go s).
Proof. intros H I. exact (H (trim_space_go_in c s I)). Qed.
Lemma trim_space_go_length s : List.length (trim_space_go s) <= List.length s.
Proof.
  destruct (trim_space_go_split s) as (a & b & E). rewrite E at 2. rewrite !app_length. lia.
Qed.

Lemma trim_right_go_idem s : trim_right_go (trim_right_go s) = trim_right_go s.
Proof.
  unfold trim_right_go, trim_left_go_r. rewrite rev_involutive, trim_left_u_idem. reflexivity.
Qed.

(* the two fixed-point facts behind idempotence *)
Lemma trim_space_go_lfix s : trim_left_go (trim_space_go s) = trim_space_go s.
Proof.
  unfold trim_space_go. set (a := trim_left_go s).
  apply lstuck_fix. destruct (trim_right_go_split a) as [w E].
  apply (lstuck_prefix usp2 usp3 _ w). rewrite <- E. apply trim_left_u_lstuck.
Qed.
Lemma trim_space_go_rfix s : trim_right_go (trim_space_go s) = trim_space_go s.
Proof. unfold trim_space_go. apply trim_right_go_idem. Qed.
Lemma trim_space_go_idem s : trim_space_go (trim_space_go s) = trim_space_go s.
Proof. unfold trim_space_go at 1. rewrite trim_space_go_lfix. apply trim_space_go_rfix. Qed.

Lemma trim_space_go_fix_inv s : trim_space_go s = s -> trim_left_go s = s /\ trim_right_go s = s.
Proof.
  intros H. rewrite <- H. split; [apply trim_space_go_lfix|apply trim_space_go_rfix].
Qed.
Lemma trim_space_go_fix s : trim_left_go s = s -> trim_right_go s = s -> trim_space_go s = s.
Proof. intros H1 H2. unfold trim_space_go. rewrite H1. exact H2. Qed.

(* leading ASCII white space *)
Lemma trim_space_go_blank pad s : all_space pad -> trim_space_go (pad ++ s) = trim_space_go s.
Proof. intros H. unfold trim_space_go, trim_left_go. rewrite trim_left_u_blank by exact H. reflexivity. Qed.
Lemma trim_space_go_sp c s : is_space c = true -> trim_space_go (c :: s) = trim_space_go s.
Proof. intros H. apply (trim_space_go_blank [c]). constructor; [exact H|constructor]. Qed.

(* ASCII padding around a value without surrounding (Unicode) blanks: TrimSpace yields the value *)
Lemma trim_space_go_pads lpad v rpad :
  all_space lpad -> all_space rpad -> trim_space_go v = v -> trim_space_go (lpad ++ v ++ rpad) = v.
Proof.
  intros Hl Hr Hv. destruct (trim_space_go_fix_inv v Hv) as [HL HR].
  rewrite trim_space_go_blank by exact Hl.
  destruct v as [|c r].
  - cbn [app]. unfold trim_space_go, trim_left_go. rewrite trim_left_u_all_blank by exact Hr. reflexivity.
  - unfold trim_space_go.
    assert (E : trim_left_go ((c :: r) ++ rpad) = (c :: r) ++ rpad).
    { apply lstuck_fix. apply (lstuck_app_blank _ _ usp_nonascii); [discriminate| |exact Hr].
      apply lstuck_of_fix. exact HL. }
    rewrite E. unfold trim_right_go, trim_left_go_r. rewrite rev_app_distr.
    rewrite trim_left_u_blank by (apply Forall_rev; exact Hr). exact HR.
Qed.

Lemma trim_left_nonblank_snoc x c : is_space c = false -> trim_left (x ++ [c]) = trim_left x ++ [c].
Proof.
  intros H. induction x as [|d x IH]; cbn [app trim_left]; [rewrite H; reflexivity|].
  destruct (is_space d); [exact IH|reflexivity].
Qed.
Lemma trim_left_head_nonblank s : match trim_left s with c :: _ => is_space c = false | [] => True end.
Proof.
  induction s as [|c r IH]; cbn [trim_left]; [exact I|].
  destruct (is_space c) eqn:E; [exact IH|exact E].
Qed.
(* the ASCII trim of the right end never touches the first byte the left trim stopped at *)
Lemma trim_space_head s : head_ascii (trim_space s) = head_ascii (trim_left s).
Proof.
  unfold trim_space, trim_right. pose proof (trim_left_head_nonblank s) as H.
  destruct (trim_left s) as [|c r]; [reflexivity|].
  cbn [rev]. rewrite trim_left_nonblank_snoc by exact H. rewrite rev_app_distr. reflexivity.
Qed.

(* sufficient condition: where the ASCII trim stops, at either end, there is an ASCII byte
   (or nothing is left) *)
Theorem trim_space_go_eq s :
  head_ascii (trim_space s) = true -> head_ascii (rev (trim_space s)) = true ->
  trim_space_go s = trim_space s.
Proof.
  intros H1 H2. rewrite trim_space_head in H1.
  unfold trim_space_go, trim_left_go. rewrite (trim_left_u_ascii _ _ usp_nonascii) by exact H1.
  unfold trim_space, trim_right in *. rewrite rev_involutive in H2.
  unfold trim_right_go, trim_left_go_r. rewrite (trim_left_u_ascii _ _ uspr_nonascii) by exact H2.
  reflexivity.
Qed.

Lemma head_ascii_all s : Forall (fun c => is_ascii c = true) s -> head_ascii s = true.
Proof. intros H. destruct H; [reflexivity|assumption]. Qed.
Lemma trim_left_suffix_all (P : ascii -> Prop) s : Forall P s -> Forall P (trim_left s).
Proof.
  intros H. induction H as [|c r Hc Hr IH]; cbn [trim_left]; [constructor|].
  destruct (is_space c); [exact IH|constructor; assumption].
Qed.
Lemma trim_left_blank pad s : all_space pad -> trim_left (pad ++ s) = trim_left s.
Proof.
  intros H. induction H as [|c pad Hc Hp IH]; cbn [app trim_left]; [reflexivity|].
  rewrite Hc. exact IH.
Qed.
Lemma trim_left_all_blank pad : all_space pad -> trim_left pad = [].
Proof. intros H. rewrite <- (app_nil_r pad), trim_left_blank by exact H. reflexivity. Qed.
Lemma trim_left_nonblank c r : is_space c = false -> trim_left (c :: r) = c :: r.
Proof. intros H. cbn [trim_left]. rewrite H. reflexivity. Qed.
Lemma trim_left_length s : List.length (trim_left s) <= List.length s.
Proof. induction s as [|c s IH]; cbn; [lia|]. destruct (is_space c); cbn; lia. Qed.
Lemma trim_left_suffix s : exists w, s = w ++ trim_left s.
Proof.
  induction s as [|c s (w & IH)]; [exists []; reflexivity|]. cbn.
  destruct (is_space c); [exists (c :: w); cbn; f_equal; exact IH|exists []; reflexivity].
Qed.
Theorem trim_space_go_ascii s : Forall (fun c => is_ascii c = true) s -> trim_space_go s = trim_space s.
Proof.
  intros H.
  assert (A : Forall (fun c => is_ascii c = true) (trim_space s)).
  { unfold trim_space, trim_right. apply Forall_rev, trim_left_suffix_all, Forall_rev, trim_left_suffix_all, H. }
  apply trim_space_go_eq; apply head_ascii_all; [exact A|apply Forall_rev, A].
Qed.

(* a string without ASCII white space that neither begins nor ends with a Unicode space is
   left alone *)
Theorem trim_space_go_nospace s :
  no_space s -> starts_with_uspace s = false -> ends_with_uspace s = false -> trim_space_go s = s.
Proof.
  intros N S E. apply trim_space_go_fix.
  - apply lstuck_fix. unfold lstuck. destruct s as [|c r]; [reflexivity|].
    rewrite (N c (or_introl eq_refl)). unfold starts_with_uspace in S. rewrite S. reflexivity.
  - unfold trim_right_go, trim_left_go_r. rewrite lstuck_fix; [apply rev_involutive|].
    unfold lstuck. unfold ends_with_uspace in E. destruct (rev s) as [|c r] eqn:R; [reflexivity|].
    rewrite E. rewrite (N c); [reflexivity|]. apply in_rev. rewrite R. left. reflexivity.
Qed.
Lemma starts_with_uspace_ascii s : head_ascii s = true -> starts_with_uspace s = false.
Proof. apply uprefix_head_ascii, usp_nonascii. Qed.
Lemma ends_with_uspace_ascii s : head_ascii (rev s) = true -> ends_with_uspace s = false.
Proof. apply uprefix_head_ascii, uspr_nonascii. Qed.
(* necessity: a string ending with a Unicode space is shortened *)
Lemma trim_space_go_ends s : ends_with_uspace s = true -> trim_space_go s <> s.
Proof.
  intros E H. destruct (trim_space_go_fix_inv s H) as [_ HR].
  unfold trim_right_go, trim_left_go_r in HR.
  assert (L : lstuck usp2r usp3r (rev s) = true).
  { apply lstuck_of_fix. rewrite <- HR at 2. rewrite rev_involutive. reflexivity. }
  unfold lstuck in L. unfold ends_with_uspace in E. destruct (rev s); [discriminate E|].
  rewrite E in L. destruct (is_space a); discriminate L.
Qed.

(* examples (checked against go1.23 strings.TrimSpace) *)
Example trim_space_go_ex1 :
  trim_space_go (map ascii_of_nat [194;160;97;98;99;226;128;131;32;227;128;128]) = s2b "abc".
Proof. vm_compute. reflexivity. Qed.
Example trim_space_go_ex2 :    (* a lone A0, a lone C2 and U+200B are not white space *)
  trim_space_go (map ascii_of_nat [160]) = map ascii_of_nat [160] /\
  trim_space_go (map ascii_of_nat [97;194;160;194]) = map ascii_of_nat [97;194;160;194] /\
  trim_space_go (map ascii_of_nat [226;128;139]) = map ascii_of_nat [226;128;139].
Proof. vm_compute. repeat split. Qed.

Lemma is_digit_ascii c : is_digit c = true -> is_ascii c = true.
Proof. intros H. apply is_digit_range in H. apply N.ltb_lt. lia. Qed.
Lemma is_digit_not_space c : is_digit c = true -> is_space c = false.
Proof.
  intros H. apply is_digit_range in H. destruct (is_space c) eqn:E; [|reflexivity].
  apply is_space_range in E. lia.
Qed.
Theorem trim_space_go_ascii_nospace s :
  Forall (fun c => is_ascii c = true) s -> no_space s -> trim_space_go s = s.
Proof.
  intros A N. apply trim_space_go_nospace; [exact N| |].
  - apply starts_with_uspace_ascii, head_ascii_all, A.
  - apply ends_with_uspace_ascii, head_ascii_all, Forall_rev, A.
Qed.
Lemma itoa_ascii z : Forall (fun c => is_ascii c = true) (itoa z).
Proof. apply itoa_Forall; [exact is_digit_ascii|reflexivity]. Qed.
Lemma itoa_no_space z : no_space (itoa z).
Proof.
  unfold no_space. apply Forall_forall. apply itoa_Forall; [exact is_digit_not_space|reflexivity].
Qed.
Lemma trim_space_go_itoa z : trim_space_go (itoa z) = itoa z.
Proof. apply trim_space_go_ascii_nospace; [apply itoa_ascii|apply itoa_no_space]. Qed.

Lemma digits_val_ascii s : forall a v, digits_val s a = Some v -> Forall (fun c => is_ascii c = true) s.
Proof.
  induction s as [|c r IH]; intros a v H; [constructor|]. cbn [digits_val] in H.
  destruct (is_digit c) eqn:E; [|discriminate]. constructor; [apply is_digit_ascii, E|exact (IH _ _ H)].
Qed.
Lemma atoi_ascii s z : atoi s = Some z -> Forall (fun c => is_ascii c = true) s.
Proof.
  unfold atoi. destruct s as [|c r]; [discriminate|]. cbv zeta.
  destruct (Ascii.eqb c "-" || Ascii.eqb c "+")%bool eqn:Sg.
  - destruct r as [|d r']; [discriminate|]. destruct (digits_val (d :: r') 0) as [v|] eqn:D; [|discriminate].
    intros _. constructor; [|exact (digits_val_ascii _ _ _ D)].
    apply orb_true_iff in Sg. destruct Sg as [Q|Q]; apply Ascii.eqb_eq in Q; subst c; reflexivity.
  - destruct (digits_val (c :: r) 0) as [v|] eqn:D; [|discriminate]. intros _. exact (digits_val_ascii _ _ _ D).
Qed.

Lemma fields_go_aux_sp c r cur :
  is_space c = true -> fields_go_aux (c :: r) cur = flush_field cur (fields_go_aux r []).
Proof. intros H. cbn [fields_go_aux]. rewrite H. reflexivity. Qed.

(* a byte that is neither a blank nor the beginning of a Unicode space joins the current field *)
Lemma fields_go_aux_step c r cur :
  is_space c = false -> starts_with_uspace (c :: r) = false ->
  fields_go_aux (c :: r) cur = fields_go_aux r (c :: cur).
Proof.
  intros Hc Hu. cbn [fields_go_aux]. rewrite Hc.
  destruct r as [|c2 r2]; [reflexivity|].
  unfold starts_with_uspace, uprefix in Hu. apply orb_false_iff in Hu. destruct Hu as [H2 H3]. rewrite H2.
  destruct r2 as [|c3 r3]; [reflexivity|]. rewrite H3. reflexivity.
Qed.

(* a Unicode space ends the current field; the scan goes on behind it *)
Lemma fields_go_aux_usp c r cur :
  is_space c = false -> starts_with_uspace (c :: r) = true ->
  exists w r', r = w ++ r' /\ fields_go_aux (c :: r) cur = flush_field cur (fields_go_aux r' []).
Proof.
  intros Hc Hu. cbn [fields_go_aux]. rewrite Hc. unfold starts_with_uspace, uprefix in Hu.
  destruct r as [|c2 r2]; [discriminate Hu|].
  destruct (usp2 c c2) eqn:E2.
  - exists [c2], r2. split; reflexivity.
  - cbn [orb] in Hu. destruct r2 as [|c3 r3]; [discriminate Hu|]. rewrite Hu.
    exists [c2; c3], r3. split; reflexivity.
Qed.

(* without Unicode-space sequences, strings.Fields is the ASCII split *)
Lemma fields_go_aux_no_usp s : forall cur, no_usp s = true -> fields_go_aux s cur = fields_aux s cur.
Proof.
  induction s as [|c r IH]; intros cur H.
  - destruct cur; reflexivity.
  - cbn [no_usp] in H. apply andb_true_iff in H. destruct H as [Hu Hr]. apply negb_true_iff in Hu.
    destruct (is_space c) eqn:Ec.
    + rewrite fields_go_aux_sp by exact Ec. cbn [fields_aux]. rewrite Ec, (IH [] Hr). destruct cur; reflexivity.
    + rewrite fields_go_aux_step by assumption. cbn [fields_aux]. rewrite Ec. apply IH, Hr.
Qed.
Theorem fields_go_no_usp s : no_usp s = true -> fields_go s = fields s.
Proof. apply fields_go_aux_no_usp. Qed.

Lemma no_usp_ascii s : forallb is_ascii s = true -> no_usp s = true.
Proof.
  induction s as [|c r IH]; [reflexivity|]. cbn [forallb no_usp]. intros H.
  apply andb_true_iff in H. destruct H as [Hc Hr].
  rewrite (starts_with_uspace_ascii (c :: r)) by exact Hc. exact (IH Hr).
Qed.
Theorem fields_go_ascii s : forallb is_ascii s = true -> fields_go s = fields s.
Proof. intros H. apply fields_go_no_usp, no_usp_ascii, H. Qed.

Lemma no_usp_tail c s : no_usp (c :: s) = true -> no_usp s = true.
Proof. cbn [no_usp]. intros H. apply andb_true_iff in H. exact (proj2 H). Qed.
Lemma no_usp_suffix a b : no_usp (a ++ b) = true -> no_usp b = true.
Proof. induction a as [|x a IH]; [trivial|]. intros H. apply IH. exact (no_usp_tail _ _ H). Qed.

(* an ASCII byte between two strings: no sequence spans it *)
Lemma no_usp_app_ascii a c b :
  no_usp a = true -> is_ascii c = true -> no_usp b = true -> no_usp (a ++ c :: b) = true.
Proof.
  intros Ha Hc Hb. induction a as [|x a IH].
  - cbn [app no_usp]. rewrite (starts_with_uspace_ascii (c :: b)) by exact Hc. exact Hb.
  - cbn [no_usp] in Ha. apply andb_true_iff in Ha. destruct Ha as [Hx Ha]. apply negb_true_iff in Hx.
    change ((x :: a) ++ c :: b) with (x :: (a ++ c :: b)). cbn [no_usp]. rewrite (IH Ha), andb_true_r.
    apply negb_true_iff. unfold starts_with_uspace, uprefix in *.
    destruct a as [|y [|z a]]; cbn [app] in *.
    + rewrite (p2_ascii_r _ _ usp_nonascii) by exact Hc.
      destruct b; [reflexivity|]. rewrite (p3_ascii_2 _ _ usp_nonascii) by exact Hc. reflexivity.
    + rewrite orb_false_r in Hx. rewrite Hx. rewrite (p3_ascii_3 _ _ usp_nonascii) by exact Hc. reflexivity.
    + exact Hx.
Qed.
Lemma no_usp_app_ascii_l a b : forallb is_ascii a = true -> no_usp b = true -> no_usp (a ++ b) = true.
Proof.
  intros Ha Hb. induction a as [|x a IH]; [exact Hb|]. cbn [forallb] in Ha.
  apply andb_true_iff in Ha. destruct Ha as [Hx Ha]. cbn [app no_usp].
  rewrite (starts_with_uspace_ascii (x :: a ++ b)) by exact Hx. exact (IH Ha).
Qed.

Lemma no_usp_ascii_F s : Forall (fun c => is_ascii c = true) s -> no_usp s = true.
Proof. intros H. apply no_usp_ascii, forallb_forall. apply Forall_forall. exact H. Qed.
Lemma no_usp_app_ascii_r a b : no_usp a = true -> forallb is_ascii b = true -> no_usp (a ++ b) = true.
Proof.
  intros Ha Hb. destruct b as [|c b]; [rewrite app_nil_r; exact Ha|].
  cbn [forallb] in Hb. apply andb_true_iff in Hb. destruct Hb as [Hc Hb].
  apply no_usp_app_ascii; [exact Ha|exact Hc|apply no_usp_ascii, Hb].
Qed.
Lemma fields_aux_nospace a : forall rest cur, no_space a ->
  fields_aux (a ++ rest) cur = fields_aux rest (rev a ++ cur).
Proof.
  induction a as [|x a IH]; intros rest cur H; [reflexivity|].
  cbn [app fields_aux]. rewrite (H x (or_introl eq_refl)).
  rewrite IH by (intros c Hc; apply H; right; exact Hc).
  cbn [rev]. rewrite <- app_assoc. reflexivity.
Qed.

Lemma rev_nonnil {A} (a : list A) : a <> [] -> rev a <> [].
Proof. intros H E. apply H. rewrite <- (rev_involutive a), E. reflexivity. Qed.

Lemma fields_one b : b <> [] -> no_space b -> fields_aux b [] = [b].
Proof.
  intros Hb Nb. rewrite <- (app_nil_r b) at 1.
  rewrite fields_aux_nospace by exact Nb. rewrite app_nil_r. cbn [fields_aux].
  pose proof (rev_nonnil b Hb) as R.
  destruct (rev b) as [|y r] eqn:E; [contradiction|].
  rewrite <- E, rev_involutive. reflexivity.
Qed.

(* "a SP b" with a, b non-empty and free of white space has exactly the two fields a, b *)
Lemma fields_two a b : a <> [] -> b <> [] -> no_space a -> no_space b ->
  fields (a ++ " "%char :: b) = [a; b].
Proof.
  intros Ha Hb Na Nb. unfold fields.
  rewrite fields_aux_nospace by exact Na. rewrite app_nil_r.
  cbn [fields_aux]. change (is_space " "%char) with true. cbv iota.
  pose proof (rev_nonnil a Ha) as R.
  destruct (rev a) as [|y r] eqn:E; [contradiction|].
  rewrite <- E, rev_involutive. f_equal. apply fields_one; assumption.
Qed.

(* "a SP b" with no Unicode-space sequence inside a or b: the blank cannot complete one *)
Lemma fields_go_two_words a b : no_usp a = true -> no_usp b = true ->
  fields_go (a ++ " "%char :: b) = fields (a ++ " "%char :: b).
Proof. intros Ha Hb. apply fields_go_no_usp, no_usp_app_ascii; [exact Ha|reflexivity|exact Hb]. Qed.

(* every field is non-empty and free of ASCII white space *)
Lemma fields_go_aux_spec s : forall cur, no_space cur ->
  Forall (fun f => f <> [] /\ no_space f) (fields_go_aux s cur).
Proof.
  induction s as [s IH] using bytes_ind_len. intros cur Hc.
  assert (FL : forall k, Forall (fun f => f <> [] /\ no_space f) k ->
                         Forall (fun f => f <> [] /\ no_space f) (flush_field cur k)).
  { intros k Hk. destruct cur as [|x cur']; [exact Hk|]. cbn [flush_field]. constructor; [|exact Hk]. split.
    - intros E. apply (f_equal (@List.length _)) in E. rewrite rev_length in E. discriminate E.
    - intros d Hd. apply Hc. apply in_rev. exact Hd. }
  assert (NS : no_space []) by (intros d []).
  destruct s as [|c r]; [cbn [fields_go_aux]; apply FL; constructor|].
  destruct (is_space c) eqn:Ec.
  - rewrite fields_go_aux_sp by exact Ec. apply FL, IH; [cbn [List.length]; lia|exact NS].
  - destruct (starts_with_uspace (c :: r)) eqn:Eu.
    + destruct (fields_go_aux_usp c r cur Ec Eu) as (w & r' & -> & ->).
      apply FL, IH; [cbn [List.length]; rewrite app_length; lia|exact NS].
    + rewrite fields_go_aux_step by assumption. apply IH; [cbn [List.length]; lia|].
      intros d [<-|Hd]; [exact Ec|exact (Hc d Hd)].
Qed.
Theorem fields_go_spec s f : In f (fields_go s) -> f <> [] /\ no_space f.
Proof.
  intros H. pose proof (fields_go_aux_spec s [] (fun d (F : In d []) => match F with end)) as A.
  rewrite Forall_forall in A. exact (A f H).
Qed.
Theorem fields_go_nonempty s : Forall (fun f => f <> []) (fields_go s).
Proof. apply Forall_forall. intros f H. exact (proj1 (fields_go_spec s f H)). Qed.

(* examples (strings.Fields of go1.23) *)
Example fields_go_ex1 : fields_go (s2b "a b") = [s2b "a"; s2b "b"] /\ fields_go (s2b " a  b ") = [s2b "a"; s2b "b"].
Proof. vm_compute. split; reflexivity. Qed.
Example fields_go_ex2 :    (* U+00A0; U+0085 followed by U+3000 *)
  fields_go (map ascii_of_nat [97;194;160;98]) = [s2b "a"; s2b "b"] /\
  fields_go (map ascii_of_nat [97;194;133;227;128;128;98]) = [s2b "a"; s2b "b"].
Proof. vm_compute. split; reflexivity. Qed.
Example fields_go_ex3 :    (* a lone A0 and U+200B are not white space: one field *)
  fields_go (map ascii_of_nat [97;160;98]) = [map ascii_of_nat [97;160;98]] /\
  fields_go (map ascii_of_nat [97;226;128;139;98]) = [map ascii_of_nat [97;226;128;139;98]].
Proof. vm_compute. split; reflexivity. Qed.
Example fields_go_ex4 : fields_go (map ascii_of_nat [226;128;128]) = [] /\ fields_go [] = [].
Proof. vm_compute. split; reflexivity. Qed.
Example fields_go_ex5 :    (* the ASCII split keeps them together *)
  fields (map ascii_of_nat [97;194;160;98]) = [map ascii_of_nat [97;194;160;98]].
Proof. vm_compute. reflexivity. Qed.
